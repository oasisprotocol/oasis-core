(* C12 — Checkpoints restore to exactly the checkpointed state.
   Only statements; proofs are in Ckpt/*.v.  Model: Ckpt/Model.v. *)
From Verif Require Import Lib.Base Mkvs.Trie Mkvs.TrieProofs Mkvs.HashProofs
  Ckpt.Model Ckpt.Proofs Ckpt.ParProofs Ckpt.RestoreProofs Ckpt.Examples Ckpt.Stack Ckpt.StackProofs Ckpt.EstProofs Ckpt.StackSim Ckpt.Frame Ckpt.Files Ckpt.Fault Gen.CkptConsts.
From Coq Require Import Permutation.

(* sequential chunker: the key runs visited by the chunks, concatenated, are
   exactly the contents in order (no key twice, none missing) *)
Theorem chunks_cover_seq : forall size t, concat (seq_runs size t) = contents t.
Proof. exact seq_runs_concat. Qed.
Print Assumptions chunks_cover_seq.

(* both chunkers, all thread counts: a chunk carries only pairs of the tree,
   and every pair of the tree is carried by some chunk *)
Theorem chunks_cover : forall H size threads t, wf t ->
  (forall c, In c (chunks H size threads t) -> incl (pleaves c) (contents t)) /\
  (forall e, In e (contents t) -> exists c, In c (chunks H size threads t) /\ In e (pleaves c)).
Proof. exact (fun H size threads t W => conj (chunks_sound H size threads t) (fun e => chunks_cover_all H size threads t e W)). Qed.
Print Assumptions chunks_cover.

(* every chunk recomputes to the checkpoint root, and is accepted by the
   verifier when the tree is at most 128 internal nodes deep *)
Theorem chunks_verify : forall H size threads t c,
  In c (chunks H size threads t) ->
  phash H c = root_hash H t /\
  (tdepth t <= MAX_PROOF_DEPTH -> verify H (root_hash H t) c = true)%nat.
Proof. exact (fun H size threads t c Hc => conj (chunks_hash H size threads t c Hc) (fun Hd => RestoreProofs.chunks_verify H size threads t c Hd Hc)). Qed.
Print Assumptions chunks_verify.

(* the depth hypothesis cannot be dropped: a well-formed tree of 130 keys whose
   own checkpoint chunk the verifier (proof.go:349, depth > 128) rejects *)
Theorem chunks_verify_without_depth_bound_refuted :
  exists es, Forall (fun e => valid_bytes (fst e)) es /\ wf (build es) /\
    forall H size, exists c, In c (chunks H size 0 (build es)) /\
                             verify H (root_hash H (build es)) c = false.
Proof. exact deep_tree_chunk_rejected. Qed.
Print Assumptions chunks_verify_without_depth_bound_refuted.

(* restoring the chunks in any order, each any number of times (every
   permutation, duplicates, re-deliveries after a restart), yields exactly the
   contents; the restored tree is the checkpointed tree, with the same root *)
Theorem restore_any_order : forall H size threads t l,
  wf t ->
  (forall c, In c l -> In c (chunks H size threads t)) ->
  (forall c, In c (chunks H size threads t) -> In c l) ->
  fold_left (fun s c => import c s) l [] = contents t /\
  forall t', wf t' -> contents t' = fold_left (fun s c => import c s) l [] ->
             t' = t /\ root_hash H t' = root_hash H t.
Proof. exact (fun H size threads t l W Hs Ha => conj (restore_any_order_l H size threads t l W Hs Ha) (fun t' W' => restored_root_l H size threads t l t' W W' Hs Ha)). Qed.
Print Assumptions restore_any_order.

(* the chunk list (hence the metadata) is a function of the contents, the
   chunk size and the thread count only: not of the insertion history *)
Theorem metadata_deterministic : forall H size threads t1 t2,
  wf t1 -> wf t2 -> contents t1 = contents t2 ->
  chunks H size threads t1 = chunks H size threads t2.
Proof. exact metadata_deterministic_l. Qed.
Print Assumptions metadata_deterministic.

(* termination and progress: the lock-step rounds of the parallel chunker end
   within the fuel for every tree, chunk size and thread count; the sequential
   chunker visits at least one new key per chunk, so it produces at most as
   many chunks as keys (one empty chunk for the empty tree) *)
Theorem chunk_nonempty_progress : forall size threads t,
  snd (par_runs size threads t) = [] /\
  (contents t = [] -> seq_runs size t = [[]]) /\
  (contents t <> [] ->
     Forall (fun r => r <> []) (seq_runs size t) /\
     (length (seq_runs size t) <= length (contents t))%nat).
Proof. exact (fun size threads t => conj (par_terminates size threads t) (seq_runs_progress size t)). Qed.
Print Assumptions chunk_nonempty_progress.

(* a chunk file whose digest differs from the metadata is refused before
   anything else and nothing is imported; any refused chunk leaves the store
   untouched *)
Theorem bad_chunk_rejected : forall H Hd decode root digest b st,
  (Hd b <> digest -> restore_chunk H Hd decode root digest b st = (RCorrupted, st)) /\
  (fst (restore_chunk H Hd decode root digest b st) <> ROk ->
   snd (restore_chunk H Hd decode root digest b st) = st).
Proof. exact (fun H Hd decode root digest b st => conj (wrong_digest_rejected H Hd decode root digest b st) (failed_chunk_invisible H Hd decode root digest b st)). Qed.
Print Assumptions bad_chunk_rejected.

(* an ACCEPTED chunk is the genuine file (or the digest function collides) and
   makes visible only pairs of the checkpointed tree (or the node hash
   collides): nothing of a chunk of another tree can become visible *)
Theorem accepted_chunk_is_genuine : forall H Hd decode hlen,
  (forall x, length (H x) = hlen) ->
  (forall b p, decode b = Some p -> pbounded hlen p) ->
  forall t digest good b st,
  bounded t -> digest = Hd good ->
  fst (restore_chunk H Hd decode (root_hash H t) digest b st) = ROk ->
  (b = good \/ collision Hd) /\
  ((forall e, In e (snd (restore_chunk H Hd decode (root_hash H t) digest b st)) ->
              In e st \/ In e (contents t)) \/ collision H).
Proof. exact accepted_chunk_genuine. Qed.
Print Assumptions accepted_chunk_is_genuine.

(* any proof that recomputes to the root carries only pairs of the tree *)
Theorem verified_proof_sound : forall H hlen, (forall x, length (H x) = hlen) ->
  forall p t, pbounded hlen p -> bounded t -> phash H p = root_hash H t ->
  incl (pleaves p) (contents t) \/ collision H.
Proof. exact verify_sound. Qed.
Print Assumptions verified_proof_sound.

(* restorer, over every sequence of starts, aborts, good, corrupt and duplicate
   deliveries: a RestoreChunk call that ends the restore (done = true) is the
   call that imports the last outstanding chunk; every other chunk index has
   had a successful import since the restore was started.  (In the model one
   RestoreChunk is one atomic step; the interleaving of concurrent calls is
   exercised by the harness with a blocking reader.) *)
Theorem done_only_after_every_import : forall H Hd decode root digests st0 evs i b s',
  let g := grun H Hd decode root digests st0 evs in
  rstep H Hd decode root digests (fst g) (EChunk i b) = (s', ROk) ->
  active (fst g) = true -> active s' = false ->
  forall j, (j < length digests)%nat -> j = i \/ In j (snd g).
Proof. exact done_only_after_every_import_l. Qed.
Print Assumptions done_only_after_every_import.

(* G: the constants read from the source are the ones the statements were
   written for (depth limit 128 with a strict comparison, 10 split iterations,
   the sequential chunker continues while Size() < chunkSize, V0 proofs, node
   prefixes and the widths of the length fields that enter the size estimate) *)
Theorem gen_consts_expected :
  max_proof_depth = 128 /\ proof_depth_guard_is_gt = true /\ split_iters = 10 /\
  seq_continue_is_lt = true /\ par_break_is_ge_and_lastleaf = true /\
  seq_err_checked_after_loop = true /\ seq_err_checked_after_peek = true /\ chunk_proof_version = 0 /\
  (prefix_leaf, prefix_internal, prefix_nil) = (0, 1, 2) /\ depth_size = 2 /\ value_length_size = 4.
Proof. exact (conj eq_refl (conj eq_refl (conj eq_refl (conj eq_refl (conj eq_refl (conj eq_refl (conj eq_refl (conj eq_refl (conj eq_refl (conj eq_refl eq_refl)))))))))). Qed.
Print Assumptions gen_consts_expected.

(* every chunk of the parallel chunker visits at least one key *)
Theorem par_runs_nonempty : forall size threads t,
  wf t -> t <> Nil -> Forall (fun r => r <> []) (fst (par_runs size threads t)).
Proof. exact (fun size threads t W => ParProofs.par_runs_nonempty H0 t W size threads). Qed.
Print Assumptions par_runs_nonempty.

(* createChunks runs the tasks of a lock-step round concurrently: in whatever
   order they run (any permutation of the slots) every slot gets the same
   chunk and the same successor task *)
Theorem round_order_irrelevant : forall size sched ts,
  Permutation sched (seq 0 (length ts)) ->
  round_sched size sched ts = (map (advance size) ts, map (task_run size) ts).
Proof. exact round_order_irrelevant_l. Qed.
Print Assumptions round_order_irrelevant.

(* whole restore histories: for ANY sequence of StartRestore / AbortRestore /
   RestoreChunk events (genuine, corrupt, duplicate, out-of-order deliveries,
   aborted and restarted restores) into an empty database, with the metadata
   of the checkpoint of a well-formed tree: what is visible is always part of
   the checkpointed contents, and the delivery that ends the restore (done)
   leaves exactly the checkpointed contents -- or the digest function collides *)
Theorem restore_history_exact : forall H Hd decode enc,
  (forall c, decode (enc c) = Some c) ->
  forall size threads t, wf t -> forall evs,
  let cs := chunks H size threads t in
  let digests := map (fun c => Hd (enc c)) cs in
  let s := rrun H Hd decode (root_hash H t) digests (mkr false [] []) evs in
  (incl (db s) (contents t) /\
   forall i b s', rstep H Hd decode (root_hash H t) digests s (EChunk i b) = (s', ROk) ->
                  active s' = false -> db s' = contents t \/ collision Hd)
  \/ collision Hd.
Proof. exact restore_history_exact_l. Qed.
Print Assumptions restore_history_exact.

(* second model layer: the port of the parallel chunker's subtree{path,pending}
   stack machine with the proof builder's included set and size estimate
   (Ckpt/Stack.v: nextChunk incl. the break rule and trim, split, splitTasks
   with its iteration bound and early return, lock-step rounds, hasNext)
   REFINES the count abstraction, for every well-formed non-empty tree, chunk
   size and thread count: it terminates within its fuel, every chunk it emits
   (the proof built from the included set) is the chunk of the count model and
   the leaves it visits are the model's runs.  The representation relation
   (pending stack after trim = the canonical chain of partially visited
   ancestors of the next key; path = chain of ancestors of the subtree root)
   and the three one-step facts are in Ckpt/StackSim.v. *)
Theorem par_stack_refines_count : forall H t, wf t -> forall size threads, t <> Nil ->
  exists res,
    s_par H size threads t = Some (res, []) /\
    map snd res = fst (par_runs size threads t) /\
    map fst res = par_chunks H size threads t.
Proof. exact par_stack_refines_count_l. Qed.
Print Assumptions par_stack_refines_count.

(* ... hence chunks_cover, chunks_verify, restore_any_order,
   restore_history_exact and metadata_deterministic are statements about the
   chunk list of the ported stack machine *)
Theorem stack_port_chunks : forall H t, wf t -> forall size n, t <> Nil ->
  exists res, s_par H size (S n) t = Some (res, []) /\ map fst res = chunks H size (S n) t.
Proof. exact stack_port_chunks_l. Qed.
Print Assumptions stack_port_chunks.

(* the size estimate.  (a) the proof builder port: after any sequence of
   Include calls the estimate is the sum of 1 + len(serialized) over the
   distinct included nodes (an inline leaf that was also visited is counted
   twice: Example double_count_of_inline_leaf in Ckpt/EstProofs.v) *)
Theorem proof_builder_size_is_sum : forall ns,
  let pb := fold_left (fun pb n => include n pb) ns (mkpb [] 0) in
  NoDup (inc pb) /\ psize pb = nsize_sum (inc pb) /\
  forall m, In m (inc pb) <-> (In m ns /\ m <> Nil).
Proof. exact pb_size_is_sum_l. Qed.
Print Assumptions proof_builder_size_is_sum.

(* (b) the boundary rule of one chunk over the remaining keys [l] (both
   chunkers): before its last key the estimate was below the chunk size, and
   unless the keys ran out the estimate has reached the chunk size *)
Theorem chunk_boundary_rule : forall size l,
  let n := length (next_run size l) in
  ((2 <= n)%nat -> run_est (firstn (n - 1) l) < size) /\
  ((n < length l)%nat -> size <= run_est (firstn n l)) /\
  (l <> [] -> (1 <= n)%nat).
Proof. exact next_run_bound_l. Qed.
Print Assumptions chunk_boundary_rule.

(* (c) the bound the chunker relies on: the estimate of a chunk is below
   chunk size + the cost of the root-to-leaf path of its last key; a one-key
   chunk costs exactly that path *)
Theorem chunk_size_bound : forall size A s d,
  let l := skipn d (annot A s) in
  let n := length (next_run size l) in
  forall a, nth_error l (n - 1) = Some a -> (1 <= n)%nat ->
  (n = 1%nat -> run_est (firstn n l) = afull a) /\
  ((2 <= n)%nat -> run_est (firstn n l) < size + afull a).
Proof. exact chunk_size_bound_l. Qed.
Print Assumptions chunk_size_bound.

(* (d) the sequential chunker is the same rule iterated with a fresh builder *)
Theorem seq_is_iterated_next_run : forall size t,
  contents t <> [] -> seq_runs size t = iter_runs (length (contents t)) size (annot 0 t).
Proof. exact seq_runs_iter_l. Qed.
Print Assumptions seq_is_iterated_next_run.


(* (1) the ported stack machine of the parallel chunker, for EVERY well-formed
   tree (the empty one included), every chunk size and every thread count >= 1:
   it terminates; every chunk it emits recomputes to the root and carries only
   pairs of the tree; every pair of the tree is carried by some chunk; the keys
   it visits are pairwise distinct pairs of the tree (no key is visited twice)
   and every chunk visits them in key order; and restoring its chunks in any
   order, each any number of times, gives exactly the contents *)
Theorem stack_create_restore_exact : forall H t size n, wf t ->
  exists res, s_par H size (S n) t = Some (res, []) /\
    (forall c, In c (map fst res) -> phash H c = root_hash H t /\ incl (pleaves c) (contents t)) /\
    (forall e, In e (contents t) -> exists c, In c (map fst res) /\ In e (pleaves c)) /\
    NoDup (concat (map snd res)) /\ Forall sorted (map snd res) /\
    incl (concat (map snd res)) (contents t) /\
    (forall l, (forall c, In c l -> In c (map fst res)) -> (forall c, In c (map fst res) -> In c l) ->
               fold_left (fun s c => import c s) l [] = contents t).
Proof. exact stack_create_restore_exact_l. Qed.
Print Assumptions stack_create_restore_exact.

Theorem par_runs_disjoint : forall size threads t, wf t ->
  NoDup (concat (fst (par_runs size threads t))) /\
  incl (concat (fst (par_runs size threads t))) (contents t) /\
  Forall sorted (fst (par_runs size threads t)).
Proof. exact par_runs_disjoint_l. Qed.
Print Assumptions par_runs_disjoint.

(* (2) restorer bookkeeping.  A call answered with ErrChunkCorrupted,
   ErrChunkAlreadyRestored, ErrNoRestoreInProgress or
   ErrRestoreAlreadyInProgress changes neither the restorer nor the database *)
Theorem rejected_delivery_is_noop : forall H Hd decode root digests s e,
  rejected (snd (rstep H Hd decode root digests s e)) -> fst (rstep H Hd decode root digests s e) = s.
Proof. exact rejected_is_noop_l. Qed.
Print Assumptions rejected_delivery_is_noop.

(* a failed proof verification aborts the restorer and imports nothing *)
Theorem proof_failure_aborts : forall H Hd decode root digests s i b,
  snd (rstep H Hd decode root digests s (EChunk i b)) = RProofFail ->
  fst (rstep H Hd decode root digests s (EChunk i b)) = mkr false [] (db s).
Proof. exact proof_failure_aborts_l. Qed.
Print Assumptions proof_failure_aborts.

(* a history with a rejected delivery removed ends in the same state: a
   corrupt chunk never changes what the final state is *)
Theorem history_without_rejected : forall H Hd decode root digests s e1 e e2,
  rejected (snd (rstep H Hd decode root digests (rrun H Hd decode root digests s e1) e)) ->
  rrun H Hd decode root digests s (e1 ++ e :: e2) = rrun H Hd decode root digests s (e1 ++ e2).
Proof. exact history_without_rejected_l. Qed.
Print Assumptions history_without_rejected.

(* any history that ends with done, then Finalize with the checkpoint's root:
   exactly the checkpointed contents; Finalize with another root fails *)
Theorem finalize_after_done_exact : forall H Hd decode enc,
  (forall c, decode (enc c) = Some c) ->
  forall size threads t, wf t -> forall evs,
  let cs := chunks H size threads t in
  let digests := map (fun c => Hd (enc c)) cs in
  let s := rrun H Hd decode (root_hash H t) digests (mkr false [] []) evs in
  forall i b s', rstep H Hd decode (root_hash H t) digests s (EChunk i b) = (s', ROk) ->
                 active s' = false ->
                 rfinalize (root_hash H t) (root_hash H t) s' = Some (contents t) \/ collision Hd.
Proof. exact finalize_after_done_exact_l. Qed.
Print Assumptions finalize_after_done_exact.

Theorem finalize_root_mismatch : forall root r s, r <> root -> rfinalize root r s = None.
Proof. exact finalize_root_mismatch_l. Qed.
Print Assumptions finalize_root_mismatch.

(* (3) framing.  A chunk file whose bytes differ from the created ones is
   refused by the digest check before anything is decoded, verified or
   written, unless the digest function collides on the two files *)
Theorem altered_chunk_rejected : forall H Hd decode root good b st,
  b <> good ->
  restore_chunk H Hd decode root (Hd good) b st = (RCorrupted, st) \/ collision Hd.
Proof. exact altered_chunk_rejected_l. Qed.
Print Assumptions altered_chunk_rejected.

(* the CBOR stream layer: what writeChunk frames parses back to exactly the
   entries written (byte strings shorter than 2^64, nulls) *)
Theorem unframe_frame : forall es fuel,
  (length es < fuel)%nat ->
  Forall (fun e => match e with Some b => N.of_nat (length b) < 2 ^ 64 | None => True end) es ->
  unframe fuel (frame es) = Some es.
Proof. exact unframe_frame_l. Qed.
Print Assumptions unframe_frame.

(* a created chunk file (snappy abstract: any pair with unsnap (snap x) = Some x)
   reads back to exactly the proof entries of its chunk *)
Theorem chunk_file_roundtrip : forall snap unsnap, (forall x, unsnap (snap x) = Some x) ->
  forall p, entries_bounded (entries_of p) -> file_entries unsnap (chunk_file snap p) = Some (entries_of p).
Proof. exact file_roundtrip_l. Qed.
Print Assumptions chunk_file_roundtrip.

(* the size estimate counts exactly the bytes of the full proof entries *)
Theorem entry_sizes_are_costs : forall lbl lf k v,
  N.of_nat (length (1 :: leaf_bin k v)) = leaf_cost k v /\
  N.of_nat (length (1 :: node_bin lbl lf)) = node_cost lbl lf.
Proof. exact (fun lbl lf k v => conj (leaf_entry_cost k v) (node_entry_cost lbl lf)). Qed.
Print Assumptions entry_sizes_are_costs.

(* ---- chunk files in a directory that is not empty ---- *)
(* the files of a checkpoint directory as a map index -> bytes; the creator
   opens every chunk file with create-or-truncate (file.go:236 os.Create).
   Whatever the directory held before (leftovers of an interrupted creation or
   deletion for the same root, with other chunk sizes / thread counts, longer
   or shorter files): what GetCheckpointChunk serves for an index is exactly
   what the creator wrote for it *)
Theorem served_chunk_is_written_chunk : forall files fs0 i0 k,
  (k < length files)%nat ->
  serve (write_chunks fcreate i0 files fs0) (i0 + N.of_nat k) = nth_error files k.
Proof. exact served_is_written_l. Qed.
Print Assumptions served_chunk_is_written_chunk.

(* with overwrite-in-place (no truncation) the statement is false: a stale
   longer file keeps its tail *)
Theorem served_chunk_is_written_chunk_without_truncate_refuted :
  exists fs0 files k, (k < length files)%nat /\
    serve (write_chunks foverwrite 0 files fs0) (N.of_nat k) <> nth_error files k.
Proof. exact overwrite_in_place_refuted. Qed.
Print Assumptions served_chunk_is_written_chunk_without_truncate_refuted.

(* ---- read errors during creation (the sequential chunker) ---- *)
(* the walk over a node database whose reads can fail: [ok j] = the reads that
   reach key number j succeed.  THE CODE (whether it looks at it.Err() after
   the loop and after the peek of the next offset is read from the source by
   the generator): a creation that reports success produced exactly the
   fault-free chunks, which cover the tree *)
Theorem create_success_covers : forall ok size t runs,
  seq_create_code ok size t = Some runs -> runs = seq_runs size t /\ concat runs = contents t.
Proof. exact create_success_covers_code_l. Qed.
Print Assumptions create_success_covers.

(* both checks are needed.  Without the check after the peek (the defect
   repaired by 1164f42) ... *)
Theorem create_success_covers_without_peek_check_refuted :
  exists ok size t runs, wf t /\ seq_create true false ok size t = Some runs /\ concat runs <> contents t.
Proof. exact create_success_covers_without_peek_check_refuted_l. Qed.
Print Assumptions create_success_covers_without_peek_check_refuted.

(* ... and without the check after the loop *)
Theorem create_success_covers_without_loop_check_refuted :
  exists ok size t runs, wf t /\ seq_create false false ok size t = Some runs /\ concat runs <> contents t.
Proof. exact create_success_covers_without_loop_check_refuted_l. Qed.
Print Assumptions create_success_covers_without_loop_check_refuted.

(* what every variant guarantees on success: a prefix of the keys, in order;
   and without faults every variant is the chunker of the model *)
Theorem create_success_prefix : forall c1 c2 ok size t runs,
  seq_create c1 c2 ok size t = Some runs -> exists rest, contents t = concat runs ++ rest.
Proof. exact create_success_prefix_l. Qed.
Print Assumptions create_success_prefix.

Theorem create_no_fault : forall c1 c2 size t,
  seq_create c1 c2 (fun _ => true) size t = Some (seq_runs size t).
Proof. exact create_no_fault_l. Qed.
Print Assumptions create_no_fault.

(* ---- the two failure layers of restoreChunk ---- *)
(* layer 1 is altered_chunk_rejected: bytes that do not match the manifest
   digest => ErrChunkCorrupted (damage in transit: fetch again and retry).
   Layer 2: bytes that MATCH the manifest digest are never answered with the
   retryable error ... *)
Theorem digest_match_never_corrupted : forall H Hd decode root digest b st,
  Hd b = digest -> fst (restore_chunk H Hd decode root digest b st) <> RCorrupted.
Proof. exact digest_match_never_corrupted_l. Qed.
Print Assumptions digest_match_never_corrupted.

(* ... if they do not decode (broken snappy framing at the start or part-way,
   no CBOR) or decode to something that does not verify against the root, the
   answer is the proof failure, nothing is written ... *)
Theorem matching_undecodable_is_proof_failure : forall H Hd decode root digest b st,
  Hd b = digest ->
  (decode b = None \/ exists p, decode b = Some p /\ verify H root p = false) ->
  restore_chunk H Hd decode root digest b st = (RProofFail, st).
Proof. exact matching_undecodable_is_proof_failure_l. Qed.
Print Assumptions matching_undecodable_is_proof_failure.

(* ... and the restorer abandons the checkpoint: the manifest is bad, the
   caller must not fetch the same bytes again *)
Theorem matching_undecodable_aborts : forall H Hd decode root digests s i b,
  active s = true -> existsb (Nat.eqb i) (pend s) = true -> nth_error digests i = Some (Hd b) ->
  (decode b = None \/ exists p, decode b = Some p /\ verify H root p = false) ->
  rstep H Hd decode root digests s (EChunk i b) = (mkr false [] (db s), RProofFail).
Proof. exact matching_undecodable_aborts_l. Qed.
Print Assumptions matching_undecodable_aborts.
