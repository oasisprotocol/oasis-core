(* Completeness of the key-lookup proof builder: the proof built for any key
   verifies against the tree's root and determines the key. *)
From Verif Require Import Lib.Base Mkvs.Trie Mkvs.BitsProofs Mkvs.HashProofs Gen.ProofConsts
  MkvsProof.Model MkvsProof.Sound.

Lemma height_pos t : (1 <= height t)%nat.
Proof. destruct t; cbn; lia. Qed.

Lemma not_deep depth n : depth + N.of_nat n <= 129 -> (1 <= n)%nat -> (MAX_PROOF_DEPTH <? depth) = false.
Proof. intros Hd Hn. apply N.ltb_ge. unfold MAX_PROOF_DEPTH, max_proof_depth. lia. Qed.

Section Complete.
  Variable H : bytes -> bytes.
  Hypothesis Hlen : forall x, length (H x) = HASH_SIZE.
  Variable ver : N.

  (* the partial trees that honest proofs describe *)
  Definition ph (t : tree) : ptree :=
    match t with Nil => PNil | _ => PHash (root_hash H t) end.
  Definition ph_lf (lf : option (bytes * bytes)) : ptree :=
    match lf with None => PNil | Some (k0, v0) => PHash (eval_hexpr H (leaf_hexpr k0 v0)) end.
  Definition lfslot (full : bool) (lf : option (bytes * bytes)) : ptree :=
    if ver =? 0 then olf_ptree lf else if full then olf_ptree lf else ph_lf lf.
  Definition pself (lbl : path) (plf pl pr : ptree) : ptree :=
    PNode (N.of_nat (length lbl)) (pack lbl) plf pl pr.
  Definition pstub (t : tree) : ptree :=
    match t with
    | Nil => PNil
    | Leaf k0 v0 => PLeaf k0 v0
    | Node lbl lf l r => pself lbl (lfslot false lf) (ph l) (ph r)
    end.

  Lemma ph_prunes t : prunes H (ph t) t.
  Proof. destruct t; cbn; auto. Qed.
  Lemma lfslot_prunes b lf : prunes_lf H (lfslot b lf) lf.
  Proof. unfold lfslot. destruct (ver =? 0), b; destruct lf as [[k0 v0]|]; cbn; auto. Qed.
  Lemma pself_prunes lbl lf l r plf pl pr :
    prunes_lf H plf lf -> prunes H pl l -> prunes H pr r -> prunes H (pself lbl plf pl pr) (Node lbl lf l r).
  Proof. cbn. auto. Qed.
  Lemma pstub_prunes t : prunes H (pstub t) t.
  Proof. destruct t; try reflexivity. apply pself_prunes; auto using lfslot_prunes, ph_prunes. Qed.

  (* [parses n X p]: the entry list [X] is consumed by verifyProof as the
     partial tree [p] using at most [n] levels *)
  Definition parses (n : nat) (X : list pentry) (p : ptree) : Prop :=
    forall f depth rest, (n <= f)%nat -> depth + N.of_nat n <= 129 ->
      vp f ver depth (X ++ rest) = VOk p rest.

  Lemma parses_mono n m X p : (n <= m)%nat -> parses n X p -> parses m X p.
  Proof. intros L P f depth rest Hf Hd. apply P; lia. Qed.

  Lemma parses_hent t : parses 1 [hent H t] (ph t).
  Proof.
    intros f depth rest Hf Hd. destruct f as [|f]; [lia|]. cbn [app vp]. rewrite (not_deep _ _ Hd) by lia.
    destruct t; cbn [hent ph]; try reflexivity;
      rewrite (root_hash_len H HASH_SIZE Hlen), Nat.eqb_refl; reflexivity.
  Qed.
  Lemma parses_leaf k0 v0 : parses 1 [EFull (NLeaf k0 v0)] (PLeaf k0 v0).
  Proof.
    intros f depth rest Hf Hd. destruct f as [|f]; [lia|]. cbn [app vp]. now rewrite (not_deep _ _ Hd) by lia.
  Qed.
  Lemma parses_hent_lf lf : parses 1 [hent_lf H lf] (ph_lf lf).
  Proof. destruct lf as [[k0 v0]|]; [exact (parses_hent (Leaf k0 v0))|exact (parses_hent Nil)]. Qed.
  Lemma parses_full_lf lf : parses 1 [full_lf lf] (olf_ptree lf).
  Proof. destruct lf as [[k0 v0]|]; [apply parses_leaf|exact (parses_hent Nil)]. Qed.

  (* an internal node: in version 0 the leaf slot is the embedded leaf, in
     version 1 it is parsed from [L] *)
  Lemma parses_node n lbl lf (full : bool) L A B pl pr :
    (1 <= n)%nat ->
    L = (if full then full_lf lf else hent_lf H lf) ->
    parses n A pl -> parses n B pr ->
    parses (S n) (self_entry ver lbl lf :: v1 ver L ++ A ++ B) (pself lbl (lfslot full lf) pl pr).
  Proof.
    intros Hn EL PA PB f depth rest Hf Hd. destruct f as [|f]; [lia|].
    unfold self_entry, v1, lfslot, pself. cbn [app vp]. rewrite (not_deep _ _ Hd) by lia.
    destruct (ver =? 0) eqn:V; cbn [app]; rewrite <- app_assoc.
    - rewrite PA by lia. rewrite PB by lia. reflexivity.
    - assert (parses n [L] (if full then olf_ptree lf else ph_lf lf)) as PL.
      { subst L. destruct full; (eapply parses_mono; [exact Hn|]);
          [apply parses_full_lf|apply parses_hent_lf]. }
      change (L :: A ++ B ++ rest) with ([L] ++ A ++ B ++ rest).
      rewrite PL by lia. rewrite PA by lia. rewrite PB by lia. reflexivity.
  Qed.

  Lemma parses_ph t : parses (height t) [hent H t] (ph t).
  Proof. eapply parses_mono; [apply height_pos|apply parses_hent]. Qed.

  Lemma parses_stub t : parses (height t) (stub H ver t) (pstub t).
  Proof.
    destruct t as [|k0 v0|lbl lf l r]; cbn [stub pstub height].
    - exact (parses_hent Nil).
    - apply parses_leaf.
    - pose proof (height_pos l).
      apply (parses_node _ lbl lf false _ [hent H l] [hent H r]); auto; [lia| |];
        (eapply parses_mono; [|apply parses_ph]); lia.
  Qed.

  (* entries that parse as a pruning of [t] are accepted for the root of [t] *)
  Lemma verify_parses n X p t :
    ver <= 1 -> (n <= 129)%nat -> parses n X p -> prunes H p t ->
    verify H ver (root_hash H t) (root_hash H t) X =
    ROk (if bytes_eqb (root_hash H t) (H []) then PNil else p).
  Proof.
    intros Hv Hn P Pr. unfold verify.
    destruct (N.ltb_spec 1 ver) as [L|_]; [lia|]. rewrite bytes_eqb_refl. cbn [negb].
    assert (vp VP_FUEL ver 0 X = VOk p []) as E.
    { rewrite <- (app_nil_r X). apply P; unfold VP_FUEL; lia. }
    destruct X as [|e es]; [discriminate E|]. rewrite E. cbv beta iota zeta.
    now rewrite (prunes_hash H p t Pr), bytes_eqb_refl.
  Qed.

  Variable sib : bool.
  Variable k : bytes.

  Definition pside (t : tree) : ptree := if sib then pstub t else ph t.

  (* the partial tree a get-proof describes (same shape as [bgp]) *)
  Fixpoint bgt (d : nat) (t : tree) : ptree :=
    match t with
    | Nil => PNil
    | Leaf k0 v0 => PLeaf k0 v0
    | Node lbl lf l r =>
        let d' := (d + length lbl)%nat in
        let kl := length (bits_of k) in
        if (kl =? d')%nat then pself lbl (lfslot true lf) (pside l) (pside r)
        else if (kl <? d')%nat then pself lbl (lfslot false lf) (ph l) (ph r)
        else if bit (bits_of k) d' then pself lbl (lfslot sib lf) (pside l) (bgt d' r)
        else pself lbl (lfslot sib lf) (bgt d' l) (pside r)
    end.

  Lemma pside_prunes t : prunes H (pside t) t.
  Proof. unfold pside. destruct sib; auto using pstub_prunes, ph_prunes. Qed.
  Lemma bgt_prunes t : forall d, prunes H (bgt d t) t.
  Proof.
    induction t as [|k0 v0|lbl lf l IHl r IHr]; intros d; try reflexivity.
    cbn [bgt]. destruct (_ =? _)%nat; [|destruct (_ <? _)%nat; [|destruct (bit _ _)]];
      apply pself_prunes; auto using lfslot_prunes, ph_prunes, pside_prunes.
  Qed.

  Lemma parses_side t : parses (height t) (side H ver sib t) (pside t).
  Proof. unfold side, pside. destruct sib; [apply parses_stub|apply parses_ph]. Qed.

  Lemma parses_bgp t : forall d, parses (height t) (bgp H ver sib k d t) (bgt d t).
  Proof.
    induction t as [|k0 v0|lbl lf l IHl r IHr]; intros d.
    - exact (parses_hent Nil).
    - apply parses_leaf.
    - cbn [bgp bgt height].
      assert (1 <= Nat.max (height l) (height r))%nat as Hn by (pose proof (height_pos l); lia).
      assert (forall X p, parses (height l) X p -> parses (Nat.max (height l) (height r)) X p) as ML.
      { intros X p. apply parses_mono. lia. }
      assert (forall X p, parses (height r) X p -> parses (Nat.max (height l) (height r)) X p) as MR.
      { intros X p. apply parses_mono. lia. }
      destruct (_ =? _)%nat; [|destruct (_ <? _)%nat; [|destruct (bit _ _)]].
      + apply (parses_node _ lbl lf true); auto using parses_side.
      + apply (parses_node _ lbl lf false _ [hent H l] [hent H r]); auto using parses_ph.
      + apply (parses_node _ lbl lf sib); auto using parses_side.
      + apply (parses_node _ lbl lf sib); auto using parses_side.
  Qed.

  Theorem get_proof_verifies t :
    ver <= 1 -> (height t <= 129)%nat ->
    verify H ver (root_hash H t) (root_hash H t) (build_get_proof H ver sib k t) =
    ROk (if bytes_eqb (root_hash H t) (H []) then PNil else bgt 0 t).
  Proof. intros Hv Hh. exact (verify_parses _ _ _ t Hv Hh (parses_bgp t 0%nat) (bgt_prunes t 0%nat)). Qed.

  Lemma bgt_lookup t : forall d, plookup (N.of_nat d) k (bgt d t) = of_opt (lookup d k t).
  Proof.
    induction t as [|k0 v0|lbl lf l IHl r IHr]; intros d.
    - reflexivity.
    - cbn [bgt plookup lookup]. destruct (bytes_eqb k0 k); reflexivity.
    - cbn [bgt lookup].
      destruct (_ =? _)%nat eqn:E1; [|destruct (_ <? _)%nat eqn:E2; [|destruct (bit _ _) eqn:E3]];
        unfold pself; rewrite plookup_node; cbv zeta; rewrite E1, ?E2, ?E3; auto.
      unfold lfslot. destruct (ver =? 0), lf as [[k0 v0]|]; cbn; try destruct (bytes_eqb k0 k); reflexivity.
  Qed.

  Lemma bgt_tlookup t : plookup 0 k (bgt 0 t) = of_opt (tlookup k t).
  Proof. exact (bgt_lookup t 0%nat). Qed.

  Theorem get_proof_complete_l t :
    ver <= 1 -> (height t <= 129)%nat ->
    exists p, verify H ver (root_hash H t) (root_hash H t) (build_get_proof H ver sib k t) = ROk p /\
              plookup 0 k p <> Unknown /\
              (plookup 0 k p = of_opt (tlookup k t) \/ collision H).
  Proof.
    intros Hv Hh. rewrite get_proof_verifies by assumption. eexists. split; [reflexivity|].
    destruct (bytes_eqb (root_hash H t) (H [])) eqn:Z.
    - split; [discriminate|]. apply bytes_eqb_eq in Z. destruct (empty_root H t Z) as [->|C]; auto.
    - rewrite bgt_tlookup. split; [|auto]. destruct (tlookup k t); discriminate.
  Qed.
End Complete.

(* the walk of the real remote-backed tree agrees for version 0 proofs
   (the version mkvs requests, lookup.go:12): no LeafNode pointer on the path
   is hash-only and no hash pointer is walked *)
Section CompleteGo.
  Variable H : bytes -> bytes.
  Hypothesis Hlen : forall x, length (H x) = HASH_SIZE.
  Variable sib : bool.
  Variable k : bytes.

  Lemma bgt_lookup_go t : forall fresh d,
    plookup_go H fresh (N.of_nat d) k (bgt H 0 sib k d t) = of_opt (lookup d k t).
  Proof.
    induction t as [|k0 v0|lbl lf l IHl r IHr]; intros fresh d.
    - reflexivity.
    - cbn [bgt plookup_go lookup]. destruct (bytes_eqb k0 k); reflexivity.
    - cbn [bgt lookup]. change (lfslot H 0 ?b lf) with (olf_ptree lf).
      assert (is_phash (olf_ptree lf) = false) as Em by (destruct lf as [[? ?]|]; reflexivity).
      destruct (_ =? _)%nat eqn:E1; [|destruct (_ <? _)%nat eqn:E2; [|destruct (bit _ _) eqn:E3]];
        unfold pself; rewrite plookup_go_node; cbv zeta; rewrite Em, andb_false_r, E1, ?E2, ?E3; auto.
      destruct lf as [[k0 v0]|]; cbn; [destruct (bytes_eqb k0 k)|]; reflexivity.
  Qed.

  Lemma bgt_tlookup_go t : plookup_go H true 0 k (bgt H 0 sib k 0 t) = of_opt (tlookup k t).
  Proof. exact (bgt_lookup_go t true 0%nat). Qed.

  Theorem get_proof_complete_go_v0_l t :
    (height t <= 129)%nat ->
    exists p, verify H 0 (root_hash H t) (root_hash H t) (build_get_proof H 0 sib k t) = ROk p /\
              plookup_go H true 0 k p <> Unknown /\
              (plookup_go H true 0 k p = of_opt (tlookup k t) \/ collision H).
  Proof.
    intros Hh. rewrite (get_proof_verifies H Hlen) by (assumption || lia). eexists. split; [reflexivity|].
    destruct (bytes_eqb (root_hash H t) (H [])) eqn:Z.
    - cbn [plookup_go]. split; [discriminate|].
      apply bytes_eqb_eq in Z. destruct (empty_root H t Z) as [->|C]; auto.
    - rewrite bgt_tlookup_go. split; [|auto]. destruct (tlookup k t); discriminate.
  Qed.
End CompleteGo.
