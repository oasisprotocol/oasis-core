(* C10: the governance tally never fails except for "total voting stake is
   zero"; the "voted stake greater than total" error (proposal.go:137-141) and
   the subShares underflow (governance.go:511-519) are unreachable under the
   share invariant -- for ARBITRARY uint8 vote values (castVote accepts any). *)
From Verif Require Import Lib.Base NoHalt.Model NoHalt.Proofs.

Lemma fsum_ext n f g : (forall v, f v = g v) -> fsum n f = fsum n g.
Proof. intros H. induction n as [|k IH]; cbn [fsum]; [reflexivity|]. rewrite IH, H. reflexivity. Qed.

Lemma fsum_zero n : fsum n sh_empty = 0.
Proof. induction n as [|k IH]; cbn [fsum]; [reflexivity|]. rewrite IH. reflexivity. Qed.

Lemma fsum_add n f g : fsum n (fun v => f v + g v) = fsum n f + fsum n g.
Proof. induction n as [|k IH]; cbn [fsum]; [reflexivity|]. rewrite IH. lia. Qed.

Lemma fsum_le n f g : (forall v, f v <= g v) -> fsum n f <= fsum n g.
Proof. intros H. induction n as [|k IH]; cbn [fsum]; [lia|]. specialize (H (N.of_nat k)). lia. Qed.

Lemma fsum_upd_above n m k x : (n <= N.to_nat k)%nat -> fsum n (sh_upd m k x) = fsum n m.
Proof.
  induction n as [|j IH]; intros Hk; cbn [fsum]; [reflexivity|].
  rewrite IH by lia. unfold sh_upd. destruct (N.eqb_spec (N.of_nat j) k); [lia|reflexivity].
Qed.

Lemma fsum_upd n m k x :
  (N.to_nat k < n)%nat -> fsum n (sh_upd m k x) + m k = fsum n m + x.
Proof.
  induction n as [|j IH]; intros Hk; [lia|]. cbn [fsum]. unfold sh_upd at 2.
  destruct (N.eqb_spec (N.of_nat j) k) as [E|E].
  - rewrite fsum_upd_above by lia. subst k. lia.
  - specialize (IH ltac:(lia)). lia.
Qed.

Lemma fsum_get_le n m k : (N.to_nat k < n)%nat -> m k <= fsum n m.
Proof. intros Hk. pose proof (fsum_upd n m k 0 Hk). lia. Qed.

(* rounding each term down loses at least as much as rounding the sum down *)
Lemma fsum_div_le n f b t : fsum n (fun v => f v * b / t) <= fsum n f * b / t.
Proof.
  induction n as [|k IH]; cbn [fsum]; [apply N.le_0_l|].
  rewrite N.mul_add_distr_r.
  eapply N.le_trans; [|apply div_add_le].
  apply N.add_le_mono_r. exact IH.
Qed.

(* share maps: the proofs below never unfold the 256-fold [sh_sum] *)
Definition vote_ok (v : vote) : Prop := (N.to_nat v < nvotes)%nat.
(* in binary, so that a concrete vote value is checked without unary arithmetic *)
Lemma vote_ok_lt v : v < 256 -> vote_ok v.
Proof. unfold vote_ok, nvotes. lia. Qed.

Lemma sh_sum_add f g : sh_sum (fun v => f v + g v) = sh_sum f + sh_sum g.
Proof. exact (fsum_add nvotes f g). Qed.
Lemma sh_sum_empty : sh_sum sh_empty = 0.
Proof. exact (fsum_zero nvotes). Qed.
Lemma sh_sum_upd m v y : vote_ok v -> sh_sum (sh_upd m v y) + m v = sh_sum m + y.
Proof. exact (fsum_upd nvotes m v y). Qed.

Lemma sh_upd_same m v y : sh_upd m v y v = y.
Proof. unfold sh_upd. rewrite N.eqb_refl. reflexivity. Qed.
Lemma sh_upd_other m v y v' : v <> v' -> sh_upd m v y v' = m v'.
Proof. intros H. unfold sh_upd. destruct (N.eqb_spec v' v); [congruence|reflexivity]. Qed.

Lemma add_get_same m v x : add_shares m v x v = m v + x.
Proof. apply sh_upd_same. Qed.
Lemma add_get_other m v v' x : v <> v' -> add_shares m v x v' = m v'.
Proof. apply sh_upd_other. Qed.
Lemma add_sum m v x : vote_ok v -> sh_sum (add_shares m v x) = sh_sum m + x.
Proof. intros Hv. pose proof (sh_sum_upd m v (m v + x) Hv). unfold add_shares. lia. Qed.

Lemma sub_shares_ok m v x : x <= m v -> sub_shares m v x = Ok (sh_upd m v (m v - x)).
Proof. intros H. unfold sub_shares. rewrite qsub_ok by exact H. reflexivity. Qed.

(* shares delegated to [to] by the accounts that voted (each vote counted) *)
Fixpoint voter_shares (to : N) (delegs : list (N * N * N)) (votes : list (N * vote)) : N :=
  match votes with
  | [] => 0
  | (d, _) :: r =>
      match deleg_shares d to delegs with
      | Some s => s + voter_shares to delegs r
      | None => voter_shares to delegs r
      end
  end.

(* The share invariant restricted to what the tally reads: for every validator
   entity, the shares its voting delegators hold do not exceed the pool's total
   shares.  It follows from the ledger invariant "total shares of a pool = sum
   of the delegations to it" (C05) because the votes of one proposal are keyed
   by voter (one vote per account) -- see voter_shares_le_all below. *)
Definition share_inv (validators delegs : list (N * N * N)) (votes : list (N * vote)) : Prop :=
  forall to bal ts, In (to, bal, ts) validators -> voter_shares to delegs votes <= ts.

(* every stored vote is a uint8 *)
Definition votes_ok (votes : list (N * vote)) : Prop := Forall (fun x => vote_ok (snd x)) votes.

(* validator voted [ov]: a delegator's vote moves shares between entries, and the
   validator's own entry covers everything still to be deducted *)
Lemma tally_votes_own to ov delegs votes :
  vote_ok ov -> votes_ok votes ->
  forall m, voter_shares to delegs votes <= m ov ->
  yields (tally_votes to (Some ov) delegs votes m) (fun m' => sh_sum m' = sh_sum m).
Proof.
  intros Hov Hvs. induction Hvs as [|[d v] r Hv _ IH]; intros m H; cbn [tally_votes voter_shares] in *;
    [reflexivity|].
  destruct (deleg_shares d to delegs) as [s|]; [|apply IH, H].
  unfold tally_step. destruct (N.eqb_spec ov v) as [E|E]; [apply IH; lia|].
  rewrite sub_shares_ok by lia. cbn [bind].
  pose proof (sh_sum_upd m ov (m ov - s) Hov) as Hsub.
  eapply yields_impl; [apply IH|].
  - rewrite add_get_other, sh_upd_same by congruence. lia.
  - intros m' ->. rewrite add_sum by exact Hv. lia.
Qed.

(* validator did not vote: only additions *)
Lemma tally_votes_none to delegs votes :
  votes_ok votes ->
  forall m, yields (tally_votes to None delegs votes m)
                   (fun m' => sh_sum m' = sh_sum m + voter_shares to delegs votes).
Proof.
  intros Hvs. induction Hvs as [|[d v] r Hv _ IH]; intros m; cbn [tally_votes voter_shares];
    [symmetry; apply N.add_0_r|].
  destruct (deleg_shares d to delegs) as [s|]; [|apply IH].
  cbn [tally_step bind]. eapply yields_impl; [apply IH|].
  intros m' ->. rewrite add_sum by exact Hv. lia.
Qed.

Lemma vote_of_ok who votes ov : votes_ok votes -> vote_of who votes = Some ov -> vote_ok ov.
Proof.
  intros Hvs. induction Hvs as [|[w v] r Hv _ IH]; cbn [vote_of]; [discriminate|].
  destruct (w =? who); [intros H; injection H as <-; exact Hv|exact IH].
Qed.

Lemma validator_shares_ok to ts delegs votes :
  votes_ok votes -> voter_shares to delegs votes <= ts ->
  yields (validator_shares to ts delegs votes) (fun m => sh_sum m <= ts).
Proof.
  intros Hvs H. unfold validator_shares.
  destruct (vote_of to votes) as [ov|] eqn:Eo.
  - pose proof (vote_of_ok _ _ _ Hvs Eo) as Hov.
    eapply yields_impl; [apply (tally_votes_own to ov delegs votes Hov Hvs)|].
    + rewrite add_get_same. unfold sh_empty. lia.
    + intros m ->. rewrite add_sum, sh_sum_empty by exact Hov. lia.
  - eapply yields_impl; [apply (tally_votes_none to delegs votes Hvs)|].
    intros m ->. rewrite sh_sum_empty. lia.
Qed.

(* stated for an arbitrary bound [n] so that no proof step ever unfolds the 256-fold sum *)
Lemma stakes_le_n n bal ts (m : shmap) :
  fsum n m <= ts -> fsum n (fun v => stake_pure bal ts (m v)) <= bal.
Proof.
  intros H.
  apply N.le_trans with (fsum n (fun v => m v * bal / ts)); [apply fsum_le; intros v; apply stake_pure_le|].
  apply N.le_trans with (fsum n m * bal / ts); [apply fsum_div_le|].
  rewrite N.mul_comm. apply mul_frac_le, H.
Qed.

Lemma validator_stakes_le bal ts m : sh_sum m <= ts -> sh_sum (validator_stakes bal ts m) <= bal.
Proof. exact (stakes_le_n nvotes bal ts m). Qed.

(* VotedSum <= totalVotingStake, and no subShares underflow, for ANY votes *)
Lemma tally_results_ok validators delegs votes :
  votes_ok votes -> share_inv validators delegs votes ->
  yields (tally_results validators delegs votes) (fun rs => sh_sum rs <= total_voting_stake validators).
Proof.
  intros Hvs. induction validators as [|[[to bal] ts] r IH]; intros Hinv; cbn [tally_results total_voting_stake].
  - cbn [yields]. rewrite sh_sum_empty. lia.
  - eapply yields_bind; [apply validator_shares_ok; [exact Hvs|apply (Hinv to bal ts); left; reflexivity]|].
    intros m Hms.
    eapply yields_bind; [apply IH; intros to' bal' ts' Hin; apply (Hinv to' bal' ts'); right; exact Hin|].
    intros rest Hrs. cbn [yields] in *.
    rewrite (sh_sum_add (validator_stakes bal ts m) rest).
    pose proof (validator_stakes_le bal ts m Hms). lia.
Qed.

Lemma close_proposal_ok rs total th :
  total <> 0 -> sh_sum rs <= total -> is_fatal (close_proposal rs total th) = false.
Proof.
  intros Ht Hs. unfold close_proposal. destruct (N.eqb_spec total 0); [contradiction|].
  destruct (N.ltb_spec total (sh_sum rs)); [lia|].
  destruct (rs VYes =? 0); [reflexivity|]. rewrite qquo_ok by exact Ht. reflexivity.
Qed.

Lemma total_zero_iff validators :
  total_voting_stake validators = 0 <-> Forall (fun v => snd (fst v) = 0) validators.
Proof.
  induction validators as [|[[to bal] ts] r IH]; cbn [total_voting_stake].
  - split; [constructor|reflexivity].
  - rewrite Forall_cons_iff, <- IH. cbn [fst snd]. lia.
Qed.

Lemma tally_fatal_iff validators delegs votes th :
  votes_ok votes -> share_inv validators delegs votes ->
  (tally validators delegs votes th = Fatal <->
   Forall (fun v => snd (fst v) = 0) validators).
Proof.
  intros Hvs Hinv. rewrite <- total_zero_iff. unfold tally.
  destruct (N.eqb_spec (total_voting_stake validators) 0) as [E|E]; [tauto|].
  destruct (yields_ex _ _ (tally_results_ok validators delegs votes Hvs Hinv)) as [rs [-> Hle]]. cbn [bind].
  pose proof (close_proposal_ok rs _ th E Hle) as Hc.
  destruct (close_proposal rs (total_voting_stake validators) th); [|discriminate].
  split; [discriminate|contradiction].
Qed.

(* all shares delegated to [to] *)
Fixpoint all_shares (to : N) (delegs : list (N * N * N)) : N :=
  match delegs with
  | [] => 0
  | (_, to', s) :: r => if to' =? to then s + all_shares to r else all_shares to r
  end.

Lemma voter_shares_cons_notin to x t s r votes :
  ~ In x (map fst votes) -> voter_shares to ((x, t, s) :: r) votes = voter_shares to r votes.
Proof.
  induction votes as [|[d v] rest IH]; cbn [voter_shares deleg_shares map fst In]; intros H; [reflexivity|].
  destruct (N.eqb_spec x d) as [->|_]; [tauto|]. rewrite IH by tauto. reflexivity.
Qed.

(* with one vote per account a delegation is counted at most once *)
Lemma voter_shares_cons to x t s r votes :
  NoDup (map fst votes) ->
  voter_shares to ((x, t, s) :: r) votes <= (if t =? to then s else 0) + voter_shares to r votes.
Proof.
  induction votes as [|[d v] rest IH]; cbn [voter_shares deleg_shares map fst]; intros Hnd; [lia|].
  inversion Hnd as [|y l Hnotin Hnd']; subst. specialize (IH Hnd').
  destruct (N.eqb_spec x d) as [->|_]; cbn [andb].
  - rewrite voter_shares_cons_notin by exact Hnotin.
    destruct (t =? to), (deleg_shares d to r); lia.
  - destruct (deleg_shares d to r); lia.
Qed.

Lemma voter_shares_le_all to votes :
  NoDup (map fst votes) ->
  forall delegs, voter_shares to delegs votes <= all_shares to delegs.
Proof.
  intros Hnd. induction delegs as [|[[x t] s] r IH]; cbn [all_shares].
  - clear Hnd. induction votes as [|[d v] rest IHv]; [apply N.le_refl|exact IHv].
  - pose proof (voter_shares_cons to x t s r votes Hnd). destruct (t =? to); lia.
Qed.

(* ledger form of the share invariant: the pool's total shares cover all delegations to it *)
Definition ledger_inv (validators delegs : list (N * N * N)) : Prop :=
  forall to bal ts, In (to, bal, ts) validators -> all_shares to delegs <= ts.

Lemma share_inv_of_ledger validators delegs votes :
  NoDup (map fst votes) -> ledger_inv validators delegs -> share_inv validators delegs votes.
Proof.
  intros Hnd Hl to bal ts Hin.
  eapply N.le_trans; [apply voter_shares_le_all; exact Hnd|apply (Hl to bal ts Hin)].
Qed.

Theorem tally_never_exceeds_total_l validators delegs votes :
  votes_ok votes -> NoDup (map fst votes) -> ledger_inv validators delegs ->
  exists rs, tally_results validators delegs votes = Ok rs /\
             sh_sum rs <= total_voting_stake validators.
Proof.
  intros Hvs Hnd Hl. apply yields_ex, tally_results_ok; [exact Hvs|].
  apply share_inv_of_ledger; assumption.
Qed.

Theorem tally_fatal_iff_l validators delegs votes th :
  votes_ok votes -> NoDup (map fst votes) -> ledger_inv validators delegs ->
  (tally validators delegs votes th = Fatal <->
   Forall (fun v => snd (fst v) = 0) validators).
Proof.
  intros Hvs Hnd Hl. apply tally_fatal_iff; [exact Hvs|]. apply share_inv_of_ledger; assumption.
Qed.

(* without the invariant the "should never happen" errors ARE reachable:
   a delegation larger than the pool's shares underflows subShares *)
Lemma tally_needs_invariant :
  exists validators delegs votes th,
    votes_ok votes /\ total_voting_stake validators <> 0 /\ tally validators delegs votes th = Fatal.
Proof.
  exists [(1, 100, 10)], [(2, 1, 11)], [(1, VYes); (2, VNo)], 68.
  split; [repeat (constructor; [apply vote_ok_lt; reflexivity|]); constructor|].
  split; [cbn; lia|reflexivity].
Qed.

Definition ex_validators : list (N * N * N) := [(1, 176000, 170000); (2, 0, 5000); (3, 192000, 192000)].
Definition ex_delegs : list (N * N * N) :=
  [(1, 1, 160000); (10, 1, 10000); (2, 2, 5000); (3, 3, 190000); (10, 3, 2000)].
(* validator 1 votes yes, its delegator 10 overrides with the invalid value 200;
   validator 2 was slashed to zero; validator 3 is silent; account 11 has no delegation *)
Definition ex_votes : list (N * vote) := [(1, VYes); (10, 200); (2, VYes); (11, 0)].

Example ex_hyps : votes_ok ex_votes /\ NoDup (map fst ex_votes) /\ ledger_inv ex_validators ex_delegs.
Proof.
  split; [repeat (constructor; [apply vote_ok_lt; reflexivity|]); constructor|]. split.
  - cbn. repeat constructor; cbn; intuition discriminate.
  - intros to bal ts Hin. cbn in Hin.
    destruct Hin as [H|[H|[H|[]]]]; injection H as <- <- <-; vm_compute; discriminate.
Qed.

Definition tally_view (r : res (shmap * bool)) : option (N * N * N * N * bool) :=
  match r with
  | Ok (m, p) => Some (m VYes, m VNo, m VAbstain, m 200, p)
  | Fatal => None
  end.

Example ex_tally : tally_view (tally ex_validators ex_delegs ex_votes 68) = Some (165647, 0, 0, 12352, false).
Proof. vm_compute. reflexivity. Qed.

(* no votes at all, and votes only from non-validators *)
Example ex_tally_no_votes : tally_view (tally ex_validators ex_delegs [] 68) = Some (0, 0, 0, 0, false).
Proof. vm_compute. reflexivity. Qed.
Example ex_tally_nonvalidators :
  tally_view (tally ex_validators ex_delegs [(11, VYes); (10, VYes)] 68) = Some (12352, 0, 0, 0, false).
Proof. vm_compute. reflexivity. Qed.
