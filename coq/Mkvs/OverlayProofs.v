(* Proofs for C03: the tree object and any stack of overlays refine the
   abstract ordered map.  [s_abs] is the map a stack stands for; an update of
   the top of the stack is specified by the map it leaves there, everything
   below unchanged ([top_spec]), and for an overlay that map is identified
   through its lookups ([top_spec_overlay]).  [step_refines] then simulates
   every operation by the abstract machine [a_step] on a stack of maps. *)
From Verif Require Import Lib.Base Mkvs.Trie Mkvs.BitsProofs Mkvs.AlistProofs Mkvs.TrieProofs Mkvs.Overlay.

Definition set_all (ents : list entry) (m : list entry) : list entry :=
  fold_left (fun a e => al_set (fst e) (snd e) a) ents m.
Definition del_all (ks : list bytes) (m : list entry) : list entry :=
  fold_left (fun a k => al_del k a) ks m.

Lemma set_all_sorted ents m : sorted m -> sorted (set_all ents m).
Proof. apply (fold_left_invariant sorted). intros a e. apply al_set_sorted. Qed.
Lemma del_all_sorted ks m : sorted m -> sorted (del_all ks m).
Proof. apply (fold_left_invariant sorted). intros a k. apply al_del_sorted. Qed.

Lemma al_get_set_all k ents : forall m,
  sorted ents ->
  al_get k (set_all ents m) = match al_get k ents with Some v => Some v | None => al_get k m end.
Proof.
  induction ents as [|[k0 v0] r IH]; intros m He; [reflexivity|].
  cbn [set_all fold_left fst snd]. fold (set_all r (al_set k0 v0 m)).
  rewrite IH by apply He. cbn [al_get]. rewrite al_get_set.
  destruct (bytes_eqb k0 k) eqn:E; [|now destruct (al_get k r)].
  apply bytes_eqb_eq in E. subst k0. now rewrite (al_get_lt_none k v0 r (proj1 He)).
Qed.

Lemma ks_mem_in k s : ks_mem k s = true <-> In k s.
Proof.
  induction s as [|k0 s IH]; cbn; [split; [discriminate|tauto]|].
  rewrite orb_true_iff, IH, bytes_eqb_eq. tauto.
Qed.

Lemma al_get_del_all k ks : forall m,
  sorted m -> al_get k (del_all ks m) = if ks_mem k ks then None else al_get k m.
Proof.
  induction ks as [|k0 r IH]; intros m Hm; [reflexivity|].
  cbn [del_all fold_left]. fold (del_all r (al_del k0 m)).
  rewrite IH, al_get_del by auto using al_del_sorted. cbn [ks_mem].
  now destruct (bytes_eqb k0 k), (ks_mem k r).
Qed.

Definition plog_sound (s : tstate) : Prop :=
  use_log s = true -> forall k e, pl_get k (pl s) = Some e -> al_get k (contents (tr s)) = e.
Definition t_inv (s : tstate) : Prop := wf (tr s) /\ wf (committed s) /\ plog_sound s.

Lemma t_inv_nolog t c b : wf t -> wf c -> t_inv (mkT t [] b c).
Proof. repeat split; cbn; auto. intros _ k e. discriminate. Qed.

Lemma t_get_spec s k : t_inv s -> t_get k s = al_get k (contents (tr s)).
Proof.
  intros (W & _ & P). unfold t_get. destruct (use_log s) eqn:U.
  - destruct (pl_get k (pl s)) as [e|] eqn:G.
    + symmetry. now apply P.
    + now apply lookup_contents.
  - now apply lookup_contents.
Qed.

Lemma t_inv_log s k e t' :
  t_inv s -> wf t' ->
  (forall k', al_get k' (contents t') = if bytes_eqb k k' then e else al_get k' (contents (tr s))) ->
  t_inv (mkT t' (if use_log s then pl_set k e (pl s) else pl s) (use_log s) (committed s)).
Proof.
  intros (W & Wc & P) W' Hg. split; [exact W'|]. split; [exact Wc|].
  intros U k' e'. cbn [tr pl use_log] in *. rewrite U, Hg. unfold pl_set. cbn [pl_get].
  destruct (bytes_eqb k k'); [now intros [= <-]|now apply P].
Qed.

Lemma t_insert_spec s k v :
  valid_bytes k -> t_inv s ->
  t_inv (t_insert k v s) /\
  contents (tr (t_insert k v s)) = al_set k v (contents (tr s)) /\
  committed (t_insert k v s) = committed s.
Proof.
  intros Hv Hi. pose proof (proj1 Hi) as W.
  split; [|split; [now apply insert_contents|reflexivity]].
  apply t_inv_log; [exact Hi|now apply insert_wf|]. intros k'. now rewrite insert_contents, al_get_set.
Qed.

Lemma t_remove_existing_eq k s :
  t_remove_existing k s =
  match (if use_log s then pl_get k (pl s) else None) with
  | Some None => (s, None)
  | _ => (mkT (fst (fst (tremove k (tr s)))) (if use_log s then pl_set k None (pl s) else pl s)
              (use_log s) (committed s), snd (tremove k (tr s)))
  end.
Proof. unfold t_remove_existing. now destruct (tremove k (tr s)) as [[t' c] ex]. Qed.

Lemma t_remove_existing_spec s k :
  t_inv s ->
  t_inv (fst (t_remove_existing k s)) /\
  contents (tr (fst (t_remove_existing k s))) = al_del k (contents (tr s)) /\
  snd (t_remove_existing k s) = al_get k (contents (tr s)) /\
  committed (fst (t_remove_existing k s)) = committed s.
Proof.
  intros Hi. pose proof Hi as (W & _ & P). pose proof (contents_sorted _ W) as S0.
  destruct (remove_contents (tr s) k W) as (C & X & _).
  assert (t_inv (mkT (fst (fst (tremove k (tr s)))) (if use_log s then pl_set k None (pl s) else pl s)
                     (use_log s) (committed s))) as I'.
  { apply t_inv_log; [exact Hi|now apply remove_wf|]. intros k'. now rewrite C, al_get_del. }
  rewrite t_remove_existing_eq.
  destruct (if use_log s then pl_get k (pl s) else None) as [[v|]|] eqn:G; cbn [fst snd tr committed]; auto.
  destruct (use_log s) eqn:U; [|discriminate]. pose proof (P U k None G) as Hn.
  split; [exact Hi|]. split; [symmetry; now apply al_del_absent|]. split; [now symmetry|reflexivity].
Qed.

Definition o_inv (o : overlay) : Prop :=
  sorted (ov o) /\ (forall k v, In (k, v) (ov o) -> In k (dirty o) /\ valid_bytes k).
Definition st_inv (st : store) : Prop := t_inv (fst st) /\ Forall o_inv (snd st).

Lemma o_empty_inv : o_inv o_empty.
Proof. split; cbn; [exact I|intros k v []]. Qed.

Lemma apply_overlay_sorted o m : o_inv o -> sorted m -> sorted (apply_overlay o m).
Proof. intros [So _] Sm. apply set_all_sorted, del_all_sorted, Sm. Qed.

Lemma clean_not_in_ov o k : o_inv o -> ks_mem k (dirty o) = false -> al_get k (ov o) = None.
Proof.
  intros [_ Hk] M. apply al_get_notin. intros v Hin. apply Hk in Hin as [Hin _].
  apply ks_mem_in in Hin. congruence.
Qed.

Lemma get_apply_overlay o m k :
  o_inv o -> sorted m ->
  al_get k (apply_overlay o m) = if ks_mem k (dirty o) then al_get k (ov o) else al_get k m.
Proof.
  intros Hoi Sm. change (apply_overlay o m) with (set_all (ov o) (del_all (dirty o) m)).
  rewrite al_get_set_all, al_get_del_all by (assumption || apply Hoi).
  destruct (ks_mem k (dirty o)) eqn:M; [now destruct (al_get k (ov o))|].
  now rewrite (clean_not_in_ov o k Hoi M).
Qed.

Lemma s_abs_sorted s os : t_inv s -> Forall o_inv os -> sorted (s_abs s os).
Proof.
  intros Ht Ho. induction Ho as [|o rest Hoi _ IH]; cbn [s_abs].
  - apply contents_sorted, Ht.
  - now apply apply_overlay_sorted.
Qed.

Lemma s_get_spec s os k : t_inv s -> Forall o_inv os -> s_get k s os = al_get k (s_abs s os).
Proof.
  intros Ht Ho. induction Ho as [|o rest Hoi Hr IH]; cbn [s_get s_abs].
  - now apply t_get_spec.
  - rewrite get_apply_overlay by auto using s_abs_sorted. now rewrite IH.
Qed.

(* views of the levels strictly below the top of the stack *)
Fixpoint views (s : tstate) (os : list overlay) : list (list entry) :=
  match os with
  | [] => []
  | o :: rest => s_abs s rest :: views s rest
  end.

Lemma s_abs_tr s1 s2 os : tr s1 = tr s2 -> s_abs s1 os = s_abs s2 os.
Proof. intros E. induction os as [|o r IH]; cbn [s_abs]; [now rewrite E|now rewrite IH]. Qed.
Lemma views_tr s1 s2 os : tr s1 = tr s2 -> views s1 os = views s2 os.
Proof. intros E. induction os as [|o r IH]; cbn [views]; [reflexivity|]. now rewrite IH, (s_abs_tr s1 s2 r E). Qed.
Lemma views_last_ne s os : forall d, os <> [] -> last (views s os) d = contents (tr s).
Proof.
  induction os as [|o r IH]; intros d Hne; [congruence|]. cbn [views].
  destruct r as [|o2 r2]; [reflexivity|].
  change (last (s_abs s (o2 :: r2) :: views s (o2 :: r2)) d) with (last (views s (o2 :: r2)) d).
  apply IH. discriminate.
Qed.
Lemma views_last s os : last (views s os) (s_abs s os) = contents (tr s).
Proof. destruct os as [|o r]; [reflexivity|]. apply views_last_ne. discriminate. Qed.

Definition top_spec (st st' : store) (m' : list entry) : Prop :=
  st_inv st' /\ s_abs (fst st') (snd st') = m' /\ views (fst st') (snd st') = views (fst st) (snd st) /\
  committed (fst st') = committed (fst st) /\ length (snd st') = length (snd st).

Lemma top_spec_overlay s o o' rest m' :
  t_inv s -> Forall o_inv rest -> o_inv o' -> sorted m' ->
  (forall k, (if ks_mem k (dirty o') then al_get k (ov o') else al_get k (s_abs s rest)) = al_get k m') ->
  top_spec (s, o :: rest) (s, o' :: rest) m'.
Proof.
  intros Ht Hr Ho' Sm' Hg. pose proof (s_abs_sorted s rest Ht Hr) as Sm.
  unfold top_spec, st_inv; cbn [fst snd s_abs views length].
  split; [split; [exact Ht|constructor; assumption]|]. split; [|auto].
  apply sorted_ext_get; auto using apply_overlay_sorted. intros k. now rewrite get_apply_overlay.
Qed.

Lemma o_inv_set k v o : valid_bytes k -> o_inv o -> o_inv (mkO (al_set k v (ov o)) (ks_add k (dirty o))).
Proof.
  intros Hv [So Hk]. split; cbn [ov dirty]; [now apply al_set_sorted|].
  intros k' v' Hin. apply al_set_in in Hin; [|assumption]. unfold ks_add.
  destruct Hin as [[= -> ->]|[_ Hin]]; [cbn; auto|]. apply Hk in Hin. cbn. tauto.
Qed.
Lemma o_inv_del k o d' :
  (forall x, In x (dirty o) -> In x d') -> o_inv o -> o_inv (mkO (al_del k (ov o)) d').
Proof.
  intros Hd [So Hk]. split; cbn [ov dirty]; [now apply al_del_sorted|].
  intros k' v' Hin. apply al_del_in in Hin; [|assumption]. destruct Hin as [_ Hin].
  apply Hk in Hin. split; [apply Hd|]; tauto.
Qed.

Lemma s_insert_spec st k v :
  valid_bytes k -> st_inv st -> top_spec st (s_insert k v st) (al_set k v (s_abs (fst st) (snd st))).
Proof.
  intros Hv [Ht Ho]. destruct st as [s [|o rest]]; cbn [fst snd] in *.
  - destruct (t_insert_spec s k v Hv Ht) as (I & C & Cm). unfold top_spec, st_inv; cbn. auto.
  - inversion Ho as [|? ? Hoi Hr]; subst. cbn [s_insert s_abs].
    pose proof (apply_overlay_sorted o _ Hoi (s_abs_sorted s rest Ht Hr)) as Sa.
    apply top_spec_overlay; auto using o_inv_set, al_set_sorted.
    intros k'. cbn [ov dirty ks_add ks_mem]. rewrite !al_get_set, get_apply_overlay by auto using s_abs_sorted.
    now destruct (bytes_eqb k k').
Qed.

Lemma s_remove_existing_spec st k :
  st_inv st ->
  top_spec st (fst (s_remove_existing k st)) (al_del k (s_abs (fst st) (snd st))) /\
  snd (s_remove_existing k st) = al_get k (s_abs (fst st) (snd st)).
Proof.
  intros [Ht Ho]. destruct st as [s [|o rest]]; cbn [fst snd] in *.
  - destruct (t_remove_existing_spec s k Ht) as (I & C & X & Cm).
    cbn [s_remove_existing]. destruct (t_remove_existing k s) as [s' ex]. cbn [fst snd] in *.
    unfold top_spec, st_inv; cbn. auto 10.
  - inversion Ho as [|? ? Hoi Hr]; subst. cbn [s_abs].
    pose proof (s_abs_sorted s rest Ht Hr) as Sm.
    pose proof (apply_overlay_sorted o _ Hoi Sm) as Sa.
    assert (forall o', o_inv o' ->
       (forall k', (if ks_mem k' (dirty o') then al_get k' (ov o') else al_get k' (s_abs s rest)) =
                   if bytes_eqb k k' then None
                   else if ks_mem k' (dirty o) then al_get k' (ov o) else al_get k' (s_abs s rest)) ->
       top_spec (s, o :: rest) (s, o' :: rest) (al_del k (apply_overlay o (s_abs s rest)))) as Mk.
    { intros o' Hoi' Hg. apply top_spec_overlay; auto using al_del_sorted.
      intros k'. now rewrite Hg, al_get_del, get_apply_overlay. }
    rewrite get_apply_overlay by assumption.
    cbn [s_remove_existing]. destruct (ks_mem k (dirty o)) eqn:M; cbn [fst snd].
    + split; [|reflexivity]. apply Mk; [apply o_inv_del; auto|]. intros k'. cbn [ov dirty].
      rewrite al_get_del by apply Hoi. destruct (bytes_eqb k k') eqn:E; [|reflexivity].
      apply bytes_eqb_eq in E. subst k'. now rewrite M.
    + rewrite <- (s_get_spec s rest k Ht Hr). destruct (s_get k s rest) as [v|] eqn:G; cbn [fst snd].
      * split; [|reflexivity]. apply Mk.
        -- destruct Hoi as [So Hk]. split; cbn [ov dirty]; auto. intros k' v' Hin.
           apply Hk in Hin. unfold ks_add. cbn. tauto.
        -- intros k'. cbn [ov dirty ks_add ks_mem]. destruct (bytes_eqb k k') eqn:E; [|reflexivity].
           apply bytes_eqb_eq in E. subst k'. now apply clean_not_in_ov.
      * split; [|reflexivity]. apply Mk; [exact Hoi|]. intros k'.
        destruct (bytes_eqb k k') eqn:E; [|reflexivity]. apply bytes_eqb_eq in E. subst k'.
        now rewrite M, <- (s_get_spec s rest k Ht Hr).
Qed.

Lemma s_remove_spec st k :
  st_inv st -> top_spec st (s_remove k st) (al_del k (s_abs (fst st) (snd st))).
Proof.
  intros [Ht Ho]. destruct st as [s [|o rest]]; cbn [fst snd] in *.
  - pose proof (s_remove_existing_spec (s, []) k (conj Ht Ho)) as [T _].
    cbn [s_remove_existing s_remove] in *. unfold t_remove.
    destruct (t_remove_existing k s) as [s' ex]. exact T.
  - inversion Ho as [|? ? Hoi Hr]; subst. cbn [s_remove s_abs].
    pose proof (apply_overlay_sorted o _ Hoi (s_abs_sorted s rest Ht Hr)) as Sa.
    apply top_spec_overlay; auto using al_del_sorted.
    { apply o_inv_del; auto. unfold ks_add. cbn. auto. }
    intros k'. cbn [ov dirty ks_add ks_mem].
    rewrite !al_get_del, get_apply_overlay by (auto using s_abs_sorted || apply Hoi).
    now destruct (bytes_eqb k k').
Qed.

Definition key_ge (k : bytes) (e : entry) : Prop := bytes_cmp (fst e) k <> Lt.

Lemma al_seek_spec k l :
  sorted l -> sorted (al_seek k l) /\ (forall e, In e (al_seek k l) <-> In e l /\ key_ge k e).
Proof.
  induction l as [|[k0 v0] r IH]; intros Hs.
  - cbn. split; auto. intros e. tauto.
  - cbn [al_seek]. pose proof Hs as [Hx Hr]. specialize (IH Hr) as [IS IM].
    (* once the head is not below [k], nothing after it is *)
    assert (bytes_cmp k0 k <> Lt -> forall e, In e ((k0, v0) :: r) <-> In e ((k0, v0) :: r) /\ key_ge k e) as Hge.
    { intros C e. split; [|tauto]. intros Hin. split; [exact Hin|]. destruct Hin as [<-|Hin]; [exact C|].
      intros C2. apply C. rewrite Forall_forall in Hx. exact (bytes_cmp_lt_trans _ _ _ (Hx _ Hin) C2). }
    destruct (bytes_cmp k0 k) eqn:C; [split; [exact Hs|apply Hge; discriminate]| |split; [exact Hs|apply Hge; discriminate]].
    split; [exact IS|]. intros e. rewrite IM. cbn [In]. split; [tauto|]. intros [[<-|Hin] Hge']; [|tauto].
    now elim Hge'.
Qed.

Lemma skip_dirty_spec d inner :
  exists pre, inner = pre ++ skip_dirty d inner /\
    (forall e, In e pre -> ks_mem (fst e) d = true) /\
    match skip_dirty d inner with [] => True | e :: _ => ks_mem (fst e) d = false end.
Proof.
  induction inner as [|[k v] r IH].
  - exists []. cbn. auto.
  - cbn [skip_dirty]. destruct (ks_mem k d) eqn:M.
    + destruct IH as (pre & E & Hp & Hh). exists ((k, v) :: pre). repeat split; auto.
      * cbn. now rewrite <- E.
      * intros e [<-|Hin]; auto.
    + exists []. cbn. rewrite M. auto.
Qed.

Definition merge_ok (d : list bytes) (I O R : list entry) : Prop :=
  sorted R /\ forall e, In e R <-> (In e I /\ ks_mem (fst e) d = false) \/ In e O.

Lemma merge_ok_cons d x I O I' O' R :
  merge_ok d I' O' R ->
  (forall e, (In e I' /\ ks_mem (fst e) d = false) \/ In e O' -> key_lt x e) ->
  (forall e, (In e I /\ ks_mem (fst e) d = false) \/ In e O <->
             x = e \/ (In e I' /\ ks_mem (fst e) d = false) \/ In e O') ->
  merge_ok d I O (x :: R).
Proof.
  intros [SR MR] Hlt Hm. split.
  - split; [|exact SR]. apply Forall_forall. intros e He. apply Hlt, MR, He.
  - intros e. cbn [In]. now rewrite MR, Hm.
Qed.

Lemma merge_run_ok d : forall fuel I O,
  sorted I -> sorted O -> (forall e, In e O -> ks_mem (fst e) d = true) ->
  (length I + length O < fuel)%nat -> merge_ok d I O (merge_run fuel d I O).
Proof.
  induction fuel as [|f IH]; intros I O SI SO HO Hf; [lia|].
  cbn [merge_run].
  destruct (skip_dirty_spec d I) as (pre & EI & Hpre & Hhead).
  remember (skip_dirty d I) as I' eqn:EI'. clear EI'.
  assert (sorted I') as SI' by (rewrite EI in SI; apply sorted_app_inv in SI; tauto).
  assert (length I' <= length I)%nat as LI by (rewrite EI, app_length; lia).
  (* the skipped entries are dirty: [I'] can stand for [I] *)
  assert (forall R, merge_ok d I' O R -> merge_ok d I O R) as Skip.
  { intros R [SR MR]. split; [exact SR|]. intros e. rewrite MR, EI, in_app_iff. split; [tauto|].
    intros [[[Hin|Hin] Hn]|Hin]; auto. apply Hpre in Hin. congruence. }
  apply Skip. clear Skip.
  assert (forall x l, sorted (x :: l) -> forall e, In e l -> key_lt x e) as Hd
    by (intros x l [Hx _]; now apply Forall_forall).
  unfold entry in *.
  destruct I' as [|[ik iv] ir], O as [|[ok ov] or_]; cbn [merge_cur merge_step].
  - split; [exact Logic.I|]. intros e. cbn. tauto.
  - apply (merge_ok_cons _ _ _ _ [] or_).
    + apply IH; [exact Logic.I|apply SO|intros; apply HO; cbn; auto|cbn [length] in *; lia].
    + intros e [[[] _]|He]. exact (Hd _ _ SO e He).
    + intros e. cbn [In]. tauto.
  - apply (merge_ok_cons _ _ _ _ ir []).
    + apply IH; [apply SI'|exact Logic.I|intros ? []|cbn [length] in *; lia].
    + intros e [[He _]|[]]. exact (Hd _ _ SI' e He).
    + intros e. cbn [In]. split; [intros [[[<-|Hin] Hn]|[]]; auto|intros [<-|[[Hin Hn]|[]]]; auto].
  - destruct (bytes_cmp ik ok) eqn:C.
    + (* equal keys: impossible, the overlay's keys are dirty *)
      exfalso. apply bytes_cmp_eq in C. subst ok. cbn [fst] in Hhead.
      pose proof (HO (ik, ov) (or_introl eq_refl)) as Hdirty. cbn [fst] in Hdirty. congruence.
    + apply (merge_ok_cons _ _ _ _ ir ((ok, ov) :: or_)).
      * apply IH; [apply SI'|exact SO|exact HO|cbn [length] in *; lia].
      * intros e [[He _]|He]; [exact (Hd _ _ SI' e He)|].
        pose proof (sorted_cons_lt (ik, iv) _ _ SO C) as F. rewrite Forall_forall in F. auto.
      * intros e. cbn [In]. split; [intros [[[<-|Hin] Hn]|Hin]; auto|intros [<-|[[Hin Hn]|Hin]]; auto].
    + apply bytes_cmp_gt_lt in C.
      apply (merge_ok_cons _ _ _ _ ((ik, iv) :: ir) or_).
      * apply IH; [exact SI'|apply SO|intros; apply HO; cbn; auto|cbn [length] in *; lia].
      * intros e [[He _]|He]; [|exact (Hd _ _ SO e He)].
        pose proof (sorted_cons_lt (ok, ov) _ _ SI' C) as F. rewrite Forall_forall in F. auto.
      * intros e. cbn [In]. tauto.
Qed.

Lemma merge_iter_spec o m k :
  o_inv o -> sorted m ->
  merge_iter (dirty o) (al_seek k m) (al_seek k (ov o)) = al_seek k (apply_overlay o m).
Proof.
  intros Hoi Sm. pose proof Hoi as [So Hk].
  destruct (al_seek_spec k m Sm) as [S1 M1]. destruct (al_seek_spec k (ov o) So) as [S2 M2].
  pose proof (apply_overlay_sorted o m Hoi Sm) as Sa.
  destruct (al_seek_spec k (apply_overlay o m) Sa) as [S3 M3].
  destruct (merge_run_ok (dirty o) (S (length (al_seek k m) + length (al_seek k (ov o))))
              (al_seek k m) (al_seek k (ov o)) S1 S2) as [SR MR].
  { intros [k' v'] Hin. apply M2 in Hin as [Hin _]. apply Hk in Hin as [Hin _]. now apply ks_mem_in. }
  { apply Nat.lt_succ_diag_r. }
  unfold merge_iter. apply sorted_ext; auto.
  intros [k' v']. rewrite MR, M1, M2, M3. cbn [fst].
  rewrite !in_sorted_get by assumption. rewrite get_apply_overlay by assumption.
  destruct (ks_mem k' (dirty o)) eqn:M.
  - split; [intros [[_ ?]|?]; [discriminate|tauto]|tauto].
  - rewrite (clean_not_in_ov o k' Hoi M). split; [intros [[[? ?] _]|[? _]]; [tauto|discriminate]|tauto].
Qed.

Lemma s_iter_spec s os k : t_inv s -> Forall o_inv os -> s_iter k s os = al_seek k (s_abs s os).
Proof.
  intros Ht Ho. induction Ho as [|o rest Hoi Hr IH]; cbn [s_iter s_abs]; [reflexivity|].
  rewrite IH. apply merge_iter_spec; auto using s_abs_sorted.
Qed.

Lemma top_spec_trans st1 st2 st3 m2 m3 :
  top_spec st1 st2 m2 -> top_spec st2 st3 m3 -> top_spec st1 st3 m3.
Proof.
  intros (I2 & A2 & V2 & C2 & L2) (I3 & A3 & V3 & C3 & L3). unfold top_spec.
  split; [exact I3|]. split; [exact A3|]. split; [congruence|]. split; congruence.
Qed.

Lemma fold_top_spec {A} (step : store -> A -> store) (f : list entry -> A -> list entry) (P : A -> Prop) :
  (forall st a, P a -> st_inv st -> top_spec st (step st a) (f (s_abs (fst st) (snd st)) a)) ->
  forall xs st, Forall P xs -> st_inv st ->
    top_spec st (fold_left step xs st) (fold_left f xs (s_abs (fst st) (snd st))).
Proof.
  intros Hstep. induction xs as [|a r IH]; intros st Hp Hi; cbn [fold_left].
  - unfold top_spec. auto.
  - inversion Hp as [|? ? Ha Hr]; subst. pose proof (Hstep st a Ha Hi) as T1.
    pose proof T1 as (I1 & A1 & _). eapply top_spec_trans; [exact T1|]. rewrite <- A1. now apply IH.
Qed.

Lemma ks_mem_remove_all k d ents :
  ks_mem k (ks_remove_all d ents) =
  ks_mem k d && match al_get k ents with Some _ => false | None => true end.
Proof.
  unfold ks_remove_all. induction d as [|k0 d IH]; [reflexivity|]. cbn [filter ks_mem].
  destruct (bytes_eqb k0 k) eqn:E.
  - apply bytes_eqb_eq in E. subst k0. destruct (al_get k ents); cbn [negb orb andb].
    + rewrite IH. now rewrite andb_false_r.
    + cbn [ks_mem]. now rewrite bytes_eqb_refl.
  - destruct (al_get k0 ents); cbn [negb orb andb ks_mem]; rewrite ?E; exact IH.
Qed.

Theorem overlay_commit_refines_map s o rest :
  st_inv (s, o :: rest) ->
  let st' := s_commit_top (s, o :: rest) in
  st_inv st' /\
  s_abs (fst st') (snd st') = s_abs s (o :: rest) /\
  views (fst st') (snd st') = s_abs s (o :: rest) :: views s rest /\
  committed (fst st') = committed s.
Proof.
  intros [Ht Ho]. cbn [fst snd] in *. inversion Ho as [|? ? Hoi Hr]; subst.
  pose proof Hoi as [So Hk]. cbn [s_commit_top].
  pose proof (fold_top_spec (fun a e => s_insert (fst e) (snd e) a) (fun a e => al_set (fst e) (snd e) a)
                (fun e => valid_bytes (fst e)) (fun st e => s_insert_spec st (fst e) (snd e))
                (ov o) (s, rest)) as T1.
  specialize (T1 ltac:(apply Forall_forall; intros [k v] Hin; apply Hk in Hin; tauto) (conj Ht Hr)).
  set (st1 := fold_left (fun a e => s_insert (fst e) (snd e) a) (ov o) (s, rest)) in *.
  pose proof T1 as (I1 & A1 & _).
  pose proof (fold_top_spec (fun a k => s_remove k a) (fun a k => al_del k a) (fun _ => True)
                (fun st k _ => s_remove_spec st k) (ks_remove_all (dirty o) (ov o)) st1
                ltac:(apply Forall_forall; auto) I1) as T2.
  set (st2 := fold_left (fun a k => s_remove k a) (ks_remove_all (dirty o) (ov o)) st1) in *.
  pose proof (top_spec_trans _ _ _ _ _ T1 T2) as (I2 & A2 & V2 & C2 & L2).
  cbn [fst snd] in *.
  assert (s_abs (fst st2) (snd st2) = apply_overlay o (s_abs s rest)) as Habs.
  { rewrite A2, A1. pose proof (s_abs_sorted s rest Ht Hr) as Sm.
    apply sorted_ext_get; auto using del_all_sorted, set_all_sorted, apply_overlay_sorted.
    intros k. fold (set_all (ov o) (s_abs s rest)). fold (del_all (ks_remove_all (dirty o) (ov o)) (set_all (ov o) (s_abs s rest))).
    rewrite al_get_del_all, al_get_set_all, ks_mem_remove_all, get_apply_overlay by auto using set_all_sorted.
    destruct (al_get k (ov o)) as [v|] eqn:G.
    - rewrite andb_false_r. apply al_get_some_in in G. apply Hk in G as [G _].
      apply ks_mem_in in G. now rewrite G.
    - rewrite andb_true_r. destruct (ks_mem k (dirty o)); reflexivity. }
  split; [split|split; [|split]]; cbn [fst snd].
  - exact (proj1 I2).
  - constructor; [apply o_empty_inv|exact (proj2 I2)].
  - cbn [s_abs]. exact Habs.
  - cbn [views s_abs]. now rewrite Habs, V2.
  - exact C2.
Qed.

(* the abstract machine: a stack of maps *)
Record astate := mkA {
  atop : list entry;             (* what the top of the stack sees          *)
  abelow : list (list entry);    (* the views of the levels below, top first *)
  acomm : list entry             (* the tree's last committed map           *)
}.

Definition a_step (a : astate) (o : sop) : astate * sres :=
  match o with
  | SIns k v => (mkA (al_set k v (atop a)) (abelow a) (acomm a), RUnit)
  | SRem k => (mkA (al_del k (atop a)) (abelow a) (acomm a), RUnit)
  | SRemEx k => (mkA (al_del k (atop a)) (abelow a) (acomm a), RVal (al_get k (atop a)))
  | SGet k => (a, RVal (al_get k (atop a)))
  | SIter k n => (a, RIter (firstn (S n) (al_seek k (atop a))))
  | STreeCommit => (mkA (atop a) (abelow a) (last (abelow a) (atop a)), RUnit)
  | SReopen => (match abelow a with [] => mkA (acomm a) [] (acomm a) | _ => a end, RUnit)
  | SPush => (mkA (atop a) (atop a :: abelow a) (acomm a), RUnit)
  | SOvCommit => (match abelow a with [] => a | _ :: r => mkA (atop a) (atop a :: r) (acomm a) end, RUnit)
  | SOvDiscard => (match abelow a with [] => a | b :: r => mkA b r (acomm a) end, RUnit)
  | SOvCopy => (a, RUnit)
  end.

Fixpoint a_run (a : astate) (ops : list sop) : astate * list sres :=
  match ops with
  | [] => (a, [])
  | o :: r =>
      let '(a1, res) := a_step a o in
      let '(a2, rs) := a_run a1 r in
      (a2, res :: rs)
  end.

Definition abs_of (st : store) : astate :=
  mkA (s_abs (fst st) (snd st)) (views (fst st) (snd st)) (contents (committed (fst st))).

Definition sop_valid (o : sop) : Prop :=
  match o with SIns k _ => valid_bytes k | _ => True end.

Lemma top_spec_abs st st' m :
  top_spec st st' m -> abs_of st' = mkA m (abelow (abs_of st)) (acomm (abs_of st)).
Proof. intros (I & A & V & C & L). unfold abs_of. cbn [abelow acomm]. now rewrite A, V, C. Qed.

Lemma step_refines st o :
  sop_valid o -> st_inv st ->
  st_inv (fst (s_step st o)) /\
  abs_of (fst (s_step st o)) = fst (a_step (abs_of st) o) /\
  snd (s_step st o) = snd (a_step (abs_of st) o).
Proof.
  intros Hv Hi. pose proof Hi as [Ht Ho]. destruct o; cbn [s_step a_step fst snd sop_valid] in *.
  - pose proof (s_insert_spec st k v Hv Hi) as T. split; [apply T|]. split; [|reflexivity].
    apply (top_spec_abs _ _ _ T).
  - pose proof (s_remove_spec st k Hi) as T. split; [apply T|]. split; [|reflexivity].
    apply (top_spec_abs _ _ _ T).
  - pose proof (s_remove_existing_spec st k Hi) as [T X].
    destruct (s_remove_existing k st) as [st' ex]. cbn [fst snd] in *.
    split; [apply T|]. split; [apply (top_spec_abs _ _ _ T)|]. now rewrite X.
  - split; [exact Hi|]. split; [reflexivity|]. now rewrite s_get_spec.
  - split; [exact Hi|]. split; [reflexivity|]. now rewrite s_iter_spec.
  - split; [split; [apply t_inv_nolog; apply Ht|exact Ho]|]. split; [|reflexivity].
    unfold abs_of. cbn [fst snd atop abelow acomm committed t_commit].
    rewrite (s_abs_tr (t_commit (fst st)) (fst st)), (views_tr (t_commit (fst st)) (fst st)) by reflexivity.
    now rewrite views_last.
  - destruct st as [s [|o rest]]; cbn [fst snd] in *.
    + split; [split; [apply t_inv_nolog; apply Ht|constructor]|]. split; reflexivity.
    + split; [exact Hi|]. split; reflexivity.
  - split; [split; [exact Ht|constructor; [apply o_empty_inv|exact Ho]]|].
    split; reflexivity.
  - destruct st as [s [|o rest]].
    + cbn [s_commit_top]. split; [exact Hi|]. split; reflexivity.
    + pose proof (overlay_commit_refines_map s o rest Hi) as (I' & A' & V' & C').
      split; [exact I'|]. split; [|reflexivity].
      unfold abs_of. cbn [fst snd abelow atop acomm views]. now rewrite A', V', C'.
  - destruct st as [s [|o rest]]; cbn [fst snd tl] in *.
    + split; [exact Hi|]. split; reflexivity.
    + inversion Ho; subst. split; [split; assumption|]. split; reflexivity.
  - split; [exact Hi|]. split; reflexivity.
Qed.

Theorem run_refines ops : forall st,
  Forall sop_valid ops -> st_inv st ->
  st_inv (fst (s_run st ops)) /\
  abs_of (fst (s_run st ops)) = fst (a_run (abs_of st) ops) /\
  snd (s_run st ops) = snd (a_run (abs_of st) ops).
Proof.
  induction ops as [|o r IH]; intros st Hv Hi; cbn [s_run a_run fst snd]; [auto|].
  inversion Hv as [|? ? Ho Hr]; subst.
  destruct (step_refines st o Ho Hi) as (I1 & A1 & R1).
  destruct (s_step st o) as [st1 res]. destruct (a_step (abs_of st) o) as [a1 res'].
  cbn [fst snd] in *. subst a1 res'.
  destruct (IH st1 Hr I1) as (I2 & A2 & R2).
  destruct (s_run st1 r) as [st2 rs]. destruct (a_run (abs_of st1) r) as [a2 rs'].
  cbn [fst snd] in *. subst. auto.
Qed.

Definition a_init : astate := mkA [] [] [].

Lemma init_inv b : st_inv (t_init b, []).
Proof. split; [now apply t_inv_nolog|constructor]. Qed.

Theorem tree_refines_map b ops :
  Forall sop_valid ops ->
  snd (s_run (t_init b, []) ops) = snd (a_run a_init ops) /\
  abs_of (fst (s_run (t_init b, []) ops)) = fst (a_run a_init ops).
Proof.
  intros Hv. destruct (run_refines ops (t_init b, []) Hv (init_inv b)) as (_ & A & R).
  split; [exact R|exact A].
Qed.

Theorem iterator_refines_map s os k :
  t_inv s -> Forall o_inv os ->
  s_iter k s os = al_seek k (s_abs s os) /\
  sorted (s_iter k s os) /\
  forall e, In e (s_iter k s os) <-> In e (s_abs s os) /\ bytes_cmp (fst e) k <> Lt.
Proof.
  intros Ht Ho. rewrite s_iter_spec by assumption.
  destruct (al_seek_spec k (s_abs s os) (s_abs_sorted s os Ht Ho)) as [S M]. auto.
Qed.

Theorem overlay_refines_map s o rest k v :
  valid_bytes k -> st_inv (s, o :: rest) ->
  let m := s_abs s (o :: rest) in
  s_get k s (o :: rest) = al_get k m /\
  s_abs (fst (s_insert k v (s, o :: rest))) (snd (s_insert k v (s, o :: rest))) = al_set k v m /\
  s_abs (fst (s_remove k (s, o :: rest))) (snd (s_remove k (s, o :: rest))) = al_del k m /\
  s_abs (fst (fst (s_remove_existing k (s, o :: rest)))) (snd (fst (s_remove_existing k (s, o :: rest)))) = al_del k m /\
  snd (s_remove_existing k (s, o :: rest)) = al_get k m /\
  (* nothing below the overlay changes *)
  fst (s_insert k v (s, o :: rest)) = s /\ tl (snd (s_insert k v (s, o :: rest))) = rest /\
  fst (s_remove k (s, o :: rest)) = s /\ tl (snd (s_remove k (s, o :: rest))) = rest.
Proof.
  intros Hv Hi m. pose proof Hi as [Ht Ho]. cbn [fst snd] in *.
  pose proof (s_insert_spec _ k v Hv Hi) as (_ & A1 & _).
  pose proof (s_remove_spec _ k Hi) as (_ & A2 & _).
  pose proof (s_remove_existing_spec _ k Hi) as [(_ & A3 & _) X].
  repeat split; auto. now apply s_get_spec.
Qed.

(* non-vacuity: three stacked overlays with shadowed and tombstoned keys
   around a seek position *)
Definition ex_hist : list sop :=
  [SIns [1] [10]; SIns [2] [20]; SIns [3] [30]; SIns [] [0]; STreeCommit;
   SPush; SRem [2]; SIns [2; 0] [21];
   SPush; SIns [2] [22]; SRemEx [3];
   SPush; SRem [1]; SIns [3] [33];
   SIter [1] 10; SGet [2]; SGet [1];
   SOvCommit; SOvDiscard; SIter [] 10; SOvDiscard; SIter [2] 1; SOvCommit; SOvDiscard; SReopen;
   SIter [] 10].
Example ex_hist_valid : Forall sop_valid ex_hist.
Proof. repeat constructor; cbn; lia. Qed.
Example ex_hist_run :
  snd (s_run (t_init true, []) ex_hist) =
  [RUnit; RUnit; RUnit; RUnit; RUnit; RUnit; RUnit; RUnit; RUnit; RUnit; RVal (Some [30]);
   RUnit; RUnit; RUnit;
   RIter [([2], [22]); ([2; 0], [21]); ([3], [33])]; RVal (Some [22]); RVal None;
   RUnit; RUnit; RIter [([], [0]); ([2], [22]); ([2; 0], [21]); ([3], [33])];
   RUnit; RIter [([2; 0], [21]); ([3], [30])]; RUnit; RUnit; RUnit;
   RIter [([], [0]); ([1], [10]); ([2], [20]); ([3], [30])]].
Proof. vm_compute. reflexivity. Qed.
Example ex_hist_spec : snd (a_run a_init ex_hist) = snd (s_run (t_init true, []) ex_hist).
Proof. symmetry. apply tree_refines_map, ex_hist_valid. Qed.
