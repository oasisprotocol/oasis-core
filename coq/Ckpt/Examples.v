(* Non-vacuity examples and the refutation witness for deep trees. *)
From Verif Require Import Lib.Base Mkvs.Trie Mkvs.BitsProofs Mkvs.AlistProofs Mkvs.TrieProofs Mkvs.HashProofs
  Ckpt.Model Ckpt.Proofs Ckpt.ParProofs Ckpt.RestoreProofs.
Local Open Scope nat_scope.

Lemma build_wf_from es : forall t,
  Forall (fun e => valid_bytes (fst e)) es -> wf t ->
  wf (fold_left (fun t e => tinsert (fst e) (snd e) t) es t).
Proof.
  induction es as [|e es IH]; intros t Hv W; cbn [fold_left]; [assumption|].
  inversion Hv; subst. apply IH; [assumption|]. now apply insert_wf.
Qed.
Lemma build_wf es : Forall (fun e => valid_bytes (fst e)) es -> wf (build es).
Proof. intros Hv. apply build_wf_from; [assumption|exact I]. Qed.

Definition keys_valid (es : list entry) : bool :=
  forallb (fun e => forallb (fun x => N.ltb x 256) (fst e)) es.
Lemma keys_valid_ok es : keys_valid es = true -> Forall (fun e => valid_bytes (fst e)) es.
Proof.
  unfold keys_valid. rewrite forallb_forall. intros Hk. apply Forall_forall. intros e He.
  specialize (Hk e He). rewrite forallb_forall in Hk. apply Forall_forall. intros x Hx.
  apply N.ltb_lt. auto.
Qed.

(* ---- a 7-key tree; chunk size 70 forces 3 chunks ---- *)
Definition es7 : list entry :=
  [([97], [1]); ([97;98], [2;2]); ([97;98;99], [3]); ([98], [4;4;4]); ([98;97], [5]); ([107], [6]); ([120], [7;7])]%N.
Definition t7 : tree := build es7.

Example t7_wf : wf t7.
Proof. apply build_wf, keys_valid_ok. reflexivity. Qed.

Example t7_three_chunks :
  map (map fst) (seq_runs 70 t7) = [[[97]; [97;98]]; [[97;98;99]; [98]]; [[98;97]; [107]; [120]]]%N.
Proof. vm_compute. reflexivity. Qed.

(* what the three chunks carry: the second and third repeat the inline
   leaves of the ancestors of their first key *)
Example t7_chunk_leaves :
  map (fun c => map fst (pleaves c)) (chunks H0 70 0 t7) =
  [[[97]; [97;98]]; [[97]; [97;98]; [97;98;99]; [98]]; [[98]; [98;97]; [107]; [120]]]%N.
Proof. vm_compute. reflexivity. Qed.

(* two threads: lock-step rounds, 7 chunks of one visited key each at size 40 *)
Example t7_two_threads :
  map (map fst) (fst (par_runs 40 2 t7)) = [[[97]]; [[120]]; [[107]]; [[97;98]]; [[98]]; [[97;98;99]]; [[98;97]]]%N /\
  snd (par_runs 40 2 t7) = [].
Proof. vm_compute. auto. Qed.

Example t7_restore_reversed_with_duplicates :
  let cs := chunks H0 70 0 t7 in
  fold_left (fun s c => import c s) (rev cs ++ cs ++ rev cs) [] = contents t7.
Proof. vm_compute. reflexivity. Qed.

Example t7_depth_ok : tdepth t7 <= MAX_PROOF_DEPTH.
Proof. apply Nat.leb_le. reflexivity. Qed.

(* ---- a tree deeper than the verifier's limit ---- *)
(* 130 keys of 17 bytes: key i has exactly bit i set (1000.., 0100.., ...).
   Listed deepest first: key i then parts from all the keys already there at bit i, above the root's
   own split, so every insertion ends at the root and evaluating [build] is linear in the number of
   keys (in ascending order each insertion walks the whole spine). *)
Definition bitkey (i : nat) : bytes := pack (repeat false i ++ [true] ++ repeat false (135 - i)).
Definition es_deep : list entry := map (fun i => (bitkey i, [N.of_nat i])) (rev (seq 0 130)).

(* number of internal nodes above the leaf that holds key [k] *)
Definition keq (k : bytes) (e : entry) : bool := bytes_eqb (fst e) k.
Fixpoint kdepth (k : bytes) (t : tree) : nat :=
  match t with
  | Node _ _ l r =>
      if existsb (keq k) (contents l) then S (kdepth k l)
      else if existsb (keq k) (contents r) then S (kdepth k r) else 0
  | _ => 0
  end.

Lemma keq_in k l : existsb (keq k) l = true -> exists v, In (k, v) l.
Proof.
  intros E. apply existsb_exists in E as ([k' v] & Hin & Hk). unfold keq in Hk. cbn in Hk.
  apply bytes_eqb_eq in Hk. subst k'. eauto.
Qed.

Lemma kdepth_chunk H S k t : S k = true -> kdepth k t <= pdepth (chunk_of H S t).
Proof.
  intros HS. induction t as [|k0 v0|lbl lf l IHl r IHr]; cbn [kdepth]; try lia.
  destruct (existsb (keq k) (contents l)) eqn:El.
  - apply keq_in in El as [v Hin].
    rewrite chunk_node by (exists k, v; split; [cbn [contents]; rewrite !in_app_iff; auto|exact HS]).
    cbn [pdepth]. lia.
  - destruct (existsb (keq k) (contents r)) eqn:Er; [|lia].
    apply keq_in in Er as [v Hin].
    rewrite chunk_node by (exists k, v; split; [cbn [contents]; rewrite !in_app_iff; auto|exact HS]).
    cbn [pdepth]. lia.
Qed.

Lemma kdepth_in k t : 0 < kdepth k t -> exists v, In (k, v) (contents t).
Proof.
  destruct t as [|k0 v0|lbl lf l r]; cbn [kdepth contents]; try lia. intros Hd.
  destruct (existsb (keq k) (contents l)) eqn:El; [apply keq_in in El as [v Hin]|].
  2: destruct (existsb (keq k) (contents r)) eqn:Er; [apply keq_in in Er as [v Hin]|lia].
  all: exists v; rewrite !in_app_iff; auto.
Qed.

(* the genuine chunk of a well-formed tree is REJECTED by the verifier model
   (depth 129 > 128): [chunks_verify] needs its depth hypothesis *)
Theorem deep_tree_chunk_rejected :
  exists es, Forall (fun e => valid_bytes (fst e)) es /\ wf (build es) /\
    forall H size, exists c, In c (chunks H size 0 (build es)) /\
                             verify H (root_hash H (build es)) c = false.
Proof.
  exists es_deep.
  assert (Forall (fun e => valid_bytes (fst e)) es_deep) as Hv by (apply keys_valid_ok; vm_compute; reflexivity).
  split; [exact Hv|]. split; [exact (build_wf _ Hv)|]. intros H size. clear Hv.
  set (t := build es_deep). set (k := bitkey 129).
  assert (kdepth k t = 129) as Hk by (vm_compute; reflexivity).
  clearbody t k.
  destruct (kdepth_in k t) as [v Hin]; [lia|].
  pose proof (seq_runs_concat size t) as Ec. rewrite <- Ec in Hin.
  apply in_concat in Hin as (run & Hr & He).
  exists (chunk_of H (inrun run) t). split.
  - unfold chunks, chunk_runs. exact (in_map (fun run0 => chunk_of H (inrun run0) t) _ _ Hr).
  - unfold verify. apply andb_false_iff. left. apply Nat.leb_gt.
    pose proof (kdepth_chunk H (inrun run) k t (inrun_self run _ _ He)) as Hd.
    assert (MAX_PROOF_DEPTH = 128) as -> by reflexivity. lia.
Qed.
