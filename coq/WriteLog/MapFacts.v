(* Facts about the byte-string order, first-match lookup in association lists
   keyed by byte strings, and the sorted key/value maps of WriteLog/Model.v. *)
From Verif Require Import Lib.Base WriteLog.Model.
From Coq Require Import Permutation.

Lemma bytes_eqb_spec a b : reflect (a = b) (bytes_eqb a b).
Proof. apply iff_reflect. symmetry. apply bytes_eqb_eq. Qed.

Lemma bytes_eqb_sym a b : bytes_eqb a b = bytes_eqb b a.
Proof.
  destruct (bytes_eqb_spec a b) as [->|H]; [symmetry; apply bytes_eqb_refl|].
  destruct (bytes_eqb_spec b a); congruence.
Qed.

Lemma bytes_cmp_spec a b :
  CompareSpec (a = b) (bytes_cmp a b = Lt) (bytes_cmp b a = Lt) (bytes_cmp a b).
Proof.
  destruct (bytes_cmp a b) eqn:E; constructor;
    [apply bytes_cmp_eq; exact E|reflexivity|apply bytes_cmp_gt_lt; exact E].
Qed.

(* [get] and [pget] of the model are this function at their value types, by
   conversion: its lemmas apply to them as they stand. *)
Section Lookup.
  Context {V : Type}.

  Fixpoint lookup (k : bytes) (l : list (bytes * V)) : option V :=
    match l with
    | [] => None
    | (k', v) :: r => if bytes_eqb k' k then Some v else lookup k r
    end.

  Lemma lookup_in k v l : lookup k l = Some v -> In (k, v) l.
  Proof.
    induction l as [|[k' v'] r IH]; cbn [lookup]; [discriminate|].
    destruct (bytes_eqb_spec k' k) as [->|_].
    - intros H. injection H as ->. left. reflexivity.
    - intros H. right. apply IH. exact H.
  Qed.

  Lemma lookup_none_iff k l : lookup k l = None <-> ~ In k (map fst l).
  Proof.
    induction l as [|[k' v] r IH]; cbn [lookup map fst In]; [tauto|].
    destruct (bytes_eqb_spec k' k) as [->|Hne]; [|tauto].
    split; [discriminate|]. intros H. exfalso. apply H. left. reflexivity.
  Qed.

  Lemma lookup_in_iff k v l : NoDup (map fst l) -> (lookup k l = Some v <-> In (k, v) l).
  Proof.
    intros Hnd. split; [apply lookup_in|].
    induction l as [|[k' v'] r IH]; cbn [lookup]; intros Hin; [destruct Hin|].
    cbn [map fst] in Hnd. inversion Hnd as [|? ? Hnotin Hnd']; subst.
    destruct Hin as [Hin|Hin].
    - injection Hin as -> ->. rewrite bytes_eqb_refl. reflexivity.
    - destruct (bytes_eqb_spec k' k) as [->|_]; [|apply IH; assumption].
      exfalso. apply Hnotin. apply (in_map fst) in Hin. exact Hin.
  Qed.

  Lemma lookup_app k l1 l2 :
    lookup k (l1 ++ l2) = match lookup k l1 with Some v => Some v | None => lookup k l2 end.
  Proof.
    induction l1 as [|[k' v] r IH]; cbn [lookup app]; [reflexivity|].
    destruct (bytes_eqb k' k); [reflexivity|exact IH].
  Qed.

  Lemma lookup_perm k l l' : NoDup (map fst l) -> Permutation l l' -> lookup k l = lookup k l'.
  Proof.
    intros Hnd Hp. destruct (lookup k l') as [v|] eqn:E.
    - apply lookup_in_iff; [exact Hnd|].
      apply (Permutation_in _ (Permutation_sym Hp)). apply lookup_in. exact E.
    - apply lookup_none_iff. apply lookup_none_iff in E. intros Hin. apply E.
      apply (Permutation_in _ (Permutation_map fst Hp)). exact Hin.
  Qed.
End Lookup.

Lemma pget_lookup k l : pget k l = lookup k l.
Proof. reflexivity. Qed.

Lemma get_set k v m k2 : get k2 (set k v m) = if bytes_eqb k k2 then Some v else get k2 m.
Proof.
  induction m as [|[k' v'] r IH]; cbn [set get]; [reflexivity|].
  destruct (bytes_cmp_spec k k') as [<-|_|Hlt]; cbn [get]; [destruct (bytes_eqb k k2); reflexivity|reflexivity|].
  rewrite IH. destruct (bytes_eqb_spec k' k2) as [->|_]; [|reflexivity].
  destruct (bytes_eqb_spec k k2) as [->|_]; [|reflexivity].
  rewrite bytes_cmp_refl in Hlt. discriminate.
Qed.

Lemma get_remove k m k2 : get k2 (remove k m) = if bytes_eqb k k2 then None else get k2 m.
Proof.
  induction m as [|[k' v'] r IH]; cbn [remove get]; [destruct (bytes_eqb k k2); reflexivity|].
  destruct (bytes_eqb_spec k' k) as [->|Hne]; cbn [get]; rewrite IH.
  - destruct (bytes_eqb k k2); reflexivity.
  - destruct (bytes_eqb_spec k' k2) as [->|_]; [|reflexivity].
    destruct (bytes_eqb_spec k k2); [congruence|reflexivity].
Qed.

Lemma remove_absent k m : get k m = None -> remove k m = m.
Proof.
  induction m as [|[k' v'] r IH]; cbn [remove get]; [reflexivity|].
  destruct (bytes_eqb k' k); [discriminate|]. intros H. rewrite IH by exact H. reflexivity.
Qed.

Definition key_lt (k : bytes) (e : bytes * bytes) : Prop := bytes_cmp k (fst e) = Lt.

Fixpoint sorted (m : kvmap) : Prop :=
  match m with
  | [] => True
  | (k, _) :: r => Forall (key_lt k) r /\ sorted r
  end.

Lemma Forall_set (P : bytes * bytes -> Prop) k v m :
  Forall P m -> P (k, v) -> Forall P (set k v m).
Proof.
  intros Hm Hk. induction m as [|[k' v'] r IH]; cbn [set].
  - constructor; [exact Hk|constructor].
  - inversion Hm as [|? ? H1 H2]; subst.
    destruct (bytes_cmp k k').
    + constructor; assumption.
    + constructor; [exact Hk|]. constructor; assumption.
    + constructor; [exact H1|]. apply IH. exact H2.
Qed.

Lemma Forall_remove (P : bytes * bytes -> Prop) k m :
  Forall P m -> Forall P (remove k m).
Proof.
  intros Hm. induction m as [|[k' v'] r IH]; cbn [remove]; [constructor|].
  inversion Hm as [|? ? H1 H2]; subst.
  destruct (bytes_eqb k' k); [apply IH; exact H2|].
  constructor; [exact H1|apply IH; exact H2].
Qed.

Lemma sorted_set k v m : sorted m -> sorted (set k v m).
Proof.
  induction m as [|[k' v'] r IH]; cbn [set sorted].
  - intros _. split; [constructor|exact I].
  - intros [Hf Hs]. destruct (bytes_cmp_spec k k') as [<-|Hlt|Hgt]; cbn [sorted].
    + split; assumption.
    + split; [|split; assumption].
      constructor; [exact Hlt|].
      eapply Forall_impl; [|exact Hf]. intros e He. unfold key_lt in *.
      eapply bytes_cmp_lt_trans; eassumption.
    + split; [|apply IH; exact Hs].
      apply Forall_set; [exact Hf|exact Hgt].
Qed.

Lemma sorted_remove k m : sorted m -> sorted (remove k m).
Proof.
  induction m as [|[k' v'] r IH]; cbn [remove sorted]; [trivial|].
  intros [Hf Hs]. destruct (bytes_eqb k' k); [apply IH; exact Hs|].
  cbn [sorted]. split; [apply Forall_remove; exact Hf|apply IH; exact Hs].
Qed.

Lemma lt_of_get_some k (r : kvmap) k2 :
  Forall (key_lt k) r -> get k2 r <> None -> bytes_cmp k k2 = Lt.
Proof.
  intros Hf. induction r as [|[k' v'] r IH]; cbn [get]; [congruence|].
  inversion Hf as [|? ? H1 H2]; subst.
  destruct (bytes_eqb_spec k' k2) as [<-|_]; [intros _; exact H1|apply IH; exact H2].
Qed.

Lemma get_none_of_lt k m : Forall (key_lt k) m -> get k m = None.
Proof.
  intros Hf. destruct (get k m) eqn:E; [|reflexivity]. exfalso.
  assert (L : bytes_cmp k k = Lt) by (apply (lt_of_get_some k m k Hf); congruence).
  rewrite bytes_cmp_refl in L. discriminate.
Qed.

Lemma sorted_ext m1 : forall m2,
  sorted m1 -> sorted m2 -> (forall k, get k m1 = get k m2) -> m1 = m2.
Proof.
  induction m1 as [|[k1 v1] r1 IH]; intros [|[k2 v2] r2] S1 S2 Hext.
  - reflexivity.
  - specialize (Hext k2). cbn [get] in Hext. rewrite bytes_eqb_refl in Hext. discriminate.
  - specialize (Hext k1). cbn [get] in Hext. rewrite bytes_eqb_refl in Hext. discriminate.
  - cbn [sorted] in S1, S2. destruct S1 as [F1 S1], S2 as [F2 S2].
    (* each head key is bound in the other map, so it is the other head or above it *)
    assert (Hk : k1 = k2).
    { pose proof (Hext k1) as H1. pose proof (Hext k2) as H2. cbn [get] in H1, H2.
      rewrite bytes_eqb_refl in H1, H2.
      destruct (bytes_eqb_spec k2 k1) as [E|_]; [symmetry; exact E|].
      destruct (bytes_eqb_spec k1 k2) as [E|_]; [exact E|].
      assert (L2 : bytes_cmp k2 k1 = Lt) by (apply (lt_of_get_some k2 r2 k1 F2); congruence).
      assert (L1 : bytes_cmp k1 k2 = Lt) by (apply (lt_of_get_some k1 r1 k2 F1); congruence).
      apply bytes_cmp_gt_lt in L2. congruence. }
    subst k2.
    assert (Hv : v1 = v2).
    { specialize (Hext k1). cbn [get] in Hext. rewrite bytes_eqb_refl in Hext. congruence. }
    subst v2. f_equal. apply IH; [exact S1|exact S2|].
    intros k. specialize (Hext k). cbn [get] in Hext.
    destruct (bytes_eqb_spec k1 k) as [E|_]; [subst k|exact Hext].
    rewrite (get_none_of_lt k1 r1 F1), (get_none_of_lt k1 r2 F2). reflexivity.
Qed.

Lemma kvmap_eqb_eq a : forall b, kvmap_eqb a b = true <-> a = b.
Proof.
  unfold kvmap_eqb. induction a as [|[k v] a IH]; intros [|[k' v'] b]; cbn [list_eqb];
    split; try congruence; try reflexivity.
  - intros H. apply andb_true_iff in H as [H1 H2]. unfold kv_eqb in H1. cbn [fst snd] in H1.
    apply andb_true_iff in H1 as [Hk Hv]. apply bytes_eqb_eq in Hk, Hv.
    apply IH in H2. congruence.
  - intros H. injection H as -> -> ->. unfold kv_eqb. cbn [fst snd].
    rewrite !bytes_eqb_refl. cbn. apply IH. reflexivity.
Qed.
