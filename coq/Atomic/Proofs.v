(* C08 — proofs about Atomic/Model.v. Two relations on context trees carry the overlay
   part: [frame t t'] (t' differs from t in its innermost layer only: every program run keeps
   it, so dropping a layer opened before the run gives back t literally) and [veq] (the same
   value under every key: a layer opened, written and committed reads like the parent written
   directly). The multiplexer part is one case analysis of processTx in DeliverTx mode
   ([process_tx_deliver]); the failed_tx_effect theorems add the premise that the handler is
   [atomic], which the syntactic condition [safe] guarantees. *)
From Verif Require Import Lib.Base Atomic.Model.

Lemma aget_commit_kv (o : ov) (b : kv) k :
  aget k (commit_kv o b) = match aget k o with Some x => x | None => aget k b end.
Proof.
  induction o as [|[k' x] o IH]; [reflexivity|].
  unfold commit_kv in *. cbn [fold_right fst snd aget].
  destruct (k' =? k) eqn:E.
  - apply N.eqb_eq in E. subst k'. destruct x as [v|].
    + apply aget_aset_same.
    + apply aget_adel_same.
  - apply N.eqb_neq in E. destruct x as [v|].
    + rewrite aget_aset_other by congruence. exact IH.
    + rewrite aget_adel_other by congruence. exact IH.
Qed.

Lemma aget_commit_ov (o p : ov) k :
  aget k (commit_ov o p) = match aget k o with Some x => Some x | None => aget k p end.
Proof.
  induction o as [|[k' x] o IH]; [reflexivity|].
  unfold commit_ov in *. cbn [fold_right fst snd aget].
  destruct (k' =? k) eqn:E.
  - apply N.eqb_eq in E. subst k'. apply aget_aset_same.
  - apply N.eqb_neq in E. rewrite aget_aset_other by congruence. exact IH.
Qed.

Lemma cget_cput_same k v t : cget k (cput k v t) = Some v.
Proof.
  destruct t as [b [|o r]]; unfold cget, cput; cbn [t_layers t_base lget].
  - apply aget_aset_same.
  - rewrite aget_aset_same. reflexivity.
Qed.

Lemma cget_cput_other k k' v t : k <> k' -> cget k (cput k' v t) = cget k t.
Proof.
  intros Hne. destruct t as [b [|o r]]; unfold cget, cput; cbn [t_layers t_base lget].
  - apply aget_aset_other; exact Hne.
  - rewrite aget_aset_other by exact Hne. reflexivity.
Qed.

Lemma cget_cdel_same k t : cget k (cdel k t) = None.
Proof.
  destruct t as [b [|o r]]; unfold cget, cdel; cbn [t_layers t_base lget].
  - apply aget_adel_same.
  - rewrite aget_aset_same. reflexivity.
Qed.

Lemma cget_cdel_other k k' t : k <> k' -> cget k (cdel k' t) = cget k t.
Proof.
  intros Hne. destruct t as [b [|o r]]; unfold cget, cdel; cbn [t_layers t_base lget].
  - apply aget_adel_other; exact Hne.
  - rewrite aget_aset_other by exact Hne. reflexivity.
Qed.

Lemma cget_copen k t : cget k (copen t) = cget k t.
Proof. reflexivity. Qed.

Lemma cget_ccommit k t : cget k (ccommit t) = cget k t.
Proof.
  destruct t as [b [|o [|p r]]]; unfold cget, ccommit; cbn [t_layers t_base lget].
  - reflexivity.
  - apply aget_commit_kv.
  - rewrite aget_commit_ov. destruct (aget k o); reflexivity.
Qed.

Definition frame (t t' : ctree) : Prop :=
  match t_layers t with
  | [] => t_layers t' = []
  | o :: ls => t_base t' = t_base t /\ exists o', t_layers t' = o' :: ls
  end.

Lemma frame_refl t : frame t t.
Proof. unfold frame. destruct (t_layers t) as [|o ls]; [reflexivity|]. split; [reflexivity|]. exists o. reflexivity. Qed.

Lemma frame_trans t1 t2 t3 : frame t1 t2 -> frame t2 t3 -> frame t1 t3.
Proof.
  unfold frame. destruct (t_layers t1) as [|o ls].
  - intros H1. rewrite H1. auto.
  - intros [Hb [o' Hl]]. rewrite Hl. intros [Hb2 [o2 Hl2]]. split; [congruence|]. exists o2. exact Hl2.
Qed.

Lemma frame_cput k v t : frame t (cput k v t).
Proof.
  unfold frame, cput. destruct (t_layers t) as [|o ls]; cbn [t_layers t_base]; [reflexivity|].
  split; [reflexivity|]. eexists. reflexivity.
Qed.

Lemma frame_cdel k t : frame t (cdel k t).
Proof.
  unfold frame, cdel. destruct (t_layers t) as [|o ls]; cbn [t_layers t_base]; [reflexivity|].
  split; [reflexivity|]. eexists. reflexivity.
Qed.

Lemma discard_after_open t t1 : frame (copen t) t1 -> cdiscard t1 = t.
Proof.
  unfold frame, copen, cdiscard. cbn [t_layers t_base]. intros [Hb [o' Hl]].
  rewrite Hl, Hb. destruct t; reflexivity.
Qed.

Lemma commit_after_open t t1 : frame (copen t) t1 -> frame t (ccommit t1).
Proof.
  unfold frame at 1, copen. cbn [t_layers t_base]. intros [Hb [o' Hl]].
  unfold frame, ccommit. rewrite Hl. destruct (t_layers t) as [|o ls]; cbn [t_layers t_base].
  - reflexivity.
  - split; [exact Hb|]. eexists. reflexivity.
Qed.

Lemma run_frame p : forall g t r g' t', run p g t = (r, g', t') -> frame t t'.
Proof.
  induction p as [r0|k c IH|k v c IH|k c IH|a c IH|body IHb c IHc]; intros g t r g' t' H; cbn [run] in H.
  - injection H as _ _ <-. apply frame_refl.
  - eapply IH; exact H.
  - eapply frame_trans; [apply frame_cput|]. eapply IH; exact H.
  - eapply frame_trans; [apply frame_cdel|]. eapply IH; exact H.
  - destruct (use_gas a g) as [e|g2].
    + injection H as _ _ <-. apply frame_refl.
    + eapply IH; exact H.
  - destruct (run body g (copen t)) as [[rb gb] tb] eqn:Rb.
    pose proof (IHb _ _ _ _ _ Rb) as Fb.
    destruct rb as [|e].
    + eapply frame_trans; [apply commit_after_open; exact Fb|]. eapply IHc; exact H.
    + rewrite (discard_after_open _ _ Fb) in H. eapply IHc; exact H.
Qed.

Lemma tx_lower_layers_untouched body c g t r g' t' :
  run (Tx body c) g t = (r, g', t') -> frame t t'.
Proof. apply run_frame. Qed.

Definition framed (h : handler) : Prop :=
  forall g t r g' t', h g t = (r, g', t') -> frame t t'.

Lemma run_framed p : framed (run p).
Proof. exact (run_frame p). Qed.

Lemma tx_discard_literal body g t r g1 t1 :
  run body g (copen t) = (r, g1, t1) -> cdiscard t1 = t.
Proof. intros H. apply discard_after_open. eapply run_frame; exact H. Qed.

Definition veq (t1 t2 : ctree) : Prop := forall k, cget k t1 = cget k t2.

Lemma veq_cput k v t1 t2 : veq t1 t2 -> veq (cput k v t1) (cput k v t2).
Proof.
  intros H k'. destruct (N.eq_dec k' k) as [->|Hne].
  - rewrite !cget_cput_same. reflexivity.
  - rewrite !cget_cput_other by exact Hne. apply H.
Qed.

Lemma veq_cdel k t1 t2 : veq t1 t2 -> veq (cdel k t1) (cdel k t2).
Proof.
  intros H k'. destruct (N.eq_dec k' k) as [->|Hne].
  - rewrite !cget_cdel_same. reflexivity.
  - rewrite !cget_cdel_other by exact Hne. apply H.
Qed.

Lemma run_veq p : forall g t1 t2, veq t1 t2 ->
  fst (run p g t1) = fst (run p g t2) /\ veq (snd (run p g t1)) (snd (run p g t2)).
Proof.
  induction p as [r0|k c IH|k v c IH|k c IH|a c IH|body IHb c IHc]; intros g t1 t2 V; cbn [run].
  - split; [reflexivity|exact V].
  - rewrite (V k). apply IH, V.
  - apply IH, veq_cput, V.
  - apply IH, veq_cdel, V.
  - destruct (use_gas a g) as [e|g3]; [split; [reflexivity|exact V]|apply IH, V].
  - assert (Vo : veq (copen t1) (copen t2)) by (intro k; rewrite !cget_copen; apply V).
    destruct (IHb g _ _ Vo) as [E Vb].
    destruct (run body g (copen t1)) as [[rb gb] tb1] eqn:R1, (run body g (copen t2)) as [[rb2 gb2] tb2] eqn:R2.
    cbn [fst snd] in E, Vb. injection E as <- <-.
    destruct rb as [|e].
    + apply IHc. intro k. rewrite !cget_ccommit. apply Vb.
    + rewrite (tx_discard_literal _ _ _ _ _ _ R1), (tx_discard_literal _ _ _ _ _ _ R2). apply IHc, V.
Qed.

Lemma tx_commit_exact body g t r g1 t1 r' g1' t2 :
  run body g (copen t) = (r, g1, t1) -> run body g t = (r', g1', t2) ->
  r = r' /\ g1 = g1' /\ forall k, cget k (ccommit t1) = cget k t2.
Proof.
  intros H1 H2. destruct (run_veq body g (copen t) t (fun k => cget_copen k t)) as [E V].
  rewrite H1, H2 in E, V. injection E as -> ->.
  split; [reflexivity|]. split; [reflexivity|]. intro k. rewrite cget_ccommit. apply V.
Qed.

Lemma tx_commit_view body g t :
  fst (fst (run body g t)) = Ok ->
  forall k, cget k (snd (run (Tx body Ret) g t)) = cget k (snd (run body g t)).
Proof.
  intros Hok k. cbn [run].
  destruct (run body g (copen t)) as [[r g1] t1] eqn:R1.
  destruct (run body g t) as [[r' g1'] t2] eqn:R2.
  destruct (tx_commit_exact _ _ _ _ _ _ _ _ _ R1 R2) as [Hr [_ H]].
  cbn [fst] in Hok. subst r'. subst r. cbn [run snd]. apply H.
Qed.

Definition atomic (h : handler) : Prop :=
  forall g t e g' t', h g t = (Err e, g', t') -> t' = t.

Lemma not_atomic_witness (h : handler) g t e g' t' :
  h g t = (Err e, g', t') -> t' <> t -> ~ atomic h.
Proof. intros H Hne A. apply Hne. eapply A; exact H. Qed.

Inductive nofail : prog -> Prop :=
| nf_ret : nofail (Ret Ok)
| nf_get k c : (forall v, nofail (c v)) -> nofail (Get k c)
| nf_put k v c : nofail c -> nofail (Put k v c)
| nf_del k c : nofail c -> nofail (Del k c)
| nf_tx body c : (forall r, nofail (c r)) -> nofail (Tx body c).

(* the two conventions the handlers follow: validate (read, charge gas) first and
   write last, or do the fallible writes inside NewTransaction()/Commit() *)
Inductive safe : prog -> Prop :=
| sf_ret r : safe (Ret r)
| sf_get k c : (forall v, safe (c v)) -> safe (Get k c)
| sf_gas a c : safe c -> safe (UseGas a c)
| sf_put k v c : nofail c -> safe (Put k v c)
| sf_del k c : nofail c -> safe (Del k c)
| sf_tx body c : nofail (c Ok) -> (forall e, safe (c (Err e))) -> safe (Tx body c).

Lemma nofail_run p : nofail p -> forall g t e g' t', run p g t <> (Err e, g', t').
Proof.
  induction 1 as [|k c _ IH|k v c _ IH|k c _ IH|body c _ IH]; intros g t e g' t'; cbn [run].
  - discriminate.
  - apply IH.
  - apply IH.
  - apply IH.
  - destruct (run body g (copen t)) as [[rb gb] tb]. destruct rb; apply IH.
Qed.

Lemma safe_atomic p : safe p -> atomic (run p).
Proof.
  induction 1 as [r|k c _ IH|a c _ IH|k v c Hn|k c Hn|body c Hn _ IH]; intros g t e g' t' H; cbn [run] in H.
  - injection H as _ _ <-. reflexivity.
  - eapply IH; exact H.
  - destruct (use_gas a g) as [e2|g2].
    + injection H as _ _ <-. reflexivity.
    + eapply IH; exact H.
  - destruct (nofail_run _ Hn _ _ _ _ _ H).
  - destruct (nofail_run _ Hn _ _ _ _ _ H).
  - destruct (run body g (copen t)) as [[rb gb] tb] eqn:Rb. destruct rb as [|e2].
    + destruct (nofail_run _ Hn _ _ _ _ _ H).
    + rewrite (tx_discard_literal _ _ _ _ _ _ Rb) in H. eapply IH; exact H.
Qed.

Lemma tx_wrapped_atomic body : atomic (run (Tx body Ret)).
Proof. apply safe_atomic. constructor; [constructor|intro e; constructor]. Qed.

Definition signer_acct (t : ctree) (x : tx) : acct :=
  match cget (tx_signer x) t with Some (VAcct a) => a | _ => zero_acct end.

Lemma auth_deliver_ok P t fa x t1 fa1 g1 :
  auth P Deliver t fa x = inr (t1, fa1, g1) ->
  t1 = cput (tx_signer x) (VAcct (paid_acct (signer_acct t x) (tx_fee x))) t /\
  fa1 = fa + tx_fee x /\
  g1 = mkGas (tx_gas x) 0 false /\
  p_reserved P (tx_signer x) = false /\
  a_nonce (signer_acct t x) = tx_nonce x /\
  tx_fee x + p_min_transact P <= a_bal (signer_acct t x).
Proof.
  unfold auth, signer_acct. destruct (p_reserved P (tx_signer x)); [discriminate|].
  destruct (cget (tx_signer x) t) as [[a|n]|]; [|discriminate|].
  (* a missing record reads as [zero_acct]: one argument for both *)
  all: destruct (_ =? tx_nonce x) eqn:En; cbn [negb]; [|discriminate].
  all: destruct (_ <? tx_fee x + p_min_transact P) eqn:Eb; [discriminate|].
  all: intros H; injection H as <- <- <-; repeat split; lia.
Qed.

Lemma auth_only_pre_execution_write P t fa x t1 fa1 g1 :
  auth P Deliver t fa x = inr (t1, fa1, g1) ->
  let a := signer_acct t x in
  fa1 = fa + tx_fee x /\
  cget (tx_signer x) t1 =
    Some (VAcct (mkAcct ((a_nonce a + 1) mod two64) (a_bal a - tx_fee x) (a_rest a))) /\
  (forall k, k <> tx_signer x -> cget k t1 = cget k t) /\
  frame t t1 /\
  a_nonce a = tx_nonce x /\ tx_fee x + p_min_transact P <= a_bal a.
Proof.
  intros H a. destruct (auth_deliver_ok _ _ _ _ _ _ _ H) as [-> [-> [_ [_ [Hn Hb]]]]].
  split; [reflexivity|]. split; [apply cget_cput_same|].
  split; [intros k Hk; apply cget_cput_other; exact Hk|].
  split; [apply frame_cput|]. split; assumption.
Qed.

Lemma auth_check_sim_no_write P m t fa x t1 fa1 g1 :
  m <> Deliver -> auth P m t fa x = inr (t1, fa1, g1) -> t1 = t /\ fa1 = fa.
Proof.
  intros Hm. unfold auth. destruct m; [congruence| |intros H; injection H as <- <- _; auto].
  destruct (p_reserved P (tx_signer x)); [discriminate|].
  destruct (cget (tx_signer x) t) as [[a|n]|]; [|discriminate|].
  all: destruct (negb (_ =? tx_nonce x)); [discriminate|].
  all: destruct (_ <? tx_fee x + p_min_transact P); [discriminate|].
  all: destruct ((0 <? tx_gas x) && (gas_price x <? p_local_min_price P)); [discriminate|].
  all: intros H; injection H as <- <- _; auto.
Qed.

(* processTx up to the handler's turn: the authentication handler, skipped for
   critical methods (transaction.go:74). *)
Definition pre_auth (P : params) (m : mode) (t : ctree) (fa : N) (x : tx) : N + (ctree * N * gasacc) :=
  if tx_critical x then inr (t, fa, nop_gas) else auth P m t fa x.

(* processTx in DeliverTx mode: after authentication only the handler can touch the tree *)
Lemma process_tx_deliver P exec t fa x size r g t' fa' :
  process_tx P exec Deliver t fa x size = (r, g, t', fa') ->
  (t' = t /\ fa' = fa)
  \/ exists h t1 g1,
       exec Deliver x = Some h /\ pre_auth P Deliver t fa x = inr (t1, fa', g1) /\
       (t' = t1 \/ exists g2 g3, h g2 t1 = (r, g3, t')).
Proof.
  unfold process_tx. change (if tx_critical x then _ else _) with (pre_auth P Deliver t fa x).
  destruct (exec Deliver x) as [h|]; [|intros H; injection H as _ _ <- <-; left; auto].
  destruct (pre_auth P Deliver t fa x) as [e1|[[t1 fa1] g1]]; [intros H; injection H as _ _ <- <-; left; auto|].
  intros H. right. exists h, t1, g1.
  destruct (use_gas ((size * p_byte_cost P) mod two64) g1) as [e2|g2].
  { injection H as _ _ <- <-. auto. }
  destruct ((0 <? p_min_gas_price P) && negb false && (gas_price x <? p_min_gas_price P)).
  { injection H as _ _ <- <-. auto. }
  destruct (h g2 t1) as [[r3 g3] t2] eqn:R.
  destruct r3; cbn [post_exec] in H; injection H as <- _ <- <-; eauto 7.
Qed.

Lemma failed_tx_effect_generic P exec dec size s e g s' :
  deliver P exec dec size s = (Err e, g, s') ->
  (forall x h, dec = Some x -> exec Deliver x = Some h -> atomic h) ->
  s' = s \/
  (exists x g1 t1 fa1, dec = Some x /\ tx_critical x = false /\
     auth P Deliver (m_tree s) (m_feeacc s) x = inr (t1, fa1, g1) /\
     s' = post_auth_state s x).
Proof.
  unfold deliver. intros H Hat. destruct dec as [x|]; [|injection H as _ _ <-; left; reflexivity].
  destruct (process_tx P exec Deliver (m_tree s) (m_feeacc s) x size) as [[[r g2] t'] fa'] eqn:Pr.
  injection H as -> _ <-.
  destruct (process_tx_deliver _ _ _ _ _ _ _ _ _ _ Pr) as [[-> ->]|[h [t1 [g1 [Hx [Hp Hh]]]]]].
  { left. destruct s; reflexivity. }
  (* the handler failed: by atomicity it left the tree authentication gave it *)
  assert (t' = t1) as -> by (destruct Hh as [E|[g3 [g4 R]]]; [exact E|exact (Hat x h eq_refl Hx _ _ _ _ _ R)]).
  unfold pre_auth in Hp. destruct (tx_critical x) eqn:Hc.
  - injection Hp as <- <- _. left. destruct s; reflexivity.
  - right. exists x, g1, t1, fa'. destruct (auth_deliver_ok _ _ _ _ _ _ _ Hp) as [-> [-> _]]. auto.
Qed.

Lemma failed_tx_effect_atomic P exec dec size s e g s' :
  (forall x h, exec Deliver x = Some h -> atomic h) ->
  deliver P exec dec size s = (Err e, g, s') ->
  s' = s \/ (exists x, dec = Some x /\ s' = post_auth_state s x).
Proof.
  intros Hat H.
  destruct (failed_tx_effect_generic _ _ _ _ _ _ _ _ H (fun x h _ => Hat x h))
    as [->|[x [g1 [t1 [fa1 [Hd [_ [_ ->]]]]]]]]; [left; reflexivity|right; exists x; auto].
Qed.

(* every handler follows one of the two conventions: no semantic premise left *)
Lemma failed_tx_effect_safe_handlers P exec dec size s e g s' :
  (forall x h, exec Deliver x = Some h -> exists p, h = run p /\ safe p) ->
  deliver P exec dec size s = (Err e, g, s') ->
  s' = s \/ (exists x, dec = Some x /\ s' = post_auth_state s x).
Proof.
  intros Hs. apply failed_tx_effect_atomic. intros x h Hx.
  destruct (Hs _ _ Hx) as [p [-> Sp]]. apply safe_atomic. exact Sp.
Qed.

Lemma rejected_up_to_auth_changes_nothing P exec dec size s :
  (dec = None \/
   exists x, dec = Some x /\
     (exec Deliver x = None \/
      (tx_critical x = false /\ exists e, auth P Deliver (m_tree s) (m_feeacc s) x = inl e))) ->
  exists e g, deliver P exec dec size s = (Err e, g, s).
Proof.
  unfold deliver, process_tx. intros [->|[x [-> [Hx|[Hc [e Ha]]]]]].
  - eexists _, _. reflexivity.
  - rewrite Hx. eexists _, _. destruct s; reflexivity.
  - destruct (exec Deliver x) as [h|].
    + rewrite Hc, Ha. eexists _, _. destruct s; reflexivity.
    + eexists _, _. destruct s; reflexivity.
Qed.

Lemma auth_failure_changes_nothing P exec x size s e :
  tx_critical x = false ->
  auth P Deliver (m_tree s) (m_feeacc s) x = inl e ->
  exists e' g, deliver P exec (Some x) size s = (Err e', g, s).
Proof.
  intros Hc Ha. apply rejected_up_to_auth_changes_nothing. right. exists x. split; [reflexivity|].
  right. split; [exact Hc|]. exists e. exact Ha.
Qed.

Lemma deliver_frame P exec dec size s r g s' :
  (forall x h, exec Deliver x = Some h -> framed h) ->
  deliver P exec dec size s = (r, g, s') ->
  frame (m_tree s) (m_tree s') /\ m_check s' = m_check s.
Proof.
  intros Hfr. unfold deliver. destruct dec as [x|].
  2:{ intros H; injection H as _ _ <-. split; [apply frame_refl|reflexivity]. }
  destruct (process_tx P exec Deliver (m_tree s) (m_feeacc s) x size) as [[[r2 g2] t'] fa'] eqn:Pr.
  intros H; injection H as _ _ <-. cbn [m_tree m_check]. split; [|reflexivity].
  destruct (process_tx_deliver _ _ _ _ _ _ _ _ _ _ Pr) as [[-> _]|[h [t1 [g1 [Hx [Hp Hh]]]]]]; [apply frame_refl|].
  apply frame_trans with t1.
  { unfold pre_auth in Hp. destruct (tx_critical x).
    - injection Hp as <- _ _. apply frame_refl.
    - destruct (auth_deliver_ok _ _ _ _ _ _ _ Hp) as [-> _]. apply frame_cput. }
  destruct Hh as [->|[g3 [g4 R]]]; [apply frame_refl|exact (Hfr x h Hx _ _ _ _ _ R)].
Qed.

(* transaction.go:86-100: transaction-size gas and minimum gas price are checked before the handler
   runs. (An oversized transaction is a decode failure: [rejected_up_to_auth_changes_nothing].) *)
Lemma mux_level_failures_precede_handler P exec x h size s t1 fa1 g1 :
  tx_critical x = false ->
  exec Deliver x = Some h ->
  auth P Deliver (m_tree s) (m_feeacc s) x = inr (t1, fa1, g1) ->
  ((exists e, use_gas ((size * p_byte_cost P) mod two64) g1 = inl e) \/
   ((0 <? p_min_gas_price P) = true /\ (gas_price x <? p_min_gas_price P) = true)) ->
  exists e g, deliver P exec (Some x) size s = (Err e, g, post_auth_state s x).
Proof.
  intros Hc Hx Ha Hf. unfold deliver, process_tx. rewrite Hx, Hc, Ha.
  destruct (auth_deliver_ok _ _ _ _ _ _ _ Ha) as [-> [-> _]].
  destruct (use_gas ((size * p_byte_cost P) mod two64) g1) as [e|g2] eqn:Eg.
  - eexists _, _. reflexivity.
  - destruct Hf as [[e He]|[H0 Hp]]; [discriminate|].
    rewrite H0, Hp. cbn [negb andb]. eexists _, _. reflexivity.
Qed.

Lemma check_and_estimate_pure P exec :
  (forall dec size s r g s', check_tx P exec dec size s = (r, g, s') ->
     m_tree s' = m_tree s /\ m_feeacc s' = m_feeacc s) /\
  (forall x size s gas s', estimate_gas P exec x size s = (gas, s') -> s' = s).
Proof.
  split.
  - intros dec size s r g s'. unfold check_tx. destruct dec as [x|].
    + destruct (process_tx P exec Check (mkT (m_check s) []) (m_feeacc s) x size) as [[[r2 g2] t'] fa'].
      intros H; injection H as _ _ <-. auto.
    + intros H; injection H as _ _ <-. auto.
  - intros x size s gas s'. unfold estimate_gas.
    destruct (process_tx P exec Sim (mkT (t_base (m_tree s)) []) (m_feeacc s) x size) as [[[r2 g2] t'] fa'].
    intros H; injection H as _ <-. reflexivity.
Qed.

Definition exP := mkP 0 1 0 0 (fun a => a =? 999).
Definition ex_s0 : mstate :=
  mkM (mkT [(1, VAcct (mkAcct 3 1000 77)); (2, VRaw 7)] [[(3, Some (VRaw 8))]]) 5 [(1, VAcct (mkAcct 3 1000 77))].
Definition ex_tx := mkTx 1 3 40 5000 0 false 0.

(* validate, charge gas, then a NESTED pair of transaction layers: the inner one
   commits into the outer, the outer fails. *)
Definition ex_safe : prog :=
  UseGas 50 (Get 2 (fun v =>
    Tx (Put 2 (VRaw 99) (Tx (Del 1 (Ret Ok)) (fun _ => Del 3 (Ret (Err 100))))) Ret)).
(* writes, then fails, with no layer: the multiplexer keeps the write *)
Definition ex_unsafe : prog := UseGas 50 (Put 2 (VRaw 99) (Ret (Err 100))).

Example ex_safe_is_safe : safe ex_safe.
Proof. repeat constructor. Qed.

Example ex_failed_tx_effect :
  exists g, deliver exP (fun _ _ => Some (run ex_safe)) (Some ex_tx) 200 ex_s0 = (Err 100, g, post_auth_state ex_s0 ex_tx)
  /\ post_auth_state ex_s0 ex_tx <> ex_s0.
Proof. eexists. split; [vm_compute; reflexivity|]. vm_compute. discriminate. Qed.

Example ex_auth_hypotheses :
  exists t1 fa1 g1, auth exP Deliver (m_tree ex_s0) (m_feeacc ex_s0) ex_tx = inr (t1, fa1, g1).
Proof. eexists _, _, _. vm_compute. reflexivity. Qed.

Example ex_auth_failure :
  exists e, auth exP Deliver (m_tree ex_s0) (m_feeacc ex_s0) (mkTx 1 4 40 5000 0 false 0) = inl e.
Proof. eexists. vm_compute. reflexivity. Qed.

Example ex_out_of_gas_in_handler :
  exists g, deliver exP (fun _ _ => Some (run ex_safe)) (Some (mkTx 1 3 40 249 0 false 0)) 200 ex_s0
            = (Err E_OUT_OF_GAS, g, post_auth_state ex_s0 (mkTx 1 3 40 249 0 false 0)).
Proof. eexists. vm_compute. reflexivity. Qed.

Example ex_commit_applies :
  forall k, cget k (snd (run (Tx (Put 2 (VRaw 99) (Del 3 (Ret Ok))) Ret) nop_gas (m_tree ex_s0)))
          = cget k (snd (run (Put 2 (VRaw 99) (Del 3 (Ret Ok))) nop_gas (m_tree ex_s0))).
Proof. apply tx_commit_view. vm_compute. reflexivity. Qed.

Lemma mux_does_not_roll_back :
  exists P exec x size s e g s',
    deliver P exec (Some x) size s = (Err e, g, s') /\ s' <> s /\ s' <> post_auth_state s x.
Proof.
  exists exP, (fun _ _ => Some (run ex_unsafe)), ex_tx, 200, ex_s0. eexists _, _, _.
  split; [vm_compute; reflexivity|]. split; vm_compute; discriminate.
Qed.

Example ex_check_estimate :
  fst (fst (check_tx exP (fun _ _ => Some (run ex_unsafe)) (Some ex_tx) 200 ex_s0)) = Err 100 /\
  m_check (snd (check_tx exP (fun _ _ => Some (run ex_unsafe)) (Some ex_tx) 200 ex_s0)) <> m_check ex_s0 /\
  fst (estimate_gas exP (fun _ _ => Some (run ex_unsafe)) ex_tx 200 ex_s0) = 250.
Proof. vm_compute. repeat split; discriminate. Qed.
Example ex_underpriced :
  exists e g, deliver (mkP 0 1 1000 0 (fun _ => false)) (fun _ _ => Some (run ex_unsafe)) (Some ex_tx) 200 ex_s0
              = (Err e, g, post_auth_state ex_s0 ex_tx) /\ e = E_GAS_PRICE_TOO_LOW.
Proof. eexists _, _. split; vm_compute; reflexivity. Qed.
