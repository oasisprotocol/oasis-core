(* Soundness of proof verification: an accepted proof describes the real tree
   with some subtrees replaced by their hashes, or exhibits a collision of H. *)
From Verif Require Import Lib.Base Mkvs.Trie Mkvs.HashProofs Gen.ProofConsts MkvsProof.Model.

(* the constants read from syncer/proof.go (Gen/ProofConsts.v) are the ones the
   model was written for *)
Lemma gen_consts_expected_l :
  max_proof_depth = 128 /\ min_proof_version = 0 /\ latest_proof_version = 1 /\
  proof_entry_full = 1 /\ proof_entry_hash = 2 /\ MAX_PROOF_DEPTH = max_proof_depth.
Proof. repeat split. Qed.

(* the fields of a decoded entry fit the fixed-width wire fields they were read
   from: LabelBitLength is a uint16 (node.Depth), the key length is read from a
   uint16 and the value length from a uint32 field (node.go:640-660) *)
Definition lf_wire (lf : option (bytes * bytes)) : Prop :=
  match lf with
  | None => True
  | Some (k, v) => N.of_nat (length k) < 2 ^ 32 /\ N.of_nat (length v) < 2 ^ 32
  end.
Definition entry_wire (e : pentry) : Prop :=
  match e with
  | EFull (NLeaf k v) => N.of_nat (length k) < 2 ^ 32 /\ N.of_nat (length v) < 2 ^ 32
  | EFull (NInt bl _ lf _) => bl < 2 ^ 16 /\ lf_wire lf
  | _ => True
  end.

Fixpoint pwf (p : ptree) : Prop :=
  match p with
  | PNil => True
  | PHash h => length h = HASH_SIZE
  | PLeaf k v => N.of_nat (length k) < 2 ^ 32 /\ N.of_nat (length v) < 2 ^ 32
  | PNode bl _ lf l r => bl < 2 ^ 16 /\ pwf lf /\ pwf l /\ pwf r
  end.

Definition of_opt (o : option bytes) : pres :=
  match o with Some v => Found v | None => Absent end.

(* an answer that is Unknown or the true one never contradicts the truth *)
Lemma of_opt_sound a o : a = Unknown \/ a = of_opt o ->
  (forall v, a = Found v -> o = Some v) /\ (a = Absent -> o = None).
Proof.
  intros [->| ->]; [split; [intros v|]; discriminate|].
  destruct o; cbn; split; try intros v'; congruence.
Qed.

Definition otree (olf : option (bytes * bytes)) : tree :=
  match olf with None => Nil | Some (k, v) => Leaf k v end.

Lemma of_nat_eqb a b : (N.of_nat a =? N.of_nat b) = (a =? b)%nat.
Proof. destruct (Nat.eqb_spec a b), (N.eqb_spec (N.of_nat a) (N.of_nat b)); lia || reflexivity. Qed.
Lemma of_nat_ltb a b : (N.of_nat a <? N.of_nat b) = (a <? b)%nat.
Proof. destruct (Nat.ltb_spec a b), (N.ltb_spec (N.of_nat a) (N.of_nat b)); lia || reflexivity. Qed.

Lemma otree_bounded olf : lf_wire olf -> bounded (otree olf).
Proof. destruct olf as [[k v]|]; cbn; auto. Qed.

Section Sound.
  Variable H : bytes -> bytes.
  Hypothesis Hlen : forall x, length (H x) = HASH_SIZE.

  (* [prunes p t]: the partial tree [p] is the tree [t] with some subtrees (or
     LeafNode pointers) replaced by their hashes *)
  Definition prunes_lf (lf : ptree) (olf : option (bytes * bytes)) : Prop :=
    match lf with
    | PNil => olf = None
    | PHash h => h = eval_hexpr H (opt_leaf_hexpr olf)
    | PLeaf k v => olf = Some (k, v)
    | PNode _ _ _ _ _ => False
    end.

  Fixpoint prunes (p : ptree) (t : tree) : Prop :=
    match p with
    | PNil => t = Nil
    | PHash h => h = root_hash H t
    | PLeaf k v => t = Leaf k v
    | PNode bl lb lf l r =>
        match t with
        | Node lbl olf tl tr =>
            bl = N.of_nat (length lbl) /\ lb = pack lbl /\
            prunes_lf lf olf /\ prunes l tl /\ prunes r tr
        | _ => False
        end
    end.

  (* the LeafNode slot is a tree of at most one node: what holds of [prunes]
     holds of the slot *)
  Lemma prunes_lf_otree lf olf : prunes_lf lf olf <-> prunes lf (otree olf).
  Proof.
    destruct lf as [|h|k v|]; destruct olf as [[k' v']|]; cbn; split; intros E;
      try congruence; try contradiction; try discriminate.
  Qed.

  Lemma otree_hash olf : root_hash H (otree olf) = eval_hexpr H (opt_leaf_hexpr olf).
  Proof. destruct olf as [[? ?]|]; reflexivity. Qed.

  Definition pnode_pre (bl : N) (lb hlf hl hr : bytes) : bytes :=
    [PREFIX_INTERNAL] ++ le_bytes 2 bl ++ lb ++ hlf ++ hl ++ hr.

  Lemma phash_node bl lb lf l r :
    phash H (PNode bl lb lf l r) = H (pnode_pre bl lb (phash H lf) (phash H l) (phash H r)).
  Proof. reflexivity. Qed.

  Lemma phash_len p : pwf p -> length (phash H p) = HASH_SIZE.
  Proof. destruct p; cbn; intros W; try apply Hlen. exact W. Qed.

  Lemma pnode_pre_inj bl lb a b c lbl a' b' c' :
    bl < 2 ^ 16 -> N.of_nat (length lbl) < 2 ^ 16 ->
    length a = HASH_SIZE -> length a' = HASH_SIZE -> length b = HASH_SIZE -> length b' = HASH_SIZE ->
    length c = HASH_SIZE -> length c' = HASH_SIZE ->
    pnode_pre bl lb a b c = node_pre lbl a' b' c' ->
    bl = N.of_nat (length lbl) /\ lb = pack lbl /\ a = a' /\ b = b' /\ c = c'.
  Proof.
    intros Bl Bl' La La' Lb Lb' Lc Lc' E. unfold pnode_pre, node_pre in E.
    apply app_inv_len in E as [_ E]; [|reflexivity].
    apply app_inv_len in E as [E1 E]; [|now rewrite !le_bytes_len].
    apply (le_bytes_inj 2) in E1; [|exact Bl|exact Bl'].
    assert (length lb = length (pack lbl)) as Ll.
    { apply (f_equal (@length N)) in E. rewrite !app_length in E. lia. }
    apply app_inv_len in E as [E2 E]; [|exact Ll].
    apply app_inv_len in E as [E3 E]; [|congruence].
    apply app_inv_len in E as [E4 E5]; [|congruence]. auto.
  Qed.

  (* The pre-images of the empty hash, of a leaf and of an internal node differ
     in their first byte: two of them with the same hash are a collision. *)
  Lemma empty_root t : root_hash H t = H [] -> t = Nil \/ collision H.
  Proof.
    destruct t; intros E; auto; apply (H_inj_or H) in E as [E|C]; auto; discriminate E.
  Qed.

  (* any partial tree with the hash of [t] prunes [t] *)
  Theorem hash_prunes p : forall t,
    pwf p -> bounded t -> phash H p = root_hash H t -> prunes p t \/ collision H.
  Proof.
    induction p as [|h|k v|bl lb lf IHlf l IHl r IHr]; intros t W B E; cbn [prunes].
    - apply empty_root. symmetry. exact E.
    - left. exact E.
    - destruct t as [|k' v'|lbl olf tl tr]; apply (H_inj_or H) in E as [E|C]; auto; try discriminate E.
      cbn in W, B. destruct W, B. apply leaf_pre_inj in E as [-> ->]; auto.
    - rewrite phash_node in E. destruct t as [|k' v'|lbl olf tl tr]; [| |rewrite node_hexpr_eval in E];
        apply (H_inj_or H) in E as [E|C]; auto; try discriminate E.
      destruct W as (Wb & Wlf & Wl & Wr), B as (Bl & Blf & Btl & Btr).
      apply pnode_pre_inj in E as (E1 & E2 & E3 & E4 & E5);
        auto using phash_len, (opt_leaf_len H HASH_SIZE Hlen), (root_hash_len H HASH_SIZE Hlen).
      rewrite <- otree_hash in E3.
      destruct (IHlf _ Wlf (otree_bounded _ Blf) E3) as [Plf|C]; auto.
      destruct (IHl tl Wl Btl E4) as [Pl|C]; auto.
      destruct (IHr tr Wr Btr E5) as [Pr|C]; auto.
      left. rewrite prunes_lf_otree. auto.
  Qed.

  Lemma prunes_hash p : forall t, prunes p t -> phash H p = root_hash H t.
  Proof.
    induction p as [|h|k v|bl lb lf IHlf l IHl r IHr]; intros t P; cbn [prunes] in P; try (subst; reflexivity).
    destruct t as [|k' v'|lbl olf tl tr]; try contradiction.
    destruct P as (-> & -> & Plf & Pl & Pr). apply prunes_lf_otree in Plf.
    rewrite phash_node, node_hexpr_eval, (IHlf _ Plf), (IHl _ Pl), (IHr _ Pr), otree_hash. reflexivity.
  Qed.

  Lemma olf_ptree_pwf lf : lf_wire lf -> pwf (olf_ptree lf).
  Proof. destruct lf as [[k v]|]; cbn; auto. Qed.

  Lemma vp_pwf fuel : forall ver depth es p rest,
    Forall entry_wire es -> vp fuel ver depth es = VOk p rest ->
    pwf p /\ Forall entry_wire rest.
  Proof.
    induction fuel as [|f IH]; intros ver depth es p rest F E; [discriminate|].
    cbn [vp] in E. destruct es as [|e es]; [discriminate|].
    destruct (MAX_PROOF_DEPTH <? depth); [discriminate|].
    inversion F as [|e0 es0 We Wes]; subst.
    destruct e as [|[k v|bl lb lf cl]|h|]; [| | | |discriminate].
    - injection E as <- <-. cbn; auto.
    - injection E as <- <-. cbn in We. cbn; auto.
    - destruct We as [Wb Wlf].
      destruct (if ver =? 0 then _ else _) as [plf r1|] eqn:Elf; [|discriminate].
      assert (pwf plf /\ Forall entry_wire r1) as [Plf F1].
      { destruct (ver =? 0); [injection Elf as <- <-; auto using olf_ptree_pwf|eauto]. }
      destruct (vp f ver (depth + 1) r1) as [pl r2|] eqn:El; [|discriminate].
      destruct (vp f ver (depth + 1) r2) as [pr r3|] eqn:Er; [|discriminate].
      injection E as <- <-.
      destruct (IH _ _ _ _ _ F1 El) as [Pl F2]. destruct (IH _ _ _ _ _ F2 Er) as [Pr F3].
      cbn [pwf]. auto.
    - destruct (length h =? HASH_SIZE)%nat eqn:L; [|discriminate]. injection E as <- <-.
      apply Nat.eqb_eq in L. cbn; auto.
  Qed.

  (* every entry is consumed exactly once, in order: the verifier returns a
     suffix of its input, strictly shorter *)
  Lemma vp_suffix fuel : forall ver depth es p rest,
    vp fuel ver depth es = VOk p rest ->
    exists used, es = used ++ rest /\ used <> [].
  Proof.
    induction fuel as [|f IH]; intros ver depth es p rest E; [discriminate|].
    cbn [vp] in E. destruct es as [|e es]; [discriminate|].
    destruct (MAX_PROOF_DEPTH <? depth); [discriminate|].
    assert (forall x, x = rest -> exists used, e :: x = used ++ rest /\ used <> []) as One.
    { intros x ->. exists [e]. split; [reflexivity|discriminate]. }
    destruct e as [|[k v|bl lb lf cl]|h|]; [| | | |discriminate].
    - injection E as <- <-. auto.
    - injection E as <- <-. auto.
    - destruct (if ver =? 0 then _ else _) as [plf r1|] eqn:Elf; [|discriminate].
      assert (exists u0, es = u0 ++ r1) as (u0 & ->).
      { destruct (ver =? 0); [injection Elf as <- <-; now exists []|].
        destruct (IH _ _ _ _ _ Elf) as (u & -> & _). eauto. }
      destruct (vp f ver (depth + 1) r1) as [pl r2|] eqn:El; [|discriminate].
      destruct (vp f ver (depth + 1) r2) as [pr r3|] eqn:Er; [|discriminate].
      injection E as <- <-.
      destruct (IH _ _ _ _ _ El) as (u1 & -> & _). destruct (IH _ _ _ _ _ Er) as (u2 & -> & _).
      exists (EFull (NInt bl lb lf cl) :: u0 ++ u1 ++ u2). split; [cbn [app]; now rewrite <- ?app_assoc|discriminate].
    - destruct (length h =? HASH_SIZE)%nat; [|discriminate]. injection E as <- <-. auto.
  Qed.

  (* a call deeper than maxProofDepth returns EDepth at once, so a run started at
     [depth] nests at most 130 - depth calls: with that much fuel it never ends
     for lack of fuel *)
  Lemma vp_fuel_enough fuel : forall ver depth es,
    depth + N.of_nat fuel >= 130 -> (0 < fuel)%nat -> vp fuel ver depth es <> VErr EFuel.
  Proof.
    induction fuel as [|f IH]; intros ver depth es Hf Hpos; [lia|].
    cbn [vp]. destruct es as [|e es]; [discriminate|].
    destruct (MAX_PROOF_DEPTH <? depth) eqn:D; [discriminate|].
    unfold MAX_PROOF_DEPTH, max_proof_depth in D.
    assert (forall es', vp f ver (depth + 1) es' <> VErr EFuel) as IH'.
    { intros es'. apply IH; lia. }
    destruct e as [|[k v|bl lb lf cl]|h|]; try discriminate.
    - destruct (if ver =? 0 then _ else _) as [plf r1|e0] eqn:Elf.
      + destruct (vp f ver (depth + 1) r1) as [pl r2|e1] eqn:El.
        * destruct (vp f ver (depth + 1) r2) as [pr r3|e2] eqn:Er; [discriminate|].
          intros [= ->]. exact (IH' _ Er).
        * intros [= ->]. exact (IH' _ El).
      + intros [= ->]. destruct (ver =? 0); [discriminate|]. exact (IH' _ Elf).
    - destruct (length h =? HASH_SIZE)%nat; discriminate.
  Qed.

  Lemma verify_inv ver root untrusted es p :
    verify H ver root untrusted es = ROk p ->
    exists p0, vp VP_FUEL ver 0 es = VOk p0 [] /\ phash H p0 = root /\
               p = (if bytes_eqb root (H []) then PNil else p0) /\
               ver <= 1 /\ untrusted = root /\ es <> [].
  Proof.
    unfold verify. intros E.
    destruct (1 <? ver) eqn:V; [discriminate|].
    destruct (bytes_eqb untrusted root) eqn:U; [|discriminate]. cbn [negb] in E.
    apply bytes_eqb_eq in U.
    destruct es as [|e es]; [discriminate|].
    destruct (vp VP_FUEL ver 0 (e :: es)) as [p0 rest|] eqn:Evp; [|discriminate].
    destruct rest; [|discriminate].
    destruct (bytes_eqb (phash H p0) root) eqn:R; [|discriminate].
    apply bytes_eqb_eq in R. injection E as <-. exists p0. rewrite R.
    repeat split; auto; [lia|discriminate].
  Qed.

  Theorem verify_sound_l ver untrusted es p t :
    verify H ver (root_hash H t) untrusted es = ROk p ->
    Forall entry_wire es -> bounded t ->
    prunes p t \/ collision H.
  Proof.
    intros E F B. apply verify_inv in E as (p0 & Evp & Eh & -> & _).
    destruct (vp_pwf _ _ _ _ _ _ F Evp) as [W _].
    destruct (bytes_eqb (root_hash H t) (H [])) eqn:Z.
    - apply bytes_eqb_eq in Z. cbn [prunes]. apply empty_root. exact Z.
    - apply hash_prunes; auto.
  Qed.

  Lemma verify_never_out_of_fuel ver root untrusted es :
    verify H ver root untrusted es <> RErr EFuel.
  Proof.
    unfold verify. destruct (1 <? ver); [discriminate|].
    destruct (negb (bytes_eqb untrusted root)); [discriminate|].
    destruct es as [|e es]; [discriminate|].
    destruct (vp VP_FUEL ver 0 (e :: es)) as [p0 rest|err] eqn:Evp.
    - destruct rest; [|discriminate]. destruct (bytes_eqb _ _); discriminate.
    - intros [= ->]. revert Evp. apply vp_fuel_enough; unfold VP_FUEL; lia.
  Qed.

  (* the walk at an internal node, depth and label length counted in [nat] as
     the trie model counts them *)
  Lemma plookup_node d k (lbl : path) lb lf l r :
    plookup (N.of_nat d) k (PNode (N.of_nat (length lbl)) lb lf l r) =
    let d' := (d + length lbl)%nat in
    let kl := length (bits_of k) in
    if (kl =? d')%nat then plookup (N.of_nat d') k lf
    else if (kl <? d')%nat then Absent
    else if bit (bits_of k) d' then plookup (N.of_nat d') k r else plookup (N.of_nat d') k l.
  Proof. cbn [plookup]. rewrite <- Nat2N.inj_add, of_nat_eqb, of_nat_ltb, Nat2N.id. reflexivity. Qed.

  Lemma plookup_go_node fresh d k (lbl : path) lb lf l r :
    plookup_go H fresh (N.of_nat d) k (PNode (N.of_nat (length lbl)) lb lf l r) =
    let d' := (d + length lbl)%nat in
    let kl := length (bits_of k) in
    if negb fresh && is_phash lf then Unknown
    else if (kl =? d')%nat then plookup_go H false (N.of_nat d') k lf
    else if (kl <? d')%nat then Absent
    else if bit (bits_of k) d' then plookup_go H false (N.of_nat d') k r
    else plookup_go H false (N.of_nat d') k l.
  Proof. cbn [plookup_go]. rewrite <- Nat2N.inj_add, of_nat_eqb, of_nat_ltb, Nat2N.id. reflexivity. Qed.

  Lemma plookup_prunes p : forall t d k,
    prunes p t ->
    plookup (N.of_nat d) k p = Unknown \/ plookup (N.of_nat d) k p = of_opt (lookup d k t).
  Proof.
    induction p as [|h|k0 v0|bl lb lf IHlf l IHl r IHr]; intros t d k P; cbn [prunes] in P.
    - subst t. right. reflexivity.
    - left. reflexivity.
    - subst t. right. cbn [plookup lookup]. destruct (bytes_eqb k0 k); reflexivity.
    - destruct t as [|k' v'|lbl olf tl tr]; try contradiction.
      destruct P as (-> & -> & Plf & Pl & Pr). rewrite plookup_node. cbn [lookup]. cbv zeta.
      destruct (_ =? _)%nat; [|destruct (_ <? _)%nat; [|destruct (bit _ _)]]; auto.
      apply prunes_lf_otree, (IHlf _ (d + length lbl)%nat k) in Plf. destruct olf as [[? ?]|]; exact Plf.
  Qed.

  Theorem plookup_sound_l p t d k :
    prunes p t ->
    (forall v, plookup (N.of_nat d) k p = Found v -> lookup d k t = Some v) /\
    (plookup (N.of_nat d) k p = Absent -> lookup d k t = None).
  Proof.
    intros P. exact (of_opt_sound _ _ (plookup_prunes p t d k P)).
  Qed.

  Lemma plookup_go_prunes p : forall t,
    prunes p t ->
    (forall fresh d k, plookup_go H fresh (N.of_nat d) k p = Unknown \/
                       plookup_go H fresh (N.of_nat d) k p = of_opt (lookup d k t)) \/ collision H.
  Proof.
    induction p as [|h|k0 v0|bl lb lf IHlf l IHl r IHr]; intros t P; cbn [prunes] in P.
    - subst t. left. intros fresh d k. right. reflexivity.
    - destruct (bytes_eqb h (H [])) eqn:Z.
      + pose proof Z as Z'. apply bytes_eqb_eq in Z'. subst h.
        destruct (empty_root t Z') as [->|C]; [|auto].
        left. intros fresh d k. right. cbn [plookup_go]. rewrite Z. reflexivity.
      + left. intros fresh d k. left. cbn [plookup_go]. rewrite Z. reflexivity.
    - subst t. left. intros fresh d k. right. cbn [plookup_go lookup]. destruct (bytes_eqb k0 k); reflexivity.
    - destruct t as [|k' v'|lbl olf tl tr]; try contradiction.
      destruct P as (-> & -> & Plf & Pl & Pr). apply prunes_lf_otree in Plf.
      destruct (IHlf _ Plf) as [Glf|C]; [|auto].
      destruct (IHl tl Pl) as [Gl|C]; [|auto]. destruct (IHr tr Pr) as [Gr|C]; [|auto].
      left. intros fresh d k. rewrite plookup_go_node. cbn [lookup]. cbv zeta.
      destruct (negb fresh && is_phash lf); [left; reflexivity|].
      destruct (_ =? _)%nat; [|destruct (_ <? _)%nat; [|destruct (bit _ _)]]; auto.
      specialize (Glf false (d + length lbl)%nat k). destruct olf as [[? ?]|]; exact Glf.
  Qed.

  Lemma pleaves_prunes p : forall t, prunes p t -> incl (pleaves p) (contents t).
  Proof.
    induction p as [|h|k0 v0|bl lb lf IHlf l IHl r IHr]; intros t P; cbn [prunes] in P; cbn [pleaves].
    - intros x [].
    - intros x [].
    - subst t. apply incl_refl.
    - destruct t as [|k' v'|lbl olf tl tr]; try contradiction.
      destruct P as (_ & _ & Plf & Pl & Pr). cbn [contents].
      apply prunes_lf_otree, IHlf in Plf.
      apply incl_app; [|apply incl_app].
      + apply incl_appl. destruct olf as [[? ?]|]; exact Plf.
      + apply incl_appr, incl_appl, IHl, Pl.
      + apply incl_appr, incl_appr, IHr, Pr.
  Qed.
End Sound.
