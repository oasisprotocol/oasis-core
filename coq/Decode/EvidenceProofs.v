From Verif Require Import Lib.Base Decode.GoSlice Decode.Evidence.

Lemma commit_vb_no_panic c : commit_validate_basic c <> Panic.
Proof.
  unfold commit_validate_basic.
  repeat match goal with |- context [if ?x then _ else _] => destruct x end; discriminate.
Qed.

Lemma prechecks_no_panic a b : prechecks a b <> Panic.
Proof.
  unfold prechecks.
  repeat match goal with |- context [if ?x then _ else _] => destruct x end; discriminate.
Qed.

Lemma commit_vb_ok_fields c : commit_validate_basic c = Ok tt -> c_failure c =? 0 = true ->
  is_some (r_io (c_hdr c)) = true /\ is_some (r_state (c_hdr c)) = true /\ is_some (r_msgs (c_hdr c)) = true.
Proof.
  unfold commit_validate_basic. intros H F. rewrite F in H.
  destruct (is_some (r_io (c_hdr c))); [|discriminate].
  destruct (is_some (r_state (c_hdr c))); [|discriminate].
  destruct (is_some (r_msgs (c_hdr c))); [|discriminate]. repeat split.
Qed.

Lemma evidence_validate_basic_total_l : forall sigs_ok a b, evidence_validate_basic sigs_ok a b <> Panic.
Proof.
  intros sigs_ok a b. unfold evidence_validate_basic.
  destruct (prechecks a b) as [[]|e|] eqn:Hp; cbn [rbind];
    [| discriminate | exfalso; eapply prechecks_no_panic; exact Hp].
  unfold validate_commits.
  destruct (commit_validate_basic a) as [[]|ea|] eqn:Ha; cbn [rbind]; try discriminate;
    [|exfalso; eapply commit_vb_no_panic; exact Ha].
  destruct (commit_validate_basic b) as [[]|eb|] eqn:Hb; cbn [rbind]; try discriminate;
    [|exfalso; eapply commit_vb_no_panic; exact Hb].
  unfold headers_conflict.
  destruct ((c_failure a =? 0) && (c_failure b =? 0)) eqn:Hf.
  - apply andb_true_iff in Hf as [Fa Fb].
    destruct (commit_vb_ok_fields a Ha Fa) as (A1 & A2 & A3).
    destruct (commit_vb_ok_fields b Hb Fb) as (B1 & B2 & B3).
    destruct (r_io (c_hdr a)), (r_state (c_hdr a)), (r_msgs (c_hdr a)); try discriminate.
    destruct (r_io (c_hdr b)), (r_state (c_hdr b)), (r_msgs (c_hdr b)); try discriminate.
    cbn [hash_equal rbind].
    repeat match goal with |- context [if ?x then _ else _] => destruct x; cbn [rbind negb] end; discriminate.
  - destruct (c_failure a =? c_failure b); cbn [rbind]; destruct sigs_ok; discriminate.
Qed.

(* with the comparisons first the function DOES panic: commit A without IORoot *)
Lemma evidence_reordered_panics_l :
  exists a b, evidence_validate_basic_reordered true a b = Panic /\
              evidence_validate_basic true a b = Err V_COMMIT_A.
Proof.
  exists (mkEc [1] [2] 0 (mkCrh 5 [9] None (Some [1]) (Some [2]) (Some [3]) 0) false 0 true),
         (mkEc [1] [2] 0 (mkCrh 5 [9] (Some [7]) (Some [1]) (Some [2]) (Some [3]) 0) false 0 true).
  split; vm_compute; reflexivity.
Qed.

Example evidence_accepts :
  evidence_validate_basic true
    (mkEc [1] [2] 0 (mkCrh 5 [9] (Some [6]) (Some [1]) (Some [2]) (Some [3]) 0) false 0 true)
    (mkEc [1] [2] 0 (mkCrh 5 [9] (Some [7]) (Some [1]) (Some [2]) (Some [3]) 0) false 0 true) = Ok tt.
Proof. vm_compute. reflexivity. Qed.
