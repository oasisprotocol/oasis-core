(* C13: pathbadger's write-log storage (model in PathStore.v).
   - GetWriteLog's resolution loop over any view of the node slots
     ([resolve_with]): it gives the plain log back when every reference
     resolves to its leaf, and fails on one that resolves to nothing;
     PathLogProofs.v specialises both to a store list.
   - What is served right after a commit, and that it stays: GetWriteLog reads
     five things of the database ([get_writelog_ext]); a commit into, or a
     Finalize of, a later version changes none of them.
   - The sequence numbers of one version are handed out in increasing order;
     [n] abandoned reservations in closed form. *)
From Verif Require Import Lib.Base WriteLog.Model WriteLog.PathLog WriteLog.PathStore.

(* roots and node positions are both pairs of numbers with the same test *)
Lemma dbkey_eqb_spec a b : reflect (a = b) (dbkey_eqb a b).
Proof.
  unfold dbkey_eqb. destruct a as [a1 a2], b as [b1 b2]. cbn [fst snd].
  destruct (N.eqb_spec a1 b1), (N.eqb_spec a2 b2); constructor; congruence.
Qed.
Lemma dbkey_eqb_refl a : dbkey_eqb a a = true.
Proof. destruct (dbkey_eqb_spec a a); congruence. Qed.

Lemma rid_eqb_spec (a b : rid) : reflect (a = b) (rid_eqb a b).
Proof. exact (dbkey_eqb_spec a b). Qed.
Lemma rid_eqb_refl (a : rid) : rid_eqb a a = true.
Proof. exact (dbkey_eqb_refl a). Qed.
Lemma rid_eqb_version a b : fst a <> fst b -> rid_eqb a b = false.
Proof. intros H. destruct (rid_eqb_spec a b); congruence. Qed.

Lemma resolve_with_nget st rootnode endv il :
  resolve st rootnode endv il = resolve_with (fun p => nget p st) rootnode endv il.
Proof.
  induction il as [|[p|k|] r IH]; cbn [resolve resolve_with]; rewrite ?IH; reflexivity.
Qed.

Lemma resolve_with_ext f g rootnode endv il :
  (forall p, f p = g p) -> resolve_with f rootnode endv il = resolve_with g rootnode endv il.
Proof.
  intros H. induction il as [|[p|k|] r IH]; cbn [resolve_with]; rewrite ?IH, ?H; reflexivity.
Qed.

Definition view_at (lookup : dbkey -> option snode) (rootnode : option snode) (endv : N) (p : dbkey) :=
  if dbkey_eqb p (endv, INDEX_ROOT) then rootnode else lookup p.

Lemma resolve_with_roundtrip lookup rootnode endv (al : list aentry) :
  (forall k v p, In (k, Some (v, p)) al ->
     exists n, view_at lookup rootnode endv p = Some n /\ leaf_from_db n = (k, Some v)) ->
  resolve_with lookup rootnode endv (make_internal al) = Some (strip al).
Proof.
  induction al as [|[k [[v p]|]] r IH]; intros H; cbn [make_internal strip map fst snd resolve_with].
  - reflexivity.
  - destruct (H k v p (or_introl eq_refl)) as [n [Hn Hl]]. unfold view_at in Hn.
    fold (make_internal r). fold (strip r).
    rewrite IH by (intros k0 v0 p0 Hin; apply H; right; exact Hin).
    rewrite Hn, Hl. reflexivity.
  - fold (make_internal r). fold (strip r).
    rewrite IH by (intros k0 v0 p0 Hin; apply H; right; exact Hin). reflexivity.
Qed.

Lemma resolve_with_unresolvable lookup rootnode endv il p :
  In (IInsert p) il -> view_at lookup rootnode endv p = None ->
  resolve_with lookup rootnode endv il = None.
Proof.
  intros Hin Hn. induction il as [|e r IH]; [destruct Hin|].
  destruct Hin as [->|Hin].
  - cbn [resolve_with]. unfold view_at in Hn. rewrite Hn. reflexivity.
  - specialize (IH Hin). destruct e as [q|k|]; cbn [resolve_with]; rewrite ?IH; try reflexivity.
    destruct (if dbkey_eqb q (endv, INDEX_ROOT) then rootnode else lookup q); reflexivity.
Qed.

Lemma make_internal_nonempty (al : list aentry) : al <> [] -> exists e r, make_internal al = e :: r.
Proof. destruct al as [|a r]; [congruence|]. intros _. eexists. eexists. reflexivity. Qed.

(* the view a reader at the end root's version has of the final slots once a
   batch with sequence number 0 has been committed *)
Definition view_seq0 (db : pbdb) (b : batch) (p : dbkey) : option snode :=
  nget_at (fst (b_end b)) p
    (map (fun pn => (fst (b_end b), fst pn, Some (snd pn))) (b_nodes b) ++ d_nodes db).

Definition follows_v (s e : rid) : bool := (fst e =? fst s) || (fst e =? fst s + 1).

Lemma get_after_commit_seq0_lem db b (al : list aentry) :
  is_finalized (d_fin db) (fst (b_end b)) = false ->
  has_rid db (b_end b) = false ->
  follows_v (b_start b) (b_end b) = true ->
  b_log b = make_internal al -> al <> [] ->
  (forall k v p, In (k, Some (v, p)) al ->
     exists n, view_at (view_seq0 db b) (b_root b) (fst (b_end b)) p = Some n /\
               leaf_from_db n = (k, Some v)) ->
  get_writelog (fst (commit db 0 b)) (b_start b) (b_end b) = GServed (strip al).
Proof.
  intros Hfin Hhas Hfol Hlog Hne Hok.
  destruct (make_internal_nonempty al Hne) as [e0 [r0 He0]].
  unfold commit. rewrite Hfin, Hhas. cbn [fst]. rewrite N.eqb_refl.
  rewrite Hlog, He0. unfold get_writelog. cbn [d_roots d_logs d_seq d_nodes].
  unfold follows_v in Hfol. rewrite Hfol. cbn [negb].
  unfold has_rid, log_of, seq_of, root_node. cbn [d_roots d_logs d_seq d_nodes existsb find fst snd].
  rewrite !rid_eqb_refl. cbn [orb andb negb fst snd]. rewrite N.eqb_refl. cbn [negb].
  rewrite <- He0.
  rewrite (resolve_with_roundtrip _ (b_root b) (fst (b_end b)) al); [reflexivity|].
  exact Hok.
Qed.

Lemma get_pending_nonzero_seq_lem db seq b :
  is_finalized (d_fin db) (fst (b_end b)) = false ->
  has_rid db (b_end b) = false ->
  follows_v (b_start b) (b_end b) = true ->
  seq <> 0 ->
  get_writelog (fst (commit db seq b)) (b_start b) (b_end b) = GNotFound.
Proof.
  intros Hfin Hhas Hfol Hseq.
  assert (Es : (seq =? 0) = false) by (apply N.eqb_neq; exact Hseq).
  unfold commit. rewrite Hfin, Hhas, Es. cbn [fst].
  unfold get_writelog. unfold follows_v in Hfol. rewrite Hfol. cbn [negb].
  unfold has_rid, log_of, seq_of. cbn [d_roots d_logs d_seq existsb find fst snd].
  rewrite !rid_eqb_refl. cbn [orb negb].
  destruct (b_log b) as [|e0 r0].
  - destruct (find _ (d_logs db)) as [x|]; [|reflexivity]. cbn [snd]. rewrite Es. reflexivity.
  - cbn [find fst snd]. rewrite !rid_eqb_refl. cbn [andb snd]. rewrite Es. reflexivity.
Qed.

Lemma nget_at_skip_newer ts p (ws1 ws2 : list mvwrite) :
  Forall (fun w => ts < fst (fst w)) ws1 ->
  nget_at ts p (ws1 ++ ws2) = nget_at ts p ws2.
Proof.
  induction 1 as [|[[t q] v] r Ht _ IH]; cbn [app nget_at]; [reflexivity|].
  apply N.leb_gt in Ht. cbn [fst] in Ht. rewrite Ht. exact IH.
Qed.

Lemma find_filter_keep {A} (f g : A -> bool) (l : list A) :
  (forall x, f x = true -> g x = true) -> find f (filter g l) = find f l.
Proof.
  intros H. induction l as [|x r IH]; cbn [filter find]; [reflexivity|].
  destruct (g x) eqn:Eg; cbn [find].
  - destruct (f x); [reflexivity|exact IH].
  - destruct (f x) eqn:Ef; [rewrite (H x Ef) in Eg; discriminate|exact IH].
Qed.

Lemma existsb_filter_keep {A} (f g : A -> bool) (l : list A) :
  (forall x, f x = true -> g x = true) -> existsb f (filter g l) = existsb f l.
Proof.
  intros H. induction l as [|x r IH]; cbn [filter existsb]; [reflexivity|].
  destruct (g x) eqn:Eg; cbn [existsb].
  - rewrite IH. reflexivity.
  - destruct (f x) eqn:Ef; [rewrite (H x Ef) in Eg; discriminate|]. cbn [orb]. exact IH.
Qed.

Lemma get_writelog_set_next db w n s e : get_writelog (set_next db w n) s e = get_writelog db s e.
Proof. reflexivity. Qed.

(* what GetWriteLog reads of the database *)
Lemma get_writelog_ext db db' s e :
  has_rid db' e = has_rid db e -> log_of db' e s = log_of db e s ->
  seq_of db' e = seq_of db e -> root_node db' e = root_node db e ->
  (forall p, nget_at (fst e) p (d_nodes db') = nget_at (fst e) p (d_nodes db)) ->
  get_writelog db' s e = get_writelog db s e.
Proof.
  intros Hh Hl Hs Hr Hn. unfold get_writelog. rewrite Hh, Hl, Hs, Hr.
  destruct (log_of db e s) as [il|]; [|reflexivity].
  rewrite (resolve_with_ext _ _ _ _ il Hn). reflexivity.
Qed.

Lemma get_writelog_commit_later db seq b s e :
  fst e < fst (b_end b) ->
  get_writelog (fst (commit db seq b)) s e = get_writelog db s e.
Proof.
  intros Hlt. unfold commit.
  destruct (is_finalized (d_fin db) (fst (b_end b))); [reflexivity|].
  destruct (has_rid db (b_end b)); [reflexivity|]. cbn [fst].
  assert (Hne : rid_eqb (b_end b) e = false) by (apply rid_eqb_version; lia).
  apply get_writelog_ext; unfold has_rid, log_of, seq_of, root_node;
    cbn [d_roots d_logs d_seq d_nodes existsb find fst snd]; rewrite ?Hne; try reflexivity.
  - destruct (b_log b); [reflexivity|]. cbn [find fst snd]. rewrite Hne. reflexivity.
  - intros p. destruct (seq =? 0); [|reflexivity]. apply nget_at_skip_newer.
    apply Forall_map, Forall_forall. intros pn _. exact Hlt.
Qed.

Lemma get_writelog_finalize_later db w pick s e :
  fst e < w -> get_writelog (finalize db w pick) s e = get_writelog db s e.
Proof.
  intros Hlt.
  assert (Hkeep : forall r : rid, rid_eqb r e = true -> negb (fst r =? w) = true).
  { intros r Hr. destruct (rid_eqb_spec r e) as [E|]; [subst r|discriminate].
    apply negb_true_iff. apply N.eqb_neq. lia. }
  apply get_writelog_ext; unfold has_rid, log_of, seq_of, root_node, finalize;
    cbn [d_roots d_logs d_seq d_nodes].
  - apply existsb_filter_keep. intros x Hx. rewrite (Hkeep _ Hx). reflexivity.
  - rewrite find_filter_keep; [reflexivity|].
    intros x Hx. apply andb_true_iff in Hx as [Hx _]. rewrite (Hkeep _ Hx). reflexivity.
  - rewrite find_filter_keep; [reflexivity|exact (fun x => Hkeep (fst x))].
  - rewrite find_filter_keep; [reflexivity|]. intros x Hx. rewrite (Hkeep _ Hx). reflexivity.
  - (* Finalize writes to the node slots at its own version only *)
    intros p. rewrite app_assoc. apply nget_at_skip_newer. apply Forall_app. split.
    + apply Forall_flat_map, Forall_forall. intros p0 _.
      destruct (dbkey_in p0 _); repeat constructor. exact Hlt.
    + destruct (seq_of db pick =? 0); [constructor|].
      apply Forall_flat_map, Forall_forall. intros [[[v0 s0] p0] n0] _.
      destruct ((v0 =? w) && (s0 =? seq_of db pick) && dbkey_in p0 _); repeat constructor. exact Hlt.
Qed.

Lemma new_batch_some db v db' s :
  new_batch db v = Some (db', s) -> db' = set_next db v (s + 1) /\ s = next_of db v /\ s <> SEQ_MAX.
Proof.
  unfold new_batch. destruct (next_of db v =? SEQ_MAX) eqn:E; [discriminate|].
  intros H. injection H as <- <-. apply N.eqb_neq in E. repeat split. exact E.
Qed.

Lemma get_writelog_burn n : forall db v s e,
  get_writelog (fst (burn_nat new_batch n db v)) s e = get_writelog db s e.
Proof.
  induction n as [|n IH]; intros db v s e; cbn [burn_nat]; [reflexivity|].
  destruct (new_batch db v) as [[db1 s1]|] eqn:En; [|apply IH].
  apply new_batch_some in En as [-> _].
  rewrite <- (get_writelog_set_next db v (s1 + 1) s e), <- (IH (set_next db v (s1 + 1)) v s e).
  destruct (burn_nat new_batch n (set_next db v (s1 + 1)) v). reflexivity.
Qed.

(* any later history: commits into and finalizations of later versions *)
Inductive later_call (v : N) : tcall -> Prop :=
| LCommit b : v < fst (b_end b) -> later_call v (TCommit b)
| LBurn w n : later_call v (TBurn w n)
| LFinalize w pick : v < w -> later_call v (TFinalize w pick)
| LGet s e : later_call v (TGet s e).

Fixpoint run_calls (db : pbdb) (t : list tcall) : pbdb :=
  match t with
  | [] => db
  | TCommit b :: r =>
      match new_batch db (fst (b_end b)) with
      | Some (db1, seq) => run_calls (fst (commit db1 seq b)) r
      | None => run_calls db r
      end
  | TBurn v n :: r => run_calls (fst (burn_nat new_batch (N.to_nat n) db v)) r
  | TFinalize w pick :: r => run_calls (finalize db w pick) r
  | TGet _ _ :: r => run_calls db r
  end.

Lemma served_log_stable_lem t : forall db s e,
  Forall (later_call (fst e)) t ->
  get_writelog (run_calls db t) s e = get_writelog db s e.
Proof.
  induction t as [|c r IH]; intros db s e H; cbn [run_calls]; [reflexivity|].
  inversion H as [|? ? Hc Hr]; subst. destruct Hc as [b Hb|w n|w pick Hw|s0 e0].
  - destruct (new_batch db (fst (b_end b))) as [[db1 s1]|] eqn:En; [|apply IH; exact Hr].
    apply new_batch_some in En as [-> _]. rewrite IH by exact Hr.
    rewrite get_writelog_commit_later by exact Hb. apply get_writelog_set_next.
  - rewrite IH by exact Hr. apply get_writelog_burn.
  - rewrite IH by exact Hr. apply get_writelog_finalize_later. exact Hw.
  - apply IH. exact Hr.
Qed.

Lemma chain_log_served_lem db b (al : list aentry) t :
  is_finalized (d_fin db) (fst (b_end b)) = false ->
  has_rid db (b_end b) = false ->
  follows_v (b_start b) (b_end b) = true ->
  b_log b = make_internal al -> al <> [] ->
  (forall k v p, In (k, Some (v, p)) al ->
     exists n, view_at (view_seq0 db b) (b_root b) (fst (b_end b)) p = Some n /\
               leaf_from_db n = (k, Some v)) ->
  Forall (later_call (fst (b_end b))) t ->
  get_writelog (run_calls (fst (commit db 0 b)) t) (b_start b) (b_end b) = GServed (strip al).
Proof.
  intros. rewrite served_log_stable_lem by assumption.
  apply get_after_commit_seq0_lem; assumption.
Qed.

(* The known finding on the storage model.
   v1: {"c"} (root node = the leaf); v2: + "ca" (root = internal node with
   the leaf of "c" embedded, "ca" standalone at (2,1)); v3: Insert("c","")
   again: the log entry carries the invalid pointer. *)
Definition rf_trace : list tcall :=
  [ TCommit (mkBatch (0, 0) (1, 1) [] [] (Some (SLeaf [99] [])) [IInsert (1, 0)]);
    TFinalize 1 (1, 1);
    TGet (0, 0) (1, 1);
    TCommit (mkBatch (1, 1) (2, 2) [((2, 1), SLeaf [99; 97] [])] []
                     (Some (SInternal (Some ([99], [])))) [IInsert (2, 1)]);
    TFinalize 2 (2, 2);
    TGet (1, 1) (2, 2);
    TCommit (mkBatch (2, 2) (3, 2) [] [] (Some (SInternal (Some ([99], []))))
                     (make_internal [([99], Some ([], invalid_ptr))]));
    TFinalize 3 (3, 2);
    TGet (2, 2) (3, 2) ].

Lemma pathbadger_store_unservable_refuted_lem :
  run_trace_case rf_trace =
  [ OSeq 0; ODone; OGet (GServed [([99], Some [])]);
    OSeq 0; ODone; OGet (GServed [([99; 97], Some [])]);
    OSeq 0; ODone; OGet GError ].
Proof. vm_compute. reflexivity. Qed.

(* non-vacuity of the chain lemma's hypotheses: the second commit above *)
Example chain_hyps :
  let db := run_calls empty_db (firstn 3 rf_trace) in
  let b := mkBatch (1, 1) (2, 2) [((2, 1), SLeaf [99; 97] [])] []
                   (Some (SInternal (Some ([99], [])))) [IInsert (2, 1)] in
  is_finalized (d_fin db) 2 = false /\ has_rid db (2, 2) = false /\
  follows_v (1, 1) (2, 2) = true /\
  view_at (view_seq0 db b) (b_root b) 2 (2, 1) = Some (SLeaf [99; 97] []).
Proof. vm_compute. repeat split. Qed.

(* two candidates in one version: the first is served while pending, the
   second only after it has been finalized, and then with ITS nodes *)
Example fork_trace :
  run_trace_case
    [ TCommit (mkBatch (0, 0) (1, 1) [((1, 1), SLeaf [97] [1]); ((1, 2), SLeaf [98] [1])] []
                       (Some (SInternal None)) [IInsert (1, 1); IInsert (1, 2)]);
      TCommit (mkBatch (0, 0) (1, 2) [((1, 1), SLeaf [97] [2]); ((1, 2), SLeaf [98] [2])] []
                       (Some (SInternal None)) [IInsert (1, 1); IInsert (1, 2)]);
      TGet (0, 0) (1, 1); TGet (0, 0) (1, 2);
      TFinalize 1 (1, 2);
      TGet (0, 0) (1, 1); TGet (0, 0) (1, 2) ]
  = [ OSeq 0; OSeq 1;
      OGet (GServed [([97], Some [1]); ([98], Some [1])]); OGet GNotFound;
      ODone;
      OGet GRootNotFound; OGet (GServed [([97], Some [2]); ([98], Some [2])]) ].
Proof. vm_compute. reflexivity. Qed.

Lemma seq_refused_at_max_lem db v : next_of db v = SEQ_MAX -> new_batch db v = None.
Proof. intros H. unfold new_batch. rewrite H. reflexivity. Qed.

Lemma next_of_set_next_same db v n : next_of (set_next db v n) v = n.
Proof. unfold next_of, set_next. cbn [d_next]. rewrite aget_aset_same. reflexivity. Qed.
Lemma next_of_set_next_other db v w n : v <> w -> next_of (set_next db w n) v = next_of db v.
Proof. intros H. unfold next_of, set_next. cbn [d_next]. rewrite aget_aset_other by exact H. reflexivity. Qed.
Lemma next_of_commit db seq b v : next_of (fst (commit db seq b)) v = next_of db v.
Proof.
  unfold commit. destruct (is_finalized _ _); [reflexivity|]. destruct (has_rid _ _); reflexivity.
Qed.
Lemma next_of_finalize db w p v : next_of (finalize db w p) v = next_of db v.
Proof. reflexivity. Qed.

Lemma next_of_new_batch db w db' s v :
  new_batch db w = Some (db', s) -> next_of db v <= next_of db' v.
Proof.
  intros H. apply new_batch_some in H as [-> [Hs _]].
  destruct (N.eq_dec v w) as [->|Hne].
  - rewrite next_of_set_next_same. lia.
  - rewrite next_of_set_next_other by exact Hne. lia.
Qed.

Lemma next_of_burn n : forall db w v, next_of db v <= next_of (fst (burn_nat new_batch n db w)) v.
Proof.
  induction n as [|n IH]; intros db w v; cbn [burn_nat fst]; [lia|].
  destruct (new_batch db w) as [[db1 s1]|] eqn:En; [|apply IH].
  pose proof (next_of_new_batch db w db1 s1 v En) as H1. pose proof (IH db1 w v) as H2.
  destruct (burn_nat new_batch n db1 w) as [db2 g]. cbn [fst] in *. lia.
Qed.

(* the numbers granted to the commits of one version, in order *)
Fixpoint commit_seqs (db : pbdb) (t : list tcall) (v : N) : list N :=
  match t with
  | [] => []
  | TCommit b :: r =>
      match new_batch db (fst (b_end b)) with
      | Some (db1, s) =>
          (if fst (b_end b) =? v then [s] else []) ++ commit_seqs (fst (commit db1 s b)) r v
      | None => commit_seqs db r v
      end
  | TBurn w n :: r => commit_seqs (fst (burn_nat new_batch (N.to_nat n) db w)) r v
  | TFinalize w p :: r => commit_seqs (finalize db w p) r v
  | TGet _ _ :: r => commit_seqs db r v
  end.

Fixpoint increasing_from (lo : N) (l : list N) : Prop :=
  match l with
  | [] => True
  | x :: r => lo <= x /\ increasing_from (x + 1) r
  end.

Lemma increasing_weaken l : forall lo lo', lo' <= lo -> increasing_from lo l -> increasing_from lo' l.
Proof. destruct l as [|x r]; intros lo lo' H; cbn [increasing_from]; [trivial|]. intros [H1 H2]. split; [lia|exact H2]. Qed.

Lemma increasing_nodup l : forall lo,
  increasing_from lo l -> Forall (fun x => lo <= x) l /\ NoDup l.
Proof.
  induction l as [|x r IH]; intros lo; cbn [increasing_from]; [split; constructor|].
  intros [H1 H2]. destruct (IH _ H2) as [Hf Hn]. split; constructor; try assumption.
  - eapply Forall_impl; [|exact Hf]. cbv beta. intros a Ha. lia.
  - intros Hin. rewrite Forall_forall in Hf. specialize (Hf x Hin). lia.
Qed.

Lemma commit_seqs_increasing t : forall db v, increasing_from (next_of db v) (commit_seqs db t v).
Proof.
  induction t as [|c r IH]; intros db v; cbn [commit_seqs]; [exact I|].
  destruct c as [b|w n|w p|s e].
  - destruct (new_batch db (fst (b_end b))) as [[db1 s1]|] eqn:En; [|apply IH].
    pose proof (new_batch_some _ _ _ _ En) as [Hdb [Hs _]].
    pose proof (IH (fst (commit db1 s1 b)) v) as H. rewrite next_of_commit in H.
    destruct (fst (b_end b) =? v) eqn:Ev; cbn [app].
    + apply N.eqb_eq in Ev. cbn [increasing_from]. split; [subst; lia|].
      subst db1. rewrite <- Ev in H. rewrite next_of_set_next_same in H. rewrite <- Ev. exact H.
    + eapply increasing_weaken; [|exact H]. apply (next_of_new_batch _ _ _ _ v En).
  - eapply increasing_weaken; [|apply IH]. apply next_of_burn.
  - rewrite <- (next_of_finalize db w p v). apply IH.
  - apply IH.
Qed.

Lemma commit_seqs_distinct_lem db t v :
  NoDup (commit_seqs db t v) /\ Forall (fun s => s <> SEQ_MAX) (commit_seqs db t v).
Proof.
  split; [apply (increasing_nodup _ _ (commit_seqs_increasing t db v))|].
  revert db. induction t as [|c r IH]; intros db; cbn [commit_seqs]; [constructor|].
  destruct c as [b|w n|w p|s e]; try apply IH.
  destruct (new_batch db (fst (b_end b))) as [[db1 s1]|] eqn:En; [|apply IH].
  apply Forall_app. split; [|apply IH].
  destruct (fst (b_end b) =? v); [|constructor].
  constructor; [|constructor]. apply new_batch_some in En as [_ [_ H]]. exact H.
Qed.

Lemma adel_idem {V} k (l : list (N * V)) : adel k (adel k l) = adel k l.
Proof. apply adel_notin. rewrite adel_keys_in. intros [_ H]. exact (H eq_refl). Qed.

Lemma set_next_twice db v a b : set_next (set_next db v a) v b = set_next db v b.
Proof. unfold set_next, aset. cbn. rewrite N.eqb_refl, adel_idem. reflexivity. Qed.

(* [n] abandoned reservations amount to one [set_next], for either counter *)
Lemma burn_wrapping n : forall db v,
  burn_nat new_batch_wrapping (N.to_nat n) db v =
  (if n =? 0 then db else set_next db v ((next_of db v + n) mod 65536), n).
Proof.
  induction n as [|n IH] using N.peano_ind; intros db v; [reflexivity|].
  rewrite N2Nat.inj_succ. cbn [burn_nat new_batch_wrapping]. rewrite IH, next_of_set_next_same.
  replace (N.succ n =? 0) with false by (symmetry; apply N.eqb_neq; lia).
  f_equal; [|lia]. destruct (n =? 0) eqn:E.
  - apply N.eqb_eq in E. subst n. reflexivity.
  - rewrite set_next_twice, N.add_mod_idemp_l by discriminate. do 2 f_equal. lia.
Qed.

Lemma burn_refusing n : forall db v, next_of db v <= SEQ_MAX ->
  burn_nat new_batch (N.to_nat n) db v =
  let g := N.min n (SEQ_MAX - next_of db v) in
  (if g =? 0 then db else set_next db v (next_of db v + g), g).
Proof.
  cbv zeta. induction n as [|n IH] using N.peano_ind; intros db v Hle.
  { rewrite N.min_0_l. reflexivity. }
  rewrite N2Nat.inj_succ. cbn [burn_nat]. unfold new_batch.
  destruct (next_of db v =? SEQ_MAX) eqn:E.
  - apply N.eqb_eq in E. rewrite IH by exact Hle. rewrite E, N.sub_diag, !N.min_0_r. reflexivity.
  - apply N.eqb_neq in E. rewrite IH by (rewrite next_of_set_next_same; lia).
    rewrite next_of_set_next_same.
    replace (N.min (N.succ n) (SEQ_MAX - next_of db v))
      with (N.min n (SEQ_MAX - (next_of db v + 1)) + 1) by lia.
    set (g := N.min n (SEQ_MAX - (next_of db v + 1))).
    replace (g + 1 =? 0) with false by (symmetry; apply N.eqb_neq; lia).
    f_equal. destruct (g =? 0) eqn:Eg.
    + apply N.eqb_eq in Eg. rewrite Eg. reflexivity.
    + rewrite set_next_twice. f_equal. lia.
Qed.

Lemma run_trace_with_commit nb db b r db1 seq :
  nb db (fst (b_end b)) = Some (db1, seq) ->
  run_trace_with nb db (TCommit b :: r) = OSeq seq :: run_trace_with nb (fst (commit db1 seq b)) r.
Proof. intros H. cbn [run_trace_with]. rewrite H. destruct (commit db1 seq b). reflexivity. Qed.

Lemma run_trace_with_burn nb db v n r db1 g :
  burn_nat nb (N.to_nat n) db v = (db1, g) ->
  run_trace_with nb db (TBurn v n :: r) = OBurn g :: run_trace_with nb db1 r.
Proof. intros H. cbn [run_trace_with]. rewrite H. reflexivity. Qed.

(* the wrapping counter, refuted: commit A (number 0, final slots), 65535
   abandoned reservations, commit a competing root D: it gets number 0 again
   and overwrites A's nodes; the log served for (R0, A) then carries D's values *)
Definition wrap_trace : list tcall :=
  [ TCommit (mkBatch (0, 0) (1, 1) [((1, 1), SLeaf [97] [1]); ((1, 2), SLeaf [98] [1])] []
                     (Some (SInternal None)) [IInsert (1, 1); IInsert (1, 2)]);
    TBurn 1 65535;
    TCommit (mkBatch (0, 0) (1, 2) [((1, 1), SLeaf [97] [4]); ((1, 2), SLeaf [98] [4])] []
                     (Some (SInternal None)) [IInsert (1, 1); IInsert (1, 2)]);
    TGet (0, 0) (1, 1) ].

(* the 65535 reservations are not run: the closed forms above give the
   database after them, the four calls around them are evaluated *)
Lemma seq_wrap_refuted_lem :
  run_trace_with new_batch_wrapping empty_db wrap_trace =
    [OSeq 0; OBurn 65535; OSeq 0; OGet (GServed [([97], Some [4]); ([98], Some [4])])] /\
  run_trace_with new_batch empty_db wrap_trace =
    [OSeq 0; OBurn 65534; ORefused; OGet (GServed [([97], Some [1]); ([98], Some [1])])].
Proof.
  unfold wrap_trace. split.
  - erewrite run_trace_with_commit by reflexivity.
    erewrite run_trace_with_burn by apply burn_wrapping.
    vm_compute. reflexivity.
  - erewrite run_trace_with_commit by reflexivity.
    erewrite run_trace_with_burn by (apply burn_refusing; vm_compute; discriminate).
    vm_compute. reflexivity.
Qed.
