(* C10 -- No block content can halt block execution.
   Theorems about the executable ports in NoHalt/Model.v of the arithmetic whose
   errors are fatal (an error returned from BeginBlock/EndBlock is turned into a
   panic by the multiplexer).  [Fatal] = the Go function returns an error. *)
From Verif Require Import Lib.Base NoHalt.Model NoHalt.Proofs NoHalt.SeqProofs NoHalt.TallyProofs.
From Verif Require Import Sched.Elect NoHalt.ElectProofs NoHalt.GovProofs NoHalt.UpdProofs NoHalt.InMsgProofs.

(* disburseFeesP never fails, for any fee total and any weights that pass
   ConsensusParameters.SanityCheck (not all three zero), proposer known or not *)
Theorem disburse_p_total :
  forall total wP wV wQ known,
    wP + wV + wQ <> 0 -> is_fatal (fee_p total wP wV wQ known) = false.
Proof. exact fee_p_total. Qed.
Print Assumptions disburse_p_total.

(* disburseFeesP distributes exactly the block's fees *)
Theorem disburse_p_conserves :
  forall total wP wV wQ known a b c,
    fee_p total wP wV wQ known = Ok (a, b, c) -> a + b + c = total.
Proof. exact fee_p_conserves. Qed.
Print Assumptions disburse_p_conserves.

(* disburseFeesVQ (as repaired by commit c9cfe37) never fails for any persisted
   fees, ALL weights and ANY vote pattern (0 <= voters <= entries, including all
   absent) when the commit info is non-empty *)
Theorem disburse_vq_total :
  forall last nEV nVE wV wQ known,
    0 < nEV -> nVE <= nEV ->
    is_fatal (fee_vq last nEV nVE wV wQ known) = false.
Proof. exact fee_vq_total. Qed.
Print Assumptions disburse_vq_total.

(* next proposer + every voter's share + common pool = pending fees *)
Theorem disburse_vq_conserves :
  forall last nEV nVE wV wQ known a b c,
    0 < nEV -> nVE <= nEV ->
    fee_vq last nEV nVE wV wQ known = Ok (a, b, c) -> a + b * nVE + c = last.
Proof. exact fee_vq_conserves. Qed.
Print Assumptions disburse_vq_conserves.

(* at the initial height (empty commit info) the persisted fees are zero and
   nothing is divided *)
Theorem disburse_vq_initial_height :
  forall nEV nVE wV wQ known, fee_vq 0 nEV nVE wV wQ known = Ok (0, 0, 0).
Proof. exact fee_vq_zero_fees. Qed.
Print Assumptions disburse_vq_initial_height.

(* end-of-block split under the OLD weights followed by the next block's split
   under ANY NEW weights never fails (a parameter change may happen in between) *)
Theorem disburse_p_then_vq_total :
  forall total wP wV wQ known persist b c nEV nVE wV' wQ' known',
    fee_p total wP wV wQ known = Ok (persist, b, c) ->
    0 < nEV -> nVE <= nEV ->
    is_fatal (fee_vq persist nEV nVE wV' wQ' known') = false.
Proof. exact fee_p_then_vq_total. Qed.
Print Assumptions disburse_p_then_vq_total.

(* The ORIGINAL disburseFeesVQ (before c9cfe37; definition fee_vq_original) is
   REFUTED under the sanity check alone: weights (P,V,Q) = (w,0,0) pass the check,
   and with non-zero persisted fees it fails where the repaired function does not.
   A revert of the repair makes the correspondence check disagree on exactly such cases. *)
Theorem disburse_vq_total_original_refuted :
  exists last nEV nVE wP wV wQ known,
    wP + wV + wQ <> 0 /\ 0 < nEV /\ nVE <= nEV /\ last <> 0 /\
    fee_vq_original last nEV nVE wV wQ known = Fatal /\
    is_fatal (fee_vq last nEV nVE wV wQ known) = false.
Proof. exact fee_vq_original_refuted. Qed.
Print Assumptions disburse_vq_total_original_refuted.

Theorem disburse_vq_original_fatal_zero_weights :
  forall last nEV nVE known, last <> 0 -> fee_vq_original last nEV nVE 0 0 known = Fatal.
Proof. exact fee_vq_original_fatal_zero_weights. Qed.
Print Assumptions disburse_vq_original_fatal_zero_weights.

(* outside the zero-weight case the repair changes nothing *)
Theorem disburse_vq_original_agrees :
  forall last nEV nVE wV wQ known,
    wV + wQ <> 0 -> fee_vq_original last nEV nVE wV wQ known = fee_vq last nEV nVE wV wQ known.
Proof. exact fee_vq_original_agrees. Qed.
Print Assumptions disburse_vq_original_agrees.

(* AddRewards / AddRewardSingleAttenuated never fail for any escrow, factor,
   scale, pool (including a depleted one) and vote count, when the attenuation
   denominator (number of commit-info entries) is non-zero and the commission
   rate is at most 100 % *)
Theorem rewards_total :
  forall rden cden bal ts factor scale num den pool rate,
    rden <> 0 -> cden <> 0 -> den <> 0 -> rate <= cden ->
    is_fatal (reward rden cden bal ts factor scale num den pool rate) = false.
Proof. exact reward_total. Qed.
Print Assumptions rewards_total.

(* the first-block guard (no epoch => no proposer reward) is necessary *)
Theorem rewards_fatal_on_empty_commit_info :
  forall rden cden bal ts factor scale num pool rate,
    rden <> 0 -> reward rden cden bal ts factor scale num 0 pool rate = Fatal.
Proof. exact reward_fatal_den_zero. Qed.
Print Assumptions rewards_fatal_on_empty_commit_info.

(* the epoch-end AddRewards LOOP (entities share one common-pool value, an entity whose
   reward does not fit is skipped, the pool is written once) never fails: for any pool
   -- also one that runs dry in the middle of the loop --, any stakes -- also dead pools
   (zero balance, shares outstanding) --, any factor/scale and any commission rates up to
   100 %; it yields one entry per entity and the pool decreases by exactly what was paid *)
Theorem rewards_sequence_total :
  forall rden cden factor scale accts pool,
    rden <> 0 -> cden <> 0 -> rates_ok cden accts ->
    exists l p, rewards_seq rden cden factor scale accts pool = Ok (l, p) /\
                length l = length accts /\ p + paid l = pool.
Proof. exact rewards_seq_ok. Qed.
Print Assumptions rewards_sequence_total.

(* the proposer-reward path end to end: total because the commit info can be empty only
   at the first block, where no epoch is known and the path returns early *)
Theorem proposer_reward_path_total :
  forall rden cden known epoch_valid scale bal ts factor nVE nEV pool rate,
    rden <> 0 -> cden <> 0 -> rate <= cden -> (epoch_valid = true -> nEV <> 0) ->
    is_fatal (proposer_path rden cden known epoch_valid scale bal ts factor nVE nEV pool rate) = false.
Proof. exact proposer_path_total. Qed.
Print Assumptions proposer_reward_path_total.

(* the signing-reward path end to end (threshold test with its overflow guards, then
   AddRewards over the eligible entities): never fails while the counters fit in 64 bits,
   and conserves the pool *)
Theorem signing_reward_path_total :
  forall rden cden tnum tden total factor scale ents pool,
    rden <> 0 -> cden <> 0 -> signing_ok cden tnum tden total ents ->
    exists l p, signing_path rden cden tnum tden total factor scale ents pool = Ok (l, p) /\
                p + paid l = pool.
Proof. exact signing_path_ok. Qed.
Print Assumptions signing_reward_path_total.

(* TransferFromCommon(escrow=true) (as repaired by commit c3a21ab) never fails, for ANY
   destination pool -- including one slashed to zero with shares outstanding -- any pool,
   amount and commission rate up to 100 % *)
Theorem transfer_from_common_escrow_total :
  forall cden bal ts pool amount rate,
    cden <> 0 -> rate <= cden ->
    is_fatal (transfer_from_common_escrow cden bal ts pool amount rate) = false.
Proof. exact tfc_total. Qed.
Print Assumptions transfer_from_common_escrow_total.

(* the common pool decreases by exactly what the escrow (rem + com) and the general
   balance (gen) of the destination receive, and by no more than it holds *)
Theorem transfer_from_common_escrow_conserves :
  forall cden bal ts pool amount rate rem com sh gen,
    cden <> 0 -> rate <= cden ->
    transfer_from_common_escrow cden bal ts pool amount rate = Ok (Some (rem, com, sh, gen)) ->
    rem + com + gen = N.min pool amount /\ N.min pool amount <= pool.
Proof. exact tfc_conserves. Qed.
Print Assumptions transfer_from_common_escrow_conserves.

(* The ORIGINAL function (before c3a21ab; definition transfer_from_common_escrow_original)
   is REFUTED: a destination slashed to zero with shares outstanding and a 100 % commission
   rate makes it fail (caller: roothash distributeSlashedFunds, run from EndBlock -- the halt
   was reproduced on the real multiplexer), where the repaired function does not. *)
Theorem transfer_from_common_escrow_original_refuted :
  exists cden bal ts pool amount rate,
    cden <> 0 /\ rate <= cden /\
    transfer_from_common_escrow_original cden bal ts pool amount rate = Fatal /\
    is_fatal (transfer_from_common_escrow cden bal ts pool amount rate) = false.
Proof. exact tfc_original_refuted. Qed.
Print Assumptions transfer_from_common_escrow_original_refuted.

(* every such state fails in the original; the repair leaves the commission in the general balance *)
Theorem transfer_from_common_escrow_original_fatal_dead_pool :
  forall cden ts pool amount,
    cden <> 0 -> ts <> 0 -> pool <> 0 -> amount <> 0 ->
    transfer_from_common_escrow_original cden 0 ts pool amount cden = Fatal /\
    transfer_from_common_escrow cden 0 ts pool amount cden = Ok (Some (0, 0, 0, N.min pool amount)).
Proof. exact tfc_original_fatal_full_commission. Qed.
Print Assumptions transfer_from_common_escrow_original_fatal_dead_pool.

(* outside the dead-pool case the repair changes nothing *)
Theorem transfer_from_common_escrow_original_agrees :
  forall cden bal ts pool amount rate,
    cden <> 0 -> rate <= cden -> (ts = 0 \/ bal <> 0 \/ rate < cden) ->
    transfer_from_common_escrow_original cden bal ts pool amount rate =
    transfer_from_common_escrow cden bal ts pool amount rate.
Proof. exact tfc_original_agrees. Qed.
Print Assumptions transfer_from_common_escrow_original_agrees.

(* SlashEscrow never fails and never takes more than each pool holds *)
Theorem slash_total :
  forall active deb amount,
    exists sa sd, slash_escrow active deb amount = Ok (sa, sd) /\ sa <= active /\ sd <= deb.
Proof. exact NoHalt.Proofs.slash_total. Qed.
Print Assumptions slash_total.

(* a penalty of at least the whole escrow slashes to exactly zero *)
Theorem slash_to_zero :
  forall active deb amount,
    active + deb <= amount -> slash_escrow active deb amount = Ok (active, deb).
Proof. exact NoHalt.Proofs.slash_to_zero. Qed.
Print Assumptions slash_to_zero.

(* completing a debonding delegation never fails under the share invariant of the debonding pool *)
Theorem debonding_completion_total :
  forall bal ts shares,
    shares <= ts -> exists base, debond_complete bal ts shares = Ok base /\ base <= bal.
Proof. exact debond_total. Qed.
Print Assumptions debonding_completion_total.

(* the overflow guards of the signing-reward eligibility do not fire while the
   products fit in 64 bits *)
Theorem epoch_signing_total :
  forall total count tnum tden,
    total * tnum <= u64max -> count * tden <= u64max ->
    is_fatal (signing_eligible total count tnum tden) = false.
Proof. exact signing_eligible_total. Qed.
Print Assumptions epoch_signing_total.

(* for ANY vote list with one vote per account and ARBITRARY uint8 vote values (castVote
   accepts any value, the tally keeps one entry per value), under the ledger share
   invariant, the tally's share subtraction never underflows and the voted stake (summed
   over all 256 possible values) never exceeds the total voting stake *)
Theorem tally_never_exceeds_total :
  forall validators delegs votes,
    votes_ok votes -> NoDup (map fst votes) -> ledger_inv validators delegs ->
    exists rs, tally_results validators delegs votes = Ok rs /\
               sh_sum rs <= total_voting_stake validators.
Proof. exact tally_never_exceeds_total_l. Qed.
Print Assumptions tally_never_exceeds_total.

(* closing a proposal is fatal EXACTLY when every validator entity has zero active escrow *)
Theorem tally_fatal_exactly_when_no_voting_stake :
  forall validators delegs votes threshold,
    votes_ok votes -> NoDup (map fst votes) -> ledger_inv validators delegs ->
    (tally validators delegs votes threshold = Fatal <->
     Forall (fun v => snd (fst v) = 0) validators).
Proof. exact tally_fatal_iff_l. Qed.
Print Assumptions tally_fatal_exactly_when_no_voting_stake.

(* the share invariant is necessary: without it the tally's internal error is reachable *)
Theorem tally_needs_share_invariant :
  exists validators delegs votes threshold,
    votes_ok votes /\ total_voting_stake validators <> 0 /\
    tally validators delegs votes threshold = Fatal.
Proof. exact tally_needs_invariant. Qed.
Print Assumptions tally_needs_share_invariant.

(* the tally's StakeForShares never fails: it is the total function used by the model *)
Theorem stake_for_shares_total :
  forall bal ts shares, stake_for_shares bal ts shares = Ok (stake_pure bal ts shares).
Proof. exact stake_for_shares_pure. Qed.
Print Assumptions stake_for_shares_total.

(* ---- the validator election (fatal by design; model: Verif.Sched.Elect) ---- *)

(* VotingPowerFromStake (linear distribution) fails exactly from 2^67 base units on *)
Theorem voting_power_overflow_exactly :
  forall stake, voting_power false stake = None <-> 2 ^ 67 <= stake.
Proof. exact voting_power_linear_none_iff. Qed.
Print Assumptions voting_power_overflow_exactly.

(* which the genesis bound on the total supply (its power is at most MaxInt64/8) excludes *)
Theorem voting_power_defined_under_genesis_bound :
  forall stake supply,
    stake <= supply -> supply / 16 <= (2 ^ 63 - 1) / 8 -> voting_power false stake <> None.
Proof. exact voting_power_defined_under_supply_bound. Qed.
Print Assumptions voting_power_defined_under_genesis_bound.

(* With unique consensus keys and no voting-power overflow among the candidates, the
   election fails EXACTLY when there is no stake-eligible validator candidate ("failed to
   elect any validators") or fewer of them than MinValidators after the MaxValidators cut
   ("insufficient validators"); otherwise it succeeds *)
Theorem election_fails_exactly :
  forall p ents perm_e cands sh,
    let seq := cand_seq_sh p ents perm_e cands sh in
    powers_defined p ents seq -> NoDup (map n_cons seq) ->
    match seq with
    | [] => elect_core p ents perm_e cands sh = VErrNone
    | _ =>
        let k := N.min (len seq) (N.max (p_max p) 1) in
        if k <? p_min p
        then elect_core p ents perm_e cands sh = VErrInsufficient
        else exists vals vents, elect_core p ents perm_e cands sh = VOk vals vents
    end.
Proof. exact election_outcome. Qed.
Print Assumptions election_fails_exactly.

(* the documented precondition: enough stake-eligible validators remain => no failure *)
Theorem election_total_under_precondition :
  forall p ents perm_e cands sh,
    let seq := cand_seq_sh p ents perm_e cands sh in
    powers_defined p ents seq -> NoDup (map n_cons seq) ->
    seq <> [] -> p_min p <= len seq -> p_min p <= N.max (p_max p) 1 ->
    exists vals vents, elect_core p ents perm_e cands sh = VOk vals vents.
Proof. exact election_succeeds_under_precondition. Qed.
Print Assumptions election_total_under_precondition.

(* the only remaining failure is a voting-power conversion error inside the loop *)
Theorem election_power_error_exactly :
  forall p ents perm_e cands sh,
    elect_core p ents perm_e cands sh = VErrPower <->
    fill p ents (cand_seq_sh p ents perm_e cands sh) [] [] = None.
Proof. exact election_power_error_iff. Qed.
Print Assumptions election_power_error_exactly.

(* ---- scheduler parameter changes (after commit 2b1f48e) ---- *)

(* accepted changes keep MinValidators / MaxValidators positive and consistent, for any
   sequence of proposed changes (refused ones change nothing) *)
Theorem scheduler_changes_keep_parameters_consistent :
  forall cs pmin pmax,
    sched_consistent pmin pmax ->
    sched_consistent (fst (sched_run cs pmin pmax)) (snd (sched_run cs pmin pmax)).
Proof. exact sched_run_consistent. Qed.
Print Assumptions scheduler_changes_keep_parameters_consistent.

(* so the "insufficient validators" failure is unreachable through parameter changes alone:
   with the resulting parameters the election succeeds whenever MinValidators stake-eligible
   candidates exist *)
Theorem election_not_insufficient_by_parameter_changes :
  forall cs pmin0 pmax0 p ents perm_e cands sh,
    sched_consistent pmin0 pmax0 ->
    Z.of_N (p_min p) = fst (sched_run cs pmin0 pmax0) ->
    Z.of_N (p_max p) = snd (sched_run cs pmin0 pmax0) ->
    let seq := cand_seq_sh p ents perm_e cands sh in
    powers_defined p ents seq -> NoDup (map n_cons seq) ->
    p_min p <= len seq ->
    exists vals vents, elect_core p ents perm_e cands sh = VOk vals vents.
Proof. exact election_not_insufficient_by_parameters. Qed.
Print Assumptions election_not_insufficient_by_parameter_changes.

(* the ORIGINAL handler (before 2b1f48e) accepted {min 2, max 1}, after which an election
   with two eligible validators fails with "insufficient validators" *)
Theorem scheduler_change_original_refuted :
  sched_change_original (Some 2%Z) (Some 1%Z) 1 100 = Some (2%Z, 1%Z) /\
  sched_change (Some 2%Z) (Some 1%Z) 1 100 = None /\
  elect_core (mkParams 2 1 1 true false) [] [0; 1] [ex_node 1; ex_node 2] [ex_node 1; ex_node 2] = VErrInsufficient /\
  exists vals vents,
    elect_core (mkParams 1 100 1 true false) [] [0; 1] [ex_node 1; ex_node 2] [ex_node 1; ex_node 2] = VOk vals vents.
Proof. exact sched_change_original_refuted. Qed.
Print Assumptions scheduler_change_original_refuted.

(* ---- governance deposits ---- *)

(* For ANY history of proposal submissions, parameter changes (the minimum deposit may go up
   or down at any time) and proposal closings, starting from a state where the deposits pool
   equals the recorded deposits of the open proposals: no closing ever asks the pool for more
   than it holds, and the pool keeps being exactly the sum of the open proposals' deposits *)
Theorem governance_deposits_total :
  forall ops st, ginv st -> exists st', grun ops st = Ok st' /\ ginv st'.
Proof. exact grun_ok. Qed.
Print Assumptions governance_deposits_total.

Theorem governance_deposits_initial_state : forall min, ginv (ginit min).
Proof. exact ginit_inv. Qed.
Print Assumptions governance_deposits_initial_state.

(* one EndBlock: closing proposals whose recorded deposits are part of the pool pays out
   exactly those deposits and leaves the rest *)
Theorem governance_close_total :
  forall pool deps rest,
    pool = fold_right N.add rest deps ->
    exists l, gov_close pool deps = Ok (l, rest) /\ map (fun x => fst (fst x)) l = deps.
Proof. exact gov_close_ok. Qed.
Print Assumptions governance_close_total.

(* refunding the CURRENT minimum deposit instead of the recorded one is refuted: raising the
   minimum while a proposal is open makes its closing fail (a halt), lowering it leaves money
   behind *)
Theorem governance_refund_of_current_minimum_refuted :
  exists ops, grun_current_min ops (ginit 100) = Fatal /\
              exists st, grun ops (ginit 100) = Ok st /\ g_pool st = 0.
Proof. exact current_min_refund_refuted. Qed.
Print Assumptions governance_refund_of_current_minimum_refuted.

Theorem governance_refund_of_current_minimum_breaks_invariant :
  exists ops st, grun_current_min ops (ginit 100) = Ok st /\ g_open st = [] /\ g_pool st <> 0.
Proof. exact current_min_refund_breaks_invariant. Qed.
Print Assumptions governance_refund_of_current_minimum_breaks_invariant.

(* ---- validator updates handed to the consensus engine ---- *)

(* stakes below one power unit (16 base units) still get voting power 1 *)
Theorem voting_power_floor_is_one :
  forall stake, stake < 16 -> voting_power false stake = Some 1.
Proof. exact voting_power_small_stake. Qed.
Print Assumptions voting_power_floor_is_one.

(* every elected validator has voting power at least 1, so no entry of the new set is read
   as a removal by the consensus engine *)
Theorem elected_validator_power_at_least_one :
  forall p ents epoch nodes pe pn vals vents,
    elect_validators p ents epoch nodes pe pn = VOk vals vents ->
    Forall (fun kv => 1 <= snd kv) (powers_of vals).
Proof. exact elected_power_ge_1. Qed.
Print Assumptions elected_validator_power_at_least_one.

(* for every election: the update list returned by EndBlock only removes validators of the
   current set, never empties the set, and turns the current set into exactly the elected one *)
Theorem validator_updates_acceptable :
  forall p ents epoch nodes pe pn vals vents cur,
    elect_validators p ents epoch nodes pe pn = VOk vals vents ->
    NoDup (map fst cur) -> NoDup (map fst (powers_of vals)) -> vals <> [] ->
    let ups := diff_validators cur (powers_of vals) in
    (forall k, In (k, 0) ups -> In k (map fst cur)) /\
    (exists k v, aget k (apply_updates cur ups) = Some v /\ v <> 0) /\
    (forall k, aget k (apply_updates cur ups) = aget k (powers_of vals)).
Proof. exact election_updates_acceptable. Qed.
Print Assumptions validator_updates_acceptable.

(* applying the "zero power -> 1" floor BEFORE the linear scaling is refuted: a stake of
   1..15 base units then gets power 0, i.e. the removal of a validator the engine does not know *)
Theorem voting_power_floor_before_scaling_refuted :
  (forall s, 0 < s -> s < 16 -> voting_power_floor_first s = Some 0) /\
  exists cur pend k,
    NoDup (map fst cur) /\ NoDup (map fst pend) /\
    voting_power_floor_first 10 = Some (match aget k pend with Some v => v | None => 1 end) /\
    In (k, 0) (diff_validators cur pend) /\ ~ In k (map fst cur).
Proof. exact (conj floor_first_zero_power floor_first_refuted). Qed.
Print Assumptions voting_power_floor_before_scaling_refuted.

(* ---- incoming runtime messages at round finalization ---- *)

(* for a queue whose size counter equals its (distinct) stored messages, finalization never
   fails FATALLY whatever in-message count the committee committed -- 0, the queue size, more
   than the queue holds, 2^32-1 --: with a matching hash the first min(count, size) messages
   are removed and the invariant is kept, with a mismatching hash the round fails *)
Theorem incoming_messages_finalization_total :
  forall r count hash_ok,
    rq_ok r ->
    (hash_ok = false /\ finalize_inmsgs r count hash_ok = Ok None) \/
    exists r1, finalize_inmsgs r count hash_ok = Ok (Some r1) /\ rq_ok r1 /\
               q_msgs r1 = skipn (N.to_nat count) (q_msgs r).
Proof. exact finalize_inmsgs_ok. Qed.
Print Assumptions incoming_messages_finalization_total.

(* SubmitMsg keeps the queue invariant *)
Theorem incoming_messages_submit_keeps_invariant :
  forall maxq r r1, rq_ok r -> rq_submit maxq r = Some r1 -> rq_ok r1.
Proof. exact rq_submit_ok. Qed.
Print Assumptions incoming_messages_submit_keeps_invariant.

(* finalizing one runtime never fails fatally and never changes another runtime's queue *)
Theorem incoming_messages_runtimes_independent :
  forall sys id count hash_ok,
    (forall r, aget id sys = Some r -> rq_ok r) ->
    is_fatal (sys_finalize sys id count hash_ok) = false /\
    forall sys1 other, other <> id -> sys_finalize sys id count hash_ok = Ok sys1 ->
                       aget other sys1 = aget other sys.
Proof.
  exact (fun sys id count hash_ok H =>
           conj (sys_finalize_total sys id count hash_ok H) (sys_finalize_independent sys id count hash_ok)).
Qed.
Print Assumptions incoming_messages_runtimes_independent.

(* a fetch that runs on into the next runtime's queue is refuted: the size counter reaches zero
   with messages left -- the fatal "inconsistent queue size" error *)
Theorem incoming_messages_overrun_refuted :
  exists r foreign count, rq_ok r /\ finalize_inmsgs_overrun r foreign count = Fatal /\
                          is_fatal (finalize_inmsgs r count true) = false.
Proof. exact overrun_refuted. Qed.
Print Assumptions incoming_messages_overrun_refuted.

(* ---- distribution of slashed funds (roothash) ---- *)

(* with a reward percentage of at most 100 -- what the runtime descriptor validity check
   enforces at registration -- distributeSlashedFunds never fails and hands out no more than
   was slashed *)
Theorem distribute_slashed_funds_total :
  forall total pct n,
    pct <= 100 -> exists r e, distribute_slashed total pct n = Ok (r, e) /\ r + e * n <= total.
Proof. exact distribute_slashed_total. Qed.
Print Assumptions distribute_slashed_funds_total.

Theorem runtime_percent_validity :
  forall pe pb, rt_percent_valid pe pb = true <-> pe <= 100 /\ pb <= 100.
Proof. exact rt_percent_valid_spec. Qed.
Print Assumptions runtime_percent_validity.

(* above 100 it is fatal as soon as at least 100 base units were slashed and somebody else is rewarded *)
Theorem distribute_slashed_funds_fatal_above_100 :
  forall total pct n,
    100 < pct -> 100 <= total -> n <> 0 -> distribute_slashed total pct n = Fatal.
Proof. exact distribute_slashed_fatal_above_100. Qed.
Print Assumptions distribute_slashed_funds_fatal_above_100.

(* a validity check that tests the equivocation percentage twice (copy/paste) is refuted *)
Theorem runtime_percent_copy_paste_refuted :
  exists pe pb total n,
    rt_percent_valid_copy_paste pe pb = true /\ rt_percent_valid pe pb = false /\
    distribute_slashed total pb n = Fatal.
Proof. exact rt_percent_copy_paste_refuted. Qed.
Print Assumptions runtime_percent_copy_paste_refuted.

(* ---- fee checks of transaction delivery ---- *)

(* Fee.GasPrice is total: gas 0 gives price 0, never a division *)
Theorem gas_price_is_total :
  forall amount gas, exists p, gas_price amount gas = Ok p /\ (gas = 0 -> p = 0).
Proof. exact gas_price_total. Qed.
Print Assumptions gas_price_is_total.

(* the minimum gas price check never fails fatally for any fee shape and any minimum *)
Theorem process_tx_fee_checks_total :
  forall min_price fee, is_fatal (fee_check min_price fee) = false.
Proof. exact fee_check_total. Qed.
Print Assumptions process_tx_fee_checks_total.

Theorem process_tx_zero_gas_fee_rejected :
  forall min_price amount, min_price <> 0 -> fee_check min_price (Some (amount, 0)) = Ok false.
Proof. exact fee_check_zero_gas. Qed.
Print Assumptions process_tx_zero_gas_fee_rejected.

(* with && instead of || in GasPrice's guard a fee {amount > 0, gas 0} divides by zero (a panic) *)
Theorem gas_price_guard_with_and_refuted :
  forall amount, amount <> 0 -> gas_price_and amount 0 = Fatal.
Proof. exact gas_price_and_refuted. Qed.
Print Assumptions gas_price_guard_with_and_refuted.

(* ---- validator election with the VRF beacon backend ---- *)

(* proofs submitted by nodes that are not validator candidates (compute nodes, observers,
   frozen / expired / under-staked validators) never change the election *)
Theorem vrf_election_ignores_proofs_of_other_nodes :
  forall p ents epoch nodes pe pn beta beta',
    (forall n, In n (vcands p ents epoch nodes) -> beta (n_id n) = beta' (n_id n)) ->
    elect_validators_vrf p ents epoch nodes pe pn beta = elect_validators_vrf p ents epoch nodes pe pn beta'.
Proof. exact vrf_election_ignores_other_proofs. Qed.
Print Assumptions vrf_election_ignores_proofs_of_other_nodes.

(* when fewer than MinValidators candidates have a proof the election IS the entropy-path
   election, which succeeds under the documented precondition (election_total_under_precondition) *)
Theorem vrf_election_falls_back_without_validator_proofs :
  forall p ents epoch nodes pe pn beta,
    len (filter (has_pi beta) (vcands p ents epoch nodes)) < p_min p ->
    elect_validators_vrf p ents epoch nodes pe pn beta = elect_validators p ents epoch nodes pe pn.
Proof. exact vrf_election_falls_back. Qed.
Print Assumptions vrf_election_falls_back_without_validator_proofs.

(* counting the proofs of ALL nodes in the fallback test is refuted: two eligible validators
   without proofs and two foreign proofs elect nobody *)
Theorem vrf_fallback_on_all_proofs_refuted :
  let p := mkParams 2 100 1 true false in
  let nodes := [ex_node 1; ex_node 2] in
  elect_validators_vrf_any_proofs p [] 1 nodes [0; 1] [0; 1] (fun _ => None) 2 = VErrNone /\
  exists vals vents, elect_validators_vrf p [] 1 nodes [0; 1] [0; 1] (fun _ => None) = VOk vals vents /\ len vals = 2.
Proof. exact vrf_any_proofs_refuted. Qed.
Print Assumptions vrf_fallback_on_all_proofs_refuted.
