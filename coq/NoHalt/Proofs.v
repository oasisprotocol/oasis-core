(* C10: totality ("never Fatal") of the fee split, reward and slashing
   arithmetic under the preconditions the surrounding code establishes, with
   refutation witnesses where a precondition is NOT established by the code.
   [yields] and the facts about [qquo] / [qsub] at the top serve every proof file of the area. *)
From Verif Require Import Lib.Base NoHalt.Model.

(* [yields r P]: the call returns without error and its result satisfies [P].
   From one lemma of this form about a function, "never fatal", conservation and the
   existential statements are read off by the exits below. *)
Definition yields {A} (r : res A) (P : A -> Prop) : Prop :=
  match r with Ok a => P a | Fatal => False end.

Lemma yields_bind {A B} (r : res A) (f : A -> res B) (P : A -> Prop) (Q : B -> Prop) :
  yields r P -> (forall a, P a -> yields (f a) Q) -> yields (bind r f) Q.
Proof. destruct r as [a|]; [intros H HQ; exact (HQ a H)|intros []]. Qed.

Lemma yields_impl {A} (r : res A) (P Q : A -> Prop) :
  yields r P -> (forall a, P a -> Q a) -> yields r Q.
Proof. destruct r as [a|]; [intros H HQ; exact (HQ a H)|intros []]. Qed.

Lemma yields_not_fatal {A} (r : res A) P : yields r P -> is_fatal r = false.
Proof. destruct r; [reflexivity|intros []]. Qed.

Lemma yields_inv {A} (r : res A) P a : yields r P -> r = Ok a -> P a.
Proof. intros H ->. exact H. Qed.

Lemma yields_ex {A} (r : res A) P : yields r P -> exists a, r = Ok a /\ P a.
Proof. destruct r as [a|]; [intros H; exists a; split; [reflexivity|exact H]|intros []]. Qed.

Lemma yields_ex2 {A B} (r : res (A * B)) (P : A -> B -> Prop) :
  yields r (fun x => P (fst x) (snd x)) -> exists a b, r = Ok (a, b) /\ P a b.
Proof. destruct r as [[a b]|]; [intros H; exists a, b; split; [reflexivity|exact H]|intros []]. Qed.

(* x / 0 = 0, so the bounds below need no premise on the divisor *)
Lemma div_zero_r x : x / 0 = 0.
Proof. destruct x; reflexivity. Qed.

Lemma mul_frac_le a c b : c <= b -> a * c / b <= a.
Proof.
  intros Hc. destruct (N.eq_dec b 0) as [->|Hb]; [rewrite div_zero_r; apply N.le_0_l|].
  apply N.div_le_upper_bound; [exact Hb|]. rewrite (N.mul_comm b). apply N.mul_le_mono_l. exact Hc.
Qed.

Lemma mul_frac_lt a c b : c < b -> a <> 0 -> a * c / b < a.
Proof.
  intros Hc Ha. apply N.div_lt_upper_bound; [lia|].
  rewrite (N.mul_comm b a). apply N.mul_lt_mono_pos_l; lia.
Qed.

Lemma div_mul_self_le a b : a / b * b <= a.
Proof.
  destruct (N.eq_dec b 0) as [->|Hb]; [lia|]. rewrite N.mul_comm. apply N.mul_div_le. exact Hb.
Qed.

Lemma div_add_le a b c : a / c + b / c <= (a + b) / c.
Proof.
  destruct (N.eq_dec c 0) as [->|Hc]; [rewrite !div_zero_r; apply N.le_refl|].
  apply N.div_le_lower_bound; [exact Hc|].
  rewrite N.mul_add_distr_l.
  apply N.add_le_mono; apply N.mul_div_le; exact Hc.
Qed.

Lemma qquo_ok a b : b <> 0 -> qquo a b = Ok (a / b).
Proof. intros H. unfold qquo. destruct (N.eqb_spec b 0); [contradiction|reflexivity]. Qed.
Lemma qsub_ok a b : b <= a -> qsub a b = Ok (a - b).
Proof. intros H. unfold qsub. destruct (N.ltb_spec a b); [lia|reflexivity]. Qed.
Lemma qquo_zero a : qquo a 0 = Fatal.
Proof. reflexivity. Qed.

(* a Move that is skipped only when there is nothing to move is the same as the Move *)
Lemma qsub_unless (c : bool) a b :
  b <= a -> (c = true -> b = 0) -> (if c then Ok a else qsub a b) = Ok (a - b).
Proof.
  intros H Hc. destruct c; [rewrite Hc, N.sub_0_r; reflexivity|apply qsub_ok, H].
Qed.

Lemma qsub_unless_factor a s n :
  s * n <= a -> (if s =? 0 then Ok a else qsub a (s * n)) = Ok (a - s * n).
Proof.
  intros H. apply qsub_unless; [exact H|]. intros E. apply N.eqb_eq in E. rewrite E. reflexivity.
Qed.

(* (a1) disburseFeesP.  Precondition = ConsensusParameters.SanityCheck, go/staking/api/sanity_check.go:43-45
   ("fee split proportions are all zero" is rejected), enforced on the genesis
   document and re-run on every parameter change (apps/staking/messages.go:41). *)
Lemma fee_p_total total wP wV wQ k :
  wP + wV + wQ <> 0 -> is_fatal (fee_p total wP wV wQ k) = false.
Proof.
  intros Hw. unfold fee_p.
  destruct (total =? 0); [reflexivity|].
  rewrite qquo_ok by lia. cbn [bind].
  rewrite qsub_ok by (apply mul_frac_le; lia). cbn [bind].
  destruct (k && _); reflexivity.
Qed.

Lemma fee_p_conserves total wP wV wQ k a b c :
  fee_p total wP wV wQ k = Ok (a, b, c) -> a + b + c = total.
Proof.
  unfold fee_p, qquo, qsub. destruct (N.eqb_spec total 0) as [E0|_].
  - intros H; injection H as <- <- <-. symmetry. exact E0.
  - destruct (wV + wQ + wP =? 0); [discriminate|]. cbn [bind].
    generalize (total * (wV + wQ) / (wV + wQ + wP)). intros persist.
    destruct (N.ltb_spec total persist) as [E1|E1]; [discriminate|]. cbn [bind].
    destruct (k && _); intros H; injection H as <- <- <-; lia.
Qed.

(* (a2) disburseFeesVQ.  Preconditions:
   - nEV > 0: the commit info has one entry per validator of the previous
     height (CometBFT), it is empty only at the initial height, where
     LastBlockFees = 0 because InitChain folds them into the common pool
     (apps/staking/genesis.go:41-62)  -> lemma fee_vq_zero_fees;
   - nVE <= nEV: voting entities are resolved from the signed entries (votes.go:23-43).
   No premise on the weights: since commit c9cfe37 a zero vote + next-propose
   weight sends everything to the common pool.  The ORIGINAL function needed
   wV + wQ <> 0, which SanityCheck does not give (fee_vq_original_refuted). *)
Lemma fee_vq_zero_fees nEV nVE wV wQ k : fee_vq 0 nEV nVE wV wQ k = Ok (0, 0, 0).
Proof. reflexivity. Qed.

(* next proposer + every voter's share + common pool = pending fees *)
Definition vq_split (last nVE : N) (x : N * N * N) : Prop :=
  let '(a, b, c) := x in a + b * nVE + c = last.

(* the common tail: the voters' shares and the next proposer's part add up to perV * nVE *)
Lemma fee_vq_tail_ok last nVE perV sNP k :
  perV * nVE <= last -> sNP <= perV ->
  yields (fee_vq_tail last perV sNP nVE k) (vq_split last nVE).
Proof.
  intros Hper HsNP. unfold fee_vq_tail.
  rewrite qsub_ok by exact HsNP. cbn [bind].
  assert (Hcov : sNP * nVE + (perV - sNP) * nVE <= last).
  { rewrite <- N.mul_add_distr_r. replace (sNP + (perV - sNP)) with perV by lia. exact Hper. }
  clear Hper HsNP. revert Hcov. generalize (perV - sNP). intros sv Hcov.
  destruct (negb (sNP * nVE =? 0) && k); [rewrite qsub_ok by lia|]; cbn [bind];
    rewrite qsub_unless_factor by lia; cbn; lia.
Qed.

Lemma fee_vq_ok last nEV nVE wV wQ k :
  0 < nEV -> nVE <= nEV -> yields (fee_vq last nEV nVE wV wQ k) (vq_split last nVE).
Proof.
  intros HnE HnV. unfold fee_vq.
  destruct (N.eqb_spec last 0) as [E0|E0]; [cbn; lia|].
  rewrite qquo_ok by lia. cbn [bind].
  destruct (N.eqb_spec (wV + wQ) 0) as [Ed|Ed]; [cbn; lia|].
  rewrite qquo_ok by exact Ed. cbn [bind].
  apply fee_vq_tail_ok; [|apply mul_frac_le; lia].
  apply N.le_trans with (last / nEV * nEV); [apply N.mul_le_mono_l, HnV|apply div_mul_self_le].
Qed.

Lemma fee_vq_total last nEV nVE wV wQ k :
  0 < nEV -> nVE <= nEV ->
  is_fatal (fee_vq last nEV nVE wV wQ k) = false.
Proof. intros HnE HnV. exact (yields_not_fatal _ _ (fee_vq_ok last nEV nVE wV wQ k HnE HnV)). Qed.

Lemma fee_vq_conserves last nEV nVE wV wQ k a b c :
  0 < nEV -> nVE <= nEV ->
  fee_vq last nEV nVE wV wQ k = Ok (a, b, c) -> a + b * nVE + c = last.
Proof. intros HnE HnV. exact (yields_inv _ _ (a, b, c) (fee_vq_ok last nEV nVE wV wQ k HnE HnV)). Qed.

(* fees persisted by disburseFeesP under ANY sanity-checked weights are split
   without error by disburseFeesVQ of the next block under ANY other weights
   (a parameter change may take effect in between) *)
Lemma fee_p_then_vq_total total wP wV wQ k persist b c nEV nVE wV' wQ' k' :
  fee_p total wP wV wQ k = Ok (persist, b, c) ->
  0 < nEV -> nVE <= nEV ->
  is_fatal (fee_vq persist nEV nVE wV' wQ' k') = false.
Proof. intros _. apply fee_vq_total. Qed.

Lemma fee_vq_original_agrees last nEV nVE wV wQ k :
  wV + wQ <> 0 -> fee_vq_original last nEV nVE wV wQ k = fee_vq last nEV nVE wV wQ k.
Proof.
  intros H. unfold fee_vq_original, fee_vq.
  destruct (N.eqb_spec (wV + wQ) 0); [contradiction|reflexivity].
Qed.

(* REFUTATION of its totality under the preconditions the code enforces
   (SanityCheck: weights not ALL zero): with weights (P,V,Q) = (1,0,0) and
   non-zero LastBlockFees the division by V+Q fails.  Reached on the real
   multiplexer when a change-parameters proposal switching to V = Q = 0 is
   executed by the governance EndBlock (300_governance) of a block whose fees
   were already persisted by the staking EndBlock (100_staking). *)
Lemma fee_vq_original_refuted :
  exists last nEV nVE wP wV wQ k,
    wP + wV + wQ <> 0 /\ 0 < nEV /\ nVE <= nEV /\ last <> 0 /\
    fee_vq_original last nEV nVE wV wQ k = Fatal /\
    is_fatal (fee_vq last nEV nVE wV wQ k) = false.
Proof. exists 1, 1, 1, 1, 0, 0, true. repeat split; try lia; reflexivity. Qed.

Lemma fee_vq_original_fatal_zero_weights last nEV nVE k :
  last <> 0 -> fee_vq_original last nEV nVE 0 0 k = Fatal.
Proof.
  intros H. unfold fee_vq_original. destruct (N.eqb_spec last 0); [contradiction|].
  destruct (qquo last nEV); reflexivity.
Qed.

(* the scenario end to end on the model: fees persisted under (2,1,1), split under (1,0,0) *)
Example fee_p_then_vq_weight_change :
  fee_p 1000 2 1 1 true = Ok (500, 500, 0) /\
  fee_vq_original 500 4 4 0 0 true = Fatal /\
  fee_vq 500 4 4 0 0 true = Ok (0, 0, 500).
Proof. repeat split; reflexivity. Qed.

(* the tally uses the total function [stake_pure]: it IS StakeForShares, which never fails *)
Lemma stake_for_shares_pure bal ts s : stake_for_shares bal ts s = Ok (stake_pure bal ts s).
Proof.
  unfold stake_for_shares, stake_pure.
  destruct (s =? 0), (bal =? 0), (N.eqb_spec ts 0); try reflexivity. apply qquo_ok. assumption.
Qed.

Lemma stake_pure_le bal ts s : stake_pure bal ts s <= s * bal / ts.
Proof.
  unfold stake_pure. destruct ((s =? 0) || (bal =? 0) || (ts =? 0)); [apply N.le_0_l|apply N.le_refl].
Qed.

Lemma stake_pure_ts0 bal s : stake_pure bal 0 s = 0.
Proof. unfold stake_pure. rewrite orb_true_r. reflexivity. Qed.

Lemma stake_pure_le_bal bal ts s : s <= ts -> stake_pure bal ts s <= bal.
Proof.
  intros H. eapply N.le_trans; [apply stake_pure_le|]. rewrite N.mul_comm. apply mul_frac_le, H.
Qed.

(* sharesForStake: a pool without shares issues them 1:1; otherwise only a dead pool
   (zero balance, shares outstanding) makes it fail *)
Lemma shares_for_stake_new bal amount : shares_for_stake bal 0 amount = Ok amount.
Proof. reflexivity. Qed.

Lemma shares_for_stake_total bal ts amount :
  ts = 0 \/ bal <> 0 -> exists sh, shares_for_stake bal ts amount = Ok sh.
Proof.
  unfold shares_for_stake. intros H. destruct (N.eqb_spec ts 0) as [Ets|Ets]; [eexists; reflexivity|].
  destruct (N.eqb_spec bal 0) as [Eb|Eb]; [lia|]. rewrite qquo_ok by exact Eb. eexists. reflexivity.
Qed.

Lemma shares_for_stake_dead ts amount : ts <> 0 -> shares_for_stake 0 ts amount = Fatal.
Proof. intros H. unfold shares_for_stake. destruct (N.eqb_spec ts 0); [contradiction|reflexivity]. Qed.

(* (b) rewards.  Preconditions: the two denominators are the non-zero package constants
   (staking/api/rewards.go:21-22 = 100_000_000, commission.go:414 = 100_000);
   den > 0: the attenuation denominator is the number of commit-info entries;
   at the first block rewardBlockProposing returns before the call because
   GetCurrentEpoch = EpochInvalid when LastHeight = 0 (abci/state.go:283-286,
   proposing_rewards.go:55-58); rate <= cden: commission schedule rules
   (commission.go:160-200) and MinCommissionRate bound (sanity_check.go:47-50). *)
Lemma commission_ok cden rate q :
  cden <> 0 -> rate <= cden ->
  commission cden rate q = Ok (q * rate / cden, q - q * rate / cden) /\ q * rate / cden <= q.
Proof.
  intros Hc Hr. unfold commission. rewrite qquo_ok by exact Hc. cbn [bind].
  assert (H : q * rate / cden <= q) by (apply mul_frac_le; assumption).
  rewrite qsub_ok by exact H. split; [reflexivity|exact H].
Qed.

(* what leaves the common pool is what the escrow receives; the deposit of the commission
   cannot meet a dead pool, because a zero balance earns no reward *)
Lemma reward_ok rden cden bal ts factor scale num den pool rate :
  rden <> 0 -> cden <> 0 -> den <> 0 -> rate <= cden ->
  yields (reward rden cden bal ts factor scale num den pool rate)
    (fun o => match o with
              | None => True
              | Some (rem, com, sh, p2) => p2 + rem + com = pool
              end).
Proof.
  intros Hrd Hcd Hden Hrate. unfold reward.
  rewrite qquo_ok by exact Hrd. cbn [bind]. rewrite qquo_ok by exact Hden. cbn [bind].
  destruct (N.eq_dec bal 0) as [->|Hbal].
  { rewrite !N.mul_0_l, !N.div_0_l by assumption. exact I. }
  generalize (bal * factor * scale * num / rden / den). intros q.
  destruct (N.eqb_spec q 0) as [Eq|Eq]; [exact I|].
  destruct (N.ltb_spec pool q) as [Ep|Ep]; [exact I|].
  destruct (commission_ok cden rate q Hcd Hrate) as [-> Hle]. cbn [bind].
  revert Hle. generalize (q * rate / cden). intros com Hle.
  (* only q <= pool, com <= q and bal <> 0 matter from here on; every other fact left in the
     context, the disequalities above all, multiplies the cases lia's certificate goes through *)
  clear Hrd Hcd Hden Hrate Eq.
  rewrite qsub_unless by lia. cbn [bind].
  destruct (N.eqb_spec com 0) as [Ec|Ec]; [cbn; lia|].
  destruct (shares_for_stake_total (bal + (q - com)) ts com) as [sh ->]; [right; lia|]. cbn [bind].
  rewrite qsub_ok by lia. cbn. lia.
Qed.

Lemma reward_total rden cden bal ts factor scale num den pool rate :
  rden <> 0 -> cden <> 0 -> den <> 0 -> rate <= cden ->
  is_fatal (reward rden cden bal ts factor scale num den pool rate) = false.
Proof. intros Hrd Hcd Hden Hrate. eapply yields_not_fatal, reward_ok; assumption. Qed.

(* the guard at the first block is NEEDED: with an empty commit info the division fails *)
Lemma reward_fatal_den_zero rden cden bal ts factor scale num pool rate :
  rden <> 0 -> reward rden cden bal ts factor scale num 0 pool rate = Fatal.
Proof. intros H. unfold reward. rewrite qquo_ok by exact H. reflexivity. Qed.

(* (b') TransferFromCommon(escrow = true), as repaired by c3a21ab; no premise on the destination:
   common pool decrease = escrow increase (rem + com) + general balance increase (gen) *)
Lemma tfc_ok cden bal ts pool amount rate :
  cden <> 0 -> rate <= cden ->
  yields (transfer_from_common_escrow cden bal ts pool amount rate)
    (fun o => match o with
              | None => True
              | Some (rem, com, sh, gen) => rem + com + gen = N.min pool amount
              end).
Proof.
  intros Hc Hr. unfold transfer_from_common_escrow.
  generalize (N.min pool amount). intros t.
  destruct (t =? 0); [exact I|].
  destruct (N.eqb_spec ts 0) as [->|Ets]; [rewrite shares_for_stake_new; cbn; lia|].
  destruct (commission_ok cden rate t Hc Hr) as [-> Hle]. cbn [bind].
  revert Hle. generalize (t * rate / cden). intros com Hle.
  destruct (N.eqb_spec com 0) as [Ec|Ec]; [cbn; lia|].
  destruct (N.eqb_spec (bal + (t - com)) 0) as [Eb|Eb]; cbn [negb andb]; [cbn; lia|].
  destruct (shares_for_stake_total (bal + (t - com)) ts com) as [sh ->]; [right; exact Eb|]. cbn. lia.
Qed.

Lemma tfc_total cden bal ts pool amount rate :
  cden <> 0 -> rate <= cden ->
  is_fatal (transfer_from_common_escrow cden bal ts pool amount rate) = false.
Proof. intros Hc Hr. exact (yields_not_fatal _ _ (tfc_ok cden bal ts pool amount rate Hc Hr)). Qed.

Lemma tfc_conserves cden bal ts pool amount rate rem com sh gen :
  cden <> 0 -> rate <= cden ->
  transfer_from_common_escrow cden bal ts pool amount rate = Ok (Some (rem, com, sh, gen)) ->
  rem + com + gen = N.min pool amount /\ N.min pool amount <= pool.
Proof.
  intros Hc Hr H. split; [|lia].
  exact (yields_inv _ _ _ (tfc_ok cden bal ts pool amount rate Hc Hr) H).
Qed.

(* [ts = 0 \/ bal <> 0 \/ rate < cden]: not a dead pool that gets nothing but commission *)
Lemma tfc_original_agrees cden bal ts pool amount rate :
  cden <> 0 -> rate <= cden -> (ts = 0 \/ bal <> 0 \/ rate < cden) ->
  transfer_from_common_escrow_original cden bal ts pool amount rate =
  transfer_from_common_escrow cden bal ts pool amount rate.
Proof.
  intros Hc Hr Hcase. unfold transfer_from_common_escrow_original, transfer_from_common_escrow.
  generalize (N.min pool amount). intros t.
  destruct (N.eqb_spec t 0) as [Et|Et]; [reflexivity|].
  destruct (N.eqb_spec ts 0) as [Ets|Ets]; [reflexivity|].
  destruct (commission_ok cden rate t Hc Hr) as [-> Hle]. cbn [bind].
  destruct (t * rate / cden =? 0); [reflexivity|].
  (* something is left after the commission, or the balance was not zero *)
  assert (Hb : bal + (t - t * rate / cden) <> 0).
  { destruct Hcase as [H|[H|H]]; [contradiction|lia|].
    pose proof (mul_frac_lt t rate cden H Et). lia. }
  destruct (N.eqb_spec (bal + (t - t * rate / cden)) 0); [contradiction|reflexivity].
Qed.

Lemma tfc_original_total cden bal ts pool amount rate :
  cden <> 0 -> rate <= cden ->
  (ts = 0 \/ bal <> 0 \/ rate < cden) ->
  is_fatal (transfer_from_common_escrow_original cden bal ts pool amount rate) = false.
Proof. intros Hc Hr Hcase. rewrite tfc_original_agrees by assumption. apply tfc_total; assumption. Qed.

(* an escrow account slashed to zero (shares outstanding, balance 0) with a
   100 % commission rate made the ORIGINAL TransferFromCommon(escrow=true) fail;
   the repaired one leaves the commission in the general balance *)
Lemma tfc_original_fatal_full_commission cden ts pool amount :
  cden <> 0 -> ts <> 0 -> pool <> 0 -> amount <> 0 ->
  transfer_from_common_escrow_original cden 0 ts pool amount cden = Fatal /\
  transfer_from_common_escrow cden 0 ts pool amount cden = Ok (Some (0, 0, 0, N.min pool amount)).
Proof.
  intros Hc Hts Hp Ha. unfold transfer_from_common_escrow_original, transfer_from_common_escrow.
  assert (Ht : N.min pool amount <> 0) by lia. revert Ht.
  generalize (N.min pool amount). intros t Ht.
  destruct (N.eqb_spec t 0); [contradiction|]. destruct (N.eqb_spec ts 0); [contradiction|].
  destruct (commission_ok cden cden t Hc (N.le_refl _)) as [-> _]. cbn [bind].
  (* the commission is everything *)
  rewrite N.div_mul, N.sub_diag by exact Hc.
  destruct (N.eqb_spec t 0); [contradiction|].
  rewrite shares_for_stake_dead by exact Hts. split; reflexivity.
Qed.

Lemma tfc_original_refuted :
  exists cden bal ts pool amount rate,
    cden <> 0 /\ rate <= cden /\
    transfer_from_common_escrow_original cden bal ts pool amount rate = Fatal /\
    is_fatal (transfer_from_common_escrow cden bal ts pool amount rate) = false.
Proof. exists 100000, 0, 5, 10, 10, 100000. repeat split; try lia; reflexivity. Qed.

Lemma distribute_slashed_total total pct n :
  pct <= 100 -> exists r e, distribute_slashed total pct n = Ok (r, e) /\ r + e * n <= total.
Proof.
  intros Hp. apply yields_ex2 with (P := fun r e => r + e * n <= total). unfold distribute_slashed.
  rewrite qquo_ok by lia. cbn [bind].
  pose proof (mul_frac_le total pct 100 Hp) as Hle.
  destruct (N.eqb_spec n 0) as [->|E]; [cbn; lia|].
  rewrite qsub_ok by exact Hle. cbn [bind]. rewrite qquo_ok by exact E. cbn.
  pose proof (div_mul_self_le (total - total * pct / 100) n). lia.
Qed.

(* a percentage above 100 (excluded by the descriptor validity check) makes it fail as soon as
   something was slashed and somebody else is to be rewarded *)
Lemma distribute_slashed_fatal_above_100 total pct n :
  100 < pct -> 100 <= total -> n <> 0 -> distribute_slashed total pct n = Fatal.
Proof.
  intros Hp Ht Hn. unfold distribute_slashed. rewrite qquo_ok by lia. cbn [bind].
  destruct (N.eqb_spec n 0); [contradiction|].
  (* the runtime's share alone exceeds the total: 100 * (total + 1) <= 101 * total <= pct * total *)
  assert (H : total + 1 <= total * pct / 100) by (apply N.div_le_lower_bound; nia).
  unfold qsub. destruct (N.ltb_spec total (total * pct / 100)); [reflexivity|lia].
Qed.

Lemma rt_percent_valid_spec pe pb : rt_percent_valid pe pb = true <-> pe <= 100 /\ pb <= 100.
Proof. unfold rt_percent_valid. lia. Qed.

Lemma rt_percent_copy_paste_refuted :
  exists pe pb total n,
    rt_percent_valid_copy_paste pe pb = true /\ rt_percent_valid pe pb = false /\
    distribute_slashed total pb n = Fatal.
Proof. exists 30, 200, 100, 1. repeat split; reflexivity. Qed.

Lemma gas_price_total amount gas : exists p, gas_price amount gas = Ok p /\ (gas = 0 -> p = 0).
Proof.
  unfold gas_price. destruct (amount =? 0), (N.eqb_spec gas 0) as [E|E]; cbn [orb].
  4: rewrite qquo_ok by exact E.
  all: eexists; split; [reflexivity|tauto].
Qed.

(* the minimum gas price check of transaction delivery never fails fatally (never panics),
   for ANY fee shape: no fee, zero amount, zero gas, huge amount, gas 2^64-1 *)
Lemma fee_check_total min_price fee : is_fatal (fee_check min_price fee) = false.
Proof.
  unfold fee_check. destruct (min_price =? 0); [reflexivity|].
  destruct fee as [[a g]|]; [|reflexivity].
  destruct (gas_price_total a g) as [p [-> _]]. reflexivity.
Qed.

(* a fee with a positive amount and gas 0 has price 0: it is rejected under a positive minimum *)
Lemma fee_check_zero_gas min_price amount :
  min_price <> 0 -> fee_check min_price (Some (amount, 0)) = Ok false.
Proof.
  intros H. unfold fee_check. destruct (N.eqb_spec min_price 0); [contradiction|].
  destruct (gas_price_total amount 0) as [p [-> Hp]]. rewrite Hp by reflexivity. cbn [bind].
  destruct (N.ltb_spec 0 min_price); [reflexivity|lia].
Qed.

(* the && variant divides by a zero gas limit *)
Lemma gas_price_and_refuted : forall amount, amount <> 0 -> gas_price_and amount 0 = Fatal.
Proof.
  intros a H. unfold gas_price_and. destruct (N.eqb_spec a 0); [contradiction|reflexivity].
Qed.

Lemma slash_pool_ok bal amount total : yields (slash_pool bal amount total) (fun s => s <= bal).
Proof.
  unfold slash_pool. destruct (N.eqb_spec total 0) as [E|E]; [apply N.le_0_l|].
  rewrite qquo_ok by exact E. apply N.le_min_l.
Qed.

Lemma slash_total active deb amount :
  exists sa sd, slash_escrow active deb amount = Ok (sa, sd) /\ sa <= active /\ sd <= deb.
Proof.
  apply yields_ex2 with (P := fun sa sd => sa <= active /\ sd <= deb). unfold slash_escrow.
  eapply yields_bind; [apply slash_pool_ok|]. intros sa Ha.
  eapply yields_bind; [apply slash_pool_ok|]. intros sd Hd. split; assumption.
Qed.

Lemma slash_to_zero active deb amount :
  active + deb <= amount -> slash_escrow active deb amount = Ok (active, deb).
Proof.
  intros H. unfold slash_escrow, slash_pool.
  destruct (N.eqb_spec (active + deb) 0) as [E|E].
  - cbn [bind]. f_equal. f_equal; lia.
  - rewrite !qquo_ok by exact E. cbn [bind].
    assert (Hall : forall b, N.min b (b * amount / (active + deb)) = b).
    { intros b. apply N.min_l. apply N.div_le_lower_bound; [exact E|].
      rewrite N.mul_comm. apply N.mul_le_mono_l. exact H. }
    rewrite !Hall. reflexivity.
Qed.

(* Precondition: the share invariant of the debonding pool (a debonding
   delegation's shares are part of the pool's total shares). *)
Lemma debond_total bal ts shares :
  shares <= ts -> exists base, debond_complete bal ts shares = Ok base /\ base <= bal.
Proof.
  intros Hs. unfold debond_complete. rewrite stake_for_shares_pure. cbn [bind].
  pose proof (stake_pure_le_bal bal ts shares Hs) as Hle.
  rewrite !qsub_ok by lia. cbn [bind]. eexists. split; [reflexivity|exact Hle].
Qed.

Lemma debond_refuted : exists bal ts shares, debond_complete bal ts shares = Fatal.
Proof. exists 10, 3, 4. reflexivity. Qed.

(* epoch signing: the uint64 overflow guard "t != 0 && max / t < x" does not fire while x * t fits *)
Lemma overflow_guard_false t x : x * t <= u64max -> negb (t =? 0) && (u64max / t <? x) = false.
Proof.
  intros H. destruct (N.eqb_spec t 0) as [E|E]; [reflexivity|]. cbn [negb andb].
  apply N.ltb_ge. apply N.div_le_lower_bound; [exact E|]. rewrite N.mul_comm. exact H.
Qed.

Lemma signing_eligible_total total count tnum tden :
  total * tnum <= u64max -> count * tden <= u64max ->
  is_fatal (signing_eligible total count tnum tden) = false.
Proof.
  intros H1 H2. unfold signing_eligible. rewrite !overflow_guard_false by assumption. reflexivity.
Qed.

Example fee_p_ex : fee_p 1000 2 1 1 true = Ok (500, 500, 0).
Proof. reflexivity. Qed.
Example fee_p_ex_huge :
  fee_p (2 ^ 255) 2 1 1 false = Ok (2 ^ 254, 0, 2 ^ 254).
Proof. vm_compute. reflexivity. Qed.
Example fee_vq_ex_all_absent : fee_vq 500 4 0 1 1 true = Ok (0, 63, 500).
Proof. reflexivity. Qed.
Example fee_vq_ex : fee_vq 500 4 3 1 1 true = Ok (186, 63, 125).
Proof. reflexivity. Qed.
Example reward_ex :
  reward 100000000 100000 176000 176000 1 2000000 3 4 1000000000 5000
  = Ok (Some (2508, 132, 130, 999997360)).
Proof. vm_compute. reflexivity. Qed.
Example reward_ex_depleted :
  reward 100000000 100000 176000 176000 1 2000000 3 4 100 5000 = Ok None.
Proof. vm_compute. reflexivity. Qed.
