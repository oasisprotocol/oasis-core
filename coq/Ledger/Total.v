(* C05: the block-level ledger operations never return the block-aborting error
   under the parameter sanity conditions (fees.go and TransferFromCommon as
   repaired in /repo HEAD), debonding completion in every well-formed state;
   then the exact effect of SlashEscrow on the two pools and the common pool. *)
From Verif Require Import Lib.Base Ledger.SharePool Ledger.SharePoolProofs Ledger.State Ledger.Ops Ledger.ConserveMap Ledger.Conserve Ledger.InvB.

Lemma slash_never_fatal_l s addr amount : fst (slash s addr amount) = ROk.
Proof.
  unfold slash. destruct (slash_pools _ _ _) as [ta td].
  destruct (ta + td =? 0); reflexivity.
Qed.

(* a share r/d of x, rounded down *)
Lemma mul_div_le x r d : r <= d -> x * r / d <= x.
Proof.
  intros Hr. destruct (N.eq_dec d 0) as [->|Hd]; [rewrite div0_r; lia|].
  apply N.div_le_upper_bound; [exact Hd|].
  rewrite (N.mul_comm d x). apply N.mul_le_mono_l. exact Hr.
Qed.

Lemma commission_total rate q : rate <= commission_den ->
  exists com, commission rate q = Some (com, q - com) /\ com <= q.
Proof.
  intros H. unfold commission.
  assert (Hc : q * rate / commission_den <= q) by (apply mul_div_le; exact H).
  exists (q * rate / commission_den).
  rewrite (proj2 (N.ltb_ge _ _) Hc). split; [reflexivity|exact Hc].
Qed.

Lemma reward_one_total s addr rate q : rate <= commission_den ->
  (bal (active (acct s addr)) = 0 -> q = 0) -> reward_one s addr rate q <> None.
Proof.
  intros Hr Hq. unfold reward_one.
  destruct (N.eqb_spec q 0) as [|Eq]; [discriminate|].
  assert (Hb : bal (active (acct s addr)) <> 0) by (intros Hz; exact (Eq (Hq Hz))).
  destruct (common_pool s <? q) eqn:Ec; [discriminate|].
  destruct (commission_total rate q Hr) as (com & -> & Hle).
  set (s1 := if q - com =? 0 then s else add_active_bal addr (q - com) (with_common s (common_pool s - (q - com)))).
  destruct (com =? 0) eqn:E0; [discriminate|].
  assert (Hbal : bal (active (acct s1 addr)) <> 0 /\ com <= common_pool s1).
  { subst s1. destruct (q - com =? 0) eqn:E1; [split; [exact Hb|lia]|].
    unfold add_active_bal. rewrite acct_upd_same. cbn. lia. }
  destruct Hbal as [Hb1 Hc1].
  destruct (shares_for_stake (active (acct s1 addr)) com) as [m|] eqn:Es;
    [|exfalso; exact (Hb1 (proj2 (proj1 (sfs_none _ _) Es)))].
  rewrite (proj2 (N.ltb_ge _ _) Hc1). discriminate.
Qed.

Lemma rewards_loop_total factor scale who : forall s,
  (forall a r, In (a, r) who -> r <= commission_den) -> rewards_loop s factor scale who <> None.
Proof.
  induction who as [|[addr rate] r IH]; intros s H; cbn [rewards_loop]; [discriminate|].
  destruct (reward_one s addr rate _) as [s1|] eqn:E.
  - apply IH. intros a r' Hin. apply (H a r'). right. exact Hin.
  - exfalso. refine (reward_one_total s addr rate _ (H addr rate (or_introl eq_refl)) _ E).
    intros ->. reflexivity.
Qed.

Lemma add_rewards_never_fatal_l s scale factor who :
  (forall a r, In (a, r) who -> r <= commission_den) -> fst (add_rewards s scale factor who) = ROk.
Proof.
  intros H. unfold add_rewards. destruct scale as [sc|]; [|reflexivity].
  destruct (rewards_loop s factor sc who) as [s1|] eqn:E; [reflexivity|].
  exfalso. exact (rewards_loop_total _ _ _ _ H E).
Qed.

Lemma add_reward_single_never_fatal_l s scale factor num den addr rate :
  den <> 0 -> rate <= commission_den -> fst (add_reward_single s scale factor num den addr rate) = ROk.
Proof.
  intros Hd Hr. unfold add_reward_single. destruct scale as [sc|]; [|reflexivity].
  destruct (N.eqb_spec den 0); [contradiction|].
  destruct (reward_one s addr rate _) as [s1|] eqn:E1; [reflexivity|].
  exfalso. refine (reward_one_total s addr rate _ Hr _ E1). intros ->. reflexivity.
Qed.

Lemma transfer_from_common_never_fatal_l s to amount rate esc :
  rate <= commission_den -> fst (transfer_from_common s to amount rate esc) = ROk.
Proof.
  intros Hr. unfold transfer_from_common.
  generalize (N.min (common_pool s) amount). intros moved.
  destruct (moved =? 0) eqn:E0; [reflexivity|].
  set (s1 := add_general to moved (with_common s (common_pool s - moved))).
  destruct esc; cbn [negb]; [|reflexivity].
  assert (Hg : general (acct s1 to) = general (acct s to) + moved).
  { subst s1. unfold add_general. rewrite acct_upd_same. reflexivity. }
  assert (Hsplit : exists com rest,
            (if tsh (active (acct s1 to)) =? 0 then Some (moved, 0) else commission rate moved) = Some (com, rest)
            /\ com + rest = moved).
  { destruct (tsh (active (acct s1 to)) =? 0).
    - exists moved, 0. split; [reflexivity|lia].
    - destruct (commission_total rate moved Hr) as (com & -> & Hle). exists com, (moved - com). split; [reflexivity|lia]. }
  destruct Hsplit as (com & rest & -> & Hsum).
  destruct (general (acct s1 to) <? rest) eqn:E1; [lia|].
  set (s2 := if tsh (active (acct s1 to)) =? 0 then s1 else add_active_bal to rest (sub_general to rest s1)).
  assert (Hg2 : com <= general (acct s2 to)).
  { subst s2. destruct (tsh (active (acct s1 to)) =? 0); [lia|].
    unfold add_active_bal, sub_general. rewrite !acct_upd_same. cbn [with_active with_general general]. lia. }
  destruct ((com =? 0) || _) eqn:E2; [reflexivity|].
  apply orb_false_iff in E2 as [_ E2].
  destruct (shares_for_stake (active (acct s2 to)) com) as [m|] eqn:Es.
  - rewrite (proj2 (N.ltb_ge _ _) Hg2). reflexivity.
  - exfalso. destruct (proj1 (sfs_none _ _) Es) as [Ht Hb].
    apply N.eqb_neq in Ht. rewrite Hb, Ht in E2. discriminate.
Qed.

Lemma fees_p_never_fatal_l p s pr :
  vq_done s = true -> p_w_propose p + p_w_vote p + p_w_next p <> 0 -> fst (fees_p p s pr) = ROk.
Proof.
  intros Hv Hw. unfold fees_p. rewrite Hv. cbn [negb].
  destruct (fee_acc s =? 0); [reflexivity|].
  destruct (N.eqb_spec (p_w_vote p + p_w_next p + p_w_propose p) 0) as [|E]; [lia|].
  rewrite (proj2 (N.ltb_ge _ _)); [reflexivity|]. apply mul_div_le. lia.
Qed.

Lemma pay_voters_total voters : forall s left share,
  share * N.of_nat (length voters) <= left -> pay_voters s left share voters <> None.
Proof.
  induction voters as [|v r IH]; intros s left share H; cbn [pay_voters]; [discriminate|].
  cbn [length] in H. rewrite Nat2N.inj_succ, N.mul_succ_r in H.
  destruct (left <? share) eqn:E; [lia|]. apply IH. lia.
Qed.

Lemma fees_vq_never_fatal_l p s pr n voters :
  vq_done s = false -> (last_block_fees s <> 0 -> n <> 0) -> N.of_nat (length voters) <= n ->
  fst (fees_vq p s pr n voters) = ROk.
Proof.
  intros Hv Hn Hk. unfold fees_vq. rewrite Hv.
  set (lbf := last_block_fees s) in *.
  destruct (N.eqb_spec lbf 0) as [|E0]; [reflexivity|]. specialize (Hn E0).
  destruct (N.eqb_spec n 0); [contradiction|].
  set (per := lbf / n).
  assert (Hper : per * n <= lbf) by (subst per; rewrite N.mul_comm; apply N.mul_div_le; exact Hn).
  set (k := N.of_nat (length voters)) in *.
  set (denom := p_w_vote p + p_w_next p).
  set (sn := if denom =? 0 then 0 else per * p_w_next p / denom).
  set (sv := if denom =? 0 then 0 else per - sn).
  clearbody per. (* [lia] below must not see the quotient *)
  assert (Hsum : sn + sv <= per).
  { subst sn sv. destruct (N.eqb_spec denom 0) as [|Ed]; [lia|].
    pose proof (mul_div_le per (p_w_next p) denom ltac:(subst denom; lia)). lia. }
  assert (Htot : sn * k + sv * k <= lbf).
  { rewrite <- N.mul_add_distr_r. etransitivity; [|exact Hper]. apply N.mul_le_mono; assumption. }
  clearbody sn sv. set (s0 := with_lbf s lbf true).
  assert (H1 : exists s1 left1,
     match pr with
     | Some pa => if sn * k =? 0 then Some (s0, lbf)
                  else if lbf <? sn * k then None else Some (add_general pa (sn * k) s0, lbf - sn * k)
     | None => Some (s0, lbf)
     end = Some (s1, left1) /\ sv * k <= left1).
  { destruct pr as [pa|]; [|exists s0, lbf; split; [reflexivity|lia]].
    destruct (sn * k =? 0) eqn:E2; [exists s0, lbf; split; [reflexivity|lia]|].
    destruct (lbf <? sn * k) eqn:E3; [lia|]. eexists _, _. split; [reflexivity|lia]. }
  destruct H1 as (s1 & left1 & -> & Hl).
  destruct (sv =? 0); [reflexivity|].
  destruct (pay_voters s1 left1 sv voters) as [[s2 left2]|] eqn:Ep; [reflexivity|].
  exfalso. exact (pay_voters_total voters s1 left1 sv Hl Ep).
Qed.

(* debonding completion needs no condition on parameters or inputs: the share totals of a well-formed
   state bound every stored entry, so the pool can always pay it out *)
Lemma debond_one_total s k : WF s -> debond_one s k <> None.
Proof.
  intros W. unfold debond_one. destruct k as [[e d] ep].
  destruct (mget k3_eqb (e, d, ep) (debdeleg s)) as [sh|] eqn:E; [|discriminate].
  assert (Hsh : sh <= tsh (debonding (acct s e))).
  { destruct W as (_ & _ & _ & _ & HD). rewrite HD.
    pose proof (bget_le_bsum s e d ep) as H. unfold bget in H. rewrite E in H. exact H. }
  pose proof (stake_le_bal _ _ Hsh) as Hp.
  destruct (tsh (debonding (acct s e)) <? sh) eqn:E1; [lia|].
  destruct (bal (debonding (acct s e)) <? stake_for_shares (debonding (acct s e)) sh) eqn:E2; [lia|].
  discriminate.
Qed.

Lemma debond_list_total ks : forall s, WF s -> debond_list s ks <> None.
Proof.
  induction ks as [|k r IH]; intros s W; cbn [debond_list]; [discriminate|].
  destruct (debond_one s k) as [s1|] eqn:E; [|exfalso; exact (debond_one_total s k W E)].
  apply IH. exact (proj1 (debond_one_keep _ _ _ W E)).
Qed.

Lemma debond_all_never_fatal_l s ep : WF s -> fst (debond_all s ep) = ROk.
Proof.
  intros W. unfold debond_all.
  destruct (debond_list s (expired_queue s ep)) as [s1|] eqn:E; [reflexivity|].
  exfalso. exact (debond_list_total _ _ W E).
Qed.

(* SlashEscrow for an arbitrary penalty vs. arbitrary balances.
   state.go:768-787 slashPool moves MoveUpTo(min(balance, balance*amount/total)): what the
   common pool gains is exactly what the two pools lose, also when the penalty exceeds
   active + debonding (then both pools are emptied and nothing more is credited). *)
Lemma slash_exact_l s addr amount :
  let s' := snd (slash s addr amount) in
  let a := acct s addr in let a' := acct s' addr in
  common_pool s' + bal (active a') + bal (debonding a') = common_pool s + bal (active a) + bal (debonding a)
  /\ common_pool s <= common_pool s' /\ common_pool s' - common_pool s <= amount
  /\ bal (active a') <= bal (active a) /\ bal (debonding a') <= bal (debonding a)
  /\ tsh (active a') = tsh (active a) /\ tsh (debonding a') = tsh (debonding a) /\ general a' = general a
  /\ (bal (active a) + bal (debonding a) <= amount -> bal (active a') = 0 /\ bal (debonding a') = 0)
  /\ (forall e, e <> addr -> acct s' e = acct s e)
  /\ total_supply s' = total_supply s.
Proof.
  cbn zeta. unfold slash.
  pose proof (slash_same_fraction_l (bal (active (acct s addr))) (bal (debonding (acct s addr))) amount) as H.
  destruct (slash_pools _ _ amount) as [ta td]. destruct H as (Ha & Hd & Hamt & _ & Hall & _).
  destruct (ta + td =? 0) eqn:E0; cbn [snd].
  - apply N.eqb_eq in E0. repeat split; try lia; try reflexivity.
  - set (s1 := with_common s (common_pool s + (ta + td))).
    assert (Hacc : acct (sub_deb_bal addr td (sub_active_bal addr ta s1)) addr
                   = with_debonding (with_active (acct s addr) (mkPool (bal (active (acct s addr)) - ta) (tsh (active (acct s addr)))))
                       (mkPool (bal (debonding (acct s addr)) - td) (tsh (debonding (acct s addr))))).
    { unfold sub_deb_bal, sub_active_bal. rewrite !acct_upd_same. reflexivity. }
    rewrite Hacc. cbn [with_debonding with_active active debonding bal tsh general].
    change (common_pool (sub_deb_bal addr td (sub_active_bal addr ta s1))) with (common_pool s + (ta + td)).
    repeat split; try lia; try reflexivity.
    intros e He. unfold sub_deb_bal, sub_active_bal. rewrite !acct_upd_other by exact He. reflexivity.
Qed.

Example slash_repeated_example :
  (* 150 active + 50 debonding, fixed penalty 120 three times: 120, then the remaining 80, then nothing *)
  let s0 := mkSt [(1, mkAcct 0 0 (mkPool 150 150) (mkPool 50 50) [])] [((1, 1), 150)] [((1, 1, 9), 50)] 1200 1000 0 0 0 false in
  let s3 := run ex_p s0 [OSlash 1 120; OSlash 1 120; OSlash 1 120] in
  Inv s0 /\ common_pool s3 = 1200 /\ bal (active (acct s3 1)) = 0 /\ bal (debonding (acct s3 1)) = 0 /\ total_supply s3 = 1200.
Proof.
  cbn zeta. split; [|vm_compute; repeat split; reflexivity].
  apply inv_b_correct_l. vm_compute. reflexivity.
Qed.
