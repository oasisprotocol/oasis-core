(* The proof verifier walk (ProofEntries.v).  One invariant, [walk_post], valid for every fuel, gives
   totality, the bound on the recursion depth, on the allocation and on the nesting of the subtree
   built.  Walks over chains of nested internal nodes are then followed by induction on the chain:
   the walk rejects a chain deeper than maxProofDepth through every child position, and the variant
   that does not count the leaf position accepts chains of any length. *)
From Verif Require Import Lib.Base Decode.GoSlice Decode.GoSliceFacts Decode.Node
  Decode.NodeProofs Decode.ProofEntries Gen.DecodeConsts.

Definition entry_len (e : option bytes) : N := match e with Some b => glen b | None => 0 end.
Definition rem (es : entries) (idx : N) : N := total_len (skipn (N.to_nat idx) es).

Lemma skipn_nth_error {A} (l : list A) n x :
  nth_error l n = Some x -> skipn n l = x :: skipn (S n) l.
Proof.
  revert l. induction n as [|n IH]; intros [|y l] H; cbn in H; try discriminate.
  - injection H as ->. reflexivity.
  - cbn [skipn]. apply IH. exact H.
Qed.

Lemma rem_step es idx e :
  nth_error es (N.to_nat idx) = Some e -> rem es idx = entry_len e + rem es (idx + 1).
Proof.
  intros H. unfold rem. rewrite (skipn_nth_error _ _ _ H).
  replace (N.to_nat (idx + 1)) with (S (N.to_nat idx)) by lia. reflexivity.
Qed.

Lemma gen_proof_consts_expected :
  maxProofDepth = 128 /\ proofEntryFull = 1 /\ proofEntryHash = 2 /\
  MinimumProofVersion = 0 /\ LatestProofVersion = 1.
Proof. repeat split; reflexivity. Qed.

#[export] Hint Unfold maxProofDepth proofEntryFull proofEntryHash MinimumProofVersion LatestProofVersion
  E_FUEL E_PROOF_MALFORMED E_PROOF_DEPTH E_PROOF_ENTRY E_PROOF_VERSION E_PROOF_ROOT E_PROOF_EMPTY
  E_PROOF_UNUSED : goconsts.

(* What holds of a walk whatever its fuel: a successful (sub)walk consumes at least one and at
   most the remaining entries, builds exactly one pointer per consumed entry, allocates at most
   the bytes of the entries it consumed, and its subtree together with the depth it started at
   stays within maxProofDepth; fuel runs out only if less than [walk_fuel depth] was given. *)
Definition walk_post (f : nat) (v : N) (es : entries) (idx depth s : N) : res (N * ptr) * N -> Prop :=
  outcome (fun x s' => idx < fst x /\ fst x <= elen es /\ s' + rem es (fst x) <= s + rem es idx /\
                       ptr_entries v (snd x) = fst x - idx /\ depth + ptr_nesting (snd x) <= maxProofDepth)
          (fun e s' => s' <= s + rem es idx /\ (e = E_FUEL -> (f < walk_fuel depth)%nat)).

Lemma walk_spec : forall f v es idx depth s,
  v <= 1 -> depth <= maxProofDepth + 1 -> walk_post f v es idx depth s (walk f v es idx depth s).
Proof.
  induction f as [|f IH]; intros v es idx depth s Hv Hd; unfold walk_post, walk_fuel;
    [cbn; golia|].
  cbn [walk]. step; [step; golia|]. step; [step; golia|].
  unfold eindex.
  destruct (nth_error es (N.to_nat idx)) as [e|] eqn:Hn;
    [|apply nth_error_None in Hn; unfold elen in *; lia].
  pose proof (rem_step es idx e Hn) as Hrem.
  step. destruct e as [entry|]; cbn [entry_len] in Hrem; [|step; cbn [ptr_entries ptr_nesting]; golia].
  step; [step; golia|]. step. step.
  - step. eapply outcome_bind; [apply node_spec| |intros e s1 H; rewrite glen_sl in H by lia; golia].
    intros [l|nd] s1 [Hsz Hs1]; rewrite glen_sl in Hsz by lia; [step; cbn [ptr_entries ptr_nesting]; golia|].
    (* the children: each starts where the previous one stopped, one level down *)
    assert (forall i s2, walk_post f v es i (depth + 1) s2 (walk f v es i (depth + 1) s2)) as Hch
      by (intros; apply IH; golia).
    unfold walk_post, walk_fuel in Hch.
    eapply (outcome_bind (fun x s2 => idx + 1 <= fst x /\ fst x <= elen es /\
                            s2 + rem es (fst x) <= s1 + rem es (idx + 1) /\
                            (if v =? 0 then 0 else ptr_entries v (snd x)) = fst x - (idx + 1) /\
                            (ptr_nesting (snd x) = 0 \/ depth + 1 + ptr_nesting (snd x) <= maxProofDepth)));
      [|intros [p1 lf] s2 H1; cbn [fst snd] in H1|intros e s2 H; exact H].
    { destruct (v =? 0) eqn:Hv0.
      - step. destruct (ileaf nd); cbn [oleaf_ptr ptr_nesting]; golia.
      - replace (v =? 1) with true by lia. eapply outcome_weaken; [apply Hch| |]; cbn beta; golia. }
    eapply outcome_bind; [apply Hch|intros [p2 pl] s3 H2; cbn [fst snd] in H2|intros e s3 H; cbn beta in H |- *; golia].
    eapply outcome_bind; [apply Hch|intros [p3 pr] s4 H3; cbn [fst snd] in H3|intros e s4 H; cbn beta in H |- *; golia].
    step. cbn [ptr_entries ptr_nesting]. repeat apply conj; golia.
  - step; [|step; golia]. step. unfold hash_unmarshal. rewrite bind_unfold.
    destruct (negb (glen (sl entry 1 (glen entry)) =? HashSize)); cbn [fail ret outcome fst snd ptr_entries ptr_nesting];
      golia.
Qed.

Lemma verify_walk_total_l : forall v es idx depth s,
  v <= LatestProofVersion -> depth <= maxProofDepth + 1 ->
  fst (walk (walk_fuel depth) v es idx depth s) <> Panic.
Proof. intros v es idx depth s Hv Hd. exact (outcome_no_panic _ _ _ (walk_spec _ v es idx depth s Hv Hd)). Qed.

(* the recursion never nests deeper than maxProofDepth + 2 - depth frames:
   that much fuel (one unit per nested call) is never exhausted *)
Lemma verify_depth_bounded_l : forall v es idx depth s,
  v <= LatestProofVersion -> depth <= maxProofDepth + 1 ->
  fst (walk (walk_fuel depth) v es idx depth s) <> Err E_FUEL.
Proof.
  intros v es idx depth s Hv Hd. apply (outcome_not_err _ _ _ _ (walk_spec _ v es idx depth s Hv Hd)).
  intros s' [_ H]. specialize (H eq_refl). lia.
Qed.

Lemma verify_walk_bounded_l : forall v es idx depth s idx' p s',
  v <= LatestProofVersion -> depth <= maxProofDepth + 1 ->
  walk (walk_fuel depth) v es idx depth s = (Ok (idx', p), s') ->
  idx < idx' /\ idx' <= elen es /\ ptr_entries v p = idx' - idx /\
  s' + rem es idx' <= s + rem es idx.
Proof.
  intros v es idx depth s idx' p s' Hv Hd E.
  pose proof (outcome_ok _ _ _ _ _ (walk_spec _ v es idx depth s Hv Hd) E) as H. cbn in H. tauto.
Qed.

Lemma verify_nesting_bounded_l : forall v es idx s idx' p s' fuel,
  v <= LatestProofVersion ->
  walk fuel v es idx 0 s = (Ok (idx', p), s') -> ptr_nesting p <= maxProofDepth.
Proof.
  intros v es idx s idx' p s' fuel Hv E.
  pose proof (outcome_ok _ _ _ _ _ (walk_spec fuel v es idx 0 s Hv ltac:(lia)) E) as H. cbn in H. lia.
Qed.

Lemma rem_le es idx : rem es idx <= total_len es.
Proof.
  unfold rem. generalize (N.to_nat idx) as n. intros n. revert es.
  induction n as [|n IH]; intros es; [cbn [skipn]; lia|].
  destruct es as [|e es]; [cbn [skipn]; lia|]. cbn [skipn].
  specialize (IH es). unfold total_len in *. cbn [fold_right]. lia.
Qed.

Definition vopts_post (v : N) (es : entries) (s : N) : res ptr * N -> Prop :=
  outcome (fun p s' => s' <= s + total_len es /\ ptr_entries v p = elen es)
          (fun e s' => e <> E_FUEL /\ s' <= s + total_len es).

(* for EVERY version number, including unsupported ones: the version check at
   proof.go:302 is what keeps the panic at :392 unreachable *)
Lemma verify_opts_spec : forall v rm es s, vopts_post v es s (verify_opts v rm es s).
Proof.
  intros v rm es s. unfold verify_opts, vopts_post.
  step; [step; golia|]. step; [step; golia|]. step; [step; golia|].
  pose proof (rem_le es) as Hrl. change (total_len es) with (rem es 0) in *.
  eapply outcome_bind; [apply (walk_spec (walk_fuel 0) v es 0 0 s); golia| |].
  - intros [i p] s1 H. cbn [fst snd] in H. specialize (Hrl i). step; step; golia.
  - unfold walk_fuel. intros e s1 [H1 H2]. split; [intros ->; specialize (H2 eq_refl)|]; lia.
Qed.

Lemma verify_opts_total_l : forall v rm es s,
  fst (verify_opts v rm es s) <> Panic /\ fst (verify_opts v rm es s) <> Err E_FUEL /\
  snd (verify_opts v rm es s) <= s + total_len es.
Proof.
  intros v rm es s. pose proof (verify_opts_spec v rm es s) as H. repeat apply conj.
  - exact (outcome_no_panic _ _ _ H).
  - apply (outcome_not_err _ _ _ _ H). intros s' [Hne _]. exact (Hne eq_refl).
  - apply (outcome_alloc _ _ _ _ H); cbn; tauto.
Qed.

Lemma verify_opts_consumes_all_l : forall v rm es s p s',
  verify_opts v rm es s = (Ok p, s') -> ptr_entries v p = elen es.
Proof. intros v rm es s p s' E. exact (proj2 (outcome_ok _ _ _ _ _ (verify_opts_spec v rm es s) E)). Qed.

(* without the version guard the walk does panic: the guard is necessary *)
Example walk_panics_on_unsupported_version :
  fst (run (walk (walk_fuel 0) 2 [Some [1; 1; 0; 0; 2]; None; None] 0 0)) = Panic.
Proof. vm_compute. reflexivity. Qed.

(* non-vacuity: a version-1 proof of an internal node with a leaf and two hash children *)
Example walk_accepts_v1 :
  exists p, fst (run (verify_opts 1 true
     [Some [1; 1; 0; 0; 2]; Some [1; 0; 1; 0; 7; 1; 0; 0; 0; 9]; None; None])) = Ok p
     /\ ptr_entries 1 p = 4.
Proof. eexists. vm_compute. split; reflexivity. Qed.

(* [chain_pos v pos n]: n internal nodes nested through one child position.  Walks over them are
   followed by induction on n; [skipn idx es = c ++ l] says that the entries from [idx] on are
   [c] followed by [l], so that the entry list itself never changes. *)
Lemma suffix_cons (es : entries) idx x l : skipn (N.to_nat idx) es = x :: l ->
  nth_error es (N.to_nat idx) = Some x /\ skipn (N.to_nat (idx + 1)) es = l.
Proof.
  replace (N.to_nat (idx + 1)) with (S (N.to_nat idx)) by lia.
  generalize (N.to_nat idx) as i. intros i. revert es.
  induction i as [|i IH]; intros [|y es] H; cbn in H; try discriminate.
  - injection H as -> ->. split; reflexivity.
  - apply IH. exact H.
Qed.

Lemma suffix_app (es : entries) idx a l : skipn (N.to_nat idx) es = a ++ l ->
  skipn (N.to_nat (idx + elen a)) es = l.
Proof.
  intros H. unfold elen. replace (N.to_nat (idx + N.of_nat (length a))) with (N.to_nat idx + length a)%nat by lia.
  rewrite <- skipn_skipn, H, skipn_app, skipn_all, Nat.sub_diag. reflexivity.
Qed.

Lemma chain_node s : node_unmarshal [1; 0; 0; 2] s = (Ok (NInternal (mkInode 0 [] None None None)), s).
Proof. destruct s; vm_compute; reflexivity. Qed.

Lemma nth_error_elen (es : entries) idx x : nth_error es (N.to_nat idx) = Some x -> idx < elen es.
Proof.
  intros H. assert (N.to_nat idx < length es)%nat by (apply nth_error_Some; congruence).
  unfold elen. lia.
Qed.

Lemma walk_none f v es idx depth s : nth_error es (N.to_nat idx) = Some None ->
  walk (S f) v es idx depth s
  = if maxProofDepth <? depth then (Err E_PROOF_DEPTH, s) else (Ok (idx + 1, PNil), s).
Proof.
  intros Hn. pose proof (nth_error_elen _ _ _ Hn). cbn [walk]. unfold eindex.
  replace (elen es <=? idx) with false by lia. rewrite Hn. destruct (maxProofDepth <? depth); reflexivity.
Qed.

Lemma walk_deep f v es idx depth s : idx < elen es -> maxProofDepth < depth ->
  walk (S f) v es idx depth s = (Err E_PROOF_DEPTH, s).
Proof.
  intros Hi Hd. cbn [walk]. replace (elen es <=? idx) with false by lia.
  replace (maxProofDepth <? depth) with true by lia. reflexivity.
Qed.

Lemma walk_entry f v es idx depth s :
  nth_error es (N.to_nat idx) = Some chain_entry -> depth <= maxProofDepth ->
  walk (S f) v es idx depth s =
  ('(p, lf) <- (if v =? 0 then ret (idx + 1, PNil)
                else if v =? 1 then walk f v es (idx + 1) (depth + 1) else lift Panic) ;;
   '(p, l) <- walk f v es p (depth + 1) ;;
   '(p, r) <- walk f v es p (depth + 1) ;;
   ret (p, PInt 0 [] lf l r)) s.
Proof.
  intros Hn Hd. pose proof (nth_error_elen _ _ _ Hn). cbn [walk]. unfold eindex.
  replace (elen es <=? idx) with false by lia. replace (maxProofDepth <? depth) with false by lia.
  rewrite Hn. unfold chain_entry. rewrite bind_lift_ok. cbv iota.
  change (glen [1; 1; 0; 0; 2] =? 0) with false. cbv iota.
  change (index [1; 1; 0; 0; 2] 0) with (@Ok N 1). rewrite bind_lift_ok.
  change (1 =? proofEntryFull) with true. cbv iota.
  change (slice_from [1; 1; 0; 0; 2] 1) with (Ok [1; 0; 0; 2]). rewrite bind_lift_ok.
  rewrite bind_unfold, chain_node. reflexivity.
Qed.

Lemma chain_pos_cons v pos n : exists x t, chain_pos v pos n = x :: t.
Proof.
  destruct n; cbn [chain_pos]; [eauto|].
  destruct (v =? 0), (pos =? 2), (pos =? 0), (pos =? 1); eauto.
Qed.

Lemma walk_chain_deep v pos : v <= 1 -> forall n f es idx depth l s,
  skipn (N.to_nat idx) es = chain_pos v pos n ++ l ->
  maxProofDepth < depth + N.of_nat n -> depth <= maxProofDepth + 1 -> (walk_fuel depth <= f)%nat ->
  walk f v es idx depth s = (Err E_PROOF_DEPTH, s).
Proof.
  intros Hv. induction n as [|n IH]; intros f es idx depth l s H Hn Hd Hf; unfold walk_fuel in Hf;
    (destruct f as [|f]; [golia|]).
  - apply suffix_cons in H as [H _]. rewrite walk_none by exact H.
    replace (maxProofDepth <? depth) with true by lia. reflexivity.
  - destruct (maxProofDepth <? depth) eqn:Hdd.
    { destruct (chain_pos_cons v pos (S n)) as (x & t & E). rewrite E in H. apply suffix_cons in H as [H _].
      apply walk_deep; [exact (nth_error_elen _ _ _ H)|lia]. }
    assert (forall i l' s', skipn (N.to_nat i) es = chain_pos v pos n ++ l' ->
              walk f v es i (depth + 1) s' = (Err E_PROOF_DEPTH, s')) as Hsub
      by (intros; eapply IH; [eassumption|unfold walk_fuel; golia..]).
    destruct f as [|f]; [golia|].
    assert (forall A i k s' (g : N * ptr -> M A), skipn (N.to_nat i) es = None :: k ->
              bind (walk (S f) v es i (depth + 1)) g s'
              = if maxProofDepth <? depth + 1 then (Err E_PROOF_DEPTH, s') else g (i + 1, PNil) s') as Hnone.
    { intros A i k s' g Hk. apply suffix_cons in Hk as [Hk _]. rewrite bind_unfold, walk_none by exact Hk.
      destruct (maxProofDepth <? depth + 1); reflexivity. }
    cbn [chain_pos] in H.
    assert (v = 0 \/ v = 1) as [-> | ->] by lia.
    + change (0 =? 0) with true in *. cbv iota in H.
      destruct (pos =? 2); cbn [app] in H; apply suffix_cons in H as [He H];
        rewrite walk_entry by (exact He || lia); change (0 =? 0) with true; cbv iota; rewrite bind_ret.
      * erewrite Hnone by exact H. destruct (maxProofDepth <? depth + 1); [reflexivity|].
        apply suffix_cons in H as [_ H]. cbv beta iota. rewrite bind_unfold, (Hsub _ _ _ H). reflexivity.
      * rewrite <- app_assoc in H. rewrite bind_unfold, (Hsub _ _ _ H). reflexivity.
    + change (1 =? 0) with false in *. cbv iota in H.
      destruct (pos =? 0); [|destruct (pos =? 1)]; cbn [app] in H; apply suffix_cons in H as [He H];
        rewrite walk_entry by (exact He || lia); change (1 =? 0) with false; change (1 =? 1) with true; cbv iota.
      * rewrite <- app_assoc in H. rewrite bind_unfold, (Hsub _ _ _ H). reflexivity.
      * erewrite Hnone by exact H. destruct (maxProofDepth <? depth + 1); [reflexivity|].
        apply suffix_cons in H as [_ H]. cbv beta iota. rewrite <- app_assoc in H.
        rewrite bind_unfold, (Hsub _ _ _ H). reflexivity.
      * erewrite Hnone by exact H. destruct (maxProofDepth <? depth + 1); [reflexivity|].
        apply suffix_cons in H as [_ H]. cbv beta iota. erewrite Hnone by exact H.
        apply suffix_cons in H as [_ H]. cbv beta iota. rewrite bind_unfold, (Hsub _ _ _ H). reflexivity.
Qed.

Lemma walk_chain_ok : forall n f es idx depth l s, (n < f)%nat -> depth + N.of_nat n <= maxProofDepth ->
  skipn (N.to_nat idx) es = chain_pos 1 0 n ++ l ->
  exists p, walk f 1 es idx depth s = (Ok (idx + elen (chain_pos 1 0 n), p), s) /\
            ptr_nesting p = N.of_nat n.
Proof.
  induction n as [|n IH]; intros [|f] es idx depth l s Hf Hd H; try lia.
  - apply suffix_cons in H as [Hn _]. eexists. rewrite walk_none by exact Hn.
    replace (maxProofDepth <? depth) with false by lia. split; reflexivity.
  - change (chain_pos 1 0 (S n)) with (chain_entry :: chain_pos 1 0 n ++ [None; None]) in *.
    cbn [app] in H. apply suffix_cons in H as [Hn H]. rewrite <- app_assoc in H.
    destruct f as [|f]; [lia|].
    destruct (IH (S f) es (idx + 1) (depth + 1) _ s ltac:(lia) ltac:(lia) H) as (p & E & Hp).
    apply suffix_app in H. cbn [app] in H. apply suffix_cons in H as [Hn1 H]. apply suffix_cons in H as [Hn2 _].
    eexists. split.
    + rewrite walk_entry by (exact Hn || lia). change (1 =? 0) with false. change (1 =? 1) with true.
      cbv iota. rewrite bind_unfold, E. cbv beta iota.
      rewrite bind_unfold, walk_none by exact Hn1. replace (maxProofDepth <? depth + 1) with false by lia.
      cbv beta iota. rewrite bind_unfold, walk_none by exact Hn2.
      replace (maxProofDepth <? depth + 1) with false by lia. cbv beta iota.
      unfold ret. f_equal. f_equal. f_equal.
      unfold elen. cbn [length]. rewrite app_length. cbn [length]. lia.
    + cbn [ptr_nesting]. rewrite Hp. lia.
Qed.

Lemma verify_opts_walk v es s : v <= 1 -> es <> [] ->
  verify_opts v true es s
  = ('(idx, p) <- walk (walk_fuel 0) v es 0 0 ;;
     if negb (idx =? elen es) then fail E_PROOF_UNUSED else ret p) s.
Proof.
  intros Hv He. unfold verify_opts.
  replace ((v <? MinimumProofVersion) || (LatestProofVersion <? v)) with false by golia.
  replace (elen es =? 0) with false by (destruct es; [contradiction|unfold elen; cbn [length]; lia]).
  reflexivity.
Qed.

Lemma verify_opts_chain_deep v pos n l es s : v <= 1 -> maxProofDepth < N.of_nat n ->
  es = chain_pos v pos n ++ l -> fst (verify_opts v true es s) = Err E_PROOF_DEPTH.
Proof.
  intros Hv Hn ->. destruct (chain_pos_cons v pos n) as (x & t & E).
  rewrite verify_opts_walk by (exact Hv || rewrite E; discriminate).
  rewrite bind_unfold, (walk_chain_deep v pos Hv n _ _ 0 0 l s); [reflexivity|reflexivity|golia|golia|lia].
Qed.

Fixpoint deep_chain (n : nat) : entries :=
  match n with
  | O => [None; None]
  | S n => Some [1; 1; 0; 0; 2] :: deep_chain n ++ [None]
  end.

Lemma deep_chain_eq n : deep_chain n = chain_pos 0 1 n ++ [None].
Proof.
  induction n as [|n IH]; [reflexivity|]. cbn [deep_chain chain_pos]. rewrite IH.
  change (0 =? 0) with true. change (1 =? 2) with false. reflexivity.
Qed.

Example walk_rejects_deep :
  fst (run (verify_opts 0 true (deep_chain 200))) = Err E_PROOF_DEPTH.
Proof. exact (verify_opts_chain_deep 0 1 200 [None] _ 0 ltac:(lia) eq_refl (deep_chain_eq 200)). Qed.

(* the depth counter is carried through ALL three child positions, for both versions; a chain
   of exactly maxProofDepth nodes is still accepted *)
Example walk_rejects_deep_every_position :
  fst (run (verify_opts 1 true (chain_pos 1 0 200))) = Err E_PROOF_DEPTH /\
  fst (run (verify_opts 1 true (chain_pos 1 1 200))) = Err E_PROOF_DEPTH /\
  fst (run (verify_opts 1 true (chain_pos 1 2 200))) = Err E_PROOF_DEPTH /\
  fst (run (verify_opts 0 true (chain_pos 0 1 200))) = Err E_PROOF_DEPTH /\
  fst (run (verify_opts 0 true (chain_pos 0 2 200))) = Err E_PROOF_DEPTH /\
  match fst (run (verify_opts 1 true (chain_pos 1 0 128))) with Ok p => ptr_nesting p | _ => 0 end = 128.
Proof.
  (* [conj], not [split]: [split] also applies to an equation and would decide it through the
     unifier, unfolding the chain *)
  assert (forall v pos, v <= 1 -> fst (run (verify_opts v true (chain_pos v pos 200))) = Err E_PROOF_DEPTH)
    as Hdeep.
  { intros v pos Hv. apply (verify_opts_chain_deep v pos 200 []); [exact Hv|reflexivity|].
    rewrite app_nil_r. reflexivity. }
  repeat apply conj; [apply Hdeep; lia..|].
  destruct (chain_pos_cons 1 0 128) as (x & t & E).
  destruct (walk_chain_ok 128 (walk_fuel 0) (chain_pos 1 0 128) 0 0 [] 0) as (p & Ew & Hp);
    [vm_compute; lia|reflexivity|rewrite app_nil_r; reflexivity|].
  unfold run. rewrite verify_opts_walk by (lia || rewrite E; discriminate).
  rewrite bind_unfold, Ew, N.add_0_l, N.eqb_refl. exact Hp.
Qed.

(* The variant that does not count the leaf position is NOT depth-bounded: a chain through the
   leaf position passes the depth check at every level; whatever its length
   it is accepted given fuel for it, and it exhausts any fuel that is only proportional to
   maxProofDepth. *)
Lemma walkv_nil f es idx depth s : nth_error es (N.to_nat idx) = Some None -> depth <= maxProofDepth ->
  walk_leaf_same_depth (S f) 1 es idx depth s = (Ok (idx + 1, PNil), s).
Proof.
  intros Hn Hd. pose proof (nth_error_elen _ _ _ Hn). cbn [walk_leaf_same_depth]. unfold eindex.
  replace (elen es <=? idx) with false by lia. replace (maxProofDepth <? depth) with false by lia.
  rewrite Hn. reflexivity.
Qed.

Lemma walkv_entry f es idx depth s :
  nth_error es (N.to_nat idx) = Some chain_entry -> depth <= maxProofDepth ->
  walk_leaf_same_depth (S f) 1 es idx depth s =
  ('(p, lf) <- walk_leaf_same_depth f 1 es (idx + 1) depth ;;
   '(p, l) <- walk_leaf_same_depth f 1 es p (depth + 1) ;;
   '(p, r) <- walk_leaf_same_depth f 1 es p (depth + 1) ;;
   ret (p, PInt 0 [] lf l r)) s.
Proof.
  intros Hn Hd. pose proof (nth_error_elen _ _ _ Hn). cbn [walk_leaf_same_depth]. unfold eindex.
  replace (elen es <=? idx) with false by lia. replace (maxProofDepth <? depth) with false by lia.
  rewrite Hn. unfold chain_entry. rewrite bind_lift_ok. cbv iota.
  change (glen [1; 1; 0; 0; 2] =? 0) with false. cbv iota.
  change (index [1; 1; 0; 0; 2] 0) with (@Ok N 1). rewrite bind_lift_ok.
  change (1 =? proofEntryFull) with true. cbv iota.
  change (slice_from [1; 1; 0; 0; 2] 1) with (Ok [1; 0; 0; 2]). rewrite bind_lift_ok.
  rewrite bind_unfold, chain_node. reflexivity.
Qed.

Lemma walkv_chain : forall n f es idx l s, (n < f)%nat ->
  skipn (N.to_nat idx) es = chain_pos 1 0 n ++ l ->
  exists p, walk_leaf_same_depth f 1 es idx 0 s = (Ok (idx + elen (chain_pos 1 0 n), p), s) /\
            ptr_nesting p = N.of_nat n.
Proof.
  induction n as [|n IH]; intros [|f] es idx l s Hf H; try lia.
  - apply suffix_cons in H as [Hn _]. eexists. split; [rewrite walkv_nil by (exact Hn || golia)|]; reflexivity.
  - change (chain_pos 1 0 (S n)) with (chain_entry :: chain_pos 1 0 n ++ [None; None]) in *.
    cbn [app] in H. apply suffix_cons in H as [Hn H]. rewrite <- app_assoc in H.
    destruct f as [|f]; [lia|]. destruct (IH (S f) es (idx + 1) _ s ltac:(lia) H) as (p & E & Hp).
    apply suffix_app in H. cbn [app] in H. apply suffix_cons in H as [Hn1 H]. apply suffix_cons in H as [Hn2 _].
    eexists. split.
    + rewrite walkv_entry by (exact Hn || golia). rewrite bind_unfold, E. cbv beta iota.
      rewrite bind_unfold, walkv_nil by (exact Hn1 || golia). cbv beta iota.
      rewrite bind_unfold, walkv_nil by (exact Hn2 || golia). cbv beta iota.
      unfold ret. f_equal. f_equal. f_equal.
      unfold elen. cbn [length]. rewrite app_length. cbn [length]. lia.
    + cbn [ptr_nesting]. rewrite Hp. lia.
Qed.

Lemma walkv_fuel : forall f n es idx l s, (f <= n)%nat ->
  skipn (N.to_nat idx) es = chain_pos 1 0 n ++ l ->
  walk_leaf_same_depth f 1 es idx 0 s = (Err E_FUEL, s).
Proof.
  induction f as [|f IH]; intros [|n] es idx l s Hf H; try lia; [reflexivity|reflexivity|].
  change (chain_pos 1 0 (S n)) with (chain_entry :: chain_pos 1 0 n ++ [None; None]) in *.
  cbn [app] in H. apply suffix_cons in H as [Hn H]. rewrite <- app_assoc in H.
  rewrite walkv_entry by (exact Hn || golia).
  rewrite bind_unfold, (IH n es (idx + 1) _ s ltac:(lia) H). reflexivity.
Qed.

Lemma walk_leaf_same_depth_unbounded_l :
  fst (run (walk_leaf_same_depth (walk_fuel 0) 1 (chain_pos 1 0 300) 0 0)) = Err E_FUEL /\
  match fst (run (walk_leaf_same_depth 400 1 (chain_pos 1 0 300) 0 0)) with
  | Ok (_, p) => ptr_nesting p | _ => 0 end = 300 /\
  fst (run (walk (walk_fuel 0) 1 (chain_pos 1 0 300) 0 0)) = Err E_PROOF_DEPTH.
Proof.
  repeat apply conj.
  - pose proof (walkv_fuel (walk_fuel 0) 300 (chain_pos 1 0 300) 0 [] 0) as E.
    unfold run. rewrite E; [reflexivity|vm_compute; lia|rewrite app_nil_r; reflexivity].
  - destruct (walkv_chain 300 400 (chain_pos 1 0 300) 0 [] 0) as (p & E & Hp);
      [lia|rewrite app_nil_r; reflexivity|].
    unfold run. rewrite E. exact Hp.
  - unfold run. rewrite (walk_chain_deep 1 0 ltac:(lia) 300 (walk_fuel 0) (chain_pos 1 0 300) 0 0 [] 0);
      [reflexivity|rewrite app_nil_r; reflexivity|reflexivity|golia|lia].
Qed.
