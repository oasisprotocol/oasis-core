(* Equivocation evidence: valid evidence proves a double vote; a node that follows the
   protocol cannot be accused. *)
From Verif Require Import Lib.Base Roothash.Pool Roothash.Verify Roothash.App Roothash.Evidence.

(* valid executor evidence: one node signed two commitments for the same round and scheduler
   whose content differs *)
Lemma valid_evidence_means_double_vote a b :
  exec_evidence_check a b = EvOk ->
  vc_node (e_vc a) = vc_node (e_vc b) /\ vc_sched (e_vc a) = vc_sched (e_vc b) /\
  vc_round (e_vc a) = vc_round (e_vc b) /\
  vc_sig_ok (e_vc a) = true /\ vc_sig_ok (e_vc b) = true /\
  validate_basic (e_vc a) = true /\ validate_basic (e_vc b) = true /\
  (vc_fcode (e_vc a) <> vc_fcode (e_vc b) \/ vc_vote (e_vc a) <> vc_vote (e_vc b)) /\
  (* the difference is in a result field, not only in the header hash *)
  ((vc_fcode (e_vc a) = 0 /\ vc_fcode (e_vc b) = 0 /\
    (vc_prev (e_vc a) <> vc_prev (e_vc b) \/ e_io a <> e_io b \/ e_state a <> e_state b \/ e_mh a <> e_mh b))
   \/ vc_fcode (e_vc a) <> vc_fcode (e_vc b)).
Proof.
  unfold exec_evidence_check, mostly_equal.
  destruct ((vc_fcode (e_vc a) =? vc_fcode (e_vc b)) && (vc_vote (e_vc a) =? vc_vote (e_vc b))) eqn:E0; [discriminate|].
  destruct (vc_node (e_vc a) =? vc_node (e_vc b)) eqn:E1; cbn [negb]; [|discriminate].
  destruct (vc_sched (e_vc a) =? vc_sched (e_vc b)) eqn:E2; cbn [negb]; [|discriminate].
  destruct (vc_round (e_vc a) =? vc_round (e_vc b)) eqn:E3; cbn [negb]; [|discriminate].
  destruct ((0 <? vc_nmsgs (e_vc a)) || (0 <? vc_nmsgs (e_vc b))); [discriminate|].
  destruct (validate_basic (e_vc a)) eqn:E4; cbn [negb]; [|discriminate].
  destruct (validate_basic (e_vc b)) eqn:E5; cbn [negb]; [|discriminate].
  apply N.eqb_eq in E1, E2, E3.
  assert (Hdiff : vc_fcode (e_vc a) <> vc_fcode (e_vc b) \/ vc_vote (e_vc a) <> vc_vote (e_vc b)).
  { apply andb_false_iff in E0 as [E0|E0]; apply N.eqb_neq in E0; [left|right]; exact E0. }
  destruct ((vc_fcode (e_vc a) =? 0) && (vc_fcode (e_vc b) =? 0)) eqn:E6.
  - destruct ((vc_prev (e_vc a) =? vc_prev (e_vc b)) && (e_io a =? e_io b) && (e_state a =? e_state b) && (e_mh a =? e_mh b)) eqn:E7;
      [discriminate|].
    destruct (vc_sig_ok (e_vc a)) eqn:E8; cbn [negb]; [|discriminate].
    destruct (vc_sig_ok (e_vc b)) eqn:E9; cbn [negb]; [|discriminate].
    intros _. apply andb_true_iff in E6 as [F1 F2]. apply N.eqb_eq in F1, F2.
    rewrite !andb_false_iff, !N.eqb_neq in E7.
    repeat split; try assumption. left. repeat split; try assumption. tauto.
  - destruct (vc_fcode (e_vc a) =? vc_fcode (e_vc b)) eqn:E7; [discriminate|]. apply N.eqb_neq in E7.
    destruct (vc_sig_ok (e_vc a)) eqn:E8; cbn [negb]; [|discriminate].
    destruct (vc_sig_ok (e_vc b)) eqn:E9; cbn [negb]; [|discriminate].
    intros _. repeat split; try assumption. right. exact E7.
Qed.

Lemma valid_proposal_evidence_means_double_proposal a b :
  prop_evidence_check a b = PvOk ->
  pr_node a = pr_node b /\ pr_round a = pr_round b /\
  pr_sig_ok a = true /\ pr_sig_ok b = true /\
  (pr_prev a <> pr_prev b \/ pr_batch_hash a <> pr_batch_hash b).
Proof.
  unfold prop_evidence_check, header_equal.
  destruct ((pr_round a =? pr_round b) && (pr_prev a =? pr_prev b) && (pr_batch_hash a =? pr_batch_hash b)) eqn:E0; [discriminate|].
  destruct (pr_node a =? pr_node b) eqn:E1; cbn [negb]; [|discriminate].
  destruct (pr_round a =? pr_round b) eqn:E2; cbn [negb]; [|discriminate].
  destruct ((0 <? pr_nbatch a) || (0 <? pr_nbatch b)); [discriminate|].
  destruct (pr_has_bsig a || pr_has_bsig b); [discriminate|].
  destruct (pr_sig_ok a) eqn:E3; cbn [negb]; [|discriminate].
  destruct (pr_sig_ok b) eqn:E4; cbn [negb]; [|discriminate].
  intros _. repeat split; try lia; try reflexivity.
Qed.

(* A node following the protocol.  [signed] is the set of commitments the node ever signed;
   signatures are unforgeable (every commitment carrying a valid signature of the node is in
   the set) and the node signs at most one content per round and scheduler. *)
Section Honest.
  Variable n : N.
  Variable signed : vcommit -> Prop.
  Hypothesis unforgeable : forall vc, vc_node vc = n -> vc_sig_ok vc = true -> signed vc.
  Hypothesis one_vote : forall x y, signed x -> signed y ->
    vc_round x = vc_round y -> vc_sched x = vc_sched y ->
    vc_fcode x = vc_fcode y /\ vc_vote x = vc_vote y.

  Lemma honest_node_never_accused a b :
    vc_node (e_vc a) = n -> exec_evidence_check a b <> EvOk.
  Proof.
    intros Hn H. apply valid_evidence_means_double_vote in H
      as (H1 & H2 & H3 & H4 & H5 & _ & _ & Hd & _).
    assert (Sa : signed (e_vc a)) by (apply unforgeable; assumption).
    assert (Sb : signed (e_vc b)) by (apply unforgeable; [congruence|assumption]).
    destruct (one_vote _ _ Sa Sb H3 H2) as [F V]. destruct Hd; contradiction.
  Qed.
End Honest.

Section HonestProposer.
  Variable n : N.
  Variable proposed : proposal -> Prop.
  Hypothesis unforgeable : forall p, pr_node p = n -> pr_sig_ok p = true -> proposed p.
  Hypothesis one_proposal : forall x y, proposed x -> proposed y -> pr_round x = pr_round y ->
    pr_prev x = pr_prev y /\ pr_batch_hash x = pr_batch_hash y.

  Lemma honest_proposer_never_accused a b :
    pr_node a = n -> prop_evidence_check a b <> PvOk.
  Proof.
    intros Hn H. apply valid_proposal_evidence_means_double_proposal in H as (H1 & H2 & H3 & H4 & Hd).
    assert (Sa : proposed a) by (apply unforgeable; assumption).
    assert (Sb : proposed b) by (apply unforgeable; [congruence|assumption]).
    destruct (one_proposal _ _ Sa Sb H2) as [F V]. destruct Hd; contradiction.
  Qed.
End HonestProposer.

(* the pool's one-vote rule is the protocol: commitments of one node accepted by the pool for
   one round and scheduler never form valid evidence against it -- accepted means AOk twice,
   which [one_vote_per_member] excludes; stated here on the evidence side: two commitments with
   the same (failure, vote) are never valid evidence *)
Lemma same_content_is_no_evidence a b :
  vc_fcode (e_vc a) = vc_fcode (e_vc b) -> vc_vote (e_vc a) = vc_vote (e_vc b) ->
  exec_evidence_check a b = EvEqual.
Proof.
  intros F V. unfold exec_evidence_check, mostly_equal. rewrite F, V, !N.eqb_refl. reflexivity.
Qed.

(* submitEvidence: recorded exactly when accepted; a rejected submission leaves nothing behind *)
Lemma submit_evidence_spec st store slashes max_age e id registered :
  let r := submit_evidence st store slashes max_age e id registered in
  (snd r = 0 ->
     evidence_valid e = true /\ ~ In id store /\ fst r = id :: store /\ registered = true /\
     slashes = true /\ rs_suspended st = false) /\
  (snd r <> 0 -> fst r = store).
Proof.
  unfold submit_evidence.
  destruct (evidence_valid e); cbn [negb]; [|split; [discriminate|reflexivity]].
  destruct (rs_suspended st); [split; [discriminate|reflexivity]|].
  destruct (rs_committee st); [|split; [discriminate|reflexivity]].
  destruct (rs_pool st); [|split; [discriminate|reflexivity]].
  destruct slashes; cbn [negb]; [|split; [discriminate|reflexivity]].
  destruct (_ <? rs_round st); [split; [discriminate|reflexivity]|].
  destruct (existsb (N.eqb id) store) eqn:Ex; [split; [discriminate|reflexivity]|].
  destruct registered; cbn [negb]; [|split; [discriminate|reflexivity]].
  split; [|intros H; contradiction]. intros _. repeat split; try reflexivity.
  intros Hin. assert (existsb (N.eqb id) store = true); [|congruence].
  apply existsb_exists. exists id. split; [exact Hin|apply N.eqb_refl].
Qed.

Lemma duplicate_evidence_rejected st store slashes max_age e id registered :
  In id store -> snd (submit_evidence st store slashes max_age e id registered) <> 0.
Proof.
  intros Hin H. apply (proj1 (submit_evidence_spec st store slashes max_age e id registered)) in H
    as (_ & Hn & _). contradiction.
Qed.
