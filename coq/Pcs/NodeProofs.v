(* C18 — proofs about Verif.Pcs.Node (node registration).  Acceptance by
   [cap_verify] is inverted once, into [Binds] ([registration_binds_rak_l]); the
   "never binds / never registers" statements and the registry's entry point
   ([registry_accept_binds_l]) are corollaries.  The toy instance at the end
   extends the one of Pcs.Proofs. *)
From Verif Require Import Lib.Base Pcs.Model Pcs.Proofs Pcs.Node.

Lemma nbind_ok {A B} (x : NRes A) (f : A -> NRes B) b :
  nbind x f = NOk b -> exists a, x = NOk a /\ f a = NOk b.
Proof. destruct x as [a| |]; cbn [nbind]; [eauto|discriminate|discriminate]. Qed.

Lemma ncheck_ok b r u : ncheck b r = NOk u -> b = true.
Proof. destruct b; [reflexivity|discriminate]. Qed.

Lemma nchk_ok {B} b r (k : unit -> NRes B) x : nbind (ncheck b r) k = NOk x -> b = true /\ k tt = NOk x.
Proof. destruct b; [auto|discriminate]. Qed.

Section Node.
  Variable NP : NPrims.
  Variable env : Env.

  Definition cfg_of (c : option TeeCfg) : TeeCfg := match c with Some c => c | None => empty_cfg end.

  (* the PCS policy in force (tee.go:37-49 + quote.go:29-31 + pcs/quote.go:143-150): the runtime's own PCS policy if its
     constraints carry one; otherwise the consensus default PCS policy, provided a default policy exists, the PCS feature
     is on and the default has a PCS part; only otherwise the hard-coded fallback (30 days, minimum 12, no lists, no TDX).
     The three fills of ApplyDefaultConstraints are independent: an IAS part (present or defaulted) never suppresses
     the PCS default. *)
  Definition runtime_pcs (sc : Constraints) : option Policy :=
    match sc_policy sc with Some p => qp_pcs p | None => None end.
  Definition policy_in_force (cfg : TeeCfg) (sc : Constraints) : Policy :=
    match runtime_pcs sc with
    | Some pp => pp
    | None =>
        match f_default_policy cfg with
        | Some d => if f_pcs cfg then match qp_pcs d with Some dp => dp | None => default_policy end else default_policy
        | None => default_policy
        end
    end.

  Lemma eff_pcs_policy_in_force cfg sc : eff_pcs_policy cfg sc = policy_in_force cfg sc.
  Proof.
    unfold eff_pcs_policy, eff_policy, policy_in_force, runtime_pcs.
    destruct (f_default_policy cfg) as [[di dp]|]; destruct (sc_policy sc) as [[pi pp]|]; cbn [qp_pcs qp_ias];
      try destruct pp; try destruct (f_pcs cfg); try destruct dp; reflexivity.
  Qed.

  Lemma pcs_policy_in_force_l cfg sc :
    eff_pcs_policy cfg sc = policy_in_force cfg sc /\
    (forall pp, runtime_pcs sc = Some pp -> policy_in_force cfg sc = pp) /\
    (forall d dp, runtime_pcs sc = None -> f_default_policy cfg = Some d -> f_pcs cfg = true -> qp_pcs d = Some dp ->
                  policy_in_force cfg sc = dp).
  Proof.
    split; [apply eff_pcs_policy_in_force|]. unfold policy_in_force. split.
    - intros pp H. rewrite H. reflexivity.
    - intros d dp H0 H1 H2 H3. rewrite H0, H1, H2, H3. reflexivity.
  Qed.

  Record Binds (cfg : TeeCfg) (ts : Z) (height : N) (sc : Constraints) (node_id : bytes) (cap : CapTee)
         (a : Attestation) (raw : bytes) (c : Collateral) (mre mrs rd : bytes) : Prop := {
    b_hardware : ct_hardware cap = HW_SGX;
    b_quote : a_quote a = QKPcs raw c;
    (* the quote verifies under the effective PCS policy (runtime constraints, else consensus default, else built-in) *)
    b_verified : verify (np_pcs NP) env (eff_pcs_policy cfg sc) ts raw c = Ok (mre, mrs, rd);
    b_identity : exists e, In e (sc_enclaves sc) /\ fst e = mre /\ snd e = mrs;
    (* first 32 bytes of the report data = SHA-512/256("oasis-core/node: TEE RAK binding" || RAK) *)
    b_rak : firstn 32 rd = hash512_256 NP (tee_hash_context ++ ct_rak cap);
    (* with signed attestations: RAK signature over TupleHash(report data, node id, height, [REK]) and freshness *)
    b_signed : f_signed cfg = true ->
      rak_verify NP (ct_rak cap)
        (att_tuplehash NP ([rd; node_id; le_bytes 8 (a_height a)] ++ rek_tuple (ct_rek cap))) (a_sig a) = true /\
      a_height a <= height /\ height - a_height a <= eff_max_age cfg sc;
    b_versions : a_version a <= 1 /\ sc_version sc <= 1 /\ (f_pcs cfg = false -> a_version a = 0 /\ sc_version sc = 0);
    b_policy : eff_pcs_policy cfg sc = policy_in_force cfg sc
  }.

  Lemma existsb_enclave mre mrs l :
    existsb (enclave_eqb (mre, mrs)) l = true -> exists e, In e l /\ fst e = mre /\ snd e = mrs.
  Proof.
    intros H. apply existsb_exists in H as (e & Hin & He). exists e. split; [exact Hin|].
    unfold enclave_eqb in He. cbn [fst snd] in He. apply andb_true_iff in He as [A B].
    apply bytes_eqb_eq in A, B. auto.
  Qed.

  (* sgx.go:103-109, 200-206: version 0 or 1, and 0 while the PCS feature is off *)
  Lemma version_gate pcs v :
    negb (negb pcs && negb (v =? 0)) && (v <=? 1) = true -> v <= 1 /\ (pcs = false -> v = 0).
  Proof. destruct pcs; cbn [negb andb]; lia. Qed.

  Lemma registration_binds_rak_l cfg0 ts height constraints node_id is261 cap u :
    cap_verify NP env cfg0 ts height constraints node_id is261 cap = NOk u ->
    exists a sc raw c mre mrs rd,
      ct_att cap = Some a /\ constraints = Some sc /\
      Binds (cfg_of cfg0) ts height sc node_id cap a raw c mre mrs rd.
  Proof.
    unfold cap_verify. fold (cfg_of cfg0). set (cfg := cfg_of cfg0). intros H.
    apply nchk_ok in H as [EH H]. apply N.eqb_eq in EH.
    destruct (ct_att cap) as [a|]; [|discriminate H].
    apply nchk_ok in H as [EV H]. apply version_gate in EV as [V1 V2].
    destruct constraints as [sc|]; [|discriminate H].
    apply nchk_ok in H as [ES H]. apply andb_true_iff, proj1, version_gate in ES as [S1 S2].
    unfold att_verify in H. apply nbind_ok in H as ([[mre mrs] rd] & EQ & H).
    apply nchk_ok in H as [EE H]. apply nchk_ok in H as [ER H]. apply bytes_eqb_eq in ER.
    unfold quote_verify in EQ. destruct (a_quote a) as [| | |raw c] eqn:EK; try discriminate EQ.
    destruct (verify (np_pcs NP) env (eff_pcs_policy cfg sc) ts raw c) as [o|] eqn:EVf; [|discriminate EQ].
    injection EQ as ->.
    exists a, sc, raw, c, mre, mrs, rd. split; [reflexivity|]. split; [reflexivity|].
    constructor; auto using existsb_enclave, eff_pcs_policy_in_force.
    intros Hs. rewrite Hs in H. unfold att_signature_stage in H.
    apply nchk_ok in H as [E1 H]. apply nchk_ok in H as [E2 H]. apply ncheck_ok in H.
    apply N.leb_le in E2, H. auto.
  Qed.

  Lemma foreign_quote_never_binds_l cfg0 ts height sc node_id is261 cap a raw c :
    ct_att cap = Some a -> a_quote a = QKPcs raw c ->
    (forall mre mrs rd, verify (np_pcs NP) env (eff_pcs_policy (cfg_of cfg0) sc) ts raw c = Ok (mre, mrs, rd) ->
                        firstn 32 rd <> hash512_256 NP (tee_hash_context ++ ct_rak cap)) ->
    forall u, cap_verify NP env cfg0 ts height (Some sc) node_id is261 cap <> NOk u.
  Proof.
    intros EA EK Hf u H.
    apply registration_binds_rak_l in H as (a' & sc' & raw' & c' & mre & mrs & rd & E1 & E2 & B).
    injection E2 as <-. rewrite EA in E1. injection E1 as <-.
    destruct B as [_ Bq Bv _ Br _ _]. rewrite EK in Bq. injection Bq as <- <-.
    exact (Hf _ _ _ Bv Br).
  Qed.

  Lemma unlisted_or_stale_never_registers_l cfg0 ts height sc node_id is261 cap a raw c mre mrs rd :
    ct_att cap = Some a -> a_quote a = QKPcs raw c ->
    verify (np_pcs NP) env (eff_pcs_policy (cfg_of cfg0) sc) ts raw c = Ok (mre, mrs, rd) ->
    (forall e, In e (sc_enclaves sc) -> ~ (fst e = mre /\ snd e = mrs))
    \/ f_signed (cfg_of cfg0) = true /\
       (height < a_height a \/ eff_max_age (cfg_of cfg0) sc < height - a_height a \/
        rak_verify NP (ct_rak cap) (att_message NP rd node_id (a_height a) (ct_rek cap)) (a_sig a) = false) ->
    forall u, cap_verify NP env cfg0 ts height (Some sc) node_id is261 cap <> NOk u.
  Proof.
    intros EA EK EV Hx u H.
    apply registration_binds_rak_l in H as (a' & sc' & raw' & c' & mre' & mrs' & rd' & E1 & E2 & B).
    injection E2 as <-. rewrite EA in E1. injection E1 as <-.
    destruct B as [_ Bq Bv Bi _ Bs _]. rewrite EK in Bq. injection Bq as <- <-.
    rewrite EV in Bv. injection Bv as <- <- <-.
    destruct Hx as [Hx|[Hs Hx]].
    - destruct Bi as (e & Hin & He). exact (Hx e Hin He).
    - destruct (Bs Hs) as (R & A & F). unfold att_message in Hx. destruct Hx as [Hx|[Hx|Hx]]; congruence || lia.
  Qed.

  (* what is NOT bound when the SignedAttestations feature is off (in particular when no TEE feature set is
     configured): node id, heights, REK and the signature *)
  Lemma unsigned_attestation_frame_l cfg0 ts h1 h2 constraints nid1 nid2 is261 hw rak rek1 rek2 v k ah1 ah2 s1 s2 :
    f_signed (cfg_of cfg0) = false ->
    cap_verify NP env cfg0 ts h1 constraints nid1 is261 (mkCap hw rak rek1 (Some (mkAtt v k ah1 s1))) =
    cap_verify NP env cfg0 ts h2 constraints nid2 is261 (mkCap hw rak rek2 (Some (mkAtt v k ah2 s2))).
  Proof.
    intros Hs. unfold cap_verify, att_verify, att_validate_basic. fold (cfg_of cfg0).
    cbn [ct_hardware ct_att ct_rak ct_rek a_version a_quote].
    rewrite Hs. reflexivity.
  Qed.

  Lemma version_eqb_eq a b : version_eqb a b = true <-> a = b.
  Proof.
    destruct a as [[a1 a2] a3], b as [[b1 b2] b3]. unfold version_eqb. cbn [fst snd].
    rewrite !andb_true_iff, !N.eqb_eq. split; [intros [[-> ->] ->]; reflexivity|intros [= -> -> ->]; auto].
  Qed.

  (* acceptance by VerifyNodeRuntimeEnclaveIDs: either the node claims no TEE and the runtime requires none, or the
     capability's hardware is the runtime's, the FIRST deployment with the node's runtime version is used, its
     constraints decode, and the capability binds under them *)
  Lemma registry_accept_binds_l cfg0 ts height node_id is261 rt reg u :
    verify_enclave_ids NP env cfg0 ts height node_id is261 rt reg = NOk u ->
    (nr_tee rt = None /\ rr_hw reg = 0) \/
    exists cap d pre post a sc raw c mre mrs rd,
      nr_tee rt = Some cap /\ ct_hardware cap = rr_hw reg /\
      rr_deployments reg = pre ++ d :: post /\ d_version d = nr_version rt /\
      (forall y, In y pre -> d_version y <> nr_version rt) /\
      ct_att cap = Some a /\ d_tee d = Some sc /\
      Binds (cfg_of cfg0) ts height sc node_id cap a raw c mre mrs rd.
  Proof.
    unfold verify_enclave_ids. intros H. apply nchk_ok in H as [EH H]. apply N.eqb_eq in EH.
    destruct (nr_tee rt) as [cap|]; [right|left; auto].
    destruct (find (fun d => version_eqb (d_version d) (nr_version rt)) (rr_deployments reg)) as [d|] eqn:EF;
      [|discriminate H].
    apply find_first in EF as (pre & post & A & B & C). apply version_eqb_eq in B.
    apply registration_binds_rak_l in H as (a & sc & raw & c & mre & mrs & rd & E1 & E2 & Bd).
    exists cap, d, pre, post, a, sc, raw, c, mre, mrs, rd.
    split; [reflexivity|]. split; [exact EH|]. split; [exact A|]. split; [exact B|]. split; [|auto].
    intros y Hy Heq. apply version_eqb_eq in Heq. rewrite (C y Hy) in Heq. discriminate.
  Qed.

  Lemma register_tee_check_strict_l cfg0 ts height node_id is261 rt reg :
    register_tee_check NP env cfg0 ts height node_id is261 rt reg false false =
    verify_enclave_ids NP env cfg0 ts height node_id is261 rt reg.
  Proof. unfold register_tee_check. destruct (verify_enclave_ids _ _ _ _ _ _ _ _ _); reflexivity. Qed.

  (* at genesis (or in the genesis sanity checker) a failing attestation never rejects the node
     (api.go:626-634: "These checks are skipped at time of genesis") *)
  Lemma genesis_ignores_attestation_l cfg0 ts height node_id is261 rt reg g s r :
    g || s = true -> register_tee_check NP env cfg0 ts height node_id is261 rt reg g s <> NRej r.
  Proof.
    unfold register_tee_check. intros Hg. rewrite Hg.
    destruct (verify_enclave_ids _ _ _ _ _ _ _ _ _); discriminate.
  Qed.

  (* determinism: the verdict is a function of the process switches, the consensus parameters, the block time and
     height, the node descriptor's runtime entry and the registry's runtime descriptor -- nothing else is an input *)
  Lemma registry_verdict_deterministic_l env2 cfg1 cfg2 ts1 ts2 h1 h2 nid1 nid2 f1 f2 rt1 rt2 reg1 reg2 :
    env = env2 -> cfg1 = cfg2 -> ts1 = ts2 -> h1 = h2 -> nid1 = nid2 -> f1 = f2 -> rt1 = rt2 -> reg1 = reg2 ->
    verify_enclave_ids NP env cfg1 ts1 h1 nid1 f1 rt1 reg1 = verify_enclave_ids NP env2 cfg2 ts2 h2 nid2 f2 rt2 reg2.
  Proof. intros. subst. reflexivity. Qed.
End Node.

Definition toyNP : NPrims :=
  mkNPrims sgxP (fun x => firstn 32 (skipn 32 x ++ zeros 32)) (fun l => concat l)
           (fun rak m s => bytes_eqb s (rak ++ firstn 4 m)).
(* the toy quote's report data is 64 x 0xDA, so the toy RAK is 32 x 0xDA *)
Definition toy_rak : bytes := repeat 0xDA 32.
Definition toy_sc : Constraints := mkSC 1 [(zeros 32, zeros 32); (repeat 0xEE 32, repeat 0x51 32)] None 0.
Definition toy_cfg : TeeCfg := mkCfg true true None 100 false.
Definition toy_cap (height : N) (rak : bytes) : CapTee :=
  mkCap 1 rak (Some [9; 9]) (Some (mkAtt 1 (QKPcs toy_sgx_raw toy_coll) height (rak ++ repeat 0xDA 4))).

Example ex_registration :
  cap_verify toyNP toy_env (Some toy_cfg) 50 1000 (Some toy_sc) [7] true (toy_cap 990 toy_rak) = NOk tt /\
  cap_verify toyNP toy_env (Some toy_cfg) 50 1000 (Some toy_sc) [7] true (toy_cap 990 (repeat 0xDB 32)) = NRej NRakHashMismatch /\
  cap_verify toyNP toy_env (Some toy_cfg) 50 1000 (Some toy_sc) [7] true (toy_cap 899 toy_rak) = NRej NNotFresh /\
  cap_verify toyNP toy_env (Some toy_cfg) 50 1000 (Some toy_sc) [7] true (toy_cap 1001 toy_rak) = NRej NFromFuture /\
  cap_verify toyNP toy_env (Some toy_cfg) 50 1000 (Some (mkSC 1 [(zeros 32, zeros 32)] None 0)) [7] true (toy_cap 990 toy_rak)
    = NRej NBadEnclaveIdentity /\
  cap_verify toyNP toy_env (Some toy_cfg) 50 1000 (Some toy_sc) [7] true
    (mkCap 1 toy_rak None (Some (mkAtt 1 (QKPcs toy_sgx_raw toy_coll) 990 (zeros 36)))) = NRej NInvalidAttSig /\
  cap_verify toyNP toy_env (Some toy_cfg) (15 + 31 * day_ns) 1000 (Some toy_sc) [7] true (toy_cap 990 toy_rak)
    = NRej (NQuote RPckChain) /\
  cap_verify toyNP toy_env (Some toy_cfg) 50 1000 (Some toy_sc) [7] true
    (mkCap 0 toy_rak None (Some (mkAtt 1 (QKPcs toy_sgx_raw toy_coll) 990 []))) = NRej NInvalidHardware /\
  cap_verify toyNP toy_env None 50 1000 (Some toy_sc) [7] true (toy_cap 990 toy_rak) = NRej NAttMalformed.
Proof. vm_compute. repeat split. Qed.

(* the process switches ARE an input: replicas started with different unsafe debug flags disagree on a debug enclave *)
Definition toy_sgx_raw_debug : bytes := firstn 96 toy_sgx_raw ++ [2] ++ skipn 97 toy_sgx_raw.
Lemma verdict_depends_on_process_switches_l :
  exists NP cfg ts h nid rt reg,
    verify_enclave_ids NP (mkEnv true false []) cfg ts h nid true rt reg = NOk tt /\
    verify_enclave_ids NP (mkEnv false false []) cfg ts h nid true rt reg = NRej (NQuote RDebugMismatch).
Proof.
  exists toyNP, (Some toy_cfg), 50%Z, 1000, [7],
    (mkNodeRt (1, 2, 3) (Some (mkCap 1 toy_rak (Some [9; 9])
       (Some (mkAtt 1 (QKPcs toy_sgx_raw_debug toy_coll) 990 (toy_rak ++ repeat 0xDA 4)))))),
    (mkRegRt 1 [mkDep (0, 0, 1) None; mkDep (1, 2, 3) (Some toy_sc); mkDep (1, 2, 3) None]).
  vm_compute. split; reflexivity.
Qed.

Example ex_registry :
  let cap := toy_cap 990 toy_rak in
  let reg := mkRegRt 1 [mkDep (0, 0, 1) None; mkDep (1, 2, 3) (Some toy_sc); mkDep (1, 2, 3) None] in
  verify_enclave_ids toyNP toy_env (Some toy_cfg) 50 1000 [7] true (mkNodeRt (1, 2, 3) (Some cap)) reg = NOk tt /\
  verify_enclave_ids toyNP toy_env (Some toy_cfg) 50 1000 [7] true (mkNodeRt (0, 0, 1) (Some cap)) reg = NRej NConstraintsMalformed /\
  verify_enclave_ids toyNP toy_env (Some toy_cfg) 50 1000 [7] true (mkNodeRt (9, 9, 9) (Some cap)) reg = NRej NUnknownVersion /\
  verify_enclave_ids toyNP toy_env (Some toy_cfg) 50 1000 [7] true (mkNodeRt (1, 2, 3) None) reg = NRej NHardwareMismatch /\
  verify_enclave_ids toyNP toy_env (Some toy_cfg) 50 1000 [7] true (mkNodeRt (1, 2, 3) None) (mkRegRt 0 []) = NOk tt /\
  register_tee_check toyNP toy_env (Some toy_cfg) 50 1000 [7] true (mkNodeRt (9, 9, 9) (Some cap)) reg true false = NOk tt.
Proof. vm_compute. repeat split. Qed.

(* REFUTED: "the report data binds the REK and the node id".  The quote commits to the RAK only; REK, node id and
   height are bound by the RAK's attestation signature: the same quote registers under two node ids with two REKs. *)
Lemma report_data_binds_rek_and_node_id_refuted_l :
  exists NP env cfg ts h sc rak q s1 s2 nid1 nid2 rek1 rek2,
    nid1 <> nid2 /\ rek1 <> rek2 /\
    cap_verify NP env cfg ts h sc nid1 true (mkCap 1 rak rek1 (Some (mkAtt 1 q 990 s1))) = NOk tt /\
    cap_verify NP env cfg ts h sc nid2 true (mkCap 1 rak rek2 (Some (mkAtt 1 q 990 s2))) = NOk tt.
Proof.
  exists toyNP, toy_env, (Some toy_cfg), 50%Z, 1000, (Some toy_sc), toy_rak, (QKPcs toy_sgx_raw toy_coll),
    (toy_rak ++ repeat 0xDA 4), (toy_rak ++ repeat 0xDA 4), [7], [8], (Some [9; 9]), None.
  split; [discriminate|]. split; [discriminate|]. vm_compute. split; reflexivity.
Qed.
