(* KeyFormat.Decode: exact characterisation of when it panics; bounded allocation. *)
From Verif Require Import Lib.Base Decode.GoSlice Decode.GoSliceFacts Decode.KeyFormat Gen.MiscConsts.

Lemma fixed_unmarshal_spec size kind data s :
  outcome (fun d s' => s' = s /\ d = data /\ glen data = size) (fun e s' => s' = s /\ e = E_FIXED)
          (fixed_unmarshal size kind data s).
Proof. unfold fixed_unmarshal. repeat step; repeat split; lia. Qed.

Lemma fixed_unmarshal_total_l : forall size kind data s,
  fst (fixed_unmarshal size kind data s) <> Panic /\ snd (fixed_unmarshal size kind data s) = s /\
  (forall d, fst (fixed_unmarshal size kind data s) = Ok d -> d = data /\ glen data = size).
Proof.
  intros size kind data s. pose proof (fixed_unmarshal_spec size kind data s) as H.
  destruct (fixed_unmarshal size kind data s) as [[d|e|] s1]; cbn [outcome fst snd] in *.
  - split; [discriminate|]. split; [tauto|]. intros d' E. injection E as <-. tauto.
  - split; [discriminate|]. split; [tauto|]. intros d' E. discriminate.
  - contradiction.
Qed.

Lemma fixed_safe size kind data s :
  safe (fun d : bytes => d = data /\ glen data = size) 0 s (fixed_unmarshal size kind data s).
Proof.
  eapply outcome_weaken; [apply fixed_unmarshal_spec| |]; cbn; [intros a s' (-> & H)|intros e s' [-> _]];
    repeat split; try lia; tauto.
Qed.

Definition need (elems : list elem) (data : bytes) (ksize : N) : N :=
  kf_fixed elems + var_count elems * (glen data - ksize).

(* with [need] bytes left the loop neither fails nor panics; only the variable-size
   element allocates *)
Lemma elems_spec : forall elems data ksize offset s,
  offset + need elems data ksize <= glen data ->
  outcome (fun _ s' => s' <= s + var_count elems * (glen data - ksize)) (fun _ _ => False)
          (kf_elems elems data ksize offset s).
Proof.
  induction elems as [|e rest IH]; intros data ksize offset s Hneed; [cbn; lia|].
  cbn [kf_elems]. unfold need in *. cbn [kf_fixed var_count fold_right] in *.
  fold (kf_fixed rest) (var_count rest) in *.
  set (elemLen := if is_var e then glen data - ksize else esize e) in *.
  assert (offset + elemLen + need rest data ksize <= glen data) as Hn2
    by (unfold need, elemLen; destruct e; cbn [is_var esize] in *; lia).
  unfold need in Hn2. step.
  assert (glen (sl data offset (offset + elemLen)) = elemLen) as Hbuf by (rewrite glen_sl; lia).
  set (buf := sl data offset (offset + elemLen)) in *.
  (* the rest of the loop, from whatever counter decoding [e] leaves *)
  assert (forall v s1, s1 <= s + (if is_var e then 1 else 0) * (glen data - ksize) ->
    outcome (fun _ s' => s' <= s + ((if is_var e then 1 else 0) + var_count rest) * (glen data - ksize))
            (fun _ _ => False)
      ((r <- kf_elems rest data ksize (offset + elemLen) ;;
        ret (match r with Some vs => Some (v :: vs) | None => None end)) s1)) as Hrest.
  { intros v s1 Hs1. eapply outcome_bind; [apply (IH data ksize (offset + elemLen) s1 Hn2)| |intros ? ? []].
    intros r s2 Hs2. cbn in Hs2 |- *. lia. }
  destruct e; cbn [is_var esize] in *; unfold elemLen in *.
  1-5, 7: repeat step; apply Hrest; lia.
  rewrite bind_unfold. pose proof (fixed_unmarshal_spec size kind buf s) as HF.
  destruct (fixed_unmarshal size kind buf s) as [[d|x|] s1]; cbn [outcome] in HF; try contradiction;
    destruct HF as (-> & _); [apply Hrest; lia|apply N.le_add_r].
Qed.

Lemma kf_fixed_firstn n l : kf_fixed (firstn n l) <= kf_fixed l.
Proof.
  revert n. induction l as [|e l IH]; intros [|n]; cbn [firstn kf_fixed fold_right]; try lia.
  fold (kf_fixed (firstn n l)). fold (kf_fixed l). specialize (IH n). lia.
Qed.
Lemma var_count_firstn n l : var_count (firstn n l) <= var_count l.
Proof.
  revert n. induction l as [|e l IH]; intros [|n]; cbn [firstn var_count fold_right]; try lia.
  fold (var_count (firstn n l)). fold (var_count l). specialize (IH n). lia.
Qed.

Definition kf_panics_original (prefix : N) (layout : list elem) (nvals : N) (data : bytes) : Prop :=
  data = [] \/
  (nth 0 data 0 = prefix /\ (N.of_nat (length layout) < nvals \/ glen data < kf_size layout)).

Lemma elems_ok layout nvals data s : wf_layout layout ->
  N.of_nat (length layout) <? nvals = false -> glen data <? kf_size layout = false ->
  outcome (fun _ s' => s' <= s + glen data) (fun _ _ => False)
          (kf_elems (firstn (N.to_nat nvals) layout) data (kf_size layout) 1 s).
Proof.
  intros Hwf Hn Hs.
  pose proof (kf_fixed_firstn (N.to_nat nvals) layout) as Hf.
  pose proof (var_count_firstn (N.to_nat nvals) layout) as Hv.
  unfold wf_layout in Hwf. unfold kf_size in *.
  assert (var_count (firstn (N.to_nat nvals) layout) = 0 \/ var_count (firstn (N.to_nat nvals) layout) = 1)
    as Hvc by lia.
  eapply outcome_weaken; [apply elems_spec; unfold need| |intros ? ? []]; cbn beta;
    destruct Hvc as [-> | ->]; lia.
Qed.

Lemma kf_decode_original_spec prefix layout nvals data s : wf_layout layout ->
  match kf_decode_original prefix layout nvals data s with
  | (Ok _, s') => ~ kf_panics_original prefix layout nvals data /\ s' <= s + glen data
  | (Err _, _) => False
  | (Panic, _) => kf_panics_original prefix layout nvals data
  end.
Proof.
  intros Hwf. unfold kf_decode_original, kf_panics_original.
  destruct data as [|b0 data'] eqn:Hd.
  - cbn. left. reflexivity.
  - rewrite <- Hd. assert (1 <= glen data) as Hlen by (subst; rewrite glen_cons; lia).
    rewrite index_ok by lia. rewrite bind_lift_ok.
    change (N.to_nat 0) with 0%nat.
    destruct (nth 0 data 0 =? prefix) eqn:Hp; cbn [negb].
    + apply N.eqb_eq in Hp.
      destruct (N.of_nat (length layout) <? nvals) eqn:Hn; [cbn; right; split; [exact Hp|left; lia]|].
      destruct (glen data <? kf_size layout) eqn:Hs; [cbn; right; split; [exact Hp|right; lia]|].
      pose proof (elems_ok layout nvals data s Hwf Hn Hs) as HE.
      destruct (kf_elems (firstn (N.to_nat nvals) layout) data (kf_size layout) 1 s) as [[r|x|] s1];
        cbn [outcome] in HE; try contradiction.
      split; [|exact HE].
      intros [Hnil | (_ & [H1 | H2])]; [subst; discriminate | lia | lia].
    + cbn. split; [|lia]. apply N.eqb_neq in Hp.
      intros [Hnil | (Hq & _)]; [subst; discriminate | contradiction].
Qed.

Lemma keyformat_decode_original_panics_iff_l : forall prefix layout nvals data s, wf_layout layout ->
  (fst (kf_decode_original prefix layout nvals data s) = Panic <->
   kf_panics_original prefix layout nvals data).
Proof.
  intros prefix layout nvals data s Hwf.
  pose proof (kf_decode_original_spec prefix layout nvals data s Hwf) as H.
  destruct (kf_decode_original prefix layout nvals data s) as [[r|e|] s1]; cbn [fst] in *.
  - split; [discriminate|tauto].
  - contradiction.
  - tauto.
Qed.

(* the statement "Decode never panics on a well-typed call" was FALSE before the fix *)
Lemma keyformat_decode_original_total_refuted_l :
  exists prefix layout nvals data,
    wf_layout layout /\ nvals <= N.of_nat (length layout) /\
    fst (run (kf_decode_original prefix layout nvals data)) = Panic.
Proof.
  (* txnKeyFmt = 'T' hash kind, key = "T" *)
  exists 84, [EBin 32 0; EBin 1 2], 2, [84]. split; [unfold wf_layout; cbn; lia|].
  split; [cbn; lia|]. vm_compute. reflexivity.
Qed.

Definition kf_panics (prefix : N) (layout : list elem) (nvals : N) (data : bytes) : Prop :=
  data <> [] /\ nth 0 data 0 = prefix /\ N.of_nat (length layout) < nvals.

Lemma kf_decode_spec prefix layout nvals data s : wf_layout layout ->
  match kf_decode prefix layout nvals data s with
  | (Ok _, s') => ~ kf_panics prefix layout nvals data /\ s' <= s + glen data
  | (Err _, _) => False
  | (Panic, _) => kf_panics prefix layout nvals data
  end.
Proof.
  intros Hwf. unfold kf_decode, kf_panics.
  destruct (glen data =? 0) eqn:H0.
  - cbn. split; [|lia]. intros (Hne & _). apply Hne.
    destruct data; [reflexivity|rewrite glen_cons in H0; lia].
  - assert (1 <= glen data) as Hlen by lia.
    assert (data <> []) as Hne by (intros ->; cbn in H0; discriminate).
    rewrite index_ok by lia. rewrite bind_lift_ok.
    change (N.to_nat 0) with 0%nat.
    destruct (nth 0 data 0 =? prefix) eqn:Hp; cbn [negb].
    + apply N.eqb_eq in Hp.
      destruct (N.of_nat (length layout) <? nvals) eqn:Hn; [cbn; repeat split; [exact Hne|exact Hp|lia]|].
      destruct (glen data <? kf_size layout) eqn:Hs; [cbn; split; [intros (_ & _ & H); lia|lia]|].
      pose proof (elems_ok layout nvals data s Hwf Hn Hs) as HE.
      destruct (kf_elems (firstn (N.to_nat nvals) layout) data (kf_size layout) 1 s) as [[r|x|] s1];
        cbn [outcome] in HE; try contradiction.
      split; [intros (_ & _ & H); lia|exact HE].
    + cbn. split; [|lia]. apply N.eqb_neq in Hp. intros (_ & Hq & _). contradiction.
Qed.

(* after the fix Decode panics EXACTLY when the caller passes more values than the
   layout has (and the key is non-empty with a matching prefix) *)
Lemma keyformat_decode_panics_iff_l : forall prefix layout nvals data s, wf_layout layout ->
  (fst (kf_decode prefix layout nvals data s) = Panic <-> kf_panics prefix layout nvals data).
Proof.
  intros prefix layout nvals data s Hwf. pose proof (kf_decode_spec prefix layout nvals data s Hwf) as H.
  destruct (kf_decode prefix layout nvals data s) as [[r|e|] s1]; cbn [fst] in *.
  - split; [discriminate|tauto].
  - contradiction.
  - tauto.
Qed.

Lemma keyformat_decode_total_l : forall prefix layout nvals data s, wf_layout layout ->
  nvals <= N.of_nat (length layout) ->
  fst (kf_decode prefix layout nvals data s) <> Panic.
Proof.
  intros prefix layout nvals data s Hwf Hn E.
  apply (keyformat_decode_panics_iff_l prefix layout nvals data s Hwf) in E.
  destruct E as (_ & _ & H). lia.
Qed.

Lemma keyformat_decode_bounded_l : forall prefix layout nvals data s, wf_layout layout ->
  fst (kf_decode prefix layout nvals data s) <> Panic ->
  snd (kf_decode prefix layout nvals data s) <= s + glen data /\
  (forall e, fst (kf_decode prefix layout nvals data s) <> Err e).
Proof.
  intros prefix layout nvals data s Hwf Hnp. pose proof (kf_decode_spec prefix layout nvals data s Hwf) as H.
  destruct (kf_decode prefix layout nvals data s) as [[r|e|] s1]; cbn [fst snd] in *;
    [split; [tauto|discriminate] | contradiction | congruence].
Qed.

Example keyformat_short_keys :
  fst (run (kf_decode_original 84 [EBin 32 0; EBin 1 2] 2 [])) = Panic /\
  fst (run (kf_decode 84 [EBin 32 0; EBin 1 2] 2 [])) = Ok None /\
  fst (run (kf_decode 84 [EBin 32 0; EBin 1 2] 2 [84])) = Ok None /\
  fst (run (kf_decode 84 [EBin 32 0; EBin 1 2] 3 [84])) = Panic.
Proof. repeat apply conj; vm_compute; reflexivity. Qed.

Example keyformat_decodes :
  fst (run (kf_decode 69 [EVar; EBin 2 0] 2 [69; 1; 2; 3; 9; 9]))
  = Ok (Some [VB [1; 2; 3]; VB [9; 9]]).
Proof. vm_compute. reflexivity. Qed.
