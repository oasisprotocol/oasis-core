(* What a scheduling pass of the reference layer emits and in which order; capacity,
   eviction and replacement rules of [b_add], which both layers share. *)
From Verif Require Import Lib.Base Txpool.Model Txpool.Ops Txpool.Inv Txpool.Refine.

Lemma ready_meaning s t :
  is_ready s t = true <->
  match aget (tsender t) (sched s) with
  | Some last => last <> U64MAX /\ tseq t = last + 1
  | None => aget (tsender t) (senders s) = Some (tseq t)
  end.
Proof. exact (ready_iff s t). Qed.

Lemma pick_is_ready_and_max i s s' :
  r_schedule_one i s = Some s' ->
  exists t, find_id i (ready s) = Some t /\ In t (txs s) /\ tid t = i /\ is_ready s t = true /\
            (forall u, In u (txs s) -> is_ready s u = true -> tprio u <= tprio t) /\
            s' = set_sched s (aset (tsender t) (tseq t) (sched s)).
Proof.
  unfold r_schedule_one. destruct (find_id i (ready s)) as [t|] eqn:Hf; [|discriminate].
  destruct (forallb (fun u => tprio u <=? tprio t) (ready s)) eqn:Ef; [|discriminate].
  cbn [negb]. intros H. injection H as <-.
  apply find_id_some in Hf as [Hin He]. unfold ready in Hin. apply filter_In in Hin as [Ht Hr].
  exists t. split; [reflexivity|]. split; [exact Ht|]. split; [exact He|]. split; [exact Hr|].
  split; [|reflexivity].
  intros u Hu Hru. rewrite forallb_forall in Ef.
  assert (In u (ready s)) as Hur by (unfold ready; apply filter_In; auto).
  specialize (Ef u Hur). lia.
Qed.

Lemma schedule_complete lim picks s s' :
  r_schedule lim picks s = (COk, s') ->
  N.of_nat (length picks) = N.min lim MAXBATCH \/ ready s' = [].
Proof.
  unfold r_schedule. destruct (_ <? _); [discriminate|].
  destruct (r_schedule_picks picks s) as [s1|]; [|discriminate].
  destruct (N.of_nat (length picks) =? N.min lim MAXBATCH) eqn:E1; cbn [orb].
  - intros _. left. lia.
  - destruct (ready s1) eqn:E2; [|discriminate]. intros H. injection H as <-. right. exact E2.
Qed.

(* A scheduling pass, with a ghost log of emissions. The log is kept
   most-recent-first; each event records the transaction and the sender's
   current sequence number at the time of the emission. *)
Definition event := (tx * option N)%type.

Fixpoint last_of (a : N) (log : list event) : option N :=
  match log with
  | [] => None
  | (t, _) :: older => if tsender t =? a then Some (tseq t) else last_of a older
  end.

Fixpoint chain_ok (log : list event) : Prop :=
  match log with
  | [] => True
  | (t, c) :: older =>
      match last_of (tsender t) older with
      | Some q => tseq t = q + 1 /\ q <> U64MAX     (* successor of the previous emission of that sender *)
      | None => c = Some (tseq t)                   (* first emission: the current sequence of that sender *)
      end /\ chain_ok older
  end.

Fixpoint r_picks_log (picks : list N) (s : st) (log : list event) : option (st * list event) :=
  match picks with
  | [] => Some (s, log)
  | i :: r =>
      match find_id i (ready s), r_schedule_one i s with
      | Some t, Some s1 => r_picks_log r s1 ((t, aget (tsender t) (senders s)) :: log)
      | _, _ => None
      end
  end.

Definition r_step_log (sl : st * list event) (o : op) : st * list event :=
  let '(s, log) := sl in
  match o with
  | OSchedule lim picks =>
      match r_schedule lim picks s, r_picks_log picks s log with
      | (COk, s1), Some (_, log1) => (s1, log1)
      | (_, s1), _ => (s1, log)
      end
  | OReset => (set_sched s [], [])
  | _ => (snd (r_step s o), log)
  end.

Definition r_run_log (c : N) (ops : list op) : st * list event :=
  fold_left r_step_log ops (init c, []).

Lemma r_picks_log_state picks : forall s log,
  match r_schedule_picks picks s, r_picks_log picks s log with
  | Some s1, Some (s2, _) => s1 = s2
  | None, None => True
  | _, _ => False
  end.
Proof.
  induction picks as [|i r IH]; cbn [r_schedule_picks r_picks_log]; intros s log; [reflexivity|].
  destruct (r_schedule_one i s) as [s1|] eqn:E.
  - unfold r_schedule_one in E. destruct (find_id i (ready s)) as [t|]; [|discriminate]. apply IH.
  - destruct (find_id i (ready s)); exact I.
Qed.

Lemma r_run_log_state ops : forall s log,
  fst (fold_left r_step_log ops (s, log)) = run r_step s ops.
Proof.
  unfold run. induction ops as [|o r IH]; cbn [fold_left]; intros s log; [reflexivity|].
  destruct o as [t q e|lim picks| |i|a q|]; cbn [r_step_log]; try apply IH.
  (* whatever the log does, the state is the one [r_schedule] returns *)
  cbn [r_step]. destruct (r_schedule lim picks s) as [c s1].
  destruct c; destruct (r_picks_log picks s log) as [[? ?]|]; apply IH.
Qed.

Definition PassInv (s : st) (log : list event) : Prop :=
  chain_ok log /\ forall a, aget a (sched s) = last_of a log.

Lemma pick_pass_inv i s s1 t log :
  PassInv s log -> find_id i (ready s) = Some t -> r_schedule_one i s = Some s1 ->
  PassInv s1 ((t, aget (tsender t) (senders s)) :: log).
Proof.
  intros [Hc Hl] Hf Hs.
  destruct (pick_is_ready_and_max i s s1 Hs) as [t' [Hf' [Ht [He [Hr [_ ->]]]]]].
  rewrite Hf in Hf'. injection Hf' as <-.
  apply ready_meaning in Hr. split.
  - cbn [chain_ok]. split; [|exact Hc]. rewrite <- (Hl (tsender t)).
    destruct (aget (tsender t) (sched s)) as [last|]; [|exact Hr].
    destruct Hr as [Hr1 Hr2]. split; assumption.
  - intros a. cbn [sched set_sched last_of]. destruct (tsender t =? a) eqn:E.
    + apply N.eqb_eq in E. subst a. apply aget_aset_same.
    + rewrite aget_aset_other by lia. apply Hl.
Qed.

Lemma picks_pass_inv picks : forall s log s1 log1,
  PassInv s log -> r_picks_log picks s log = Some (s1, log1) -> PassInv s1 log1.
Proof.
  induction picks as [|i r IH]; cbn [r_picks_log]; intros s log s1 log1 HP H.
  - injection H as <- <-. exact HP.
  - destruct (find_id i (ready s)) as [t|] eqn:Hf; [|discriminate].
    destruct (r_schedule_one i s) as [s2|] eqn:Hs; [|discriminate].
    eapply IH; [|exact H]. eapply pick_pass_inv; eauto.
Qed.

Lemma r_step_sched s o :
  match o with OSchedule _ _ | OReset => True | _ => sched (snd (r_step s o)) = sched s end.
Proof.
  pose proof (b_step_sched 0 s o) as H.
  destruct o; try exact I; cbn [r_step]; destruct (b_step 0 s _); exact H.
Qed.

Lemma pass_inv_frame s s' log : sched s' = sched s -> PassInv s log -> PassInv s' log.
Proof. unfold PassInv. intros ->. auto. Qed.

Lemma run_pass_inv ops : forall s log,
  PassInv s log ->
  PassInv (fst (fold_left r_step_log ops (s, log))) (snd (fold_left r_step_log ops (s, log))).
Proof.
  induction ops as [|o r IH]; cbn [fold_left]; intros s log HP; [exact HP|].
  pose proof (r_step_sched s o) as Hs.
  destruct o as [t q e|lim picks| |i|a q|]; cbn [r_step_log];
    try (apply IH; exact (pass_inv_frame _ _ _ Hs HP)).
  - pose proof (r_picks_log_state picks s log) as Hst.
    unfold r_schedule. destruct (N.min lim MAXBATCH <? N.of_nat (length picks)).
    + destruct (r_picks_log picks s log) as [[? ?]|]; apply IH; exact HP.
    + destruct (r_schedule_picks picks s) as [s1|] eqn:E1.
      * destruct (r_picks_log picks s log) as [[s2 l2]|] eqn:E2; [|contradiction]. subst s2.
        destruct (_ || _); apply IH; [|exact HP]. eapply picks_pass_inv; eauto.
      * destruct (r_picks_log picks s log) as [[s2 l2]|]; apply IH; exact HP.
  - apply IH. split; [exact I|]. intros a. reflexivity.
Qed.

Lemma chain_bound log : chain_ok log -> forall a t c, In (t, c) log -> tsender t = a ->
  exists q, last_of a log = Some q /\ tseq t <= q.
Proof.
  induction log as [|[u cu] older IH]; cbn [chain_ok last_of]; intros Hc a t c Hin Ha; [contradiction|].
  destruct Hc as [Hhead Hc]. destruct Hin as [Heq|Hin].
  - injection Heq as -> ->. rewrite Ha, N.eqb_refl. exists (tseq t). split; [reflexivity|lia].
  - destruct (IH Hc a t c Hin Ha) as [q [Hq Hle]].
    destruct (tsender u =? a) eqn:E.
    + apply N.eqb_eq in E. rewrite E in Hhead. rewrite Hq in Hhead. destruct Hhead as [H1 _].
      exists (tseq u). split; [reflexivity|lia].
    + exists q. auto.
Qed.

Definition slot (e : event) : N * N := (tsender (fst e), tseq (fst e)).

Lemma chain_nodup log : chain_ok log -> NoDup (map slot log).
Proof.
  induction log as [|[u cu] older IH]; cbn [chain_ok map]; intros Hc; [constructor|].
  destruct Hc as [Hhead Hc]. constructor; [|apply IH; exact Hc].
  intros Hin. apply in_map_iff in Hin as [[t c] [Hs Hin]]. unfold slot in Hs. cbn [fst] in Hs.
  injection Hs as Hs1 Hs2.
  destruct (chain_bound older Hc (tsender u) t c Hin Hs1) as [q [Hq Hle]].
  rewrite Hq in Hhead. destruct Hhead as [H1 _]. lia.
Qed.

Lemma pass_order_all c ops :
  chain_ok (snd (r_run_log c ops)) /\
  NoDup (map slot (snd (r_run_log c ops))) /\
  forall a, aget a (sched (fst (r_run_log c ops))) = last_of a (snd (r_run_log c ops)).
Proof.
  unfold r_run_log.
  assert (PassInv (init c) []) as H0 by (split; [exact I|intros a; reflexivity]).
  destruct (run_pass_inv ops (init c) [] H0) as [H1 H2].
  split; [exact H1|]. split; [apply chain_nodup; exact H1|exact H2].
Qed.

Lemma filter_length_le {A} (p : A -> bool) l : (length (filter p l) <= length l)%nat.
Proof. induction l as [|x r IH]; cbn [filter length]; [lia|]. destruct (p x); cbn [length]; lia. Qed.

Lemma filter_length_lt {A} (p : A -> bool) l x : In x l -> p x = false -> (length (filter p l) < length l)%nat.
Proof.
  induction l as [|y r IH]; cbn [filter length In]; intros Hin Hp; [contradiction|].
  destruct Hin as [->|Hin].
  - rewrite Hp. pose proof (filter_length_le p r). lia.
  - specialize (IH Hin Hp). destruct (p y); cbn [length]; lia.
Qed.

Definition within_cap (s : st) : Prop := N.of_nat (length (txs s)) <= cap s.

Lemma drop_within_cap P a s : within_cap s -> within_cap (drop P a s).
Proof.
  unfold within_cap. rewrite drop_cap, drop_txs.
  pose proof (filter_length_le (fun t => negb ((tsender t =? a) && P t)) (txs s)). lia.
Qed.

Lemma forward_within_cap a q s : within_cap s -> within_cap (b_forward a q s).
Proof.
  intros H. unfold b_forward. destruct (aget a (senders s)); [|exact H]. destruct (q <=? n); [exact H|].
  assert (within_cap (drop (fun t => tseq t <? q) a (set_senders s (aset a q (senders s))))) as H2
    by (apply drop_within_cap; exact H).
  destruct (head a _) as [f|]; [destruct (negb _ && _)|]; exact H2.
Qed.

Lemma add_within_cap t q e s : within_cap s -> within_cap (snd (b_add t q e s)).
Proof.
  unfold within_cap. intros H. rewrite add_cap.
  destruct (b_add_spec t q e s) as [ | | |old _ Hslot _|_ _ _ Hfull| |low _ _ _ _ Hlow _]; cbn [snd];
    rewrite ?with_entry_txs; try exact H.
  - (* [old] leaves *)
    apply get_seq_some in Hslot as [Hin _]. rewrite replace_txs, with_entry_txs.
    assert ((length (del_id (tid old) (txs s)) < length (txs s))%nat) as Hlt
      by (apply (filter_length_lt _ _ old Hin); rewrite N.eqb_refl; reflexivity).
    cbn [length]. lia.
  - rewrite insert_txs, with_entry_txs. lia.
  - (* [low] leaves *)
    apply find_id_some in Hlow as [Hin _].
    assert ((length (txs (b_remove low (b_insert t (with_entry (tsender t) q s)))) < length (t :: txs s))%nat) as Hlt.
    { unfold b_remove. rewrite drop_txs, insert_txs, with_entry_txs.
      apply (filter_length_lt _ _ low Hin). rewrite !N.eqb_refl. reflexivity. }
    cbn [length] in Hlt. lia.
Qed.

Lemma b_step_within_cap STOP s o : within_cap s -> within_cap (snd (b_step STOP s o)).
Proof.
  intros H. destruct o as [t q e|lim picks| |i|a q|]; cbn [b_step snd].
  - apply add_within_cap. exact H.
  - apply (schedule_preserves STOP within_cap); [|exact H].
    intros i s0 s1 H0 E. apply schedule_one_some in E as (t & _ & _ & ->). exact H0.
  - unfold within_cap, b_reset. cbn [txs cap set_sched].
    pose proof (restore_fold_eqv (sched s) s) as Hq.
    rewrite (eqv_txs _ _ Hq), (eqv_cap _ _ Hq). exact H.
  - unfold b_used, b_remove. destruct (find_id i (txs s)); [|exact H].
    destruct (_ <? _); [apply forward_within_cap|]; apply drop_within_cap; exact H.
  - apply forward_within_cap. exact H.
  - unfold within_cap. cbn. lia.
Qed.

Lemma within_cap_init c : within_cap (init c).
Proof. unfold within_cap. cbn. lia. Qed.

Lemma run_within_cap STOP ops s : within_cap s -> within_cap (run (b_step STOP) s ops).
Proof. apply (fold_left_invariant within_cap). intros a o. apply b_step_within_cap. Qed.

Lemma add_leaver_rule t q e s u :
  Inv s -> In u (txs s) -> ~ In u (txs (snd (b_add t q e s))) ->
  (tsender u = tsender t /\ tseq u = tseq t /\ tprio u < tprio t)
  \/ (tprio u <= tprio t /\ forall w, In w (txs s) -> tprio u <= tprio w).
Proof.
  intros HI Hu.
  destruct (b_add_spec t q e s) as [ | | |old _ Hslot Hp| | |low Hid _ _ _ Hlow Hmin]; cbn [snd];
    rewrite ?replace_txs, ?insert_txs, ?with_entry_txs; intros Hgone;
    try (destruct Hgone; cbn [In]; auto; fail).
  - left. apply get_seq_some in Hslot as (Hold & Hs & Hq).
    assert (u = old) as ->; [|auto].
    destruct (N.eq_dec (tid u) (tid old)) as [He|He]; [apply (inv_id_eq s); auto|].
    destruct Hgone. right. apply In_del_id. auto.
  - right. unfold b_remove in Hgone. rewrite drop_In_txs, insert_txs, with_entry_txs in Hgone.
    assert (u = low) as ->.
    { apply find_id_some in Hlow as [Hin _]. destruct (N.eq_dec (tid u) (tid low)) as [He|He].
      - destruct Hin as [<-|Hin]; [destruct (find_id_none _ _ Hid u Hu He)|apply (inv_id_eq s); auto].
      - destruct Hgone. split; [right; exact Hu|]. apply andb_false_iff. right. apply N.eqb_neq. exact He. }
    split; [apply Hmin; left; reflexivity|]. intros w Hw. apply Hmin. right. exact Hw.
Qed.

Lemma replace_only_higher t q e s old :
  Inv s -> find_id (tid t) (txs s) = None -> In old (txs s) ->
  tsender old = tsender t -> tseq old = tseq t ->
  (tprio t <= tprio old -> b_add t q e s = (CReplUnderpriced, s)) /\
  (tprio old < tprio t -> fst (b_add t q e s) = COk /\
       forall u, In u (txs (snd (b_add t q e s))) <-> u = t \/ (In u (txs s) /\ u <> old)).
Proof.
  intros HI Hid Hold Hs Hq. unfold b_add. rewrite Hid.
  destruct (i_entry s HI old Hold) as [c [Hc Hle]]. rewrite <- Hs, Hc.
  assert ((tseq t <? c) = false) as E by lia. rewrite Hs, E.
  rewrite (proj2 (inv_get_seq s _ (tseq t) old HI Hold Hs) Hq). split; intros Hp.
  - assert ((tprio t <=? tprio old) = true) as E2 by lia. rewrite E2. reflexivity.
  - assert ((tprio t <=? tprio old) = false) as E2 by lia. rewrite E2. cbn [fst snd]. split; [reflexivity|].
    intros u. rewrite replace_txs. cbn [In]. rewrite In_del_id.
    assert (In u (txs s) -> (tid u <> tid old <-> u <> old)) as Hne.
    { intros Hu. split; [congruence|]. intros H He. apply H. apply (inv_id_eq s); assumption. }
    intuition.
Qed.

Lemma exhausted_left_nothing_ready s :
  ready s = [] ->
  forall t, In t (txs s) ->
    match aget (tsender t) (sched s) with
    | Some last => last = U64MAX \/ tseq t <> last + 1
    | None => aget (tsender t) (senders s) <> Some (tseq t)
    end.
Proof.
  intros Hr t Ht.
  assert (is_ready s t <> true) as Hn.
  { intros E. assert (In t (ready s)) as Hin by (unfold ready; apply filter_In; auto).
    rewrite Hr in Hin. contradiction. }
  rewrite ready_iff in Hn. destruct (aget (tsender t) (sched s)) as [last|]; [|exact Hn].
  destruct (N.eq_dec last U64MAX); [left|right]; tauto.
Qed.

(* the queue-level operations of main_queue.go are compositions of scheduler
   operations, so every theorem over operation sequences covers them *)
Definition q_add (t : tx) (stateSeq evict : N) : list op := [OForward (tsender t) stateSeq; OAdd t stateSeq evict].
Definition q_schedule (lim : N) (picks : list N) : list op := [OReset; OSchedule lim picks].
Definition q_schedule_extra (lim : N) (picks : list N) : list op := [OSchedule lim picks].
Definition q_used (ids : list N) : list op := map OUsed ids.

Lemma q_ops_ok t q e lim picks ids :
  tseq t <= U64MAX ->
  Forall op_ok (q_add t q e ++ q_schedule lim picks ++ q_schedule_extra lim picks ++ q_used ids).
Proof.
  intros H. apply Forall_app. split; [repeat constructor; exact H|].
  apply Forall_app. split; [repeat constructor|].
  apply Forall_app. split; [repeat constructor|].
  unfold q_used. induction ids as [|i r IH]; cbn; constructor; [exact I|exact IH].
Qed.
