(* decode (encode l) = l for the stored form of pathbadger's internal write log:
   a shortest-form CBOR head followed by anything decodes to its major type,
   its argument and the rest ([dec_head_enc]); items and the array follow. *)
From Verif Require Import Lib.Base WriteLog.Model WriteLog.PathLog WriteLog.LogCodec.

Definition bef (a x : N) : N := a * 256 + x.

Lemma bs_aux_fold len : forall n acc a0,
  fold_left bef (bs_aux len n acc) a0 = fold_left bef acc (a0 * 256 ^ N.of_nat len + n mod 256 ^ N.of_nat len).
Proof.
  induction len as [|l IH]; intros n acc a0.
  - cbn [bs_aux]. change (N.of_nat 0) with 0. rewrite N.pow_0_r, N.mod_1_r. f_equal. lia.
  - cbn [bs_aux]. rewrite IH. cbn [fold_left]. f_equal. unfold bef.
    rewrite Nat2N.inj_succ, N.pow_succ_r'.
    rewrite (N.mod_mul_r n 256 (256 ^ N.of_nat l)) by (try lia; apply N.pow_nonzero; lia).
    lia.
Qed.

Lemma be_val_bs len n : n < 256 ^ N.of_nat len -> be_val (bs len n) = n.
Proof.
  intros H. unfold be_val, bs. fold bef. rewrite bs_aux_fold. cbn [fold_left].
  rewrite N.mod_small by exact H. lia.
Qed.

Lemma bs_aux_length len : forall n acc, length (bs_aux len n acc) = (len + length acc)%nat.
Proof.
  induction len as [|l IH]; intros n acc; cbn [bs_aux]; [reflexivity|].
  rewrite IH. cbn [length]. lia.
Qed.
Lemma bs_length len n : length (bs len n) = len.
Proof. unfold bs. rewrite bs_aux_length. cbn [length]. lia. Qed.

Lemma take_app (a r : bytes) : take (length a) (a ++ r) = Some (a, r).
Proof. induction a as [|x a IH]; cbn [length take app]; [reflexivity|]. rewrite IH. reflexivity. Qed.

Lemma head_byte m ai : ai < 32 -> (m * 32 + ai) / 32 = m /\ (m * 32 + ai) mod 32 = ai.
Proof.
  intros H. split.
  - rewrite N.div_add_l by lia. rewrite N.div_small by exact H. lia.
  - rewrite N.add_comm, N.mod_add by lia. apply N.mod_small. exact H.
Qed.

Lemma dec_head_enc m n r : n < 18446744073709551616 ->
  dec_head (cbor_head m n ++ r) = Some (m, n, r).
Proof.
  intros Hn. unfold cbor_head.
  destruct (n <? 24) eqn:E0.
  - cbn [app dec_head].
    destruct (head_byte m n) as [H1 H2]; [apply N.ltb_lt in E0; lia|]. rewrite H1, H2, E0. reflexivity.
  - apply N.ltb_ge in E0.
    assert (Hcase : forall ai k, (24 <= ai < 28) ->
              (if ai =? 24 then Some 1%nat else if ai =? 25 then Some 2%nat
               else if ai =? 26 then Some 4%nat else if ai =? 27 then Some 8%nat else None) = Some k ->
              n < 256 ^ N.of_nat k ->
              dec_head (((m * 32 + ai) :: bs k n) ++ r) = Some (m, n, r)).
    { intros ai k Hai Hk Hlt. cbn [app dec_head].
      destruct (head_byte m ai) as [H1 H2]; [lia|]. rewrite H1, H2.
      assert (E : (ai <? 24) = false) by (apply N.ltb_ge; lia). rewrite E, Hk.
      rewrite <- (bs_length k n) at 1. rewrite take_app. rewrite be_val_bs by exact Hlt. reflexivity. }
    destruct (n <? 256) eqn:E1; [apply N.ltb_lt in E1; apply (Hcase 24 1%nat); [lia|reflexivity|exact E1]|].
    destruct (n <? 65536) eqn:E2; [apply N.ltb_lt in E2; apply (Hcase 25 2%nat); [lia|reflexivity|exact E2]|].
    destruct (n <? 4294967296) eqn:E3; [apply N.ltb_lt in E3; apply (Hcase 26 4%nat); [lia|reflexivity|exact E3]|].
    apply (Hcase 27 8%nat); [lia|reflexivity|exact Hn].
Qed.

Lemma dec_entry_enc e : ientry_wf e -> dec_entry (enc_entry e) = e.
Proof.
  destruct e as [[v i]|k|]; cbn [ientry_wf enc_entry dec_entry]; [|reflexivity|intros []].
  intros [Hv Hi]. rewrite app_length, !bs_length. cbn [Nat.add Nat.eqb].
  pose proof (firstn_app_exact (bs 8 v) (bs 4 i)) as Hf. rewrite bs_length in Hf. rewrite Hf.
  pose proof (skipn_app_exact (bs 8 v) (bs 4 i)) as Hs. rewrite bs_length in Hs. rewrite Hs.
  rewrite !be_val_bs by assumption. reflexivity.
Qed.

Lemma dec_items_enc (l : list ientry) : forall r,
  Forall ientry_wf l ->
  Forall (fun e => N.of_nat (length (enc_entry e)) < 18446744073709551616) l ->
  dec_items (length l) (flat_map (fun e => enc_bstr (enc_entry e)) l ++ r) = Some (l, r).
Proof.
  induction l as [|e l IH]; intros r Hwf Hlen; cbn [length flat_map dec_items app]; [reflexivity|].
  inversion Hwf as [|? ? Hwe Hwl]; subst. inversion Hlen as [|? ? Hle Hll]; subst.
  unfold enc_bstr at 1. rewrite <- !app_assoc. rewrite dec_head_enc by exact Hle.
  rewrite Nat2N.id, take_app, IH by assumption. rewrite dec_entry_enc by exact Hwe. reflexivity.
Qed.

Lemma decode_encode_log_lem (l : list ientry) :
  Forall ientry_wf l ->
  Forall (fun e => N.of_nat (length (enc_entry e)) < 18446744073709551616) l ->
  N.of_nat (length l) < 18446744073709551616 ->
  decode_log (encode_log l) = Some l.
Proof.
  intros Hwf Hlen Hn. unfold decode_log, encode_log. rewrite dec_head_enc by exact Hn.
  rewrite Nat2N.id. rewrite <- (app_nil_r (flat_map _ l)). rewrite dec_items_enc by assumption.
  reflexivity.
Qed.

(* non-vacuity, and what the bytes look like *)
Example codec_example :
  encode_log [IInsert (3, 7); IDelete [97; 98]] =
  [130; 77; 1; 0; 0; 0; 0; 0; 0; 0; 3; 0; 0; 0; 7; 67; 2; 97; 98] /\
  decode_log (encode_log [IInsert (3, 7); IDelete [97; 98]]) = Some [IInsert (3, 7); IDelete [97; 98]].
Proof. split; vm_compute; reflexivity. Qed.
