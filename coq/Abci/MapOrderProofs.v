(* Proofs: the block functions that iterate Go maps are independent of the iteration
   order, because (and only as long as) the code sorts where Gen/MuxSorts.v says it does. *)
From Coq Require Import Permutation.
From Verif Require Import Lib.Base Abci.Mux Abci.MuxProofs Gen.MuxSorts Abci.MapOrder Abci.MapSites.

Lemma sort_names_canonical l1 l2 : NoDup l1 -> Permutation l1 l2 -> sort_names l1 = sort_names l2.
Proof.
  intros Hnd Hp. unfold sort_names. apply sort_by_canonical; [|exact Hp]. rewrite map_id. exact Hnd.
Qed.

Lemma collect_sorted_canonical g l1 l2 :
  NoDup l1 -> Permutation l1 l2 ->
  collect_sorted SortUnconditional g l1 = collect_sorted SortUnconditional g l2.
Proof. intros. cbn [collect_sorted]. apply sort_names_canonical; assumption. Qed.

(* the facts read from the source: every site sorts unconditionally *)
Lemma sites_sort :
  site_runtimes_to_finalize = SortUnconditional /\
  via_sort_addresses site_stake_slice_presort = SortUnconditional /\
  via_sort_addresses site_distribute_rewards = SortUnconditional /\
  site_eligible_entities = SortUnconditional.
Proof. repeat split; reflexivity. Qed.

Lemma reward_order_canonical iter1 iter2 :
  NoDup iter1 -> Permutation iter1 iter2 -> reward_order iter1 = reward_order iter2.
Proof.
  intros Hnd Hp. destruct sites_sort as (_ & _ & H & _). unfold reward_order. rewrite H.
  apply collect_sorted_canonical; assumption.
Qed.

Section Election.
  Variable shuffle : list bytes -> list bytes.
  Variable balance : bytes -> N.

  (* Every block function that iterates a Go map gives the same result for every
     iteration order of the map (keys are unique; [iter2] is any permutation). *)
  Theorem map_order_irrelevant :
    (forall iter1 iter2, NoDup iter1 -> Permutation iter1 iter2 ->
       runtimes_to_finalize iter1 = runtimes_to_finalize iter2) /\
    (forall bypass maxv iter1 iter2, NoDup iter1 -> Permutation iter1 iter2 ->
       stake_slice shuffle balance bypass iter1 = stake_slice shuffle balance bypass iter2 /\
       elected shuffle balance bypass maxv iter1 = elected shuffle balance bypass maxv iter2) /\
    (forall iter1 iter2, NoDup iter1 -> Permutation iter1 iter2 ->
       reward_order iter1 = reward_order iter2) /\
    (forall total num den (iter1 iter2 : list (bytes * N)), NoDup (map fst iter1) -> Permutation iter1 iter2 ->
       eligible_entities total num den iter1 = eligible_entities total num den iter2).
  Proof.
    destruct sites_sort as (H1 & H2 & _ & H4).
    split; [|split; [|split]].
    - intros i1 i2 Hnd Hp. unfold runtimes_to_finalize. rewrite H1. apply collect_sorted_canonical; assumption.
    - intros bypass maxv i1 i2 Hnd Hp.
      assert (E : stake_slice shuffle balance bypass i1 = stake_slice shuffle balance bypass i2).
      { unfold stake_slice. rewrite H2. rewrite (collect_sorted_canonical bypass i1 i2 Hnd Hp). reflexivity. }
      split; [exact E|]. unfold elected. rewrite E. reflexivity.
    - exact reward_order_canonical.
    - intros total num den i1 i2 Hnd Hp. unfold eligible_entities. rewrite H4.
      apply collect_sorted_canonical.
      + apply NoDup_map_filter. exact Hnd.
      + apply Permutation_map. apply delete_by_predicate_perm. exact Hp.
  Qed.
End Election.

(* Lifted to whole blocks of the concrete ledger instance: two nodes whose runtimes iterate
   the rewardable-entity map in different orders compute the same block. *)
Theorem map_order_irrelevant_block iter1 iter2 cfg1 cfg2 proposing s b :
  NoDup iter1 -> Permutation iter1 iter2 ->
  exec_block ledger cfg1 (sort_by (a_name ledger) (ledger_apps iter1)) proposing s b
  = exec_block ledger cfg2 (sort_by (a_name ledger) (ledger_apps iter2)) proposing s b.
Proof.
  intros Hnd Hp. unfold ledger_apps. rewrite (reward_order_canonical iter1 iter2 Hnd Hp). apply exec_block_local.
Qed.

(* Non-vacuity: three entities, a pool of only two units (so the payment ORDER matters),
   a transfer, a failing transfer, a bad nonce; two nodes with opposite iteration orders. *)
Definition lg_state : lstate := mkL [(1, 100); (2, 50); (3, 7)] [] 0 2.
Definition lg_iter1 : list bytes := [[3]; [1]; [2]].
Definition lg_iter2 : list bytes := [[2]; [3]; [1]].
Definition lg_hd := mkHeader 1 1000 [42] [].
Definition lg_cands : list bytes := [[1; 2; 30; 0; 5; 10]; [2; 3; 999; 0; 1; 10]; [3; 1; 1; 5; 0; 10]].
Definition lg_n1 : node ledger := mkNode ledger lg_state None (mkLocal 0 [1] 0 0 false 0) (ledger_apps lg_iter1).
Definition lg_n2 : node ledger := mkNode ledger lg_state None (mkLocal 9 [2] 2 1 true 3) (rev (ledger_apps lg_iter2)).
Definition lg_txs : list bytes := snd (prepare ledger lg_n1 [42] lg_hd lg_cands [] []).
Definition lg_block := mkBlock lg_hd lg_txs [] [] [1].

Example ledger_example :
  NoDup lg_iter1 /\ Permutation lg_iter1 lg_iter2 /\
  option_map snd (run_path ledger (ProposeCached ledger [42] lg_cands) lg_n1 lg_block)
  = option_map snd (run_path ledger (PlainReplay ledger) lg_n2 lg_block) /\
  option_map (fun r => o_tx ledger (snd r)) (run_path ledger (PlainReplay ledger) lg_n2 lg_block)
  = Some [(0, [1001; 2002]); (5, [1002]); (2, []); (0, [])] /\
  option_map (fun r => o_begin_events ledger (snd r)) (run_path ledger (PlainReplay ledger) lg_n2 lg_block)
  = Some [3001; 3002].
Proof.
  split; [repeat constructor; cbn; intuition discriminate|].
  (* no reduction tactic on the goal: see MuxProofs.toy_hypotheses *)
  split; [|repeat split; reflexivity].
  apply Permutation_sym. apply (Permutation_cons_app [[3]; [1]] [] [2]). apply Permutation_refl.
Qed.

(* What a missing sort would mean (the seeded change in stakingAddressMapToSliceByStake made
   the sort conditional on DebugBypassStake): with an unsorted slice the statement is false. *)
Theorem unsorted_map_order_matters_refuted :
  exists (shuffle : list bytes -> list bytes) (balance : bytes -> N) iter1 iter2,
    NoDup iter1 /\ Permutation iter1 iter2 /\
    firstn 1 (let sh := shuffle (collect_sorted SortConditional false iter1) in stable_desc balance sh)
    <> firstn 1 (let sh := shuffle (collect_sorted SortConditional false iter2) in stable_desc balance sh).
Proof.
  exists (fun l => l), (fun _ => 5), [[1]; [2]], [[2]; [1]].
  split; [repeat constructor; cbn; intuition discriminate|].
  split; [apply perm_swap|]. vm_compute. discriminate.
Qed.
