(* The proofs built by ProofBuilder.build from ANY set of included pointer
   positions verify against the tree's root and describe a pruning of the tree;
   instantiated to the SyncIterate and SyncGetPrefixes builders. *)
From Verif Require Import Lib.Base Mkvs.Trie Mkvs.HashProofs MkvsProof.Model
  MkvsProof.Sound MkvsProof.Complete MkvsProof.Remote MkvsProof.Iter.

Lemma pid_eqb_refl x : list_eqb dir_eqb x x = true.
Proof. induction x as [|d x IH]; cbn; [reflexivity|]. rewrite IH. destruct d; reflexivity. Qed.

Section G.
  Variable H : bytes -> bytes.
  Hypothesis Hlen : forall x, length (H x) = HASH_SIZE.
  Variable ver : N.
  Variable inc : list dir -> bool.

  (* the partial tree such a proof describes *)
  Fixpoint gprune (pid : list dir) (t : tree) : ptree :=
    if negb (inc pid) then ph H t
    else
      match t with
      | Nil => PNil
      | Leaf k0 v0 => PLeaf k0 v0
      | Node lbl lf l r =>
          pself lbl (lfslot H ver (inc (pid ++ [DF])) lf)
                (gprune (pid ++ [DL]) l) (gprune (pid ++ [DR]) r)
      end.

  Lemma gprune_prunes t : forall pid, prunes H (gprune pid t) t.
  Proof.
    induction t as [|k0 v0|lbl lf l IHl r IHr]; intros pid; cbn [gprune];
      destruct (inc pid); cbn [negb]; try apply ph_prunes; try reflexivity.
    apply pself_prunes; auto using lfslot_prunes.
  Qed.

  Lemma gbuild_parses t : forall pid, parses ver (height t) (gbuild H ver inc pid t) (gprune pid t).
  Proof.
    induction t as [|k0 v0|lbl lf l IHl r IHr]; intros pid; cbn [gbuild gprune];
      destruct (inc pid); cbn [negb]; try apply (parses_ph H Hlen).
    - apply (parses_leaf H Hlen).
    - cbn [height]. pose proof (height_pos l).
      apply (parses_node H Hlen ver _ lbl lf (inc (pid ++ [DF]))); auto; [lia| |];
        (eapply parses_mono; [|auto]); lia.
  Qed.

  Lemma gbuild_verify t :
    ver <= 1 -> (height t <= 129)%nat ->
    verify H ver (root_hash H t) (root_hash H t) (gbuild H ver inc [] t) =
    ROk (if bytes_eqb (root_hash H t) (H []) then PNil else gprune [] t).
  Proof. intros Hv Hh. exact (verify_parses H ver _ _ _ t Hv Hh (gbuild_parses t []) (gprune_prunes t [])). Qed.

  Theorem gbuild_verifies t :
    ver <= 1 -> (height t <= 129)%nat ->
    exists p, verify H ver (root_hash H t) (root_hash H t) (gbuild H ver inc [] t) = ROk p /\
              (prunes H p t \/ collision H) /\
              (p = gprune [] t \/ (p = PNil /\ root_hash H t = H [])).
  Proof.
    intros Hv Hh. rewrite gbuild_verify by assumption. eexists. split; [reflexivity|].
    destruct (bytes_eqb (root_hash H t) (H [])) eqn:Z.
    - apply bytes_eqb_eq in Z. split; [|auto].
      destruct (empty_root H t Z) as [->|C]; [left; reflexivity|auto].
    - split; [left; apply gprune_prunes|auto].
  Qed.
End G.

Section Builders.
  Variable H : bytes -> bytes.
  Hypothesis Hlen : forall x, length (H x) = HASH_SIZE.

  Theorem iterate_proof_verifies_l ver t key prefetch :
    ver <= 1 -> (height t <= 129)%nat ->
    exists p, verify H ver (root_hash H t) (root_hash H t) (build_iter_proof H ver t key prefetch) = ROk p /\
              (prunes H p t \/ collision H).
  Proof.
    intros Hv Hh. unfold build_iter_proof.
    destruct (gbuild_verifies H Hlen ver (fun pid => inb pid (iter_included t key prefetch)) t Hv Hh)
      as (p & E & P & _). eauto.
  Qed.

  Theorem prefixes_proof_verifies_l ver t prefixes limit :
    ver <= 1 -> (height t <= 129)%nat ->
    exists p, verify H ver (root_hash H t) (root_hash H t) (build_prefixes_proof H ver t prefixes limit) = ROk p /\
              (prunes H p t \/ collision H).
  Proof.
    intros Hv Hh. unfold build_prefixes_proof.
    destruct (gbuild_verifies H Hlen ver (fun pid => inb pid (prefixes_included t prefixes limit)) t Hv Hh)
      as (p & E & P & _). eauto.
  Qed.
End Builders.

(* non-vacuity / behaviour on the example tree: iterating from [1;2] with
   prefetch 1 covers exactly the next two items, in both versions *)
Example ex_iterate_covers :
  forall ver, In ver [0; 1] ->
    match verify Examples.Hc ver (root_hash Examples.Hc Examples.ex_t) (root_hash Examples.Hc Examples.ex_t)
                 (build_iter_proof Examples.Hc ver Examples.ex_t [1; 2] 1) with
    | ROk p => plookup 0 [1; 2; 3] p = Found [11] /\ plookup 0 [1; 2; 4] p = Found [12] /\
               plookup 0 [128] p = Unknown
    | RErr _ => False
    end.
Proof.
  intros ver Hv. unfold build_iter_proof. cbv zeta.
  rewrite (gbuild_verify Examples.Hc Examples.Hc_len), Examples.ex_root_ne;
    [|destruct Hv as [<-|[<-|[]]]; lia|exact Examples.ex_t_height].
  destruct Hv as [<-|[<-|[]]]; lazy; repeat split.
Qed.

Example ex_prefixes_covers :
  match verify Examples.Hc 0 (root_hash Examples.Hc Examples.ex_t) (root_hash Examples.Hc Examples.ex_t)
               (build_prefixes_proof Examples.Hc 0 Examples.ex_t [[1; 2]; [128]] 10) with
  | ROk p => plookup 0 [1; 2; 3] p = Found [11] /\ plookup 0 [1; 2; 4] p = Found [12] /\
             plookup 0 [128] p = Found [13]
  | RErr _ => False
  end.
Proof.
  unfold build_prefixes_proof. cbv zeta.
  rewrite (gbuild_verify Examples.Hc Examples.Hc_len), Examples.ex_root_ne;
    [|lia|exact Examples.ex_t_height].
  lazy. repeat split.
Qed.
