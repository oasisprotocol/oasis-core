(* The connection state machine with deletion at delivery (Conn.v): along every run a pending id
   has had no send yet and no id has had more than one, so no handler blocks and Close returns. *)
From Verif Require Import Lib.Base Decode.Conn.

Definition Inv (s : cstate) : Prop :=
  (forall id, In id (pending s) -> id < next_id s /\ aget id (sends s) = None) /\
  (forall id n, aget id (sends s) = Some n -> n <= 1 /\ id < next_id s).

Lemma mem_id_In id l : mem_id id l = true <-> In id l.
Proof.
  induction l as [|x r IH]; cbn; [split; [discriminate|tauto]|].
  rewrite orb_true_iff, IH, N.eqb_eq. tauto.
Qed.

Lemma In_remove id x l : In x (remove_id id l) -> In x l /\ x <> id.
Proof.
  unfold remove_id. rewrite filter_In. intros [H1 H2]. split; [exact H1|].
  destruct (x =? id) eqn:E; [discriminate|]. apply N.eqb_neq. exact E.
Qed.

Lemma inv_init : Inv init.
Proof. split; cbn; [tauto|discriminate]. Qed.

Lemma inv_step s e : Inv s -> Inv (step true s e).
Proof.
  intros [Hp Hs]. destruct e as [|m|]; cbn [step].
  - destruct (closed s); split; cbn [pending sends next_id].
    + intros id Hin. specialize (Hp id Hin). split; [lia|tauto].
    + intros id n Ha. specialize (Hs id n Ha). lia.
    + intros id [<- | Hin].
      * split; [lia|]. destruct (aget (next_id s) (sends s)) as [n|] eqn:E; [|reflexivity].
        specialize (Hs _ _ E). lia.
      * specialize (Hp id Hin). split; [lia|tauto].
    + intros id n Ha. specialize (Hs id n Ha). lia.
  - destruct (closed s); [split; assumption|].
    destruct m as [id|id| |]; try (split; cbn [pending sends next_id]; assumption).
    + destruct (mem_id id (pending s)) eqn:Hm.
      * apply mem_id_In in Hm. pose proof (Hp id Hm) as [Hlt Hnone].
        unfold nsends. rewrite Hnone. split; cbn [pending sends next_id].
        -- intros x Hin. apply In_remove in Hin as [Hin Hne]. specialize (Hp x Hin).
           split; [tauto|]. rewrite aget_aset_other by exact Hne. tauto.
        -- intros x n Ha. destruct (N.eq_dec x id) as [->|Hne].
           ++ rewrite aget_aset_same in Ha. injection Ha as <-. lia.
           ++ rewrite aget_aset_other in Ha by exact Hne. apply Hs. exact Ha.
      * split; cbn [pending sends next_id]; assumption.
    + split; cbn [pending sends next_id]; [intros id [] | exact Hs].
  - split; cbn [pending sends next_id]; [intros id [] | exact Hs].
Qed.

(* stated on the list itself: going through aget would need the keys to be unique *)
Definition AllLe1 (s : cstate) : Prop := forall kv, In kv (sends s) -> snd kv <= 1.

Lemma all_le1_step s e : Inv s -> AllLe1 s -> AllLe1 (step true s e).
Proof.
  intros [Hp Hs] Hall. destruct e as [|m|]; cbn [step].
  - destruct (closed s); exact Hall.
  - destruct (closed s); [exact Hall|]. destruct m as [id|id| |]; try exact Hall.
    destruct (mem_id id (pending s)) eqn:Hm; [|exact Hall].
    apply mem_id_In in Hm. pose proof (Hp id Hm) as [_ Hnone]. unfold nsends. rewrite Hnone.
    intros kv Hin. cbn [sends] in Hin. unfold aset in Hin. destruct Hin as [<- | Hin]; [cbn; lia|].
    apply Hall. exact (adel_incl _ _ _ Hin).
  - exact Hall.
Qed.

Lemma inv_run evs : Inv (run true evs) /\ AllLe1 (run true evs).
Proof.
  apply (fold_left_invariant (fun s => Inv s /\ AllLe1 s)); [|split; [exact inv_init|intros kv []]].
  intros s e [Hi Ha]. split; [apply inv_step|apply all_le1_step]; assumption.
Qed.

Lemma blocked_list_zero : forall l : list (N * N),
  (forall kv, In kv l -> snd kv <= 1) ->
  fold_right (fun (kv : N * N) acc => (snd kv - 2) + acc) 0 l = 0.
Proof.
  induction l as [|kv l IH]; intros H; [reflexivity|].
  cbn [fold_right]. rewrite IH by (intros; apply H; right; assumption).
  specialize (H kv (or_introl eq_refl)). lia.
Qed.

(* no handler ever waits on a response channel: at most ONE send per request id,
   whatever frames the peer sends; hence nothing blocks and Close() returns *)
Lemma conn_no_block_l : forall evs,
  (forall kv, In kv (sends (run true evs)) -> snd kv <= 1) /\
  blocked (run true evs) = 0 /\ close_returns (run true evs) = true.
Proof.
  intros evs. pose proof (proj2 (inv_run evs)) as H. split; [exact H|].
  assert (blocked (run true evs) = 0) as Hb by (apply blocked_list_zero; exact H).
  split; [exact Hb|]. unfold close_returns. rewrite Hb. reflexivity.
Qed.

Lemma filter_len {A} (f : A -> bool) l : (length (filter f l) <= length l)%nat.
Proof. induction l as [|x r IH]; cbn; [lia|]. destruct (f x); cbn; lia. Qed.

Lemma conn_inbound_does_not_grow_l : forall s m,
  (length (pending (step true s (EFrame m))) <= length (pending s))%nat.
Proof.
  intros s m. cbn [step]. destruct (closed s); [lia|].
  destruct m as [id|id| |].
  - destruct (mem_id id (pending s)); cbn [pending]; [unfold remove_id; apply filter_len|lia].
  - cbn [pending]. lia.
  - lia.
  - cbn [pending length]. lia.
Qed.

Lemma conn_close_empties_l : forall del s, pending (step del s EClose) = [] /\
  pending (step del s (EFrame IMalformed)) = [] \/ closed s = true.
Proof. intros del s. destruct (closed s) eqn:E; [right; reflexivity|left]. cbn [step]. rewrite E. split; reflexivity. Qed.

Lemma conn_closed_stays_empty_l : forall del s e, closed s = true -> pending s = [] ->
  closed (step del s e) = true /\ pending (step del s e) = [].
Proof.
  intros del s e Hc Hp. destruct e as [|m|]; cbn [step]; rewrite ?Hc; cbn [closed pending]; auto.
Qed.

(* the variant that does not delete at delivery blocks: three copies of one response *)
Lemma conn_nodelete_blocks_l :
  exists evs, blocked (run false evs) = 1 /\ close_returns (run false evs) = false /\
              blocked (run true evs) = 0.
Proof.
  exists [ECall; EFrame (IResponse 0); EFrame (IResponse 0); EFrame (IResponse 0); EClose].
  repeat apply conj; vm_compute; reflexivity.
Qed.

Example conn_example :
  outcomes (run true [ECall; ECall; EFrame (IResponse 1); EFrame (IResponse 1); EFrame (IResponse 7);
                      EFrame (IRequest 3); EFrame IMalformed; ECall]) = [false; true; false].
Proof. vm_compute. reflexivity. Qed.
