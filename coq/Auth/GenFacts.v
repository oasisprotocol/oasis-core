(* C09 -- facts about the REGENERATED context list (coq/Gen/SigContexts.v is
   rewritten from the Go sources on every run), the hypotheses-needed
   witnesses, and non-vacuity examples. *)
From Verif Require Import Lib.Base Auth.Model Auth.Proofs Auth.Corr Gen.SigContexts Gen.SigOptions.

(* ed25519.ContextMaxSize (curve25519-voi), the bound of NewContext signer.go:147 *)
Definition ed25519_context_max_size : N := 255.

Lemma contexts_prefix_free : prefix_free_b chain_separator contexts = true.
Proof. vm_compute. reflexivity. Qed.

Lemma contexts_wellformed :
  forallb (ctx_len_ok chain_separator chain_context_max_size ed25519_context_max_size) contexts = true.
Proof. vm_compute. reflexivity. Qed.

Lemma spec_eqb_eq a b : spec_eqb a b = true -> a = b.
Proof.
  destruct a as [[b1 c1] d1], b as [[b2 c2] d2]. unfold spec_eqb, cbase, cchain, cdyn; cbn [fst snd].
  intros Hq. apply andb_true_iff in Hq as [Hq H3]. apply andb_true_iff in Hq as [H1 H2].
  apply bytes_eqb_eq in H1. apply Bool.eqb_prop in H2. subst.
  destruct d1 as [[s1 m1]|], d2 as [[s2 m2]|]; try discriminate; [|reflexivity].
  apply andb_true_iff in H3 as [H3 H4]. apply bytes_eqb_eq in H3. apply N.eqb_eq in H4.
  subst. reflexivity.
Qed.

Lemma tx_context_registered : In tx_context contexts.
Proof.
  assert (H : existsb (spec_eqb tx_context) contexts = true) by (vm_compute; reflexivity).
  apply existsb_exists in H as [c [Hin Hc]]. apply spec_eqb_eq in Hc. subst c. exact Hin.
Qed.

Lemma tx_context_shape : cchain tx_context = true /\ cdyn tx_context = None.
Proof. split; reflexivity. Qed.

Lemma tx_prepare (ch : bytes) :
  ch <> [] ->
  prepare chain_separator tx_context None ch
    = Some (cbase tx_context ++ chain_separator ++ ch).
Proof.
  intros Hne. unfold prepare, raw_context.
  destruct tx_context_shape as [Hc Hd]. rewrite Hd, Hc. cbn [negb orb].
  destruct (bytes_eqb ch []) eqn:Q; [apply bytes_eqb_eq in Q; contradiction|].
  cbn [negb app]. reflexivity.
Qed.

Lemma tx_prepare_nochain : prepare chain_separator tx_context None [] = None.
Proof. reflexivity. Qed.

Lemma no_critical_methods : method_metadata_providers = [].
Proof. reflexivity. Qed.

Lemma tx_cross_domain (Hf : bytes -> bytes) c d h m ch blob :
  In c contexts -> length h = length ch ->
  Hf (signing_preimage chain_separator tx_context [] ch blob)
    = Hf (signing_preimage chain_separator c d h m) ->
  (c = tx_context /\ m = blob /\ h = ch) \/ collision Hf.
Proof.
  intros Hin Hl Heq.
  assert (Hr : signing_preimage chain_separator tx_context [] ch blob
               = signing_preimage chain_separator tx_context d ch blob).
  { unfold signing_preimage, raw_context. destruct tx_context_shape as [_ Hd]. rewrite Hd. reflexivity. }
  rewrite Hr in Heq.
  destruct (digest_domain_separation chain_separator Hf contexts tx_context c d d ch h blob m
              contexts_prefix_free tx_context_registered Hin eq_refl (eq_sym Hl) Heq)
    as [[E1 [E2 [_ E4]]]|Hc]; [left|right; exact Hc].
  destruct tx_context_shape as [Hc _]. specialize (E4 Hc). subst. repeat split; reflexivity.
Qed.

(* The construction  context ++ " for chain " ++ chain ++ message  has no
   length field: two chain contexts one of which is a prefix of the other are
   NOT separated.  (SetChainContext accepts any length 1..64; production chain
   contexts are the 64 hex characters of the genesis document hash.) *)
Lemma chain_length_hypothesis_needed (SEPc : bytes) (c : ctx_spec) d :
  cchain c = true ->
  exists h1 h2 m1 m2, h1 <> h2 /\
    signing_preimage SEPc c d h1 m1 = signing_preimage SEPc c d h2 m2.
Proof.
  intros Hc. exists [97], [97; 98], [98; 1], [1]. split; [discriminate|].
  unfold signing_preimage, raw_context. rewrite Hc. rewrite <- !app_assoc. reflexivity.
Qed.

(* likewise the dynamic suffix argument (WithSuffix accepts any length up to
   maxLen; all callers pass the 64 hex characters of a runtime id) *)
Lemma suffix_length_hypothesis_needed (SEPc : bytes) (c : ctx_spec) sfx mx :
  cdyn c = Some (sfx, mx) -> cchain c = true -> 2 + blen SEPc <= mx ->
  exists d1 d2 h1 h2 m1 m2, d1 <> d2 /\ blen d1 <= mx /\ blen d2 <= mx /\ length h1 = length h2 /\
    signing_preimage SEPc c d1 h1 m1 = signing_preimage SEPc c d2 h2 m2.
Proof.
  intros Hd Hc Hmx.
  exists [97], ([97] ++ SEPc ++ [113]), [113], [122], (SEPc ++ [122]), [].
  split.
  { intros X. cbn [app] in X. injection X as X. destruct SEPc; discriminate. }
  split. { unfold blen in *. cbn [length]. lia. }
  split. { unfold blen in *. rewrite !app_length. cbn [length]. lia. }
  split; [reflexivity|].
  unfold signing_preimage, raw_context. rewrite Hd, Hc. rewrite <- !app_assoc.
  cbn [app]. rewrite ?app_nil_r. reflexivity.
Qed.

(* instance on the regenerated list: some registered context has both options *)
Lemma suffix_length_witness_applies :
  existsb (fun c => cchain c && match cdyn c with
                                | Some (_, mx) => 2 + blen chain_separator <=? mx
                                | None => false end) contexts = true
  \/ forallb (fun c => match cdyn c with Some _ => false | None => true end) contexts = true.
Proof. vm_compute. left. reflexivity. Qed.

Definition exP : kparams :=
  {| p_max_tx_size := 32768; p_min_transact := 0; p_min_transfer := 10; p_gas_byte := 1;
     p_gas_transfer := 1000; p_gas_burn := 1000; p_min_gas_price := 0;
     p_gas_escrow := 1300; p_gas_allow := 1100; p_gas_withdraw := 1200; p_min_deleg := 10; p_max_allow := 8;
     p_reserved := [] |}.
Definition exC := kcfg exP chain_separator tx_context [1] allow_small_order_A allow_small_order_R.

Definition ex_tx (signer nonce : N) (valid : bool) : kraw :=
  {| k_len := 200; k_env := true; k_pk := signer; k_black := false; k_small_a := false; k_small_r := false; k_sigvalid := valid;
     k_tx := Some {| kt_nonce := nonce; kt_fee := Some (10, 10000); kt_method := 3;
                     kt_to := 9; kt_amount := 100; kt_body_ok := true |} |}.

Definition ex_s0 : state (list (N * N)) :=
  {| nonces := [(1, 0); (2, 18446744073709551615)]; rest := [(1, 100000); (2, 100000)] |}.

(* two signers, interleaved fresh, replayed, forged, across a restart and other
   operations; signer 2 starts at 2^64-1 and wraps to 0 *)
Definition ex_ops : list (@op (list (N * N)) kraw) :=
  [OTx (ex_tx 1 0 true); OTx (ex_tx 1 0 true); OTx (ex_tx 2 18446744073709551615 true);
   OOther (fun l => aset 7 5 l); ORestart; OTx (ex_tx 1 0 true); OTx (ex_tx 1 1 false);
   OTx (ex_tx 2 0 true); OTx (ex_tx 1 1 true); OTx (ex_tx 2 18446744073709551615 true)].

Example ex_wf : wf ex_s0.
Proof.
  intros a. unfold nonce_of, nonce_in, ex_s0. cbn [nonces aget].
  destruct (1 =? a); [reflexivity|]. destruct (2 =? a); reflexivity.
Qed.

Example ex_trace :
  trace exC ex_s0 ex_ops = [(1, 0); (2, 18446744073709551615); (2, 0); (1, 1)].
Proof. vm_compute. reflexivity. Qed.

Example ex_final_nonces :
  nonce_of (run exC ex_s0 ex_ops) 1 = 2 /\ nonce_of (run exC ex_s0 ex_ops) 2 = 1.
Proof. vm_compute. split; reflexivity. Qed.

Example ex_no_critical : forall m, is_critical exC m = false.
Proof. reflexivity. Qed.

Example ex_replay_rejected :
  map (fun r => obs (snd (deliver exC (run exC ex_s0 [OTx (ex_tx 1 0 true)]) r)))
      [ex_tx 1 0 true; ex_tx 1 1 false; ex_tx 1 1 true; ex_tx 1 5 true]
  = [8; 3; 0; 8].
Proof. vm_compute. reflexivity. Qed.

Lemma executes_only_if_authentic_tx {L Raw} (C : cfg L Raw) s raw :
  SEP C = chain_separator -> txc C = tx_context -> chain C <> [] ->
  (forall m, is_critical C m = false) ->
  fst (deliver C s raw) <> s \/ exec_reached (snd (deliver C s raw)) = true ->
  exists e t,
    dec_env C raw = Some e /\ dec_tx C (e_blob e) = Some t /\
    blen (e_sig e) = 64 /\
    sig_ok C (e_pk e)
      (hashf C (signing_preimage chain_separator tx_context [] (chain C) (e_blob e)))
      (e_sig e) = true /\
    t_nonce t = nonce_of s (addr_of C (e_pk e)) /\
    nonce_of (fst (deliver C s raw)) (addr_of C (e_pk e))
      = (nonce_of s (addr_of C (e_pk e)) + 1) mod U64 /\
    (forall a', a' <> addr_of C (e_pk e) -> nonce_of (fst (deliver C s raw)) a' = nonce_of s a').
Proof.
  intros HS HT HC Hnc Heff.
  destruct (executes_only_if_authentic C s raw Hnc Heff)
    as [e [t [rc [H1 [H2 [H3 [H4 [H5 [H6 [H7 H8]]]]]]]]]].
  exists e, t. rewrite HS, HT, (tx_prepare _ HC) in H3. injection H3 as <-.
  repeat split; assumption.
Qed.

Example ex_effective :
  SEP exC = chain_separator /\ txc exC = tx_context /\ chain exC <> [] /\
  fst (deliver exC ex_s0 (ex_tx 1 0 true)) <> ex_s0.
Proof. repeat split; discriminate. Qed.

(* "An altered byte string never takes effect" is FALSE for a decoder with two
   preimages of one envelope.
   The signature covers (blob) and is bound to (pk, sig); it cannot cover the
   envelope framing.  Witness decoder: a raw transaction is (payload, number of
   trailing bytes) and the trailing bytes are ignored -- which is what
   cbor.Unmarshal of fxamacker/cbor v2.4.0 (go/common/cbor) does on the real
   code, like its case-insensitive match of the field names "signature",
   "public_key", "untrusted_raw_value" (observed by harness/cmd/auth: finding
   C09:altered-envelope-bytes-same-signed-content-executes). *)
Definition malC : cfg (list (N * N)) (kraw * N) :=
  {| raw_len := fun r => k_len (fst r) + snd r;
     dec_env := fun r => k_dec_env (fst r);
     dec_tx := dec_tx exC; hashf := hashf exC; sig_ok := sig_ok exC;
     blacklisted := blacklisted exC; allow_small_A := allow_small_A exC; allow_small_R := allow_small_R exC;
     small_order_A := small_order_A exC; small_order_R := small_order_R exC; addr_of := addr_of exC; reserved := reserved exC;
     is_system := is_system exC; has_app := has_app exC; is_critical := is_critical exC;
     max_tx_size := max_tx_size exC; SEP := SEP exC; txc := txc exC; chain := chain exC;
     fee_ok := fee_ok exC; fee_move_ok := fee_move_ok exC; pay_fee := pay_fee exC;
     gas_size_ok := fun l r t => gas_size_ok exC l (fst r) t;
     gas_price_ok := gas_price_ok exC; exec := exec exC |}.

Lemma bit_flip_never_executes_refuted :
  exists (L Raw : Type) (C : cfg L Raw) (s : state L) (raw raw' : Raw),
    raw' <> raw /\ (forall m, is_critical C m = false) /\
    dec_env C raw' = dec_env C raw /\
    authenticated (snd (deliver C s raw)) = true /\
    authenticated (snd (deliver C s raw')) = true /\
    exec_reached (snd (deliver C s raw')) = true.
Proof.
  exists (list (N * N)), (kraw * N)%type, malC, ex_s0, (ex_tx 1 0 true, 0), (ex_tx 1 0 true, 2).
  split; [discriminate|]. split; [reflexivity|]. split; [reflexivity|].
  vm_compute. repeat split; reflexivity.
Qed.

(* With the Ed25519 verification options regenerated from the ed25519.VerifyOptions
   literal of signature.go (Gen.SigOptions: small-order A and R rejected), a
   universal-forgery envelope (small-order key, equation holds) is rejected by the
   model, and would be authenticated if the option were flipped. *)
Definition ex_forged : kraw :=
  {| k_len := 200; k_env := true; k_pk := 1; k_black := false; k_small_a := true; k_small_r := false;
     k_sigvalid := true;
     k_tx := Some {| kt_nonce := 0; kt_fee := Some (10, 10000); kt_method := 3;
                     kt_to := 9; kt_amount := 100; kt_body_ok := true |} |}.
Example ex_small_order_rejected :
  obs (snd (deliver exC ex_s0 ex_forged)) = 3 /\
  obs (snd (deliver (kcfg exP chain_separator tx_context [1] true false) ex_s0 ex_forged)) = 0.
Proof. vm_compute. split; reflexivity. Qed.

(* Removing an account record is a nonce write to 0 and re-admits old transactions:
   state.go Account() returns the zero account for a missing record, so an
   operation that deletes the record of a drained account resets its nonce.  No
   operation of the model does (Proofs.run_nonce_count / nonce_never_decreases);
   in the sources this is checked on Gen.NonceWriters.account_record_writers: only
   SetAccount stores records (state.go:614), nothing removes them, and the dummy
   upgrade handler of the test migrations installs a literal for a test entity.
   Witness of what would happen otherwise: *)
Definition remove_account {L} (s : state L) (a : N) : state L :=
  {| nonces := adel a (nonces s); rest := rest s |}.

Lemma account_removal_enables_replay :
  exists (L Raw : Type) (C : cfg L Raw) (s : state L) (raw : Raw) (a : N),
    (forall a', nonce_of s a' < U64) /\
    authenticated (snd (deliver C s raw)) = true /\
    authenticated (snd (deliver C (fst (deliver C s raw)) raw)) = false /\
    authenticated (snd (deliver C (remove_account (fst (deliver C s raw)) a) raw)) = true.
Proof.
  exists (list (N * N)), kraw, exC, ex_s0, (ex_tx 1 0 true), 1.
  split; [exact ex_wf|]. vm_compute. repeat split; reflexivity.
Qed.
