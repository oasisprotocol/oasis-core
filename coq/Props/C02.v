From Verif Require Import Lib.Base Mkvs.Trie Mkvs.BitsProofs Mkvs.AlistProofs Mkvs.TrieProofs Mkvs.HashProofs Mkvs.Overlay Mkvs.Corr Mkvs.CorrProofs Mkvs.Key Mkvs.KeySweep Mkvs.KeyProofs Mkvs.KeyLift.

(* C02 - MKVS root hash depends only on the key/value contents.
   [wf] = path-prefix discipline + canonical compression; [valid_bytes] = every
   byte < 256; [al_set]/[al_del]/[al_get] = sorted association list = the
   abstract map; [run ops] = the tree after a history of inserts / overwrites /
   removals starting from the empty tree (commit points do not change the
   model tree: the root at a commit is [root_hash H] of the current tree). *)

Theorem insert_wf : forall t k v, valid_bytes k -> wf t -> wf (tinsert k v t).
Proof. exact TrieProofs.insert_wf. Qed.
Print Assumptions insert_wf.

Theorem remove_wf : forall t k, wf t -> wf (fst (fst (tremove k t))).
Proof. exact TrieProofs.remove_wf. Qed.
Print Assumptions remove_wf.

Theorem contents_sorted : forall t, wf t -> sorted (contents t).
Proof. exact TrieProofs.contents_sorted. Qed.
Print Assumptions contents_sorted.

Theorem insert_contents :
  forall t k v, valid_bytes k -> wf t -> contents (tinsert k v t) = al_set k v (contents t).
Proof. exact TrieProofs.insert_contents. Qed.
Print Assumptions insert_contents.

Theorem remove_contents :
  forall t k, wf t ->
    contents (fst (fst (tremove k t))) = al_del k (contents t) /\
    snd (tremove k t) = al_get k (contents t) /\
    snd (fst (tremove k t)) = (match al_get k (contents t) with Some _ => true | None => false end).
Proof. exact TrieProofs.remove_contents. Qed.
Print Assumptions remove_contents.

Theorem lookup_contents : forall t k, wf t -> tlookup k t = al_get k (contents t).
Proof. exact TrieProofs.lookup_contents. Qed.
Print Assumptions lookup_contents.

Theorem canonical : forall t1 t2, wf t1 -> wf t2 -> contents t1 = contents t2 -> t1 = t2.
Proof. exact TrieProofs.canonical. Qed.
Print Assumptions canonical.

Theorem run_wf : forall ops, Forall op_valid ops -> wf (run ops).
Proof. exact TrieProofs.run_wf. Qed.
Print Assumptions run_wf.

Theorem run_contents :
  forall ops, Forall op_valid ops -> contents (run ops) = fold_left apply_op_spec ops [].
Proof. exact TrieProofs.run_contents. Qed.
Print Assumptions run_contents.

Theorem root_depends_only_on_contents :
  forall ops1 ops2, Forall op_valid ops1 -> Forall op_valid ops2 ->
    contents (run ops1) = contents (run ops2) ->
    run ops1 = run ops2 /\
    hash_expr (run ops1) = hash_expr (run ops2) /\
    forall H : bytes -> bytes, root_hash H (run ops1) = root_hash H (run ops2).
Proof. exact TrieProofs.root_depends_only_on_contents. Qed.
Print Assumptions root_depends_only_on_contents.

Theorem root_depends_only_on_map :
  forall ops1 ops2, Forall op_valid ops1 -> Forall op_valid ops2 ->
    fold_left apply_op_spec ops1 [] = fold_left apply_op_spec ops2 [] ->
    forall H : bytes -> bytes, root_hash H (run ops1) = root_hash H (run ops2).
Proof. exact TrieProofs.root_depends_only_on_map. Qed.
Print Assumptions root_depends_only_on_map.

Theorem hash_injective :
  forall (H : bytes -> bytes) (hlen : nat), (forall x, length (H x) = hlen) ->
  forall t1 t2, bounded t1 -> bounded t2 ->
    root_hash H t1 = root_hash H t2 -> t1 = t2 \/ collision H.
Proof. exact HashProofs.hash_injective. Qed.
Print Assumptions hash_injective.

Theorem root_sensitive :
  forall (H : bytes -> bytes) (hlen : nat), (forall x, length (H x) = hlen) ->
  forall t1 t2, wf t1 -> wf t2 ->
    entries_bounded (contents t1) -> entries_bounded (contents t2) ->
    root_hash H t1 = root_hash H t2 -> contents t1 = contents t2 \/ collision H.
Proof. exact HashProofs.root_sensitive. Qed.
Print Assumptions root_sensitive.

Theorem root_changes_with_any_key :
  forall (H : bytes -> bytes) (hlen : nat), (forall x, length (H x) = hlen) ->
  forall t1 t2 k, wf t1 -> wf t2 ->
    entries_bounded (contents t1) -> entries_bounded (contents t2) ->
    tlookup k t1 <> tlookup k t2 ->
    root_hash H t1 <> root_hash H t2 \/ collision H.
Proof. exact HashProofs.root_changes_with_any_key. Qed.
Print Assumptions root_changes_with_any_key.

(* histories WITH commit markers, as replayed by the correspondence runs
   ([c02_go] is the function evaluated on the recorded cases): commits do not
   change the tree and the root reported by a final commit depends only on the
   final contents, wherever the earlier commits were placed *)
Theorem batching_irrelevant :
  forall tab ops1 ops2,
    Forall op_valid (cops_strip ops1) -> Forall op_valid (cops_strip ops2) ->
    contents (snd (c02_go tab Nil ops1)) = contents (snd (c02_go tab Nil ops2)) ->
    snd (c02_go tab Nil ops1) = snd (c02_go tab Nil ops2) /\
    last (fst (c02_go tab Nil (ops1 ++ [CCommit]))) [] = last (fst (c02_go tab Nil (ops2 ++ [CCommit]))) [].
Proof. exact CorrProofs.batching_irrelevant. Qed.
Print Assumptions batching_irrelevant.

(* ---- the byte-wise key functions of node/key.go (Mkvs/Key.v) against the bit
   lists of the trie model.  General for BitLength and GetBit; for Split,
   Merge, AppendBit and CommonPrefixLen on all packed bit strings up to the
   stated lengths (instances of the four general theorems below). ---- *)
Theorem k_bitlen_bits : forall k, k_bitlen k = N.of_nat (length (bits_of k)).
Proof. exact KeyProofs.k_bitlen_bits. Qed.
Print Assumptions k_bitlen_bits.

Theorem k_getbit_bits :
  forall k, valid_bytes k -> forall i : nat, (i < 8 * length k)%nat ->
    k_getbit k (N.of_nat i) = bit (bits_of k) i.
Proof. exact KeyProofs.k_getbit_bits. Qed.
Print Assumptions k_getbit_bits.

Theorem key_split_partial :
  forall p sp, (length p <= 12)%nat -> (sp <= length p)%nat ->
    k_split (pack p) (N.of_nat sp) (N.of_nat (length p)) = (pack (firstn sp p), pack (skipn sp p)).
Proof. exact (fun p sp _ => KeyLift.key_split_general p sp). Qed.
Print Assumptions key_split_partial.

Theorem key_merge_partial :
  forall a b, (length a + length b <= 11)%nat ->
    k_merge (pack a) (N.of_nat (length a)) (pack b) (N.of_nat (length b)) = pack (a ++ b).
Proof. exact (fun a b _ => KeyLift.key_merge_general a b). Qed.
Print Assumptions key_merge_partial.

Theorem key_appendbit_partial :
  forall p v, (length p <= 14)%nat ->
    k_appendbit (pack p) (N.of_nat (length p)) v = pack (p ++ [v]).
Proof. exact (fun p v _ => KeyLift.key_appendbit_general p v). Qed.
Print Assumptions key_appendbit_partial.

Theorem key_cpl_partial :
  forall a b, (length a <= 7)%nat -> (length b <= 7)%nat ->
    k_cpl (pack a) (N.of_nat (length a)) (pack b) (N.of_nat (length b)) = N.of_nat (lcp a b).
Proof. exact (fun a b _ _ => KeyLift.key_cpl_general a b). Qed.
Print Assumptions key_cpl_partial.

Theorem key_cpl_cross_byte_partial :
  forall a j m, (length a <= 11)%nat -> (j < length a)%nat -> (m <= length a)%nat ->
    let b := firstn m (flip_at j a) in
    k_cpl (pack a) (N.of_nat (length a)) (pack b) (N.of_nat (length b)) = N.of_nat (lcp a b).
Proof. exact (fun a j m _ _ _ => KeyLift.key_cpl_general a (firstn m (flip_at j a))). Qed.
Print Assumptions key_cpl_cross_byte_partial.

(* ---- the same four, for ALL lengths (Mkvs/KeyLift.v: every output byte
   compared bit by bit with the expected one, from N.testbit of the shifts and
   masks) ---- *)
Theorem key_split :
  forall (p : path) sp, (sp <= length p)%nat ->
    k_split (pack p) (N.of_nat sp) (N.of_nat (length p)) = (pack (firstn sp p), pack (skipn sp p)).
Proof. exact KeyLift.key_split_general. Qed.
Print Assumptions key_split.

Theorem key_merge :
  forall a b : path,
    k_merge (pack a) (N.of_nat (length a)) (pack b) (N.of_nat (length b)) = pack (a ++ b).
Proof. exact KeyLift.key_merge_general. Qed.
Print Assumptions key_merge.

Theorem key_appendbit :
  forall (p : path) v, k_appendbit (pack p) (N.of_nat (length p)) v = pack (p ++ [v]).
Proof. exact KeyLift.key_appendbit_general. Qed.
Print Assumptions key_appendbit.

Theorem key_cpl :
  forall a b : path,
    k_cpl (pack a) (N.of_nat (length a)) (pack b) (N.of_nat (length b)) = N.of_nat (lcp a b).
Proof. exact KeyLift.key_cpl_general. Qed.
Print Assumptions key_cpl.

(* ---- extension of the quantifier to FAULTS: histories in which some operations
   fail (return an error) and are retried.  On the functional model a failed
   operation is the identity by construction, so this is immediate; the
   implementation side is checked by the fault-injection twins of the harness
   (a node database read error in the middle of an operation, retry, same root
   as the fault-free history). ---- *)
Theorem failed_op_leaves_tree : forall t o, apply_fop t (FFailed o) = t.
Proof. exact CorrProofs.failed_op_leaves_tree. Qed.
Print Assumptions failed_op_leaves_tree.

Theorem root_depends_only_on_contents_with_faults :
  forall fs1 fs2, Forall op_valid (succeeded fs1) -> Forall op_valid (succeeded fs2) ->
    contents (run_f fs1) = contents (run_f fs2) ->
    run_f fs1 = run_f fs2 /\ forall H : bytes -> bytes, root_hash H (run_f fs1) = root_hash H (run_f fs2).
Proof. exact CorrProofs.root_depends_only_on_contents_with_faults. Qed.
Print Assumptions root_depends_only_on_contents_with_faults.

(* ---- CommitKnown (commit.go:29-40): commit iff the computed root equals the
   expected one; it never changes the tree, so a FAILED CommitKnown is the
   identity on the contents and on every later root (goes with
   failed_op_leaves_tree; immediate on the functional model — the implementation
   side is the "commitknown_bad" operations and "nobadknown" twins of the harness). ---- *)
Theorem commit_known_ok :
  forall H t, commit_known H (root_hash H t) t = (t, Some (snd (commit H t))).
Proof. exact CorrProofs.commit_known_ok. Qed.
Print Assumptions commit_known_ok.

Theorem commit_known_bad :
  forall H e t, e <> root_hash H t -> snd (commit_known H e t) = None /\ fst (commit_known H e t) = t.
Proof. exact (fun H e t Hne => conj (CorrProofs.commit_known_bad H e t Hne) (commit_known_tree H e t)). Qed.
Print Assumptions commit_known_bad.

Theorem failed_commit_known_leaves_tree :
  forall tab ops,
    snd (c02_go tab Nil (drop_known ops)) = snd (c02_go tab Nil ops) /\
    last (fst (c02_go tab Nil (drop_known ops ++ [CCommit]))) [] = last (fst (c02_go tab Nil (ops ++ [CCommit]))) [].
Proof. exact CorrProofs.failed_commit_known_leaves_tree. Qed.
Print Assumptions failed_commit_known_leaves_tree.
