(* NodeDB/Examples.v — non-vacuity examples and refutation witnesses (vm_compute on concrete
   histories recorded from the real badger backend by harness/cmd/nodedb). *)
From Verif Require Import Lib.Base NodeDB.Spec NodeDB.Badger NodeDB.BadgerProofs.

Fixpoint accepted (d : bdb) (h : list op) : bool :=
  match h with
  | [] => true
  | o :: t => wf_step d o && eclass_eqb (fst (b_step d o)) EOk && accepted (snd (b_step d o)) t
  end.

(* a finalized, retained root that the database lists but cannot read *)
Definition unreadable_finalized (d : bdb) (v rid : N) : bool :=
  s_has (b_meta d) v rid && last_geb (b_meta d) v && (b_status d v rid =? 2).

(* section-9 history: state {k,x} and IO {k,y} finalized in version 1 share the leaf k; the
   state root of version 2 changes only x; Prune(1) deletes the shared leaf *)
Definition h_prune_shared : list op :=
  [OCommit 1 1 2 None [(6, 1); (7, 1)] [1; 2; 3] [] [3; 1; 2] [];
   OCommit 1 2 3 None [(6, 1); (8, 1)] [1; 4; 5] [] [5; 1; 4] [];
   OFinalize 1 [2; 3];
   OCommit 2 1 4 (Some (1, 2)) [(7, 2)] [6; 7] [2; 3] [7; 1; 6] [];
   OFinalize 2 [4];
   OPrune 1].

Lemma prune_shared_refutes :
  accepted bdb0 h_prune_shared = true /\
  unreadable_finalized (b_run bdb0 h_prune_shared) 2 4 = true /\
  ok_run bdb0 (firstn 5 h_prune_shared) = true /\
  prune_safe (b_run bdb0 (firstn 5 h_prune_shared)) 1 = false.
Proof. vm_compute. repeat split; reflexivity. Qed.

Lemma unreadable_witness h v rid :
  accepted bdb0 h = true -> unreadable_finalized (b_run bdb0 h) v rid = true ->
  exists h, accepted bdb0 h = true /\ exists v rid, unreadable_finalized (b_run bdb0 h) v rid = true.
Proof. intros A U. exists h. split; [exact A|]. exists v, rid. exact U. Qed.

(* the candidate repair (skip nodes reachable from roots of the pruned version that have
   derived roots) keeps the version-2 root readable on that history *)
Lemma prune_alt_keeps_readable :
  let d := b_run bdb0 (firstn 5 h_prune_shared) in
  fst (b_prune_alt d 1) = EOk /\ b_status (snd (b_prune_alt d 1)) 2 4 = 1.
Proof. vm_compute. split; reflexivity. Qed.

(* a discarded candidate re-wrote (same hash) a node that the finalized candidate inherits
   from the previous version: Finalize deletes it at the version timestamp *)
Definition h_finalize_reput : list op :=
  [OCommit 2 1 2 None [(6, 1)] [1] [] [1] [];
   OFinalize 2 [2];
   OCommit 3 1 2 (Some (2, 2)) [] [] [] [1] [];
   OCommit 3 2 3 None [(6, 1)] [1] [] [1] [];
   OFinalize 3 [2]].

Lemma finalize_reput_refutes :
  accepted bdb0 h_finalize_reput = true /\
  unreadable_finalized (b_run bdb0 h_finalize_reput) 3 2 = true /\
  fin_safe (b_run bdb0 (firstn 4 h_finalize_reput)) 3 [2] = false.
Proof. vm_compute. repeat split; reflexivity. Qed.

(* a same-version chain A -> B: finalizing B keeps A listed (transitive finalization) but
   deletes the nodes B replaced *)
Definition h_finalize_removed : list op :=
  [OCommit 3 2 2 None [(7, 1)] [1] [] [1] [];
   OFinalize 3 [2];
   OCommit 4 2 2 (Some (3, 2)) [] [] [] [1] [];
   OCommit 4 2 3 (Some (4, 2)) [(7, 2)] [2] [1] [2] [];
   OFinalize 4 [3]].

Lemma finalize_removed_refutes :
  accepted bdb0 h_finalize_removed = true /\
  unreadable_finalized (b_run bdb0 h_finalize_removed) 4 2 = true.
Proof. vm_compute. split; reflexivity. Qed.

(* a finalized empty root without successors makes Prune fail where the spec prunes *)
Definition h_prune_empty : list op :=
  [OCommit 0 1 0 None [] [] [] [] []; OFinalize 0 [0];
   OCommit 1 1 0 (Some (0, 0)) [] [] [] [] []; OFinalize 1 [0]].

Lemma prune_empty_refutes :
  accepted bdb0 h_prune_empty = true /\
  fst (b_prune (b_run bdb0 h_prune_empty) 0) = ENodeNotFound /\
  fst (s_prune (s_run sdb0 h_prune_empty) 0) = EOk.
Proof. vm_compute. repeat split; reflexivity. Qed.

(* non-vacuity: three versions, two state candidates per version sharing nodes, one
   discarded, an IO root per version, prune lagging by one: every side condition holds *)
Definition h_good : list op :=
  [OCommit 1 1 2 None [(1, 1); (2, 1)] [1; 2; 3] [] [3; 1; 2] [];
   OCommit 1 1 3 None [(1, 1); (3, 1)] [1; 4; 5] [] [5; 1; 4] [];
   OCommit 1 2 6 None [(8, 1)] [9] [] [9] [];
   OFinalize 1 [2; 6];
   OCommit 2 1 4 (Some (1, 2)) [(2, 2)] [6; 7] [2; 3] [7; 1; 6] [];
   OCommit 2 1 5 (Some (1, 2)) [(3, 1)] [4; 8] [3] [8; 1; 2; 4] [];
   OFinalize 2 [4];
   OPrune 1;
   OCommit 3 1 7 (Some (2, 4)) [] [] [] [7; 1; 6] [];
   OFinalize 3 [7];
   OPrune 2].

Example good_history_ok :
  ok_run bdb0 h_good = true /\ accepted bdb0 h_good = true /\
  b_status (b_run bdb0 h_good) 3 7 = 1 /\ b_status (b_run bdb0 h_good) 2 5 = 0 /\
  d_earliest (b_meta (b_run bdb0 h_good)) = 3.
Proof. vm_compute. repeat split; reflexivity. Qed.
