(* C10: the reward SEQUENCES (epoch-end AddRewards loop sharing the common pool,
   signing-reward path, proposer-reward path) never fail and conserve the pool. *)
From Verif Require Import Lib.Base NoHalt.Model NoHalt.Proofs.

Fixpoint paid (l : list (N * N * N)) : N :=
  match l with [] => 0 | (rem, com, _) :: r => rem + com + paid r end.

Definition rates_ok (cden : N) (accts : list (N * N * N)) : Prop :=
  Forall (fun a => snd a <= cden) accts.

(* what a reward loop returns when started on [pool]: [n] entries, and the pool minus
   exactly what the entries were paid *)
Definition pays (n : nat) (pool : N) (x : list (N * N * N) * N) : Prop :=
  length (fst x) = n /\ snd x + paid (fst x) = pool.

Lemma pays_nil pool : pays 0 pool ([], pool).
Proof. split; [reflexivity|apply N.add_0_r]. Qed.

Lemma pays_zeros {A} (l : list A) pool : pays (length l) pool (zeros3 l, pool).
Proof.
  split; cbn [fst snd]; [apply map_length|].
  induction l as [|x r IH]; [apply N.add_0_r|exact IH].
Qed.

Lemma pays_cons r rem com sh n pool1 pool :
  yields r (pays n pool1) -> pool1 + rem + com = pool ->
  yields (do x <- r ; let '(l, p) := x in Ok ((rem, com, sh) :: l, p)) (pays (S n) pool).
Proof.
  intros H Hpaid. eapply yields_bind; [exact H|]. intros [l p] [Hlen Hp]. split; cbn in *; lia.
Qed.

(* the body both loops share: one payment, then the rest of the loop [rec] on the pool that is left *)
Lemma reward_step rden cden bal ts factor scale pool rate n rec :
  rden <> 0 -> cden <> 0 -> rate <= cden ->
  (forall pool1, yields (rec pool1) (pays n pool1)) ->
  yields (do o <- reward rden cden bal ts factor scale 1 1 pool rate ;
          match o with
          | None => do x <- rec pool ; let '(l, p) := x in Ok ((0, 0, 0) :: l, p)
          | Some (rem, com, sh, pool1) =>
              do x <- rec pool1 ; let '(l, p) := x in Ok ((rem, com, sh) :: l, p)
          end) (pays (S n) pool).
Proof.
  intros Hrd Hcd Hr Hrec.
  eapply yields_bind; [apply reward_ok; [exact Hrd|exact Hcd|discriminate|exact Hr]|].
  intros [[[[rem com] sh] pool1]|] Hpaid.
  - exact (pays_cons _ rem com sh n pool1 pool (Hrec pool1) Hpaid).
  - apply (pays_cons _ 0 0 0 n pool pool (Hrec pool)). lia.
Qed.

Lemma rewards_seq_pays rden cden factor scale accts pool :
  rden <> 0 -> cden <> 0 -> rates_ok cden accts ->
  yields (rewards_seq rden cden factor scale accts pool) (pays (length accts) pool).
Proof.
  intros Hrd Hcd Hr. destruct scale as [sc|]; [|apply pays_zeros]. cbn [rewards_seq]. revert pool.
  induction Hr as [|[[bal ts] rate] r Hx _ IH]; intros pool; [apply pays_nil|].
  apply reward_step; assumption.
Qed.

Lemma rewards_seq_ok rden cden factor scale accts pool :
  rden <> 0 -> cden <> 0 -> rates_ok cden accts ->
  exists l p, rewards_seq rden cden factor scale accts pool = Ok (l, p) /\
              length l = length accts /\ p + paid l = pool.
Proof.
  intros Hrd Hcd Hr.
  exact (yields_ex2 _ (fun l p => length l = length accts /\ p + paid l = pool)
           (rewards_seq_pays rden cden factor scale accts pool Hrd Hcd Hr)).
Qed.

Lemma rewards_sequence_total_l rden cden factor scale accts pool :
  rden <> 0 -> cden <> 0 -> rates_ok cden accts ->
  is_fatal (rewards_seq rden cden factor scale accts pool) = false.
Proof. intros Hrd Hcd Hr. eapply yields_not_fatal, rewards_seq_pays; assumption. Qed.

(* proposer path: the commit info is empty only at the first block, where no epoch is known *)
Lemma proposer_path_total rden cden known epoch_valid scale bal ts factor nVE nEV pool rate :
  rden <> 0 -> cden <> 0 -> rate <= cden -> (epoch_valid = true -> nEV <> 0) ->
  is_fatal (proposer_path rden cden known epoch_valid scale bal ts factor nVE nEV pool rate) = false.
Proof.
  intros Hrd Hcd Hr Hn. unfold proposer_path.
  destruct known; [|reflexivity]. destruct epoch_valid; [|reflexivity]. cbn [negb].
  destruct scale as [sc|]; [|reflexivity].
  apply reward_total; try assumption. apply Hn. reflexivity.
Qed.

Definition signing_ok (cden tnum tden total : N) (ents : list (N * N * N * N)) : Prop :=
  total * tnum <= u64max /\
  Forall (fun e => let '(count, _, _, rate) := e in count * tden <= u64max /\ rate <= cden) ents.

Lemma eligible_all_ok cden total tnum tden ents :
  signing_ok cden tnum tden total ents ->
  yields (eligible_all total tnum tden ents) (fun fl => length fl = length ents).
Proof.
  intros [Ht Hf]. induction Hf as [|[[[count bal] ts] rate] r [Hx _] _ IH]; [reflexivity|].
  cbn [eligible_all]. unfold signing_eligible. rewrite !overflow_guard_false by assumption. cbn [bind].
  eapply yields_bind; [exact IH|]. intros fl Hlen. exact (f_equal S Hlen).
Qed.

Lemma rewards_selected_ok rden cden factor scale :
  rden <> 0 -> cden <> 0 ->
  forall flags ents pool,
    Forall (fun e : N * N * N * N => snd e <= cden) ents ->
    yields (rewards_selected rden cden factor scale flags ents pool)
           (pays (Nat.min (length flags) (length ents)) pool).
Proof.
  intros Hrd Hcd. induction flags as [|f fr IH]; intros ents pool Hf.
  - apply pays_nil.
  - destruct Hf as [|[[[count bal] ts] rate] r Hx Hr]; [destruct f; apply pays_nil|].
    cbn [rewards_selected]. destruct f.
    + apply reward_step; [exact Hrd|exact Hcd|exact Hx|]. intros pool1. apply IH, Hr.
    + apply (pays_cons _ 0 0 0 _ pool pool (IH r pool Hr)). lia.
Qed.

Lemma signing_path_pays rden cden tnum tden total factor scale ents pool :
  rden <> 0 -> cden <> 0 -> signing_ok cden tnum tden total ents ->
  yields (signing_path rden cden tnum tden total factor scale ents pool) (pays (length ents) pool).
Proof.
  intros Hrd Hcd Hs. unfold signing_path.
  destruct (tden =? 0); [apply pays_zeros|]. destruct (total =? 0); [apply pays_zeros|].
  rewrite overflow_guard_false by apply Hs.
  eapply yields_bind; [apply (eligible_all_ok cden), Hs|]. intros flags Hlen. cbn beta in Hlen.
  destruct scale as [sc|]; [|apply pays_zeros].
  replace (length ents) with (Nat.min (length flags) (length ents)) by lia.
  apply rewards_selected_ok; [exact Hrd|exact Hcd|].
  eapply Forall_impl; [|apply Hs]. intros [[[c b] t] r] [_ H]. exact H.
Qed.

Lemma signing_path_ok rden cden tnum tden total factor scale ents pool :
  rden <> 0 -> cden <> 0 -> signing_ok cden tnum tden total ents ->
  exists l p, signing_path rden cden tnum tden total factor scale ents pool = Ok (l, p) /\ p + paid l = pool.
Proof.
  intros Hrd Hcd Hs. apply yields_ex2 with (P := fun l p => p + paid l = pool).
  eapply yields_impl; [apply signing_path_pays; eassumption|]. intros x [_ H]. exact H.
Qed.

Lemma signing_path_total rden cden tnum tden total factor scale ents pool :
  rden <> 0 -> cden <> 0 -> signing_ok cden tnum tden total ents ->
  is_fatal (signing_path rden cden tnum tden total factor scale ents pool) = false.
Proof. intros Hrd Hcd Hs. eapply yields_not_fatal, signing_path_pays; eassumption. Qed.

(* three entities: a healthy one, a dead pool (slashed to zero, shares outstanding), one
   with 100 % commission; the pool runs dry after the first payment *)
Example rewards_seq_ex :
  rewards_seq 100000000 100000 50 (Some 2000000)
    [(176000, 170000, 5000); (0, 5000, 100000); (192000, 192000, 100000)] 200000
  = Ok ([(167200, 8800, 4358); (0, 0, 0); (0, 0, 0)], 24000).
Proof. vm_compute. reflexivity. Qed.

Example signing_path_ex :
  signing_path 100000000 100000 1 2 10 1 (Some 2000000)
    [(10, 176000, 170000, 5000); (4, 160000, 160000, 0); (5, 192000, 192000, 100000)] 1000000
  = Ok ([(3344, 176, 166); (0, 0, 0); (0, 3840, 3840)], 992640).
Proof. vm_compute. reflexivity. Qed.
