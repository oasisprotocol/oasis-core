(* Bit paths.  Two paths split into their longest common prefix and two
   remainders that differ at once ([lcp_split]); prefix facts for the trie
   proofs.  Byte order is bit order ([bytes_cmp_bits]): bit strings of equal
   length are ordered by the number they spell, and the eight bits of a byte
   spell the byte.  A packed label unpacks to itself followed by zero padding
   ([pack_bits]). *)
From Verif Require Import Lib.Base Mkvs.Trie.

Lemma firstn_len_app {A} (c a : list A) : firstn (length c) (c ++ a) = c.
Proof. induction c as [|x c IH]; cbn; [destruct a; reflexivity|]. now rewrite IH. Qed.
Lemma skipn_len_app {A} (c a : list A) : skipn (length c) (c ++ a) = a.
Proof. induction c as [|x c IH]; cbn; [reflexivity|exact IH]. Qed.
Lemma bit_app_mid (c : path) x a : bit (c ++ x :: a) (length c) = x.
Proof. apply nth_middle. Qed.
Lemma len_app_eqb_nil {A} (c b : list A) :
  (length (c ++ b) =? length c)%nat = match b with [] => true | _ => false end.
Proof.
  rewrite app_length. destruct b; cbn [length].
  - rewrite Nat.add_0_r. apply Nat.eqb_refl.
  - apply Nat.eqb_neq. lia.
Qed.

Lemma lcp_split (a b : path) :
  exists c a' b', a = c ++ a' /\ b = c ++ b' /\ length c = lcp a b /\
    match a', b' with x :: _, y :: _ => x <> y | _, _ => True end.
Proof.
  revert b; induction a as [|x a IH]; intros b.
  - exists [], [], b. cbn. auto.
  - destruct b as [|y b].
    + exists [], (x :: a), []. cbn. auto.
    + cbn [lcp]. destruct (Bool.eqb x y) eqn:E.
      * apply Bool.eqb_prop in E. subst y.
        destruct (IH b) as (c & a' & b' & -> & -> & Hl & Hd).
        exists (x :: c), a', b'. cbn. auto.
      * exists [], (x :: a), (y :: b). cbn. repeat split; auto.
        intros ->. now rewrite Bool.eqb_reflx in E.
Qed.

Lemma nil_is_prefix k : is_prefix [] k.
Proof. now exists k. Qed.
Lemma is_prefix_refl p : is_prefix p p.
Proof. exists []. now rewrite app_nil_r. Qed.
Lemma is_prefix_app p s : is_prefix p (p ++ s).
Proof. now exists s. Qed.
Lemma is_prefix_snoc (q : path) b s : is_prefix (q ++ [b]) (q ++ b :: s).
Proof. exists s. now rewrite <- app_assoc. Qed.
Lemma is_prefix_trans p q r : is_prefix p q -> is_prefix q r -> is_prefix p r.
Proof. intros [s ->] [s' ->]. exists (s ++ s'). now rewrite app_assoc. Qed.
Lemma is_prefix_len p q : is_prefix p q -> (length p <= length q)%nat.
Proof. intros [s ->]. rewrite app_length. lia. Qed.
Lemma is_prefix_bit q b k : is_prefix (q ++ [b]) k -> bit k (length q) = b.
Proof. intros [s ->]. rewrite <- app_assoc. cbn. apply bit_app_mid. Qed.
Lemma is_prefix_snoc_side q b k :
  is_prefix (q ++ [b]) k -> (length q < length k)%nat /\ bit k (length q) = b.
Proof.
  intros H. split; [|exact (is_prefix_bit q b k H)].
  apply is_prefix_len in H. rewrite app_length in H. cbn [length] in H. lia.
Qed.
Lemma is_prefix_skipn p k : is_prefix p k -> k = p ++ skipn (length p) k.
Proof. intros [s ->]. now rewrite skipn_len_app. Qed.

Lemma prefix_comparable (p q k : path) :
  is_prefix p k -> is_prefix q k -> is_prefix p q \/ is_prefix q p.
Proof.
  revert q k; induction p as [|x p IH]; intros q k [s Hs] [s' Hs'].
  - left. now exists q.
  - destruct q as [|y q]; [right; now exists (x :: p)|].
    subst k. cbn in Hs'. injection Hs' as -> Hs'.
    destruct (IH q (p ++ s)) as [[u ->]|[u ->]].
    + now exists s.
    + now exists s'.
    + left. now exists u.
    + right. now exists u.
Qed.

Fixpoint pcmp (a b : path) : comparison :=
  match a, b with
  | [], [] => Eq
  | [], _ :: _ => Lt
  | _ :: _, [] => Gt
  | x :: a', y :: b' =>
      match x, y with
      | false, true => Lt
      | true, false => Gt
      | _, _ => pcmp a' b'
      end
  end.

Lemma pcmp_refl a : pcmp a a = Eq.
Proof. induction a as [|[] a IH]; cbn; auto. Qed.

Lemma pcmp_app_same_len u w ra rb :
  length u = length w ->
  pcmp (u ++ ra) (w ++ rb) = match pcmp u w with Eq => pcmp ra rb | c => c end.
Proof.
  revert w; induction u as [|x u IH]; intros [|y w] Hl; cbn in Hl; try discriminate.
  - reflexivity.
  - cbn. destruct x, y; auto.
Qed.

Lemma pcmp_prefix_lt q b s : pcmp q (q ++ b :: s) = Lt.
Proof. induction q as [|[] q IH]; cbn; auto. Qed.
Lemma pcmp_branch_lt q s s' : pcmp (q ++ false :: s) (q ++ true :: s') = Lt.
Proof. induction q as [|[] q IH]; cbn; auto. Qed.

Lemma bytes_cmp_lt_neq a b : bytes_cmp a b = Lt -> a <> b.
Proof. intros H ->. rewrite bytes_cmp_refl in H. discriminate. Qed.

Lemma bytes_eqb_cmp a b : bytes_eqb a b = match bytes_cmp a b with Eq => true | _ => false end.
Proof.
  destruct (bytes_cmp a b) eqn:C.
  - apply bytes_cmp_eq in C. subst. apply bytes_eqb_refl.
  - apply bytes_eqb_neq. now apply bytes_cmp_lt_neq.
  - apply bytes_eqb_neq. intros ->. rewrite bytes_cmp_refl in C. discriminate.
Qed.

Lemma byte_bits_len x : length (byte_bits x) = 8%nat.
Proof. reflexivity. Qed.
Lemma bits_of_len k : length (bits_of k) = (8 * length k)%nat.
Proof. induction k as [|x k IH]; cbn [bits_of length]; [reflexivity|]. rewrite app_length, IH, byte_bits_len. lia. Qed.
Lemma bits_of_app a b : bits_of (a ++ b) = bits_of a ++ bits_of b.
Proof. induction a as [|x a IH]; cbn [bits_of app]; [reflexivity|]. now rewrite IH, app_assoc. Qed.

Definition range256 : list N := map N.of_nat (seq 0 256).
Lemma in_range256 x : x < 256 -> In x range256.
Proof.
  intros H. unfold range256. rewrite <- (N2Nat.id x). apply in_map. apply in_seq. lia.
Qed.

(* bit strings of equal length are ordered by the number they spell, most
   significant bit first *)
Fixpoint pval (p : path) : N :=
  match p with
  | [] => 0
  | b :: r => bv b (2 ^ N.of_nat (length r)) + pval r
  end.
Lemma pval_lt p : pval p < 2 ^ N.of_nat (length p).
Proof.
  induction p as [|b r IH]; cbn [pval length]; [reflexivity|].
  rewrite Nat2N.inj_succ, N.pow_succ_r'. destruct b; cbn [bv]; lia.
Qed.
Lemma pcmp_pval a : forall b, length a = length b -> pcmp a b = N.compare (pval a) (pval b).
Proof.
  induction a as [|x a IH]; intros [|y b] Hl; try discriminate Hl; [reflexivity|].
  injection Hl as Hl. cbn [pcmp pval]. rewrite <- Hl.
  pose proof (pval_lt a) as La. pose proof (pval_lt b) as Lb. rewrite <- Hl in Lb.
  destruct x, y; cbn [bv]; rewrite ?(IH b Hl).
  - rewrite <- !N2Z.inj_compare, !N2Z.inj_add. symmetry. apply Z.add_compare_mono_l.
  - symmetry. apply N.compare_gt_iff. lia.
  - symmetry. apply N.compare_lt_iff. lia.
  - reflexivity.
Qed.

Lemma byte_val_table : forallb (fun x => pval (byte_bits x) =? x) range256 = true.
Proof. vm_compute. reflexivity. Qed.
Lemma byte_bits_val x : x < 256 -> pval (byte_bits x) = x.
Proof.
  intros Hx. apply N.eqb_eq.
  exact (proj1 (forallb_forall _ _) byte_val_table x (in_range256 x Hx)).
Qed.
Lemma byte_bits_cmp x y : x < 256 -> y < 256 -> pcmp (byte_bits x) (byte_bits y) = N.compare x y.
Proof. intros Hx Hy. rewrite pcmp_pval by reflexivity. now rewrite !byte_bits_val. Qed.

Lemma bytes_cmp_bits a b :
  valid_bytes a -> valid_bytes b -> bytes_cmp a b = pcmp (bits_of a) (bits_of b).
Proof.
  intros Ha; revert b; induction Ha as [|x a Hx Ha IH]; intros b Hb.
  - destruct Hb; reflexivity.
  - destruct Hb as [|y b Hy Hb]; [reflexivity|].
    cbn [bytes_cmp bits_of]. rewrite pcmp_app_same_len by reflexivity.
    rewrite byte_bits_cmp by assumption. rewrite IH by assumption. reflexivity.
Qed.

Lemma bits_of_inj a b : valid_bytes a -> valid_bytes b -> bits_of a = bits_of b -> a = b.
Proof.
  intros Ha Hb E. apply bytes_cmp_eq. rewrite bytes_cmp_bits by assumption.
  rewrite E. apply pcmp_refl.
Qed.

Lemma chunk8_ind (P : path -> Prop) :
  (forall p, (length p < 8)%nat -> P p) ->
  (forall b0 b1 b2 b3 b4 b5 b6 b7 rest, P rest ->
      P (b0 :: b1 :: b2 :: b3 :: b4 :: b5 :: b6 :: b7 :: rest)) ->
  forall p, P p.
Proof.
  intros Hs Hc. fix IH 1. intros p.
  destruct p as [|b0 [|b1 [|b2 [|b3 [|b4 [|b5 [|b6 [|b7 rest]]]]]]]];
    try (apply Hs; cbn; lia).
  apply Hc. apply IH.
Qed.

Lemma pack_cons8 b0 b1 b2 b3 b4 b5 b6 b7 rest :
  pack (b0 :: b1 :: b2 :: b3 :: b4 :: b5 :: b6 :: b7 :: rest) =
  (bv b0 128 + bv b1 64 + bv b2 32 + bv b3 16 + bv b4 8 + bv b5 4 + bv b6 2 + bv b7 1) :: pack rest.
Proof. reflexivity. Qed.

Definition pad_len (n : nat) : nat := ((8 - n mod 8) mod 8)%nat.

Lemma pack_bits p : bits_of (pack p) = p ++ repeat false (pad_len (length p)).
Proof.
  induction p as [p Hl|b0 b1 b2 b3 b4 b5 b6 b7 rest IH] using chunk8_ind.
  - destruct p as [|b0 [|b1 [|b2 [|b3 [|b4 [|b5 [|b6 [|b7 rest]]]]]]]];
      try (cbn in Hl; lia);
      repeat match goal with b : bool |- _ => destruct b end; vm_compute; reflexivity.
  - rewrite pack_cons8. cbn [bits_of]. rewrite IH.
    replace (pad_len (length (b0 :: b1 :: b2 :: b3 :: b4 :: b5 :: b6 :: b7 :: rest)))
      with (pad_len (length rest)).
    2:{ unfold pad_len. cbn [length].
        replace (S (S (S (S (S (S (S (S (length rest))))))))) with (length rest + 1 * 8)%nat by lia.
        now rewrite Nat.mod_add by lia. }
    destruct b0, b1, b2, b3, b4, b5, b6, b7; reflexivity.
Qed.

Lemma pack_inj p1 p2 : length p1 = length p2 -> pack p1 = pack p2 -> p1 = p2.
Proof.
  intros Hl E. apply (f_equal bits_of) in E. rewrite !pack_bits, Hl in E.
  apply app_inv_tail in E. exact E.
Qed.

Lemma pack_len p : length (pack p) = ((length p + 7) / 8)%nat.
Proof.
  induction p as [p Hl|b0 b1 b2 b3 b4 b5 b6 b7 rest IH] using chunk8_ind.
  - destruct p as [|b0 [|b1 [|b2 [|b3 [|b4 [|b5 [|b6 [|b7 rest]]]]]]]];
      try (cbn in Hl; lia); reflexivity.
  - rewrite pack_cons8. cbn [length]. rewrite IH.
    replace (S (S (S (S (S (S (S (S (length rest)))))))) + 7)%nat with ((length rest + 7) + 1 * 8)%nat by lia.
    rewrite Nat.div_add by lia. lia.
Qed.
