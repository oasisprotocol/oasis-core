(* Chunk file framing (chunk.go:237-247 writeChunk / :249-281 restoreChunk):
   a chunk file is snappy(stream of CBOR items), one item per proof entry: a
   nil entry is CBOR null (0xf6), any other entry a definite-length byte string
   (major type 2, shortest-form length as fxamacker/cbor writes it).  Snappy is
   kept abstract (a pair of functions with unsnap (snap x) = Some x); the CBOR
   stream layer and the serialization of proof entries are concrete.
   Executable definitions and their round-trip proofs. *)
From Verif Require Import Lib.Base Mkvs.Trie Mkvs.HashProofs Gen.CkptConsts Ckpt.Model.
Local Open Scope nat_scope.

(* big-endian, fixed width *)
Definition be_bytes (n : nat) (x : N) : bytes := rev (le_bytes n x).
Fixpoint le_val (b : bytes) : N := match b with [] => 0%N | x :: r => (x + 256 * le_val r)%N end.
Definition be_val (b : bytes) : N := le_val (rev b).

Lemma le_val_le_bytes n : forall x, (x < 256 ^ N.of_nat n)%N -> le_val (le_bytes n x) = x.
Proof.
  induction n as [|n IH]; intros x Hx.
  - cbn in *. lia.
  - cbn [le_bytes le_val]. rewrite IH.
    + pose proof (N.div_mod x 256 ltac:(lia)). lia.
    + rewrite Nat2N.inj_succ, N.pow_succ_r' in Hx. apply N.div_lt_upper_bound; lia.
Qed.
Lemma be_val_be_bytes n x : (x < 256 ^ N.of_nat n)%N -> be_val (be_bytes n x) = x.
Proof. intros Hx. unfold be_val, be_bytes. rewrite rev_involutive. now apply le_val_le_bytes. Qed.
Lemma be_bytes_len n x : length (be_bytes n x) = n.
Proof. unfold be_bytes. now rewrite rev_length, le_bytes_len. Qed.

Definition cbor_head (len : N) : bytes :=
  if (len <? 24)%N then [(64 + len)%N]
  else if (len <? 256)%N then [88%N; len]
  else if (len <? 65536)%N then 89%N :: be_bytes 2 len
  else if (len <? 4294967296)%N then 90%N :: be_bytes 4 len
  else 91%N :: be_bytes 8 len.
Definition cbor_item (e : option bytes) : bytes :=
  match e with None => [246%N] | Some b => cbor_head (N.of_nat (length b)) ++ b end.
Definition frame (es : list (option bytes)) : bytes := flat_map cbor_item es.

(* header of a byte string: (payload length, rest) *)
Definition read_head (b : bytes) : option (N * bytes) :=
  match b with
  | [] => None
  | t :: r =>
      if (64 <=? t)%N && (t <? 88)%N then Some ((t - 64)%N, r)
      else if (t =? 88)%N then match r with x :: r' => Some (x, r') | [] => None end
      else if (t =? 89)%N then if length r <? 2 then None else Some (be_val (firstn 2 r), skipn 2 r)
      else if (t =? 90)%N then if length r <? 4 then None else Some (be_val (firstn 4 r), skipn 4 r)
      else if (t =? 91)%N then if length r <? 8 then None else Some (be_val (firstn 8 r), skipn 8 r)
      else None
  end.
Fixpoint unframe (fuel : nat) (b : bytes) : option (list (option bytes)) :=
  match fuel with
  | O => None
  | S f =>
      match b with
      | [] => Some []
      | t :: r =>
          if (t =? 246)%N then option_map (cons None) (unframe f r)
          else match read_head b with
               | None => None
               | Some (len, r') =>
                   if length r' <? N.to_nat len then None
                   else option_map (cons (Some (firstn (N.to_nat len) r')))
                                   (unframe f (skipn (N.to_nat len) r'))
               end
      end
  end.

(* a fixed-width big-endian length field in front of [rest] reads back *)
Lemma read_be n len rest : (len < 256 ^ N.of_nat n)%N ->
  (if length (be_bytes n len ++ rest) <? n then None
   else Some (be_val (firstn n (be_bytes n len ++ rest)), skipn n (be_bytes n len ++ rest))) = Some (len, rest).
Proof.
  intros Hl. rewrite app_length, be_bytes_len. destruct (Nat.ltb_spec (n + length rest) n); [lia|].
  rewrite <- (be_val_be_bytes n len Hl) at 3. pose proof (be_bytes_len n len) as L.
  set (b := be_bytes n len) in *. rewrite <- L. now rewrite firstn_app_exact, skipn_app_exact.
Qed.

Lemma read_head_ok len rest : (len < 2 ^ 64)%N -> read_head (cbor_head len ++ rest) = Some (len, rest).
Proof.
  intros Hl. unfold cbor_head.
  destruct (N.ltb_spec len 24).
  { cbn [app read_head]. destruct (N.leb_spec 64 (64 + len)); [|lia]. destruct (N.ltb_spec (64 + len) 88); [|lia].
    cbn [andb]. f_equal. f_equal. lia. }
  destruct (N.ltb_spec len 256).
  { cbn [app read_head]. reflexivity. }
  destruct (N.ltb_spec len 65536).
  { cbn [app read_head andb N.leb N.ltb N.eqb]. change (89 =? 88)%N with false. change (89 =? 89)%N with true.
    change ((64 <=? 89)%N && (89 <? 88)%N) with false. cbv iota.
    apply (read_be 2). change (256 ^ N.of_nat 2)%N with 65536%N. lia. }
  destruct (N.ltb_spec len 4294967296).
  { cbn [app read_head]. change ((64 <=? 90)%N && (90 <? 88)%N) with false. change (90 =? 88)%N with false.
    change (90 =? 89)%N with false. change (90 =? 90)%N with true. cbv iota.
    apply (read_be 4). change (256 ^ N.of_nat 4)%N with 4294967296%N. lia. }
  cbn [app read_head]. change ((64 <=? 91)%N && (91 <? 88)%N) with false. change (91 =? 88)%N with false.
  change (91 =? 89)%N with false. change (91 =? 90)%N with false. change (91 =? 91)%N with true. cbv iota.
  apply (read_be 8). change (256 ^ N.of_nat 8)%N with (2 ^ 64)%N. lia.
Qed.

Lemma cbor_head_first len : exists t r, cbor_head len = t :: r /\ t <> 246%N.
Proof.
  unfold cbor_head. destruct (N.ltb_spec len 24); [eexists; eexists; split; [reflexivity|lia]|].
  destruct (len <? 256)%N; [eexists; eexists; split; [reflexivity|lia]|].
  destruct (len <? 65536)%N; [eexists; eexists; split; [reflexivity|lia]|].
  destruct (len <? 4294967296)%N; eexists; eexists; (split; [reflexivity|lia]).
Qed.

Lemma unframe_item f b rest :
  (N.of_nat (length b) < 2 ^ 64)%N ->
  unframe (S f) (cbor_head (N.of_nat (length b)) ++ b ++ rest) = option_map (cons (Some b)) (unframe f rest).
Proof.
  intros He. destruct (cbor_head_first (N.of_nat (length b))) as (t & r & Eh & Ht).
  pose proof (read_head_ok (N.of_nat (length b)) (b ++ rest) He) as Hr.
  rewrite Eh in *. cbn [app] in *. cbn [unframe]. destruct (N.eqb_spec t 246); [congruence|].
  rewrite Hr, Nat2N.id, app_length.
  destruct (Nat.ltb_spec (length b + length rest) (length b)); [lia|].
  now rewrite firstn_app_exact, skipn_app_exact.
Qed.

(* the stream parses back to exactly the entries that were written *)
Theorem unframe_frame_l es : forall fuel,
  length es < fuel ->
  Forall (fun e => match e with Some b => (N.of_nat (length b) < 2 ^ 64)%N | None => True end) es ->
  unframe fuel (frame es) = Some es.
Proof.
  induction es as [|e es IH]; intros fuel Hf Hb; (destruct fuel as [|fuel]; [cbn in Hf; lia|]).
  - reflexivity.
  - inversion Hb as [|? ? He Hb']; subst. cbn [length] in Hf. cbn [frame flat_map]. fold (frame es).
    destruct e as [b|].
    + cbn [cbor_item]. rewrite <- app_assoc, unframe_item by exact He.
      rewrite IH by (auto; lia). reflexivity.
    + cbn [cbor_item app unframe]. change (246 =? 246)%N with true. cbv iota. rewrite IH by (auto; lia). reflexivity.
Qed.

(* ---------- proof entries (version 0), proof.go:236-262, node.go:408-427, 633-647 ---------- *)
Definition leaf_bin (k v : bytes) : bytes :=
  [prefix_leaf] ++ le_bytes 2 (N.of_nat (length k)) ++ k ++ le_bytes 4 (N.of_nat (length v)) ++ v.
Definition node_bin (lbl : path) (lf : option entry) : bytes :=
  [prefix_internal] ++ le_bytes 2 (N.of_nat (length lbl)) ++ pack lbl ++
  match lf with None => [prefix_nil] | Some (k, v) => leaf_bin k v end.
(* entries of a proof in pre-order: nil, hash (0x02 ‖ h), full (0x01 ‖ node) *)
Fixpoint entries_of (p : ptree) : list (option bytes) :=
  match p with
  | PNil => [None]
  | PHash h => [Some (2%N :: h)]
  | PLeaf k v => [Some (1%N :: leaf_bin k v)]
  | PNode lbl lf l r => Some (1%N :: node_bin lbl lf) :: entries_of l ++ entries_of r
  end.

Definition chunk_stream (p : ptree) : bytes := frame (entries_of p).

(* the proof builder's size estimate is the number of bytes of the full entries *)
Lemma leaf_entry_cost k v : N.of_nat (length (1%N :: leaf_bin k v)) = leaf_cost k v.
Proof.
  unfold leaf_bin, leaf_cost. cbn [length app]. rewrite !app_length, !le_bytes_len.
  change depth_size with 2%N. change value_length_size with 4%N. lia.
Qed.
Lemma node_entry_cost lbl lf : N.of_nat (length (1%N :: node_bin lbl lf)) = node_cost lbl lf.
Proof.
  unfold node_bin, node_cost. cbn [length app]. rewrite !app_length, le_bytes_len.
  change depth_size with 2%N. change value_length_size with 4%N.
  destruct lf as [[k v]|]; [|cbn; lia]. unfold leaf_bin. cbn [length app]. rewrite !app_length, !le_bytes_len. lia.
Qed.

Section File.
  Variable snap : bytes -> bytes.
  Variable unsnap : bytes -> option bytes.
  Hypothesis unsnap_snap : forall x, unsnap (snap x) = Some x.

  Definition chunk_file (p : ptree) : bytes := snap (chunk_stream p).
  (* the entries a chunk file decodes to (restoreChunk's loop over dec.Decode) *)
  Definition file_entries (b : bytes) : option (list (option bytes)) :=
    match unsnap b with Some raw => unframe (S (length raw)) raw | None => None end.

  Fixpoint entries_bounded (es : list (option bytes)) : Prop :=
    match es with
    | [] => True
    | Some b :: r => (N.of_nat (length b) < 2 ^ 64)%N /\ entries_bounded r
    | None :: r => entries_bounded r
    end.

  Lemma frame_length_ge es : length es <= length (frame es).
  Proof.
    induction es as [|e es IH]; [cbn; lia|]. cbn [frame flat_map length]. fold (frame es). rewrite app_length.
    assert (1 <= length (cbor_item e)).
    { destruct e as [b|]; cbn [cbor_item]; [|cbn; lia]. destruct (cbor_head_first (N.of_nat (length b))) as (t & r & E & _).
      rewrite app_length, E. cbn. lia. }
    lia.
  Qed.

  (* reading a created chunk file back yields exactly its proof entries *)
  Theorem file_roundtrip_l p :
    entries_bounded (entries_of p) -> file_entries (chunk_file p) = Some (entries_of p).
  Proof.
    intros Hb. unfold file_entries, chunk_file. rewrite unsnap_snap. unfold chunk_stream.
    apply unframe_frame_l; [apply Nat.lt_succ_r, frame_length_ge|].
    induction (entries_of p) as [|[b|] es IH]; constructor; cbn [entries_bounded] in Hb; try tauto; apply IH; tauto.
  Qed.
End File.
