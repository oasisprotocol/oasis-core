(* Proofs about the stateful Core model (Stateless/Cache.v): over arbitrary
   histories of operations -- cache hits, evictions, changing provider
   responses -- every answer handed out is bound to light-client verified
   headers, and the latest block / latest height a client is told has a
   verified header. *)
From Verif Require Import Lib.Base Stateless.Merkle Stateless.Proofs Stateless.Bind Stateless.BindProofs Stateless.Cache.

Local Open Scope nat_scope.

Section LruFacts.
  Context {V : Type}.
  Lemma lru_find_In (k : Z) (l : list (Z * V)) v : lru_find k l = Some v -> In (k, v) l.
  Proof.
    induction l as [|[k' v'] r IH]; cbn; [discriminate|].
    destruct (Z.eqb_spec k' k) as [->|]; intros E.
    - injection E as ->. left; reflexivity.
    - right. apply IH. exact E.
  Qed.
  Lemma In_lru_remove (k : Z) (l : list (Z * V)) x : In x (lru_remove k l) -> In x l.
  Proof.
    induction l as [|[k' v'] r IH]; cbn; [tauto|].
    destruct (k' =? k)%Z; cbn; intros I; [right; apply IH; exact I|].
    destruct I as [I|I]; [left; exact I|right; apply IH; exact I].
  Qed.
  Lemma lru_get_miss (k : Z) (l c' : list (Z * V)) : lru_get k l = (None, c') -> c' = l.
  Proof. unfold lru_get. destruct (lru_find k l); [discriminate|]. intros E. injection E as <-. reflexivity. Qed.

  Lemma lru_get_all (P : Z -> V -> Prop) (k : Z) (l c' : list (Z * V)) o :
    lru_get k l = (o, c') -> (forall k' v, In (k', v) l -> P k' v) ->
    (forall k' v, In (k', v) c' -> P k' v) /\ (forall v, o = Some v -> P k v).
  Proof.
    unfold lru_get. intros E A. destruct (lru_find k l) as [w|] eqn:F; injection E as <- <-.
    - apply lru_find_In, A in F. split.
      + intros k' v [I|I]; [injection I as <- <-; exact F|eapply A, In_lru_remove; exact I].
      + intros v E. injection E as <-. exact F.
    - split; [exact A|discriminate].
  Qed.
  Lemma lru_put_all (P : Z -> V -> Prop) cap (k : Z) (v : V) l :
    (forall k' v', In (k', v') l -> P k' v') -> P k v -> forall k' v', In (k', v') (lru_put cap k v l) -> P k' v'.
  Proof.
    unfold lru_put. intros A Pk k' v' [I|I]; [injection I as <- <-; exact Pk|].
    eapply A, In_lru_remove. rewrite <- (firstn_skipn (cap - 1)). apply in_or_app. left; exact I.
  Qed.
  Lemma lru_put_length cap (k : Z) (v : V) l : 1 <= cap -> length (lru_put cap k v l) <= cap.
  Proof. intros C. unfold lru_put. cbn [length]. rewrite firstn_length. lia. Qed.
End LruFacts.

Arguments lru_put {V} cap k v l : simpl never.
Arguments lru_get {V} k l : simpl never.

Section CacheProofs.
  Variable H : bytes -> bytes.
  Variable hlen : nat.
  Hypothesis H_len : forall x, length (H x) = hlen.
  Variable dec : bytes -> meta_tx.
  (* [V h l]: l is the light-client verified light block of height h.
     [R h rh]: rh is the LastResultsHash of the verified light block of height h+1. *)
  Variable V : Z -> light_block -> Prop.
  Variable R : Z -> option bytes -> Prop.

  Definition sr_bound (h : Z) (r : bytes) : Prop :=
    (exists n, V (h + 1) n /\ state_root_from_light_block n = SrOk r) \/
    (exists l txs, V h l /\ verify_transactions H txs l = BOk /\ state_root_from_block_txs dec txs = SrOk r).

  Definition op_wf (o : cop) : Prop :=
    match o with
    | OStateRoot h lb n _ => (forall l, lb = Some l -> V h l) /\ (forall x, n = Some x -> V (h + 1) x)
    | OBlockResults h lb _ nrh _ =>
        (forall l, lb = Some l -> V h l /\ lb_height l = h) /\ (forall rh, nrh = Some rh -> R h rh)
    | OTxResults h lb _ nrh _ _ _ =>
        (forall l, lb = Some l -> V h l /\ lb_height l = h) /\ (forall rh, nrh = Some rh -> R h rh)
    | OApi _ _ => True
    | ONewBlock lb b => forall l, lb = Some l -> V (b_height b) l
    | OWatch => True
    | OLatestHeight _ _ verify => forall h l, verify h = Some l -> V h l
    end.

  Definition inv (st : cstate) : Prop :=
    (forall h r, In (h, r) (sr_cache st) -> sr_bound h r) /\
    (forall h rh, In (h, rh) (rh_cache st) -> R h rh) /\
    (forall b, latest_block st = Some b -> exists l, V (b_height b) l /\ verify_block H b l = BOk).

  Definition answer_ok (o : cop) (a : canswer) : Prop :=
    match o, a with
    | OStateRoot h _ _ _, ARoot (SrOk r) => sr_bound h r
    | OBlockResults h (Some l) lt _ rs, AVerdict BOk =>
        (lb_height l < lt)%Z -> exists rh, R h rh /\ verify_block_results H rs rh l = BOk
    | OTxResults h (Some l) lt _ txs rs _, AVerdict BOk =>
        (* transactions and results of ONE call are bound to ONE verified header *)
        verify_transactions H txs l = BOk /\
        ((lb_height l < lt)%Z -> exists rh, R h rh /\ verify_block_results H rs rh l = BOk)
    | ONewBlock _ b, AVerdict BOk => exists l, V (b_height b) l /\ verify_block H b l = BOk
    | OLatestHeight _ _ _, AHeight (Some h) => exists hr l, V hr l /\ lb_height l = h
    | _, _ => True
    end.

  Lemma inv_init : inv cstate_init.
  Proof. repeat split; cbn; intros; try contradiction; discriminate. Qed.

  Lemma results_step_ok st l lt nrh rs st' v h :
    inv st -> lb_height l = h -> (forall rh, nrh = Some rh -> R h rh) ->
    results_step H st l lt nrh rs = (st', v) ->
    inv st' /\ (v = BOk -> (lb_height l < lt)%Z -> exists rh, R h rh /\ verify_block_results H rs rh l = BOk).
  Proof.
    intros I Hl W2 E. pose proof I as (I1 & I2 & I3). unfold results_step in E.
    destruct (Z.leb_spec lt (lb_height l)) as [Le|Gt].
    - injection E as <- <-. split; [exact I|]. intros _ C. lia.
    - destruct (lru_get (lb_height l) (rh_cache st)) as [o c'] eqn:G.
      destruct (lru_get_all _ _ _ _ _ G I2) as [I2' Hit]. rewrite Hl in Hit.
      destruct o as [rh|].
      + injection E as <- <-. split; [exact (conj I1 (conj I2' I3))|].
        intros VR _. exists rh. split; [exact (Hit rh eq_refl)|exact VR].
      + destruct nrh as [rh|]; injection E as <- <-; [|split; [exact I|discriminate]].
        specialize (W2 rh eq_refl). split; [|intros VR _; exists rh; split; [exact W2|exact VR]].
        refine (conj I1 (conj _ I3)). apply lru_put_all; [exact I2|rewrite Hl; exact W2].
  Qed.

  Lemma fetch_state_root_opt_bound h lb n txs r :
    (forall l, lb = Some l -> V h l) -> (forall x, n = Some x -> V (h + 1) x) ->
    fetch_state_root_opt H dec lb n txs = SrOk r -> sr_bound h r.
  Proof.
    intros W1 W2 F. unfold fetch_state_root_opt in F.
    destruct (match n with Some x => state_root_from_light_block x | None => SrErr BOther end) as [r'|e'] eqn:S.
    - injection F as <-. destruct n as [x|]; [|discriminate].
      left. exists x. split; [apply W2; reflexivity|exact S].
    - destruct lb as [l|]; [|discriminate].
      destruct (verify_transactions H txs l) eqn:T; try discriminate.
      right. exists l, txs. split; [apply W1; reflexivity|]. split; [exact T|exact F].
  Qed.

  Lemma unchanged_ok st o st' a x :
    inv st -> (st, x) = (st', a) -> answer_ok o x -> inv st' /\ answer_ok o a.
  Proof. intros I E A. injection E as <- <-. split; [exact I|exact A]. Qed.

  Lemma cstep_ok st o st' a :
    inv st -> op_wf o -> cstep H dec st o = (st', a) -> inv st' /\ answer_ok o a.
  Proof.
    intros I W E. pose proof I as (I1 & I2 & I3). pose proof (fun x => unchanged_ok st o st' a x I) as U.
    destruct o as [h lb n txs|h lb lt nrh rs|h lb lt nrh txs rs conv_ok|lb c|lb b| |lt pl verify]; cbn [cstep] in E.
    - destruct W as [W1 W2].
      destruct (lru_get h (sr_cache st)) as [o c'] eqn:G.
      destruct (lru_get_all _ _ _ _ _ G I1) as [I1' Hit].
      destruct o as [r|].
      + injection E as <- <-. split; [exact (conj I1' (conj I2 I3))|exact (Hit r eq_refl)].
      + destruct (fetch_state_root_opt H dec lb n txs) as [r|e] eqn:F; [|exact (U _ E Logic.I)].
        injection E as <- <-. pose proof (fetch_state_root_opt_bound _ _ _ _ _ W1 W2 F) as B.
        split; [|exact B]. refine (conj _ (conj I2 I3)). apply lru_put_all; [exact I1|exact B].
    - destruct W as [W1 W2]. destruct lb as [l|]; [|exact (U _ E Logic.I)].
      destruct (results_step H st l lt nrh rs) as [st1 v] eqn:RS. injection E as <- <-.
      destruct (W1 l eq_refl) as [_ Hl].
      destruct (results_step_ok _ _ _ _ _ _ _ _ I Hl W2 RS) as [Iv A].
      split; [exact Iv|]. destruct v; try exact Logic.I. exact (A eq_refl).
    - destruct W as [W1 W2]. destruct lb as [l|]; [|exact (U _ E Logic.I)].
      destruct (verify_transactions H txs l) eqn:T; try exact (U _ E Logic.I).
      destruct (results_step H st l lt nrh rs) as [st1 v] eqn:RS. injection E as <- <-.
      destruct (W1 l eq_refl) as [_ Hl].
      destruct (results_step_ok _ _ _ _ _ _ _ _ I Hl W2 RS) as [Iv A].
      split; [exact Iv|]. destruct v; try exact Logic.I. destruct conv_ok; [|exact Logic.I].
      split; [exact T|exact (A eq_refl)].
    - apply (U _ E). destruct (core_api H lb c); exact Logic.I.
    - destruct lb as [l|]; [|exact (U _ E Logic.I)].
      destruct (verify_block H b l) eqn:VB; try exact (U _ E Logic.I). injection E as <- <-.
      assert (X : exists l0, V (b_height b) l0 /\ verify_block H b l0 = BOk) by (exists l; split; [apply W; reflexivity|exact VB]).
      split; [|exact X]. refine (conj I1 (conj I2 _)). intros b' E'. injection E' as <-. exact X.
    - injection E as <- <-. split; [exact I|exact Logic.I].
    - destruct (resolve_latest (watching st) lt pl) as [h|]; [|exact (U _ E Logic.I)].
      destruct (verify h) as [l|] eqn:Vh; [|exact (U _ E Logic.I)].
      apply (U _ E). exists h, l. split; [apply (W h l Vh)|reflexivity].
  Qed.

  Theorem history_bound_l (ops : list cop) : forall st st' answers,
    inv st -> Forall op_wf ops -> crun H dec st ops = (st', answers) ->
    inv st' /\ Forall2 answer_ok ops answers.
  Proof.
    induction ops as [|o r IH]; intros st st' answers I W E; cbn [crun] in E.
    - injection E as <- <-. split; [exact I|constructor].
    - destruct (cstep H dec st o) as [st1 a] eqn:S.
      destruct (crun H dec st1 r) as [st2 l] eqn:C.
      injection E as <- <-.
      inversion W as [|? ? W1 W2]; subst.
      destruct (cstep_ok _ _ _ _ I W1 S) as [I1 A1].
      destruct (IH _ _ _ I1 W2 C) as [I2 A2].
      split; [exact I2|constructor; assumption].
  Qed.

  (* The second premise says that the chain is consistent: the next header's
     AppHash is the state root which the metadata transaction of the verified
     transactions carries. *)
  Theorem state_root_unique_l (h : Z) (r1 r2 : bytes) :
    (forall k l1 l2, V k l1 -> V k l2 -> l1 = l2) ->
    (forall n l txs r, V (h + 1) n -> V h l -> verify_transactions H txs l = BOk ->
       state_root_from_block_txs dec txs = SrOk r -> state_root_from_light_block n = SrOk r) ->
    sr_bound h r1 -> sr_bound h r2 -> r1 = r2 \/ collision H.
  Proof.
    intros U C [(n1 & V1 & S1)|(l1 & t1 & V1 & T1 & S1)] [(n2 & V2 & S2)|(l2 & t2 & V2 & T2 & S2)].
    - left. rewrite (U _ _ _ V1 V2) in S1. congruence.
    - left. pose proof (C _ _ _ _ V1 V2 T2 S2). congruence.
    - left. pose proof (C _ _ _ _ V2 V1 T1 S1). congruence.
    - rewrite (U _ _ _ V1 V2) in T1.
      apply (or_collision H (verify_transactions_binds_l H hlen H_len _ _ _ T1 T2)); intros ->. left. congruence.
  Qed.
End CacheProofs.

(* non-vacuity: a history with a miss, a hit with a changed provider answer,
   and a latest-height query *)
Example ex_history :
  let lb7 := ex_lb in
  snd (crun toyH (fun _ => MtTx true (Some [4; 2]%N)) cstate_init
         [OStateRoot 7 (Some lb7) None ex_txs;            (* miss: metadata transaction path *)
          OStateRoot 7 (Some lb7) None [[9]%N];            (* hit: the provider's garbage is not consulted *)
          OStateRoot 8 None None [[9]%N];                  (* nothing verifiable *)
          ONewBlock (Some lb7) ex_block;
          OLatestHeight None 7 (fun h => if (h =? 7)%Z then Some lb7 else None);
          OLatestHeight None 9 (fun h => if (h =? 7)%Z then Some lb7 else None)])
  = [ARoot (SrOk [4; 2]%N); ARoot (SrOk [4; 2]%N); ARoot (SrErr BOther); AVerdict BOk;
     AHeight (Some 7%Z); AHeight None].
Proof. vm_compute. reflexivity. Qed.
