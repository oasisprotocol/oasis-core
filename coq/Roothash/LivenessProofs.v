(* Liveness bookkeeping of the roothash application (finalization.go:140-243, :331-358):
   who is credited / blamed in each outcome, consistent with the pool outcome. *)
From Verif Require Import Lib.Base Roothash.Pool Roothash.PoolSpec Roothash.PoolProofs
  Roothash.Verify Roothash.App Roothash.AppProofs.

Fixpoint lsum (l : list N) : N := match l with [] => 0 | x :: r => x + lsum r end.

Lemma inc_nth_length i l : length (inc_nth i l) = length l.
Proof. revert i. induction l as [|x r IH]; intros [|i]; cbn [inc_nth length]; try reflexivity; rewrite IH; reflexivity. Qed.

Lemma inc_nth_sum i l : (i < length l)%nat -> lsum (inc_nth i l) = lsum l + 1.
Proof.
  revert i. induction l as [|x r IH]; intros [|i] H; cbn [inc_nth lsum length] in *; try lia.
  rewrite IH by lia. lia.
Qed.

Lemma inc_nth_sum_le i l : lsum (inc_nth i l) <= lsum l + 1.
Proof.
  revert i. induction l as [|x r IH]; intros [|i]; cbn [inc_nth lsum]; try lia. specialize (IH i). lia.
Qed.

Lemma seen_spec k seen : existsb (N.eqb k) seen = true <-> In k seen.
Proof.
  rewrite existsb_exists. split; [intros (x & Hx & E); apply N.eqb_eq in E; subst; exact Hx|].
  intros H. exists k. split; [exact H|apply N.eqb_refl].
Qed.

(* One step of the loop, seen from a fixed node n: E = "the member at hand is n", M = "n is among the later
   members", S = "n has been seen", V = "the vote of n is of the kind collected". *)
Lemma first_skip (M S V E : Prop) : (E -> S \/ ~ V) -> (M /\ ~ S /\ V <-> (E \/ M) /\ ~ S /\ V).
Proof. tauto. Qed.
Lemma first_other (M S V E : Prop) : (E -> ~ V) -> (M /\ ~ (E \/ S) /\ V <-> (E \/ M) /\ ~ S /\ V).
Proof. tauto. Qed.
Lemma first_add (n k : N) l (M S V : Prop) : (k = n -> ~ S /\ V) ->
  (In n (l ++ [k]) \/ (M /\ ~ (k = n \/ S) /\ V) <-> In n l \/ ((k = n \/ M) /\ ~ S /\ V)).
Proof. rewrite in_app_iff. cbn [In]. destruct (N.eq_dec k n); tauto. Qed.

Lemma live_loop_good votes sv ms n : forall i seen live good bad live' good' bad',
  live_loop votes sv ms i seen live good bad = (live', good', bad') ->
  In n good' <-> In n good \/ (In n (map snd ms) /\ ~ In n seen /\ aget n votes = Some (Some sv)).
Proof.
  induction ms as [|[ro k] r IH]; intros i seen live good bad live' good' bad'; cbn [live_loop map snd In].
  - intros H. injection H as <- <- <-. tauto.
  - destruct (aget k votes) as [[v|]|] eqn:Ek.
    + destruct (existsb (N.eqb k) seen) eqn:Es.
      * apply seen_spec in Es. intros H. apply IH in H. rewrite H.
        apply or_iff_compat_l, first_skip. intros <-. left. exact Es.
      * assert (Hs : ~ In k seen) by (rewrite <- seen_spec; congruence).
        destruct (v =? sv) eqn:Ev; intros H; apply IH in H; rewrite H; cbn [In].
        -- apply N.eqb_eq in Ev. subst v. apply first_add. intros <-. split; assumption.
        -- apply N.eqb_neq in Ev. apply or_iff_compat_l, first_other. intros <-. congruence.
    + intros H. apply IH in H. rewrite H. apply or_iff_compat_l, first_skip. intros <-. right. congruence.
    + intros H. apply IH in H. rewrite H. apply or_iff_compat_l, first_skip. intros <-. right. congruence.
Qed.

Lemma live_loop_bad votes sv ms n : forall i seen live good bad live' good' bad',
  live_loop votes sv ms i seen live good bad = (live', good', bad') ->
  In n bad' <-> In n bad \/ (In n (map snd ms) /\ ~ In n seen /\
                              exists v, aget n votes = Some (Some v) /\ v <> sv).
Proof.
  induction ms as [|[ro k] r IH]; intros i seen live good bad live' good' bad'; cbn [live_loop map snd In].
  - intros H. injection H as <- <- <-. tauto.
  - destruct (aget k votes) as [[v|]|] eqn:Ek.
    + destruct (existsb (N.eqb k) seen) eqn:Es.
      * apply seen_spec in Es. intros H. apply IH in H. rewrite H.
        apply or_iff_compat_l, first_skip. intros <-. left. exact Es.
      * assert (Hs : ~ In k seen) by (rewrite <- seen_spec; congruence).
        destruct (v =? sv) eqn:Ev; intros H; apply IH in H; rewrite H; cbn [In].
        -- apply N.eqb_eq in Ev. subst v. apply or_iff_compat_l, first_other. intros <- (w & Hw & Hne). congruence.
        -- apply N.eqb_neq in Ev. apply first_add. intros <-. eauto.
    + intros H. apply IH in H. rewrite H. apply or_iff_compat_l, first_skip. intros <-. right. intros (w & Hw & _). congruence.
    + intros H. apply IH in H. rewrite H. apply or_iff_compat_l, first_skip. intros <-. right. intros (w & Hw & _). congruence.
Qed.

Lemma live_loop_sum votes sv ms : forall i seen live good bad live' good' bad',
  live_loop votes sv ms i seen live good bad = (live', good', bad') ->
  length live' = length live /\
  ((i + length ms <= length live)%nat -> lsum live' + N.of_nat (length good) = lsum live + N.of_nat (length good')).
Proof.
  induction ms as [|[ro k] r IH]; intros i seen live good bad live' good' bad'; cbn [live_loop length].
  - intros H. injection H as <- <- <-. split; reflexivity.
  - pose proof (IH (S i) seen live good bad live' good' bad') as Hskip. rewrite Nat.add_succ_comm in Hskip.
    destruct (aget k votes) as [[v|]|]; [|exact Hskip|exact Hskip].
    destruct (existsb (N.eqb k) seen); [exact Hskip|].
    destruct (v =? sv); intros H; apply IH in H as [A B]; [|split; [exact A|intros Hl; apply B; lia]].
    rewrite inc_nth_length in A, B. rewrite app_length in B. cbn [length] in B.
    split; [exact A|]. intros Hl. rewrite inc_nth_sum in B by lia. specialize (B ltac:(lia)). lia.
Qed.

Lemma inc_nth_other i l j : i <> j -> nth j (inc_nth i l) 0 = nth j l 0.
Proof.
  revert i j. induction l as [|x r IH]; intros [|i] [|j] H; cbn [inc_nth nth]; try reflexivity; try congruence.
  apply IH. congruence.
Qed.
Lemma inc_nth_same_le i l : nth i (inc_nth i l) 0 <= nth i l 0 + 1.
Proof.
  revert i. induction l as [|x r IH]; intros [|i]; cbn [inc_nth nth]; try lia. apply IH.
Qed.

Lemma live_loop_counters votes sv ms : forall i seen live good bad live' good' bad',
  live_loop votes sv ms i seen live good bad = (live', good', bad') ->
  forall j, ((j < i)%nat -> nth j live' 0 = nth j live 0) /\ nth j live' 0 <= nth j live 0 + 1.
Proof.
  induction ms as [|[ro k] r IH]; intros i seen live good bad live' good' bad'; cbn [live_loop].
  - intros H. injection H as <- _ _. intros j. split; [reflexivity|lia].
  - assert (Hskip : forall seen0 good0 bad0,
              live_loop votes sv r (S i) seen0 live good0 bad0 = (live', good', bad') ->
              forall j, ((j < i)%nat -> nth j live' 0 = nth j live 0) /\ nth j live' 0 <= nth j live 0 + 1).
    { intros seen0 good0 bad0 H j. destruct (IH _ _ _ _ _ _ _ _ H j) as [A B].
      split; [intros Hj; apply A; lia|exact B]. }
    destruct (aget k votes) as [[v|]|]; [|apply Hskip..].
    destruct (existsb (N.eqb k) seen); [apply Hskip|].
    destruct (v =? sv); [|apply Hskip].
    intros H j. destruct (IH _ _ _ _ _ _ _ _ H j) as [A B]. split.
    + intros Hj. rewrite A by lia. apply inc_nth_other. lia.
    + destruct (Nat.eq_dec i j) as [->|Hne].
      * rewrite (proj1 (IH _ _ _ _ _ _ _ _ H j)) by lia. apply inc_nth_same_le.
      * rewrite inc_nth_other in B by exact Hne. exact B.
Qed.

Definition live_ok (c : committee) (l : liveness) : Prop :=
  length (lv_live l) = length c /\ length (lv_fin l) = length c /\ length (lv_miss l) = length c /\
  lsum (lv_fin l) <= lv_total l /\ lv_total l <= lsum (lv_fin l) + lsum (lv_miss l) /\
  (forall j, nth j (lv_live l) 0 <= lv_total l).

Lemma lsum_repeat0 n : lsum (repeat 0 n) = 0.
Proof. induction n; cbn; [reflexivity|rewrite IHn; reflexivity]. Qed.
Lemma nth_repeat0 n j : nth j (repeat 0 n) 0 = 0.
Proof. revert j. induction n; intros [|j]; cbn; try reflexivity. apply IHn. Qed.

Lemma live_ok_new c : live_ok c (new_liveness (length c)).
Proof.
  unfold live_ok, new_liveness. cbn. rewrite !repeat_length, !lsum_repeat0.
  repeat split; try reflexivity; try lia. intros j. rewrite nth_repeat0. lia.
Qed.

Lemma worker_count_le c : worker_count c <= N.of_nat (length c).
Proof. induction c as [|[ro k] r IH]; cbn [worker_count length]; [lia|]. destruct (is_rworker ro); lia. Qed.

Lemma scheduler_idx_lt c round rank i : scheduler_idx c round rank = Some i -> (N.to_nat i < length c)%nat.
Proof.
  unfold scheduler_idx. destruct (worker_count c <=? rank) eqn:E; [discriminate|]. intros H. injection H as <-.
  pose proof (worker_count_le c). assert (worker_count c <> 0) by lia.
  pose proof (N.mod_lt (rank + worker_count c - round mod worker_count c) (worker_count c) H0). lia.
Qed.

(* a finalized round: the bookkeeping agrees with the pool outcome *)
Theorem finalize_normal_liveness prm c s p2 lv sc ec st2 e2 :
  finalize_normal prm c s p2 lv sc ec = Some (st2, e2) -> live_ok c lv ->
  exists lv' good bad,
    rs_live st2 = Some lv' /\ rs_results st2 = (good, bad) /\ live_ok c lv' /\
    lv_total lv' = lv_total lv + 1 /\
    lsum (lv_fin lv') + lsum (lv_miss lv') = lsum (lv_fin lv) + lsum (lv_miss lv) + 1 /\
    lsum (lv_live lv') = lsum (lv_live lv) + N.of_nat (length good) /\
    (* whoever committed to the finalized result is credited and never blamed *)
    (forall n, is_member c n = true -> aget n (sc_votes sc) = Some (Some (ec_vote ec)) -> In n good) /\
    (forall n, aget n (sc_votes sc) = Some (Some (ec_vote ec)) -> ~ In n bad) /\
    (forall n, In n good -> is_member c n = true /\ aget n (sc_votes sc) = Some (Some (ec_vote ec))) /\
    (forall n, In n bad -> is_member c n = true /\
                           exists v, aget n (sc_votes sc) = Some (Some v) /\ v <> ec_vote ec).
Proof.
  unfold finalize_normal. intros H (L1 & L2 & L3 & L4 & L5 & L6).
  destruct (scheduler_idx c _ 0) as [first|] eqn:Es; [|discriminate H].
  pose proof (scheduler_idx_lt _ _ _ _ Es) as Hlt.
  destruct (live_loop (sc_votes sc) (ec_vote ec) c 0 [] (lv_live lv) [] []) as [[live good] bad] eqn:El.
  pose proof (live_loop_counters _ _ _ _ _ _ _ _ _ _ _ El) as Hcnt.
  destruct (live_loop_sum _ _ _ _ _ _ _ _ _ _ _ El) as [A Hs]. specialize (Hs ltac:(cbn; lia)). cbn [length] in Hs.
  unfold finalize_block in H. cbn in H. injection H as <- _.
  eexists. exists good, bad. cbn [rs_live rs_results with_pool].
  split; [reflexivity|]. split; [reflexivity|].
  set (fs := match nth_error c (N.to_nat first) with Some (_, k) => k =? ec_sched ec | None => false end).
  split.
  { unfold live_ok. cbn [lv_live lv_fin lv_miss lv_total].
    split; [lia|]. split; [destruct fs; rewrite ?inc_nth_length; exact L2|].
    split; [destruct fs; rewrite ?inc_nth_length; exact L3|].
    split; [destruct fs; [rewrite inc_nth_sum by lia|]; lia|].
    split; [destruct fs; rewrite inc_nth_sum by lia; lia|].
    intros j. destruct (Hcnt j) as [_ Hj]. specialize (L6 j). lia. }
  cbn [lv_live lv_fin lv_miss lv_total].
  split; [reflexivity|]. split; [destruct fs; rewrite inc_nth_sum by lia; lia|]. split; [lia|].
  pose proof (fun n => live_loop_good _ _ _ n _ _ _ _ _ _ _ _ El) as Hgood.
  pose proof (fun n => live_loop_bad _ _ _ n _ _ _ _ _ _ _ _ El) as Hbad.
  split; [intros n Hm Hv; apply Hgood; right; split; [apply is_member_in; exact Hm|split; [intros []|exact Hv]]|].
  split.
  { intros n Hv Hin. apply Hbad in Hin as [[]|(_ & _ & v & Hv' & Hne)]. congruence. }
  split.
  { intros n Hin. apply Hgood in Hin as [[]|(X & _ & Z)]. split; [apply is_member_in; exact X|exact Z]. }
  intros n Hin. apply Hbad in Hin as [[]|(X & _ & Z)]. split; [apply is_member_in; exact X|exact Z].
Qed.

(* a failed round: only the primary scheduler's missed-proposal counter moves *)
Theorem fail_round_liveness prm c s p2 lv st2 e2 :
  fail_round prm c s p2 lv = Some (st2, e2) -> live_ok c lv ->
  exists lv', rs_live st2 = Some lv' /\ live_ok c lv' /\
    lv_total lv' = lv_total lv /\ lv_live lv' = lv_live lv /\ lv_fin lv' = lv_fin lv /\
    lsum (lv_miss lv') = lsum (lv_miss lv) + 1.
Proof.
  unfold fail_round. intros H (L1 & L2 & L3 & L4 & L5 & L6).
  destruct (scheduler_idx c _ 0) as [first|] eqn:Es; [|discriminate H].
  pose proof (scheduler_idx_lt _ _ _ _ Es) as Hlt.
  unfold finalize_block in H. cbn in H. injection H as <- _.
  eexists. cbn [rs_live with_pool]. split; [reflexivity|].
  cbn [lv_live lv_fin lv_miss lv_total]. rewrite inc_nth_sum by lia.
  split; [|repeat split; reflexivity].
  unfold live_ok. cbn [lv_live lv_fin lv_miss lv_total]. rewrite inc_nth_length, inc_nth_sum by lia.
  repeat split; try assumption; lia.
Qed.

Definition live_inv (st : rt_state) : Prop :=
  match rs_live st with
  | Some l => exists c, rs_committee st = Some c /\ live_ok c l
  | None => True
  end.

Lemma live_of_ok st c : rs_committee st = Some c -> live_inv st -> live_ok c (live_of st c).
Proof.
  intros Ec I. unfold live_of, live_inv in *. destruct (rs_live st) as [l|]; [|apply live_ok_new].
  destruct I as (c0 & E0 & L). rewrite Ec in E0. injection E0 as <-. exact L.
Qed.

Lemma try_finalize_live_inv H prm c p st timeout st' evs :
  rs_committee st = Some c -> live_inv st ->
  try_finalize H prm c p st timeout = TFOk st' evs -> live_inv st'.
Proof.
  intros Ec I Htf. pose proof (live_of_ok st c Ec I) as L.
  apply try_finalize_cases in Htf as (st1 & p2 & o2 & ev & E & K).
  apply tf_decide_spec in E as ((nt & ->) & _). unfold live_inv.
  destruct K as [(sc & ec & e2 & _ & _ & F & _)|[(_ & -> & _)|(e2 & _ & F & _)]].
  - destruct (finalize_normal_liveness _ _ _ _ _ _ _ _ _ F L) as (lv' & good & bad & -> & _ & R & _).
    apply finalize_normal_spec in F as ((_ & _ & _ & _ & _ & C & _) & _).
    exists c. split; [rewrite C; exact Ec|exact R].
  - exists c. split; [exact Ec|exact L].
  - destruct (fail_round_liveness _ _ _ _ _ _ _ F L) as (lv' & -> & R & _).
    apply fail_round_spec in F as ((_ & _ & _ & _ & _ & C & _) & _).
    exists c. split; [rewrite C; exact Ec|exact R].
Qed.

Lemma try_finalize_round_live_inv H prm st timeout st' evs :
  live_inv st -> try_finalize_round H prm st timeout = EndOk st' evs -> live_inv st'.
Proof.
  intros I Hx. apply try_finalize_round_ok in Hx as (c & p & _ & Ec & _ & E).
  eapply try_finalize_live_inv; eassumption.
Qed.

Lemma executor_commit_live_inv H prm st vcs : live_inv st -> live_inv (fst (fst (executor_commit H prm st vcs))).
Proof.
  intros I. destruct (executor_commit_cases H prm st vcs) as [[-> _]|(c & p & p1 & nt & _ & _ & _ & _ & ->)]; exact I.
Qed.

Lemma begin_block_live_inv prm st ep : live_inv st -> live_inv (fst (begin_block prm st ep)).
Proof.
  intros I. destruct ep as [[c|]|]; cbn [begin_block]; [| |exact I].
  - destruct (finalize_block prm st HEpochTransition None) as [s e]. exact Logic.I.
  - destruct (finalize_block prm st HSuspended None) as [s e]. exact Logic.I.
Qed.

Lemma app_states_live_inv prm bs st : live_inv st -> live_inv (app_states prm st bs).
Proof.
  apply app_states_keeps; [apply begin_block_live_inv| |].
  - intros H. apply executor_commit_live_inv.
  - intros H. apply try_finalize_round_live_inv.
Qed.

(* over every history: the statistics have one counter per committee member, the finalized
   proposals never exceed the finalized rounds, every finalized round is accounted to exactly
   one of finalized / missed proposals of the primary scheduler, no node is live more often
   than there were finalized rounds *)
Theorem liveness_consistent_history prm bs round root :
  live_inv (app_states prm (new_runtime prm round root) bs).
Proof. apply app_states_live_inv. exact Logic.I. Qed.
