(* C10: the validator election (model: Verif.Sched.Elect), whose failure is fatal by design.
   When exactly it fails; accepted scheduler parameter changes cannot make it fail for want of
   validators; with the VRF beacon backend only the candidates' proofs matter. *)
From Verif Require Import Lib.Base Sched.Elect.

(* VotingPowerFromStake (scheduler/api/api.go:300-333), linear distribution: the power is
   stake / 16, and the conversion fails exactly when that
   reaches 2^63, i.e. from 2^63 * 16 = 2^67 base units on *)
Lemma voting_power_linear_none_iff s :
  voting_power false s = None <-> 2 ^ 67 <= s.
Proof.
  unfold voting_power, BASE_UNITS_PER_POWER.
  destruct (N.eqb_spec (s / 16) 0); [split; [discriminate|lia]|].
  destruct (N.ltb_spec (s / 16) (2 ^ 63)); [split; [discriminate|lia]|split; [lia|reflexivity]].
Qed.

(* under the genesis bound on the total supply (scheduler genesis.go:160-171: the power
   of the whole supply is at most MaxInt64/8) no stake can overflow *)
Lemma voting_power_defined_under_supply_bound s supply :
  s <= supply -> supply / 16 <= (2 ^ 63 - 1) / 8 -> voting_power false s <> None.
Proof. intros Hs Hb H. apply voting_power_linear_none_iff in H. lia. Qed.

Lemma aset_keys_notin {V} k (v : V) l :
  ~ In k (map fst l) -> map fst (aset k v l) = k :: map fst l.
Proof. intros H. unfold aset. cbn [map fst]. rewrite adel_notin by exact H. reflexivity. Qed.

Definition powers_defined (p : params) (ents : list entity) (cs : list node) : Prop :=
  forall n, In n cs -> node_power p ents n <> None.

(* number of validators the loop ends with: every candidate is inserted until the
   maximum is reached (checked AFTER the insertion, so at least one is taken) *)
Lemma fill_length p ents : forall cs acc ve,
  powers_defined p ents cs -> NoDup (map n_cons cs ++ map fst acc) ->
  exists acc' ve', fill p ents cs acc ve = Some (acc', ve') /\
    length acc' = match cs with
                  | [] => length acc
                  | _ => Nat.min (length acc + length cs) (Nat.max (N.to_nat (p_max p)) (length acc + 1))
                  end.
Proof.
  induction cs as [|n r IH]; intros acc ve Hp Hnd; cbn [fill].
  - exists acc, ve. split; reflexivity.
  - destruct (node_power p ents n) as [pw|] eqn:Epw; [|exfalso; apply (Hp n); [left; reflexivity|exact Epw]].
    cbn [map app] in Hnd. inversion Hnd as [|x l Hnotin Hnd']; subst x l.
    (* the candidate's consensus key is new, so the insertion adds one entry *)
    pose proof (aset_keys_notin (n_cons n) (n_id n, n_ent n, pw) acc
                  (fun H => Hnotin (in_or_app _ _ _ (or_intror H)))) as Hkeys.
    pose proof (f_equal (@length N) Hkeys) as Hlen1. cbn [length] in Hlen1. rewrite !map_length in Hlen1.
    revert Hkeys Hlen1. generalize (aset (n_cons n) (n_id n, n_ent n, pw) acc). intros acc1 Hkeys Hlen1.
    unfold len, vmap, vinfo in *. destruct (N.leb_spec (p_max p) (N.of_nat (length acc1))) as [E|E].
    + exists acc1, (n_ent n :: ve). split; [reflexivity|]. cbn [length]. lia.
    + destruct (IH acc1 (n_ent n :: ve)) as [acc' [ve' [Hf Hl]]].
      * intros m Hm. apply Hp. right. exact Hm.
      * rewrite Hkeys. apply (NoDup_Add (Add_app _ _ _)). split; assumption.
      * exists acc', ve'. split; [exact Hf|]. rewrite Hl.
        destruct r as [|m r']; cbn [length] in *; lia.
Qed.

(* The election fails EXACTLY in these cases (given that consensus keys are unique among
   the candidates -- the registry enforces it -- and no voting power overflows):
   - no stake-eligible validator candidate at all: "failed to elect any validators";
   - fewer candidates than MinValidators (after the MaxValidators cut): "insufficient validators". *)
Lemma election_outcome p ents perm_e cands sh :
  let seq := cand_seq_sh p ents perm_e cands sh in
  powers_defined p ents seq -> NoDup (map n_cons seq) ->
  match seq with
  | [] => elect_core p ents perm_e cands sh = VErrNone
  | _ =>
      let k := N.min (len seq) (N.max (p_max p) 1) in
      if k <? p_min p
      then elect_core p ents perm_e cands sh = VErrInsufficient
      else exists vals vents, elect_core p ents perm_e cands sh = VOk vals vents
  end.
Proof.
  intros seq Hp Hnd. unfold elect_core. fold seq.
  destruct (fill_length p ents seq [] [] Hp) as [acc [ve [Hf Hl]]]; [rewrite app_nil_r; exact Hnd|].
  rewrite Hf. destruct seq as [|n r] eqn:Es.
  - unfold len. rewrite Hl. reflexivity.
  - cbn zeta. unfold len in *. cbn [length] in *.
    (* the loop took min(candidates, max(MaxValidators, 1)) >= 1 validators *)
    replace (N.min _ _) with (N.of_nat (length acc)) by lia.
    destruct (N.eqb_spec (N.of_nat (length acc)) 0); [lia|].
    destruct (_ <? p_min p); [reflexivity|]. do 2 eexists. reflexivity.
Qed.

Lemma election_succeeds_under_precondition p ents perm_e cands sh :
  let seq := cand_seq_sh p ents perm_e cands sh in
  powers_defined p ents seq -> NoDup (map n_cons seq) ->
  seq <> [] -> p_min p <= len seq -> p_min p <= N.max (p_max p) 1 ->
  exists vals vents, elect_core p ents perm_e cands sh = VOk vals vents.
Proof.
  intros seq Hp Hnd Hne H1 H2.
  pose proof (election_outcome p ents perm_e cands sh Hp Hnd) as H. fold seq in H.
  destruct seq as [|n r]; [contradiction|]. cbn zeta in H.
  destruct (N.ltb_spec (N.min (len (n :: r)) (N.max (p_max p) 1)) (p_min p)); [lia|exact H].
Qed.

(* a voting power overflow is the only other failure *)
Lemma election_power_error_iff p ents perm_e cands sh :
  elect_core p ents perm_e cands sh = VErrPower <->
  fill p ents (cand_seq_sh p ents perm_e cands sh) [] [] = None.
Proof.
  unfold elect_core. destruct (fill p ents _ [] []) as [[acc ve]|].
  - split; [|discriminate]. destruct (len acc =? 0); [discriminate|].
    destruct (len acc <? p_min p); discriminate.
  - split; reflexivity.
Qed.

(* scheduler parameter changes (scheduler/api/sanity_check.go:31-62 after commit
   2b1f48e; apps/scheduler/messages.go:35-41: changes.SanityCheck, Apply, params.SanityCheck).
   Go ints are signed: the proposed values are in Z.  None = the proposal is refused. *)
Definition sched_change (cmin cmax : option Z) (pmin pmax : Z) : option (Z * Z) :=
  let bad c := match c with Some v => (v <=? 0)%Z | None => false end in
  if bad cmin || bad cmax then None                       (* ConsensusParameterChanges.SanityCheck :55-60 *)
  else
    let pmin' := match cmin with Some v => v | None => pmin end in   (* Apply *)
    let pmax' := match cmax with Some v => v | None => pmax end in
    if (0 <? pmax')%Z && (pmax' <? pmin')%Z then None     (* ConsensusParameters.SanityCheck :41-43 *)
    else Some (pmin', pmax').

(* the same without the checks added by 2b1f48e *)
Definition sched_change_original (cmin cmax : option Z) (pmin pmax : Z) : option (Z * Z) :=
  Some (match cmin with Some v => v | None => pmin end, match cmax with Some v => v | None => pmax end).

(* positive and consistent, as InitChain requires (apps/scheduler/genesis.go:29-34) together
   with the parameter sanity check *)
Definition sched_consistent (pmin pmax : Z) : Prop := (0 < pmin /\ 0 < pmax /\ pmin <= pmax)%Z.

(* a history of proposed changes: refused ones leave the parameters alone *)
Fixpoint sched_run (cs : list (option Z * option Z)) (pmin pmax : Z) : Z * Z :=
  match cs with
  | [] => (pmin, pmax)
  | (cmin, cmax) :: r =>
      match sched_change cmin cmax pmin pmax with
      | Some (a, b) => sched_run r a b
      | None => sched_run r pmin pmax
      end
  end.

Lemma sched_change_consistent cmin cmax pmin pmax a b :
  sched_consistent pmin pmax -> sched_change cmin cmax pmin pmax = Some (a, b) -> sched_consistent a b.
Proof.
  unfold sched_change, sched_consistent.
  destruct (_ || _) eqn:Echg; [discriminate|]. destruct (_ && _) eqn:Epar; [discriminate|].
  intros H E. injection E as <- <-. destruct cmin, cmax; lia.
Qed.

Lemma sched_run_consistent cs : forall pmin pmax,
  sched_consistent pmin pmax ->
  sched_consistent (fst (sched_run cs pmin pmax)) (snd (sched_run cs pmin pmax)).
Proof.
  induction cs as [|[cmin cmax] r IH]; intros pmin pmax H; cbn [sched_run]; [exact H|].
  destruct (sched_change cmin cmax pmin pmax) as [[a b]|] eqn:E.
  - apply IH. eapply sched_change_consistent; eassumption.
  - apply IH. exact H.
Qed.

Lemma election_not_insufficient_by_parameters cs pmin0 pmax0 p ents perm_e cands sh :
  sched_consistent pmin0 pmax0 ->
  Z.of_N (p_min p) = fst (sched_run cs pmin0 pmax0) ->
  Z.of_N (p_max p) = snd (sched_run cs pmin0 pmax0) ->
  let seq := cand_seq_sh p ents perm_e cands sh in
  powers_defined p ents seq -> NoDup (map n_cons seq) ->
  p_min p <= len seq ->
  exists vals vents, elect_core p ents perm_e cands sh = VOk vals vents.
Proof.
  intros Hc Hmin Hmax seq Hp Hnd Hlen.
  pose proof (sched_run_consistent cs pmin0 pmax0 Hc) as [H1 [H2 H3]].
  rewrite <- Hmin in H1, H3. rewrite <- Hmax in H2, H3.
  apply election_succeeds_under_precondition; try assumption.
  - intros E. fold seq in E. rewrite E in Hlen. unfold len in Hlen. cbn in Hlen. lia.
  - lia.
Qed.

(* the ORIGINAL change handler accepted {min 2, max 1}: a concrete election with two eligible
   validators then fails with "insufficient validators" *)
Definition ex_node (i : N) : node := mkNode i i (100 + i) 8 1000 0 0 [] [].
Lemma sched_change_original_refuted :
  sched_change_original (Some 2%Z) (Some 1%Z) 1 100 = Some (2%Z, 1%Z) /\
  sched_change (Some 2%Z) (Some 1%Z) 1 100 = None /\
  elect_core (mkParams 2 1 1 true false) [] [0; 1] [ex_node 1; ex_node 2] [ex_node 1; ex_node 2] = VErrInsufficient /\
  exists vals vents,
    elect_core (mkParams 1 100 1 true false) [] [0; 1] [ex_node 1; ex_node 2] [ex_node 1; ex_node 2] = VOk vals vents.
Proof.
  split; [reflexivity|]. split; [reflexivity|]. split; [vm_compute; reflexivity|].
  eexists. eexists. vm_compute. reflexivity.
Qed.

(* validator election with the VRF beacon backend (shuffle.go:38-86): the sortition only ever
   looks at the proofs of the validator CANDIDATES *)
Lemma vrf_collect_ext beta beta' l :
  (forall n, In n l -> beta (n_id n) = beta' (n_id n)) ->
  forall seen, vrf_collect beta l seen = vrf_collect beta' l seen.
Proof.
  induction l as [|n r IH]; intros H seen; cbn [vrf_collect]; [reflexivity|].
  rewrite <- (H n (or_introl eq_refl)). specialize (IH (fun m Hm => H m (or_intror Hm))).
  destruct (beta (n_id n)) as [b|]; [|apply IH].
  destruct (memN b seen); [apply IH|]. f_equal. apply IH.
Qed.

Lemma filter_has_pi_ext beta beta' l :
  (forall n, In n l -> beta (n_id n) = beta' (n_id n)) ->
  filter (has_pi beta) l = filter (has_pi beta') l.
Proof.
  intros H. apply filter_ext_in. intros n Hn. unfold has_pi. rewrite (H n Hn). reflexivity.
Qed.

Lemma vrf_election_ignores_other_proofs p ents epoch nodes pe pn beta beta' :
  (forall n, In n (vcands p ents epoch nodes) -> beta (n_id n) = beta' (n_id n)) ->
  elect_validators_vrf p ents epoch nodes pe pn beta = elect_validators_vrf p ents epoch nodes pe pn beta'.
Proof.
  intros H. unfold elect_validators_vrf, vrf_sort.
  rewrite (filter_has_pi_ext beta beta' _ H), (vrf_collect_ext beta beta' _ H). reflexivity.
Qed.

Lemma vrf_election_falls_back p ents epoch nodes pe pn beta :
  len (filter (has_pi beta) (vcands p ents epoch nodes)) < p_min p ->
  elect_validators_vrf p ents epoch nodes pe pn beta = elect_validators p ents epoch nodes pe pn.
Proof.
  intros H. unfold elect_validators_vrf, elect_validators.
  rewrite (proj2 (N.ltb_lt _ _) H). reflexivity.
Qed.

(* the seeded variant: the fallback test counts the proofs of ALL nodes *)
Definition elect_validators_vrf_any_proofs (p : params) (ents : list entity) (epoch : N) (nodes : list node)
  (perm_e perm_n : list N) (beta : N -> option N) (nproofs : N) : vres :=
  let cands := vcands p ents epoch nodes in
  elect_core p ents perm_e cands
    (if nproofs <? p_min p then apply_perm perm_n cands else vrf_sort beta cands).

(* two eligible validators without proofs, two proofs from other nodes, MinValidators = 2: the
   variant elects nobody, the real rule elects both *)
Lemma vrf_any_proofs_refuted :
  let p := mkParams 2 100 1 true false in
  let nodes := [ex_node 1; ex_node 2] in
  elect_validators_vrf_any_proofs p [] 1 nodes [0; 1] [0; 1] (fun _ => None) 2 = VErrNone /\
  exists vals vents, elect_validators_vrf p [] 1 nodes [0; 1] [0; 1] (fun _ => None) = VOk vals vents /\ len vals = 2.
Proof.
  split; [vm_compute; reflexivity|]. eexists. eexists. split; vm_compute; reflexivity.
Qed.
