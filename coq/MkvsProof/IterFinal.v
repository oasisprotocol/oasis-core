(* Answer-level completeness of iterate proofs and ordered safety of iteration
   over a remote-backed reader. *)
From Verif Require Import Lib.Base Mkvs.Trie Mkvs.HashProofs Mkvs.Overlay Mkvs.Iter
  MkvsProof.Model MkvsProof.Sound MkvsProof.Remote MkvsProof.Iter MkvsProof.IterProofs
  MkvsProof.IterSound.

Lemma full_prunes H t : prunes H (full t) t.
Proof.
  induction t as [|k v|lbl lf l IHl r IHr]; cbn; auto.
  repeat split; auto. destruct lf as [[? ?]|]; reflexivity.
Qed.

Lemma inb_in x R : In x R -> inb x R = true.
Proof.
  intros Hin. unfold inb. apply existsb_exists. exists x. split; [exact Hin|apply pid_eqb_refl].
Qed.

Section PfCov.
  Variable H : bytes -> bytes.
  Variable ver : N.
  Variable inc : list dir -> bool.

  Lemma pf_inner_cov fuel : forall prefix cur cur' total limit,
    Crel H ver inc cur cur' -> all_inc inc (snd (pf_inner fuel prefix cur total limit)) ->
    pf_inner fuel prefix cur' total limit = pf_inner fuel prefix cur total limit /\
    snd (fst (pf_inner fuel prefix cur total limit)) <> None.
  Proof.
    induction fuel as [|f IH]; intros prefix cur cur' total limit C A; cbn [pf_inner] in *.
    - cbn [snd] in A. destruct (C A) as [-> _]. split; [reflexivity|discriminate].
    - destruct cur as [[e pos| |] R].
      + destruct (limit <=? total)%nat eqn:L; [|destruct (negb (has_prefix prefix (fst e))) eqn:P].
        * destruct (crel_inv _ _ _ _ _ C A) as (pos' & -> & _). split; [reflexivity|discriminate].
        * destruct (crel_inv _ _ _ _ _ C A) as (pos' & -> & _). rewrite P. split; [reflexivity|discriminate].
        * destruct (pf_inner f prefix (pit_next (fst e) pos) (S total) limit) as [[[stop tot] items] Rn] eqn:En.
          cbn [snd] in A. apply all_inc_app in A as [A1 A2].
          destruct (crel_inv _ _ _ _ _ C A1) as (pos' & -> & F2). rewrite P.
          destruct (IH prefix _ _ (S total) limit (pit_next_cov H ver inc (fst e) pos pos' F2)) as [Eq NN];
            rewrite En in *; [exact A2|].
          rewrite Eq. split; [reflexivity|]. destruct items; [discriminate|contradiction].
      + rewrite (crel_inv _ _ _ _ _ C A). split; [reflexivity|discriminate].
      + destruct (crel_inv _ _ _ _ _ C A).
  Qed.

  Lemma pf_outer_cov t prefixes : forall total limit,
    all_inc inc (snd (pf_outer (full t) prefixes total limit)) ->
    pf_outer (gprune H ver inc [] t) prefixes total limit = pf_outer (full t) prefixes total limit /\
    fst (pf_outer (full t) prefixes total limit) <> None.
  Proof.
    induction prefixes as [|pre rest IH]; intros total limit A; cbn [pf_outer] in *; [split; [reflexivity|discriminate]|].
    destruct (pf_inner (S limit) pre (pseek (full t) pre) total limit) as [[[stop tot] items] R] eqn:Ei.
    assert (all_inc inc R) as AR.
    { destruct stop; [exact A|]. destruct (pf_outer (full t) rest tot limit) as [i' R'].
      cbn [snd] in A. apply all_inc_app in A as [A1 _]. exact A1. }
    pose proof (pf_inner_cov (S limit) pre _ _ total limit (pdo_cov H ver inc t [] 0 [] pre VBefore)) as PC.
    fold (pseek (full t) pre) (pseek (gprune H ver inc [] t) pre) in PC. rewrite Ei in PC.
    destruct (PC AR) as [Eq NN]. rewrite Eq.
    destruct stop; [auto|].
    destruct (pf_outer (full t) rest tot limit) as [i' R'] eqn:Eo. cbn [snd] in A.
    apply all_inc_app in A as [_ A2]. specialize (IH tot limit). rewrite Eo in IH.
    destruct (IH A2) as [Eq' NN']. rewrite Eq'. split; [reflexivity|]. cbn [fst snd] in *. destruct items, i'; try discriminate; contradiction.
  Qed.
End PfCov.

Section Fin.
  Variable H : bytes -> bytes.
  Hypothesis Hlen : forall x, length (H x) = HASH_SIZE.

  Theorem iterate_proof_complete_l ver t key n :
    ver <= 1 -> (height t <= 129)%nat -> wf t -> valid_bytes key ->
    exists p, verify H ver (root_hash H t) (root_hash H t) (build_iter_proof H ver t key n) = ROk p /\
              (piter p key n = Some (firstn (S n) (al_seek key (contents t))) \/ collision H).
  Proof.
    intros Hv Hh W V. unfold build_iter_proof.
    set (inc := fun pid => inb pid (iter_included t key n)).
    destruct (gbuild_verifies H Hlen ver inc t Hv Hh) as (p & E & _ & [Ep|[Ep Z]]).
    - exists p. split; [exact E|]. left. subst p.
      (* the walk over the proof's tree is the walk over the full tree, which meets no hash *)
      destruct (pcollect_cov H ver inc n _ _ (pdo_cov H ver inc t [] 0 [] key VBefore)) as [Eq NN].
      { intros x Hx. apply inb_in. exact Hx. }
      unfold piter, pseek. rewrite Eq.
      destruct (piter_sound_l H (full t) t key n (full_prunes H t) W V) as [E'|E']; [contradiction|exact E'].
    - exists p. split; [exact E|]. subst p.
      destruct (empty_root H t Z) as [->|C]; [|auto]. left. destruct n; reflexivity.
  Qed.

  (* iteration over the remote-backed reader, in order *)
  Theorem remote_tree_iteration_safe_l t steps key n :
    wf t -> bounded t -> valid_bytes key -> Forall (step_ok) steps ->
    piter (run_steps H (root_hash H t) steps) key n = None \/
    piter (run_steps H (root_hash H t) steps) key n = Some (firstn (S n) (al_seek key (contents t))) \/
    collision H.
  Proof.
    intros W B V F. unfold run_steps.
    destruct (run_prunes H Hlen (root_hash H t) t steps (PHash (root_hash H t)) eq_refl B F eq_refl) as [P|C]; [|auto].
    destruct (piter_sound_l H _ t key n P W V) as [E|E]; auto.
  Qed.

  (* The reader of a SyncGetPrefixes proof (the prefix loop of prefetch.go run
     over the verified partial tree) meets no hash and obtains exactly what the
     same loop obtains on the full replica. *)
  Theorem prefix_proof_complete_l ver t prefixes limit :
    ver <= 1 -> (height t <= 129)%nat ->
    exists p, verify H ver (root_hash H t) (root_hash H t) (build_prefixes_proof H ver t prefixes limit) = ROk p /\
              ((pprefixes p prefixes limit = pprefixes (full t) prefixes limit /\
                pprefixes (full t) prefixes limit <> None) \/ collision H).
  Proof.
    intros Hv Hh. unfold build_prefixes_proof.
    set (inc := fun pid => inb pid (prefixes_included t prefixes limit)).
    destruct (gbuild_verifies H Hlen ver inc t Hv Hh) as (p & E & _ & [Ep|[Ep Z]]).
    - exists p. split; [exact E|]. left. subst p. unfold pprefixes.
      destruct (pf_outer_cov H ver inc t prefixes 0%nat limit) as [-> NN]; [|auto].
      intros x Hx. apply inb_in. exact Hx.
    - exists p. split; [exact E|]. subst p.
      destruct (empty_root H t Z) as [->|C]; [|auto]. left. split; [reflexivity|].
      (* nothing needs to be included in the empty tree *)
      apply (pf_outer_cov H ver (fun _ => true) Nil). intros x _. reflexivity.
  Qed.
End Fin.
