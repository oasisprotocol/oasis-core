(* Totality and boundedness of the MKVS node decoders (Node.v). *)
From Verif Require Import Lib.Base Decode.GoSlice Decode.GoSliceFacts Decode.Node Gen.DecodeConsts.

#[export] Hint Unfold DepthSize ValueLengthSize HashSize PrefixLeafNode PrefixInternalNode PrefixNilNode
  E_NODE E_KEY E_HASH W_LBL W_LEAF W_LEFT W_RIGHT : goconsts.

(* The regenerated layout constants the proofs depend on. *)
Lemma gen_layout_expected :
  DepthSize = 2 /\ ValueLengthSize = 4 /\ HashSize = 32 /\
  PrefixLeafNode = 0 /\ PrefixInternalNode = 1 /\ PrefixNilNode = 2 /\
  glen emptyHash = HashSize.
Proof. repeat split; reflexivity. Qed.

Definition leaf_size (l : leaf) : N := glen (lkey l) + glen (lvalue l).
Definition oleaf_size (l : option leaf) : N :=
  match l with Some l => leaf_size l | None => 0 end.
Definition ohash_size (h : option bytes) : N :=
  match h with Some h => glen h | None => 0 end.
Definition inode_size (n : inode) : N :=
  glen (ilabel n) + oleaf_size (ileaf n) + ohash_size (ileft n) + ohash_size (iright n).
Definition node_size (n : node) : N :=
  match n with NLeaf l => leaf_size l | NInternal n => inode_size n end.

(* Each decoder returns its value with the number of bytes consumed.  Its specification says
   how that number, the size of the value and the allocation counter relate to the input; the
   errors never leave more allocated than the input is long. *)

Definition depth_post (data : bytes) (s : N) : res (N * N) * N -> Prop :=
  outcome (fun x s' => snd x = 2 /\ 2 <= glen data /\ s' = s /\ fst x = le16v data)
          (fun e s' => s' = s /\ e = E_NODE /\ glen data < 2).

Lemma depth_spec data s : depth_post data s (depth_unmarshal data s).
Proof.
  unfold depth_unmarshal, depth_post. step; [step; golia|]. do 3 step.
  rewrite le16v_sl by golia. golia.
Qed.

Definition key_post (data : bytes) (s : N) : res (bytes * N) * N -> Prop :=
  outcome (fun x s' => snd x = 2 + glen (fst x) /\ snd x <= glen data /\ s' = s + glen (fst x) /\
                       fst x = sl data 2 (snd x) /\ glen (fst x) = le16v data)
          (fun e s' => s' = s /\ e = E_KEY).

Lemma key_spec data s : key_post data s (key_sized_unmarshal data s).
Proof.
  unfold key_sized_unmarshal, key_post. step; [step; golia|]. do 2 step.
  rewrite le16v_sl by golia. step; [step; golia|]. autounfold with goconsts in *. step.
  - do 3 step. rewrite gcopy_zeros_sl, glen_sl by lia. repeat split; lia.
  - step. assert (le16v data = 0) as -> by lia. repeat split; cbn; lia.
Qed.

Definition leaf_post (data : bytes) (s : N) : res (leaf * N) * N -> Prop :=
  outcome (fun x s' => snd x = 7 + leaf_size (fst x) /\ snd x <= glen data /\ s' = s + leaf_size (fst x))
          (fun e s' => s' <= s + glen data /\ (e = E_NODE \/ e = E_KEY)).

Lemma leaf_spec data s : leaf_post data s (leaf_sized_unmarshal data s).
Proof.
  unfold leaf_sized_unmarshal, leaf_post. repeat step; try golia.
  eapply outcome_bind; [apply key_spec| |intros e s1 [-> ->]; golia].
  intros [k n] s1 (Hn & Hle & -> & _ & _). cbn [fst snd] in *. rewrite glen_sl in Hle by golia.
  repeat step; try golia.
  unfold leaf_size. cbn [lkey lvalue]. rewrite glen_gcopy, glen_zeros. golia.
Qed.

Definition ohash (data : bytes) (i : N) : option bytes :=
  if hash_is_empty (sl data i (i + 32)) then None else Some (sl data i (i + 32)).

Lemma ohash_size_ohash data i : i + 32 <= glen data -> ohash_size (ohash data i) <= 32.
Proof.
  intros H. unfold ohash. destruct (hash_is_empty _); cbn [ohash_size]; [lia|].
  rewrite glen_sl; lia.
Qed.

(* either no hashes follow (compact form) or both do *)
Definition hashes_post (data : bytes) (lbl : N) (label : bytes) (lf : option leaf) (pos s : N)
  : res (inode * N) * N -> Prop :=
  outcome (fun x s' =>
             s' = s /\ ilbl (fst x) = lbl /\ ilabel (fst x) = label /\ ileaf (fst x) = lf /\
             snd x <= glen data /\ pos <= snd x /\
             ohash_size (ileft (fst x)) + ohash_size (iright (fst x)) <= snd x - pos)
          (fun _ _ => False).

Lemma hashes_spec data lbl label lf pos s :
  pos <= glen data -> hashes_post data lbl label lf pos s (inode_hashes data lbl label lf pos s).
Proof.
  intros Hpos. unfold inode_hashes, hash_unmarshal, hashes_post. step.
  - step. rewrite bind_unfold, wrap_unfold, glen_sl by golia.
    replace (pos + HashSize - pos =? HashSize) with true by golia. cbn [negb ret].
    step. rewrite bind_unfold, wrap_unfold, glen_sl by golia.
    replace (pos + HashSize + HashSize - (pos + HashSize) =? HashSize) with true by golia.
    cbn [negb ret]. step. cbn [ilbl ilabel ileaf ileft iright].
    pose proof (ohash_size_ohash data pos ltac:(golia)).
    pose proof (ohash_size_ohash data (pos + 32) ltac:(golia)).
    unfold ohash in *. autounfold with goconsts in *. repeat split; try lia.
  - step. cbn [ilbl ilabel ileaf ileft iright ohash_size]. repeat split; lia.
Qed.

Definition ileaf_post (data : bytes) (pos s : N) : res (option leaf * N) * N -> Prop :=
  outcome (fun x s' => pos < snd x /\ snd x <= glen data /\ s' = s + oleaf_size (fst x) /\
                       oleaf_size (fst x) <= snd x - pos)
          (fun e s' => s' <= s + (glen data - pos) /\ e < 500).

Lemma ileaf_spec data pos s :
  pos < glen data -> ileaf_post data pos s (inode_leaf data pos s).
Proof.
  intros Hpos. unfold inode_leaf, ileaf_post. do 2 step.
  - step. cbn [oleaf_size]. lia.
  - step. eapply outcome_bind_wrap; [apply leaf_spec| |].
    + intros [l n] s1 (Hn & Hle & ->). cbn [fst snd] in Hn, Hle. rewrite glen_sl in Hle by lia.
      step. cbn [oleaf_size]. lia.
    + intros e s1 [Hs He]. rewrite glen_sl in Hs by lia. golia.
Qed.

Definition inode_post (data : bytes) (s : N) : res (inode * N) * N -> Prop :=
  outcome (fun x s' => snd x <= glen data /\ 4 <= snd x /\ inode_size (fst x) <= snd x /\
                       s' <= s + inode_size (fst x) /\
                       glen (ilabel (fst x)) = depth_to_bytes (ilbl (fst x)))
          (fun e s' => s' <= s + glen data /\ e < 500).

Lemma inode_spec data s : inode_post data s (inode_sized_unmarshal data s).
Proof.
  unfold inode_sized_unmarshal, inode_post. step; [step; golia|]. step. step; [step; golia|].
  repeat step. eapply outcome_bind_wrap; [apply depth_spec| |intros e s1 (-> & -> & _); golia].
  intros [lbl n0] s1 (_ & _ & -> & _). cbv zeta.
  step; [step; golia|]. do 2 step. rewrite gcopy_zeros_sl by golia. step; [step; golia|].
  eapply outcome_bind; [apply ileaf_spec; golia| |intros e s2 H; golia].
  intros [lf pos] s2 (Hp1 & Hp2 & -> & Hsz). cbn [fst snd] in *.
  eapply outcome_weaken; [apply hashes_spec; exact Hp2| |intros e s3 []].
  intros [n c] s3 (-> & Hlbl & Hlabel & Hleaf & Hc1 & Hc2 & Hh). cbn [fst snd] in *.
  unfold inode_size. rewrite Hlbl, Hlabel, Hleaf, glen_sl by golia. golia.
Qed.

Definition node_post (data : bytes) (s : N) : res node * N -> Prop :=
  outcome (fun n s' => node_size n <= glen data /\ s' <= s + node_size n)
          (fun e s' => s' <= s + glen data /\ e < 500).

Lemma node_spec data s : node_post data s (node_unmarshal data s).
Proof.
  unfold node_unmarshal, node_post. step; [|step; golia]. do 2 step; [|step; [|step; golia]].
  - eapply outcome_bind; [apply leaf_spec| |intros e s1 H; golia].
    intros [l n] s1 H. step. cbn [node_size fst snd] in *. lia.
  - eapply outcome_bind; [apply inode_spec| |intros e s1 H; exact H].
    intros [n c] s1 H. step. cbn [node_size fst snd] in *. lia.
Qed.

Lemma decode_depth_total_l : forall b s, fst (depth_unmarshal b s) <> Panic.
Proof. intros b s. exact (outcome_no_panic _ _ _ (depth_spec b s)). Qed.

Lemma decode_key_total_l : forall b s, fst (key_sized_unmarshal b s) <> Panic.
Proof. intros b s. exact (outcome_no_panic _ _ _ (key_spec b s)). Qed.

Lemma decode_leaf_total_l : forall b s, fst (leaf_sized_unmarshal b s) <> Panic.
Proof. intros b s. exact (outcome_no_panic _ _ _ (leaf_spec b s)). Qed.

Lemma decode_internal_total_l : forall b s, fst (inode_sized_unmarshal b s) <> Panic.
Proof. intros b s. exact (outcome_no_panic _ _ _ (inode_spec b s)). Qed.

Lemma decode_node_total_l : forall b s, fst (node_unmarshal b s) <> Panic.
Proof. intros b s. exact (outcome_no_panic _ _ _ (node_spec b s)). Qed.

Lemma decode_key_bounded_l : forall b s k n s',
  key_sized_unmarshal b s = (Ok (k, n), s') ->
  n <= glen b /\ glen k <= n /\ s' = s + glen k.
Proof.
  intros b s k n s' H. pose proof (outcome_ok _ _ _ _ _ (key_spec b s) H) as HK. cbn in HK. lia.
Qed.

Lemma decode_leaf_bounded_l : forall b s l n s',
  leaf_sized_unmarshal b s = (Ok (l, n), s') ->
  n <= glen b /\ leaf_size l <= n /\ s' = s + leaf_size l.
Proof.
  intros b s l n s' H. pose proof (outcome_ok _ _ _ _ _ (leaf_spec b s) H) as HK. cbn in HK. lia.
Qed.

Lemma decode_internal_bounded_l : forall b s nd n s',
  inode_sized_unmarshal b s = (Ok (nd, n), s') ->
  n <= glen b /\ inode_size nd <= n /\ s' <= s + inode_size nd /\
  glen (ilabel nd) = depth_to_bytes (ilbl nd).
Proof.
  intros b s nd n s' H. pose proof (outcome_ok _ _ _ _ _ (inode_spec b s) H) as HK. cbn in HK. lia.
Qed.

Lemma decode_node_bounded_l : forall b s nd s',
  node_unmarshal b s = (Ok nd, s') -> node_size nd <= glen b /\ s' <= s + node_size nd.
Proof. intros b s nd s' H. exact (outcome_ok _ _ _ _ _ (node_spec b s) H). Qed.

(* bytes requested through make() never exceed the input length, on every
   path, including the error paths (declared lengths are checked first) *)
Lemma decode_alloc_bounded_l : forall b s,
  snd (key_sized_unmarshal b s) <= s + glen b /\
  snd (leaf_sized_unmarshal b s) <= s + glen b /\
  snd (inode_sized_unmarshal b s) <= s + glen b /\
  snd (node_unmarshal b s) <= s + glen b.
Proof.
  intros b s. repeat apply conj.
  - apply (outcome_alloc _ _ _ _ (key_spec b s)); cbn; intros; lia.
  - apply (outcome_alloc _ _ _ _ (leaf_spec b s)); cbn; intros; lia.
  - apply (outcome_alloc _ _ _ _ (inode_spec b s)); cbn; intros; lia.
  - apply (outcome_alloc _ _ _ _ (node_spec b s)); cbn; intros; lia.
Qed.

(* the example of the design: a truncated internal node whose declared label
   length (0x0040 bits = 8 bytes) exceeds the input is an error, not a panic *)
Example truncated_internal_is_err :
  run (inode_sized_unmarshal [1; 64; 0; 170; 187]) = (Err E_NODE, 0) /\
  run (node_unmarshal [1; 64; 0; 170; 187]) = (Err E_NODE, 0).
Proof. split; vm_compute; reflexivity. Qed.

(* and a leaf whose declared value size is 2^32-1 allocates nothing *)
Example huge_value_is_err :
  run (leaf_sized_unmarshal [0; 1; 0; 7; 255; 255; 255; 255; 1; 2]) = (Err E_NODE, 1).
Proof. vm_compute. reflexivity. Qed.
