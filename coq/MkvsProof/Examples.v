(* Non-vacuity examples on a 5-key tree, and the witness against completeness
   without the height bound: a 130-key trie, shown equal to an explicit left
   spine ([chain]) so that nothing about it is evaluated.  The examples take
   acceptance from the completeness equation and evaluate only lookups; the few
   that compare hashes do so with the toy hash in a cheaper, equal form ([Hcf]). *)
From Verif Require Import Lib.Base Mkvs.Trie Mkvs.BitsProofs Mkvs.TrieProofs Mkvs.HashProofs
  MkvsProof.Model MkvsProof.Sound MkvsProof.Complete.

(* a toy 32-byte hash, only to evaluate examples (the theorems are about any H) *)
Definition Hc (x : bytes) : bytes :=
  le_bytes 32 (fold_left (fun a b => a * 257 + b + 1) x 7).
Lemma Hc_len x : length (Hc x) = HASH_SIZE.
Proof. unfold Hc. apply le_bytes_len. Qed.

(* [Hc] with the multiplication by 257 = 2^8 + 1 and the base-256 digits done
   by shifts and masks: the same function, far cheaper to evaluate inside the
   kernel (no division of a number of several hundred bits) *)
Fixpoint digits (n : nat) (a : N) : bytes :=
  match n with O => [] | S m => N.land a 255 :: digits m (N.shiftr a 8) end.
Definition Hcf (x : bytes) : bytes := digits 32 (fold_left (fun a b => N.shiftl a 8 + a + b + 1) x 7).

Lemma Hcf_eq x : Hc x = Hcf x.
Proof.
  unfold Hc, Hcf. generalize 7. generalize 32%nat.
  assert (forall n a, le_bytes n a = digits n a) as D.
  { induction n as [|n IH]; intros a; [reflexivity|]. cbn [le_bytes digits].
    change 255 with (N.ones 8). now rewrite IH, N.shiftr_div_pow2, N.land_ones. }
  intros n a. rewrite D. f_equal. revert a.
  induction x as [|b x IH]; intros a; [reflexivity|]. cbn [fold_left].
  rewrite N.shiftl_mul_pow2. change (2 ^ 8) with 256. rewrite <- IH. f_equal. lia.
Qed.

Lemma eval_hexpr_ext H H' e : (forall x, H x = H' x) -> eval_hexpr H e = eval_hexpr H' e.
Proof. intros E. induction e; cbn; congruence. Qed.

Lemma bgp_ext H H' ver sib k t : (forall x, H x = H' x) -> forall d, bgp H ver sib k d t = bgp H' ver sib k d t.
Proof.
  intros E.
  assert (forall t, hent H t = hent H' t) as Eh.
  { intros [| |]; cbn [hent]; unfold root_hash; now rewrite ?(eval_hexpr_ext H H' _ E). }
  assert (forall lf, hent_lf H lf = hent_lf H' lf) as El.
  { intros [[? ?]|]; cbn [hent_lf]; now rewrite ?(eval_hexpr_ext H H' _ E). }
  assert (forall t, side H ver sib t = side H' ver sib t) as Es.
  { intros t0. unfold side, stub. destruct sib, t0; now rewrite ?Eh, ?El. }
  induction t as [|k0 v0|lbl lf l IHl r IHr]; intros d; cbn [bgp]; try reflexivity.
  now rewrite !Eh, !El, !Es, IHl, IHr.
Qed.

Lemma verify_ext H H' ver root u es : (forall x, H x = H' x) -> verify H ver root u es = verify H' ver root u es.
Proof.
  intros E. unfold verify. destruct (1 <? ver), (negb (bytes_eqb u root)), es as [|e es]; try reflexivity.
  destruct (vp VP_FUEL ver 0 (e :: es)) as [p [|]|]; try reflexivity.
  unfold phash. now rewrite (eval_hexpr_ext H H' _ E), E.
Qed.

(* a 5-key tree with a key that is a prefix of others, and the empty key *)
Definition ex_ops : list op :=
  [OIns [1] [10]; OIns [1; 2; 3] [11]; OIns [1; 2; 4] [12]; OIns [128] [13]; OIns [] [14]].
Definition ex_t : tree := run ex_ops.

Lemma ex_t_wf : wf ex_t.
Proof. apply run_wf. repeat constructor; cbn; lia. Qed.
Lemma ex_t_bounded : bounded ex_t.
Proof. vm_compute. repeat split. Qed.

Lemma ex_t_height : (height ex_t <= 129)%nat.
Proof. apply Nat.leb_le. reflexivity. Qed.

(* Only this fact and the rejections of [ex_noncompact] compare hashes: that the
   honest proofs verify is the completeness theorem, and the lookups in the
   partial trees they describe never look at the bytes of a hash. *)
Lemma ex_root_ne : bytes_eqb (root_hash Hc ex_t) (Hc []) = false.
Proof. unfold root_hash. rewrite (eval_hexpr_ext Hc Hcf (hash_expr ex_t) Hcf_eq). vm_compute. reflexivity. Qed.

Lemma ex_get_proof ver sib k :
  ver <= 1 ->
  verify Hc ver (root_hash Hc ex_t) (root_hash Hc ex_t) (build_get_proof Hc ver sib k ex_t)
  = ROk (bgt Hc ver sib k 0 ex_t).
Proof.
  intros Hv. now rewrite (get_proof_verifies Hc Hc_len _ _ _ _ Hv ex_t_height), ex_root_ne.
Qed.

(* an absent key that is a prefix of a present one (and an extension of
   another): both versions, siblings on and off *)
Example ex_absent_prefix :
  forall ver sib, In ver [0; 1] ->
    match verify Hc ver (root_hash Hc ex_t) (root_hash Hc ex_t) (build_get_proof Hc ver sib [1; 2] ex_t) with
    | ROk p => plookup 0 [1; 2] p = Absent /\ plookup 0 [128] p <> Absent
    | RErr _ => False
    end.
Proof.
  intros ver sib Hv. rewrite ex_get_proof by (destruct Hv as [<-|[<-|[]]]; lia).
  split; [rewrite bgt_tlookup; reflexivity|]. destruct sib; lazy; discriminate.
Qed.

(* the hypotheses of verify_sound / proof_cannot_lie are satisfiable by a
   non-trivial proof *)
Example ex_sound_hyps :
  exists es p, verify Hc 1 (root_hash Hc ex_t) (root_hash Hc ex_t) es = ROk p /\
               Forall entry_wire es /\ bounded ex_t /\ wf ex_t /\ (3 < length es)%nat /\
               plookup 0 [1; 2; 4] p = Found [12].
Proof.
  exists (build_get_proof Hc 1 false [1; 2; 4] ex_t), (bgt Hc 1 false [1; 2; 4] 0 ex_t).
  split; [apply ex_get_proof; lia|].
  split; [|split; [exact ex_t_bounded|split; [exact ex_t_wf|split; [lazy; lia|rewrite bgt_tlookup; reflexivity]]]].
  lazy -[root_hash eval_hexpr Hc entry_wire]. repeat constructor.
Qed.

(* a truncated, an extended and a reordered version of an honest proof are rejected *)
Example ex_mutants_rejected :
  let es := build_get_proof Hc 0 false [1; 2; 4] ex_t in
  let root := root_hash Hc ex_t in
  verify Hc 0 root root (removelast es) = RErr EMalformed /\
  verify Hc 0 root root (es ++ [ENil]) = RErr EUnused /\
  verify Hc 0 root root (rev es) = RErr EUnused /\
  verify Hc 2 root root es = RErr EVersion /\
  verify Hc 1 root root es = RErr EMalformed.
Proof. intros es root. unfold verify. rewrite bytes_eqb_refl. lazy. repeat split. Qed.

(* entries in the FULL (non-compact) node encoding: the claimed child hashes are
   ignored, the node is hashed over the children the proof supplies.  With the
   honest children the proof is accepted exactly as the compact one; with a
   fabricated or missing child it is rejected even though the claimed hashes
   are the real ones. *)
Definition with_claim (c : bytes * bytes) (e : pentry) : pentry :=
  match e with EFull (NInt bl lb lf _) => EFull (NInt bl lb lf (Some c)) | _ => e end.

Lemma vp_with_claim f ver d c e rest : vp f ver d (with_claim c e :: rest) = vp f ver d (e :: rest).
Proof. destruct f; [reflexivity|]. destruct e as [|[k v|bl lb lf cl]|h|]; reflexivity. Qed.

Lemma verify_with_claim H ver root untrusted c es :
  verify H ver root untrusted (match es with e :: rest => with_claim c e :: rest | [] => [] end)
  = verify H ver root untrusted es.
Proof. destruct es as [|e rest]; [reflexivity|]. unfold verify. now rewrite vp_with_claim. Qed.

Example ex_noncompact :
  let es := build_get_proof Hc 0 false [128] ex_t in
  let root := root_hash Hc ex_t in
  let real := (root_hash Hc (match ex_t with Node _ _ l _ => l | _ => Nil end),
               root_hash Hc (match ex_t with Node _ _ _ r => r | _ => Nil end)) in
  let full := match es with e :: rest => with_claim real e :: rest | [] => [] end in
  (* honest children *)
  verify Hc 0 root root full = verify Hc 0 root root es /\
  (exists p, verify Hc 0 root root full = ROk p) /\
  (* fabricated right child: the present key [128] with another value *)
  verify Hc 0 root root (removelast full ++ [EFull (NLeaf [128] [66])]) = RErr EBadRoot /\
  (* dropped right subtree *)
  verify Hc 0 root root (removelast full ++ [ENil]) = RErr EBadRoot /\
  (* no children at all *)
  verify Hc 0 root root (firstn 1 full) = RErr EMalformed.
Proof.
  intros es root real full.
  split; [apply verify_with_claim|].
  split; [eexists; unfold full; rewrite verify_with_claim; apply ex_get_proof; lia|].
  (* the three rejections are evaluated, with the hash in its cheap form; the
     claimed pair [real] is never inspected and stays abstract *)
  assert (root = root_hash Hcf ex_t) as Er by exact (eval_hexpr_ext Hc Hcf (hash_expr ex_t) Hcf_eq).
  assert (es = build_get_proof Hcf 0 false [128] ex_t) as Ee by exact (bgp_ext Hc Hcf 0 false [128] ex_t Hcf_eq 0%nat).
  unfold full. clearbody es root real. subst es root.
  pose proof (fun es => verify_ext Hc Hcf 0 (root_hash Hcf ex_t) (root_hash Hcf ex_t) es Hcf_eq) as T.
  rewrite !T. vm_compute. repeat split.
Qed.

(* 130 keys, each a prefix of the next: the trie is a chain of 129 internal
   nodes and a leaf, so the honest proof for the longest key has an entry at
   depth 129 > maxProofDepth and the verifier rejects it (proof.go:354) *)
Definition deep_keys : list bytes := map (fun i => repeat 0 i) (seq 0 130).
Definition deep_ops : list op := map (fun k => OIns k [1]) deep_keys.
Definition deep_t : tree := run deep_ops.
Definition deep_k : bytes := repeat 0 129%nat.

Lemma deep_t_wf : wf deep_t.
Proof.
  apply run_wf. apply Forall_forall. intros o Hin.
  apply in_map_iff in Hin as (k & <- & Hk). apply in_map_iff in Hk as (i & <- & _).
  cbn. apply Forall_forall. intros x Hx. apply repeat_spec in Hx. subst. lia.
Qed.

(* the shape of that trie: [n] internal nodes on a left spine below the key
   [repeat 0 i], the label of the first one given, the others one zero byte *)
Fixpoint chain (lbl : path) (i n : nat) : tree :=
  match n with
  | O => Leaf (repeat 0 i) [1]
  | S m => Node lbl (Some (repeat 0 i, [1])) (chain (repeat false 8) (S i) m) Nil
  end.

Lemma bits_zeros n : bits_of (repeat 0 n) = repeat false (n * 8).
Proof. induction n as [|n IH]; [reflexivity|]. cbn [repeat bits_of]. rewrite IH. reflexivity. Qed.

Lemma skipn_zeros d m : skipn d (repeat false (d + m)) = repeat false m.
Proof. induction d as [|d IH]; [reflexivity|exact IH]. Qed.

Lemma lcp_zeros a b : lcp (repeat false a) (repeat false (a + b)) = a.
Proof. induction a as [|a IH]; [reflexivity|]. cbn. now rewrite IH. Qed.

Lemma bit_zeros n j : bit (repeat false n) j = false.
Proof. apply nth_repeat. Qed.

Lemma zeros_eqb i n : bytes_eqb (repeat 0 i) (repeat 0 (i + S n)) = false.
Proof. induction i as [|i IH]; [reflexivity|exact IH]. Qed.

Lemma chain_insert n : forall a i d, (d + a = i * 8)%nat ->
  insert d (repeat 0 (i + S n)) [1] (chain (repeat false a) i n) = chain (repeat false a) i (S n).
Proof.
  induction n as [|m IH]; intros a i d E; cbn [chain insert]; rewrite !bits_zeros.
  - rewrite zeros_eqb.
    replace (i * 8)%nat with (d + a)%nat by lia. replace ((i + 1) * 8)%nat with (d + (a + 8))%nat by lia.
    rewrite !skipn_zeros, lcp_zeros, !repeat_length, firstn_all2 by (rewrite repeat_length; lia).
    rewrite Nat.eqb_refl, !bit_zeros. destruct (Nat.eqb_spec (a + 8) a); [lia|].
    rewrite Nat.add_1_r. reflexivity.
  - rewrite !repeat_length.
    replace ((i + S (S m)) * 8)%nat with (d + (a + (S (S m)) * 8))%nat at 1 by lia.
    rewrite skipn_zeros, lcp_zeros, Nat.eqb_refl, bit_zeros.
    destruct (Nat.eqb_spec ((i + S (S m)) * 8) (d + a)); [lia|].
    rewrite Nat.add_succ_r. rewrite (IH 8%nat (S i)) by lia. reflexivity.
Qed.

Lemma deep_t_chain : deep_t = chain [] 0 129.
Proof.
  unfold deep_t, deep_ops, deep_keys, run.
  change 130%nat with (S 129). generalize 129%nat. intros n.
  induction n as [|n IH]; [reflexivity|].
  rewrite seq_S, !map_app, fold_left_app. cbn [map fold_left apply_op tinsert].
  etransitivity; [exact (f_equal _ IH)|]. apply (chain_insert n 0 0 0). reflexivity.
Qed.

Lemma chain_height n : forall lbl i, height (chain lbl i n) = S n.
Proof.
  induction n as [|m IH]; intros lbl i; [reflexivity|].
  cbn [chain height]. rewrite IH. now rewrite Nat.max_l by lia.
Qed.

Lemma chain_lookup n : forall lbl i d, (d + length lbl = i * 8)%nat ->
  lookup d (repeat 0 (i + n)) (chain lbl i n) = Some [1].
Proof.
  induction n as [|m IH]; intros lbl i d E; cbn [chain lookup].
  - now rewrite Nat.add_0_r, bytes_eqb_refl.
  - rewrite bits_zeros, repeat_length, bit_zeros, E.
    destruct (Nat.eqb_spec ((i + S m) * 8) (i * 8)); [lia|].
    destruct (Nat.ltb_spec ((i + S m) * 8) (i * 8)); [lia|].
    rewrite Nat.add_succ_r. apply (IH _ (S i)). cbn [length repeat]. lia.
Qed.

Example deep_t_height : height deep_t = 130%nat.
Proof. rewrite deep_t_chain. apply chain_height. Qed.

Lemma deep_t_present : tlookup deep_k deep_t = Some [1].
Proof. rewrite deep_t_chain. apply (chain_lookup 129 [] 0 0). reflexivity. Qed.

Section Spine.
  Variable H : bytes -> bytes.
  Hypothesis Hlen : forall x, length (H x) = HASH_SIZE.

  (* the LeafNode entry of a version 1 proof is a single entry *)
  Lemma vp_slot f ver depth (sib : bool) lf rest :
    vp (S f) ver depth ((if sib then full_lf lf else hent_lf H lf) :: rest) =
    if MAX_PROOF_DEPTH <? depth then VErr EDepth
    else VOk (if sib then olf_ptree lf else ph_lf H lf) rest.
  Proof.
    destruct sib, lf as [[k0 v0]|]; try reflexivity.
    cbn [vp hent_lf ph_lf eval_hexpr leaf_hexpr]. now rewrite Hlen, Nat.eqb_refl.
  Qed.

  (* the honest proof for the longest key follows the spine: its entries reach
     depth [depth + n] *)
  Lemma chain_rejected ver sib n : forall lbl i d f depth rest,
    (d + length lbl = i * 8)%nat -> 128 < depth + N.of_nat n -> (n < f)%nat ->
    vp f ver depth (bgp H ver sib (repeat 0 (i + n)) d (chain lbl i n) ++ rest) = VErr EDepth.
  Proof.
    induction n as [|m IH]; intros lbl i d f depth rest E Hd Hf; (destruct f as [|f]; [lia|]); cbn [chain bgp].
    - cbn [app vp]. destruct (N.ltb_spec MAX_PROOF_DEPTH depth) as [_|L]; [reflexivity|].
      change MAX_PROOF_DEPTH with 128 in L. lia.
    - rewrite bits_zeros, repeat_length, bit_zeros, E.
      destruct (Nat.eqb_spec ((i + S m) * 8) (i * 8)); [lia|].
      destruct (Nat.ltb_spec ((i + S m) * 8) (i * 8)); [lia|].
      rewrite Nat.add_succ_r.
      assert (forall rest', vp f ver (depth + 1)
                (bgp H ver sib (repeat 0 (S i + m)) (i * 8) (chain (repeat false 8) (S i) m) ++ rest') = VErr EDepth) as Left.
      { intros rest'. apply IH; cbn [length repeat]; lia. }
      unfold self_entry, v1. cbn [app vp].
      destruct (MAX_PROOF_DEPTH <? depth); [reflexivity|].
      destruct (ver =? 0); cbn [app]; rewrite <- app_assoc.
      + now rewrite Left.
      + destruct f as [|f]; [lia|]. rewrite vp_slot.
        destruct (MAX_PROOF_DEPTH <? depth + 1); [reflexivity|]. now rewrite Left.
  Qed.
  Lemma deep_proof_rejected ver sib :
    ver <= 1 ->
    verify H ver (root_hash H deep_t) (root_hash H deep_t) (build_get_proof H ver sib deep_k deep_t)
    = RErr EDepth.
  Proof.
    intros Hv. unfold verify, build_get_proof.
    destruct (N.ltb_spec 1 ver) as [L|_]; [lia|]. rewrite bytes_eqb_refl. cbn [negb].
    assert (vp VP_FUEL ver 0 (bgp H ver sib deep_k 0 deep_t) = VErr EDepth) as E.
    { rewrite deep_t_chain, <- (app_nil_r (bgp _ _ _ _ _ _)).
      apply (chain_rejected ver sib 129 [] 0 0); [reflexivity|lia|unfold VP_FUEL; lia]. }
    revert E. destruct (bgp H ver sib deep_k 0 deep_t) as [|e es]; intros E; [discriminate E|]. now rewrite E.
  Qed.
End Spine.

Theorem get_proof_complete_unbounded_refuted_l :
  exists H t k v, (forall x, length (H x) = HASH_SIZE) /\ wf t /\ tlookup k t = Some v /\
    forall ver sib, ver <= 1 ->
      verify H ver (root_hash H t) (root_hash H t) (build_get_proof H ver sib k t) = RErr EDepth.
Proof.
  exists Hc, deep_t, deep_k, [1].
  split; [exact Hc_len|]. split; [exact deep_t_wf|]. split; [exact deep_t_present|].
  intros ver sib Hv. apply (deep_proof_rejected Hc Hc_len), Hv.
Qed.
