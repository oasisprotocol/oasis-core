(* C18 — proofs about Verif.Pcs.Model.  The primitives (SHA-256, ECDSA, X.509,
   JSON, TupleHash) and the process-wide switches are Section variables: every
   theorem holds for all of them.
   Acceptance is inverted once: one specification per stage of [verify_parsed],
   assembled in [accept_parsed_implies_all_checks]; every "accepted -> ..." and
   "... -> never accepted" statement is a corollary of it.  Each parser is walked
   once ([parse_qe_inl], [parse_sig_inl], [parse_quote_inl]).  That the accepting
   times form an interval follows the syntax of the pipeline ([convex]).  The toy
   instance at the end serves the examples and the refutation witnesses. *)
From Verif Require Import Lib.Base Pcs.Model.

Lemma bind_ok {A B} (x : Res A) (f : A -> Res B) b :
  bind x f = Ok b -> exists a, x = Ok a /\ f a = Ok b.
Proof. destruct x as [a|r]; cbn [bind]; [eauto|discriminate]. Qed.

Lemma check_ok b r u : check b r = Ok u -> b = true.
Proof. destruct b; [reflexivity|discriminate]. Qed.

Lemma chk_ok {B} b r (k : unit -> Res B) x : bind (check b r) k = Ok x -> b = true /\ k tt = Ok x.
Proof. destruct b; [auto|discriminate]. Qed.

Lemma guard_inl {A E} (b : bool) (e : E) (x : A + E) a :
  (if b then inr e else x) = inl a -> b = false /\ x = inl a.
Proof. destruct b; [discriminate|auto]. Qed.

Lemma match_inl {A B E} (h : A + E) (k : A -> B + E) b :
  match h with inl a => k a | inr e => inr e end = inl b -> exists a, h = inl a /\ k a = inl b.
Proof. destruct h as [a|e]; [eauto|discriminate]. Qed.

Lemma find_first {A} (f : A -> bool) l x :
  find f l = Some x ->
  exists pre post, l = pre ++ x :: post /\ f x = true /\ forall y, In y pre -> f y = false.
Proof.
  induction l as [|a l IH]; cbn [find]; [discriminate|].
  destruct (f a) eqn:E.
  - intros H. injection H as <-. exists [], l. repeat split; auto. intros y [].
  - intros H. destruct (IH H) as (pre & post & -> & Hx & Hp).
    exists (a :: pre), post. repeat split; auto.
    intros y [<-|Hy]; auto.
Qed.

Lemma slice_length off len (b : bytes) : (off + len <= length b)%nat -> length (slice off len b) = len.
Proof. unfold slice. intros H. rewrite firstn_length, skipn_length. lia. Qed.

Lemma slice_prefix n off len (b : bytes) :
  (off + len <= n)%nat -> slice off len (slice 0 n b) = slice off len b.
Proof.
  unfold slice. intros H. cbn [skipn].
  rewrite skipn_firstn_comm, firstn_firstn, Nat.min_l by lia. reflexivity.
Qed.

Lemma slice_halves n m (b : bytes) : length b = (n + m)%nat -> b = slice 0 n b ++ slice n m b.
Proof.
  unfold slice. intros H. cbn [skipn].
  rewrite (firstn_all2 (n := m)) by (rewrite skipn_length; lia). symmetry. apply firstn_skipn.
Qed.

Section Pcs.
  Variable P : Prims.
  Variable env : Env.

  Definition in_window (period : N) (issue ts : Z) : Prop :=
    (issue <= ts /\ ts - issue <= Z.of_N period * day_ns)%Z.

  Definition fmspc_policy_ok (pol : Policy) (f : bytes) : Prop :=
    (p_whitelist pol = [] \/ mem_bytes f (p_whitelist pol) = true) /\ mem_bytes f (p_blacklist pol) = false.

  (* QE identity matches the QE report (tcb.go:643-737) *)
  Definition qe_identity_matches (qi : QeId) (rep : bytes) : Prop :=
    exists ms misc miscm at_ atm lv,
      hex_of_len (qi_mrsigner qi) 32 = Some ms /\ ms = sgx_mrsigner rep /\
      qi_prodid qi = sgx_prodid rep /\
      hex_of_len (qi_miscselect qi) 4 = Some misc /\ hex_of_len (qi_miscmask qi) 4 = Some miscm /\
      N.land (sgx_miscselect rep) (le_val miscm) = le_val misc /\
      hex_of_len (qi_attrs qi) 16 = Some at_ /\ hex_of_len (qi_attrmask qi) 16 = Some atm /\
      N.land (sgx_flags rep) (le 0 8 atm) = le 0 8 at_ /\
      N.land (sgx_xfrm rep) (le 8 8 atm) = le 8 8 at_ /\
      find_enclave_level (sgx_isvsvn rep) (qi_levels qi) = Some lv /\ el_status lv = ST_UpToDate.

  Record AllChecks (pol : Policy) (ts : Z) (q : Quote) (c : Collateral) (out : Output) : Prop := {
    ac_enabled : p_disabled pol = false;
    ac_tee : q_tee q = TEE_TDX ->
             exists mods, p_tdx pol = Some mods /\ tdx_module_allowed mods (q_body q) = true;
    ac_debug : e_allow_debug env = (if q_tee q =? TEE_TDX then td_debug (q_body q) else sgx_debug (q_body q));
    ac_mrsigner : q_tee q <> TEE_TDX -> mem_bytes (sgx_mrsigner (q_body q)) (e_mrsigner_blacklist env) = false;
    ac_rest : exists pck tpk qi ti qissue tissue f lv,
      (* PCK chain valid at ts up to the trust root, leaf information *)
      q_cert_type q = 5 /\ pck_count P (q_cert_data q) = 3 /\
      pck_chain_ok P ts (q_cert_data q) = true /\ pck_info P (q_cert_data q) = PckOk pck /\
      (* QE report signed by the PCK key *)
      ecdsa_ok P (pk_key pck) (sha256 P (q_qe_report q)) (q_qe_sig q) = true /\
      (* QE report data binds the attestation key and the authentication data *)
      slice 0 32 (sgx_report_data (q_qe_report q)) = sha256 P (q_attkey q ++ q_auth q) /\
      slice 32 32 (sgx_report_data (q_qe_report q)) = zeros 32 /\
      (* header and report body signed by the attestation key *)
      att_key_valid P (q_attkey q) = true /\
      ecdsa_ok P (q_attkey q) (sha256 P (q_header q ++ q_body q)) (q_sig q) = true /\
      (* TCB bundle: chain valid at ts, both bodies signed by its key *)
      tcb_certs P (c_certs c) = Some (Some tpk) /\ tcb_chain_ok P ts (c_certs c) = true /\
      tcb_sig_ok P tpk (c_qeid c) (c_qeid_sig c) = true /\
      tcb_sig_ok P tpk (c_tcbinfo c) (c_tcbinfo_sig c) = true /\
      parse_qeid P (c_qeid c) = Some qi /\ parse_tcbinfo P (c_tcbinfo c) = Some ti /\
      qi_id qi = (if q_tee q =? TEE_TDX then s_TD_QE else s_QE) /\ qi_version qi = 2%Z /\
      ti_id ti = (if q_tee q =? TEE_TDX then s_TDX else s_SGX) /\ ti_version ti = 3%Z /\
      (* validity windows (the code's rule: issueDate <= ts <= issueDate + period days) *)
      qi_issue qi = Some qissue /\ qi_next qi <> None /\ in_window (p_period pol) qissue ts /\
      ti_issue ti = Some tissue /\ ti_next ti <> None /\ in_window (p_period pol) tissue ts /\
      p_min_eval pol <= qi_eval qi /\ p_min_eval pol <= ti_eval ti /\
      fmspc_policy_ok pol (ti_fmspc ti) /\ hexdecode (ti_fmspc ti) = Some f /\ f = pk_fmspc pck /\
      get_tcb_level ti (pk_compsvn pck) (tdx_svn_of q) (pk_pcesvn pck) = Ok lv /\
      status_allowed (e_lax env) (tl_status lv) = true /\
      qe_identity_matches qi (q_qe_report q) /\
      out = output_of P (q_tee q) (q_body q)
  }.

  Lemma pre_checks_spec pol q :
    pre_checks env pol q = Ok tt ->
    p_disabled pol = false /\
    (q_tee q = TEE_TDX -> exists mods, p_tdx pol = Some mods /\ tdx_module_allowed mods (q_body q) = true) /\
    e_allow_debug env = (if q_tee q =? TEE_TDX then td_debug (q_body q) else sgx_debug (q_body q)) /\
    (q_tee q <> TEE_TDX -> mem_bytes (sgx_mrsigner (q_body q)) (e_mrsigner_blacklist env) = false).
  Proof.
    unfold pre_checks. intros H.
    apply chk_ok in H as [E0 H]. apply negb_true_iff in E0. split; [exact E0|].
    destruct (q_tee q =? TEE_TDX) eqn:ET.
    - apply N.eqb_eq in ET. apply chk_ok in H as [E1 H]. apply eqb_prop in E1.
      destruct (p_tdx pol) as [mods|]; [|discriminate H]. apply check_ok in H.
      split; [intros _; exists mods; auto|]. split; [exact E1|]. intros Hn. contradiction.
    - apply N.eqb_neq in ET. apply chk_ok in H as [E1 H]. apply negb_true_iff in E1.
      apply check_ok, eqb_prop in H.
      split; [intros T; contradiction|]. split; [exact H|]. intros _. exact E1.
  Qed.

  Lemma pck_stage_spec ts q pck :
    pck_stage P ts q = Ok pck ->
    q_cert_type q = 5 /\ pck_count P (q_cert_data q) = 3 /\
    pck_chain_ok P ts (q_cert_data q) = true /\ pck_info P (q_cert_data q) = PckOk pck.
  Proof.
    unfold pck_stage. intros H.
    apply chk_ok in H as [E1 H]. apply chk_ok in H as [E2 H]. apply chk_ok in H as [E3 H].
    destruct (pck_info P (q_cert_data q)) as [| |i]; try discriminate H. injection H as <-.
    apply N.eqb_eq in E1, E2. auto.
  Qed.

  Lemma qe_binding_spec pck q u :
    qe_binding P pck q = Ok u ->
    ecdsa_ok P (pk_key pck) (sha256 P (q_qe_report q)) (q_qe_sig q) = true /\
    slice 0 32 (sgx_report_data (q_qe_report q)) = sha256 P (q_attkey q ++ q_auth q) /\
    slice 32 32 (sgx_report_data (q_qe_report q)) = zeros 32.
  Proof.
    unfold qe_binding. intros H.
    apply chk_ok in H as [E1 H]. apply chk_ok in H as [E2 H]. apply check_ok in H.
    apply bytes_eqb_eq in E2, H. auto.
  Qed.

  Lemma tcb_key_stage_spec ts c tpk :
    tcb_key_stage P ts c = Ok tpk ->
    tcb_certs P (c_certs c) = Some (Some tpk) /\ tcb_chain_ok P ts (c_certs c) = true.
  Proof.
    unfold tcb_key_stage. intros H.
    destruct (tcb_certs P (c_certs c)) as [k|]; [|discriminate H].
    apply chk_ok in H as [E H]. destruct k as [pk|]; [|discriminate H]. injection H as <-. auto.
  Qed.

  Lemma window_of_checks period issue ts :
    not_future issue ts = true -> not_expired period issue ts = true -> in_window period issue ts.
  Proof. unfold not_future, not_expired, in_window. lia. Qed.

  Lemma qeid_validate_spec pol tee ts qi u :
    qeid_validate pol tee ts qi = Ok u ->
    qi_id qi = (if tee =? TEE_TDX then s_TD_QE else s_QE) /\ qi_version qi = 2%Z /\
    exists issue, qi_issue qi = Some issue /\ qi_next qi <> None /\ in_window (p_period pol) issue ts /\
    p_min_eval pol <= qi_eval qi.
  Proof.
    unfold qeid_validate. intros H.
    apply chk_ok in H as [E1 H]. apply chk_ok in H as [E2 H].
    destruct (qi_issue qi) as [issue|]; [|discriminate H]. destruct (qi_next qi); [|discriminate H].
    apply chk_ok in H as [E3 H]. apply chk_ok in H as [E4 H]. apply check_ok in H.
    apply bytes_eqb_eq in E1. apply Z.eqb_eq in E2. apply N.leb_le in H.
    split; [exact E1|]. split; [exact E2|]. exists issue.
    split; [reflexivity|]. split; [discriminate|]. split; [exact (window_of_checks _ _ _ E3 E4)|exact H].
  Qed.

  Lemma qeid_verify_spec qi rep u :
    qeid_verify qi rep = Ok u -> qe_identity_matches qi rep.
  Proof.
    unfold qeid_verify, qe_identity_matches. intros H.
    destruct (hex_of_len (qi_mrsigner qi) 32) as [ms|]; [|discriminate H].
    apply chk_ok in H as [E1 H]. apply chk_ok in H as [E2 H].
    destruct (hex_of_len (qi_miscselect qi) 4) as [misc|]; [|discriminate H].
    destruct (hex_of_len (qi_miscmask qi) 4) as [miscm|]; [|discriminate H].
    apply chk_ok in H as [E3 H].
    destruct (hex_of_len (qi_attrs qi) 16) as [at_|]; [|discriminate H].
    destruct (hex_of_len (qi_attrmask qi) 16) as [atm|]; [|discriminate H].
    apply chk_ok in H as [E4 H]. apply chk_ok in H as [E5 H].
    destruct (find_enclave_level (sgx_isvsvn rep) (qi_levels qi)) as [lv|]; [|discriminate H].
    apply check_ok in H.
    apply bytes_eqb_eq in E1. apply N.eqb_eq in E2, E3, E4, E5, H.
    exists ms, misc, miscm, at_, atm, lv. repeat split; assumption.
  Qed.

  Lemma qeid_stage_spec pol tee ts tpk c rep u :
    qeid_stage P pol tee ts tpk c rep = Ok u ->
    tcb_sig_ok P tpk (c_qeid c) (c_qeid_sig c) = true /\
    exists qi, parse_qeid P (c_qeid c) = Some qi /\ qeid_validate pol tee ts qi = Ok tt /\ qeid_verify qi rep = Ok tt.
  Proof.
    unfold qeid_stage. intros H. apply chk_ok in H as [E H].
    destruct (parse_qeid P (c_qeid c)) as [qi|]; [|discriminate H].
    apply bind_ok in H as ([] & V & W). destruct u. eauto.
  Qed.

  Lemma tcbinfo_validate_spec pol tee ts ti u :
    tcbinfo_validate pol tee ts ti = Ok u ->
    ti_id ti = (if tee =? TEE_TDX then s_TDX else s_SGX) /\ ti_version ti = 3%Z /\
    exists issue, ti_issue ti = Some issue /\ ti_next ti <> None /\ in_window (p_period pol) issue ts /\
    p_min_eval pol <= ti_eval ti /\ fmspc_policy_ok pol (ti_fmspc ti).
  Proof.
    unfold tcbinfo_validate. intros H.
    apply chk_ok in H as [E1 H]. apply chk_ok in H as [E2 H].
    destruct (ti_issue ti) as [issue|]; [|discriminate H]. destruct (ti_next ti); [|discriminate H].
    apply chk_ok in H as [E3 H]. apply chk_ok in H as [E4 H]. apply chk_ok in H as [E5 H].
    apply chk_ok in H as [E6 H]. apply check_ok, negb_true_iff in H.
    apply bytes_eqb_eq in E1. apply Z.eqb_eq in E2. apply N.leb_le in E5.
    split; [exact E1|]. split; [exact E2|]. exists issue.
    split; [reflexivity|]. split; [discriminate|]. split; [exact (window_of_checks _ _ _ E3 E4)|].
    split; [exact E5|]. split; [|exact H].
    apply orb_true_iff in E6 as [E6|E6]; [left|right; exact E6].
    destruct (p_whitelist pol); [reflexivity|discriminate].
  Qed.

  Lemma tcbinfo_stage_spec pol tee ts tpk c pck tdx u :
    tcbinfo_stage P env pol tee ts tpk c pck tdx = Ok u ->
    tcb_sig_ok P tpk (c_tcbinfo c) (c_tcbinfo_sig c) = true /\
    exists ti f lv, parse_tcbinfo P (c_tcbinfo c) = Some ti /\ tcbinfo_validate pol tee ts ti = Ok tt /\
      hexdecode (ti_fmspc ti) = Some f /\ f = pk_fmspc pck /\
      get_tcb_level ti (pk_compsvn pck) tdx (pk_pcesvn pck) = Ok lv /\
      status_allowed (e_lax env) (tl_status lv) = true.
  Proof.
    unfold tcbinfo_stage. intros H. apply chk_ok in H as [E1 H].
    destruct (parse_tcbinfo P (c_tcbinfo c)) as [ti|]; [|discriminate H].
    apply bind_ok in H as ([] & V & H).
    destruct (hexdecode (ti_fmspc ti)) as [f|] eqn:F; [|discriminate H].
    apply chk_ok in H as [E2 H]. apply bind_ok in H as (lv & L & H). apply check_ok in H.
    apply bytes_eqb_eq in E2. split; [exact E1|]. exists ti, f, lv. repeat split; auto.
  Qed.

  Lemma quote_sig_stage_spec q u :
    quote_sig_stage P q = Ok u ->
    att_key_valid P (q_attkey q) = true /\
    ecdsa_ok P (q_attkey q) (sha256 P (q_header q ++ q_body q)) (q_sig q) = true.
  Proof.
    unfold quote_sig_stage. intros H. apply chk_ok in H as [E H]. apply check_ok in H. auto.
  Qed.

  Lemma accept_parsed_implies_all_checks pol ts q c out :
    verify_parsed P env pol ts q c = Ok out -> AllChecks pol ts q c out.
  Proof.
    unfold verify_parsed. intros H.
    apply bind_ok in H as ([] & H0 & H). apply pre_checks_spec in H0 as (A0 & A1 & A2 & A3).
    apply bind_ok in H as (pck & H1 & H). apply pck_stage_spec in H1 as (B0 & B1 & B2 & B3).
    apply bind_ok in H as (u2 & H2 & H). apply qe_binding_spec in H2 as (C0 & C1 & C2).
    apply bind_ok in H as (tpk & H3 & H). apply tcb_key_stage_spec in H3 as (D0 & D1).
    apply bind_ok in H as (u4 & H4 & H). apply qeid_stage_spec in H4 as (F0 & qi & F1 & F2 & F3).
    apply qeid_validate_spec in F2 as (G0 & G1 & qissue & G2 & G3 & G4 & G5).
    apply qeid_verify_spec in F3.
    apply bind_ok in H as (u5 & H5 & H).
    apply tcbinfo_stage_spec in H5 as (I0 & ti & f & lv & I1 & I2 & I3 & I4 & I5 & I6).
    apply tcbinfo_validate_spec in I2 as (J0 & J1 & tissue & J2 & J3 & J4 & J5 & J6).
    apply bind_ok in H as (u6 & H6 & H). apply quote_sig_stage_spec in H6 as (K0 & K1).
    injection H as <-.
    constructor; auto.
    exists pck, tpk, qi, ti, qissue, tissue, f, lv.
    repeat match goal with |- _ /\ _ => split end; auto.
  Qed.

  Lemma verify_ok pol ts raw c out :
    verify P env pol ts raw c = Ok out ->
    exists q, parse_quote P raw = inl q /\ verify_parsed P env pol ts q c = Ok out.
  Proof. unfold verify. destruct (parse_quote P raw) as [q|e]; [eauto|discriminate]. Qed.

  Lemma accept_implies_all_checks_l pol ts raw c out :
    verify P env pol ts raw c = Ok out ->
    exists q, parse_quote P raw = inl q /\ AllChecks pol ts q c out.
  Proof.
    intros H. apply verify_ok in H as (q & E & H). exists q.
    split; [exact E|]. apply accept_parsed_implies_all_checks, H.
  Qed.

  Lemma parse_qe_inl version tee header body sig attkey d q :
    parse_qe P version tee header body sig attkey d = inl q ->
    384 <= blen d /\ q_tee q = tee /\ q_header q = header /\ q_body q = body /\ q_qe_report q = slice 0 384 d.
  Proof.
    (* nothing below depends on the values of the unary offsets: abstracted, so that no step carries them *)
    cbv beta delta [parse_qe]. generalize 384%nat, 448%nat, 450%nat. intros o384 o448 o450 H. cbv zeta in H.
    apply guard_inl in H as [L H]. apply N.ltb_ge in L. split; [exact L|].
    do 6 apply guard_inl in H as [_ H].
    destruct (_ || _); [destruct (_ =? 404)|destruct (_ =? 5); [destruct (pem_ok P _)|]];
      try discriminate H; injection H as <-; auto.
  Qed.

  Lemma parse_sig_inl version tee header body sd q :
    parse_sig P version tee header body sd = inl q ->
    q_tee q = tee /\ q_header q = header /\ q_body q = body /\ blen (q_qe_report q) = 384.
  Proof.
    unfold parse_sig. intros H. apply guard_inl in H as [_ H]. cbv zeta in H.
    assert (exists d, parse_qe P version tee header body (slice 0 64 sd) (slice 64 64 sd) d = inl q) as [d Hd].
    { destruct (version =? 4); [do 2 apply guard_inl in H as [_ H]|]; eauto. }
    apply parse_qe_inl in Hd as (L & Ht & Hh & Hb & Hr).
    repeat split; auto. unfold blen in *. rewrite Hr, slice_length; lia.
  Qed.

  Lemma parse_quote_inl raw q :
    parse_quote P raw = inl q ->
    (q_header q = slice 0 48 raw /\
     q_body q = slice 48 (if q_tee q =? TEE_TDX then 584 else 384) raw /\
     (q_tee q = TEE_SGX \/ q_tee q = TEE_TDX)) /\
    436 <= blen raw /\
    q_tee q = (if le 0 2 raw =? 3 then TEE_SGX else le 4 4 raw) /\
    blen (q_qe_report q) = 384.
  Proof.
    (* as in [parse_qe_inl], with the offsets abstracted *)
    cbv beta delta [parse_quote]. generalize 48%nat, 384%nat, 584%nat. intros o48 o384 o584 H. cbv zeta in H.
    apply guard_inl in H as [L H]. apply N.ltb_ge in L.
    apply match_inl in H as (tee & Eh & H).
    assert (tee = (if le 0 2 raw =? 3 then TEE_SGX else le 4 4 raw) /\ (tee = TEE_SGX \/ tee = TEE_TDX)) as [T1 T2].
    { destruct (le 0 2 raw =? 3).
      - destruct (le 4 4 raw =? 0); [injection Eh as <-; auto|discriminate Eh].
      - destruct (le 0 2 raw =? 4); [|discriminate Eh].
        apply guard_inl in Eh as [Et Eh]. apply guard_inl in Eh as [_ Eh]. injection Eh as <-.
        apply negb_false_iff, orb_true_iff in Et. rewrite !N.eqb_eq in Et. auto. }
    apply guard_inl in H as [_ H].
    apply match_inl in H as (bl & Eb & H).
    do 3 apply guard_inl in H as [_ H]. apply parse_sig_inl in H as (-> & Hh & Hb & Hr).
    assert (bl = if tee =? TEE_TDX then o584 else o384) as ->.
    { destruct (tee =? TEE_TDX); [do 2 apply guard_inl in Eb as [_ Eb]|]; injection Eb as <-; reflexivity. }
    auto 6.
  Qed.

  Definition signed_region (q : Quote) : bytes := q_header q ++ q_body q.

  Lemma output_is_function_of_signed_body pol ts q c out :
    verify_parsed P env pol ts q c = Ok out ->
    out = output_of P (q_tee q) (q_body q) /\
    ecdsa_ok P (q_attkey q) (sha256 P (signed_region q)) (q_sig q) = true.
  Proof.
    intros H. apply accept_parsed_implies_all_checks in H.
    destruct H as [_ _ _ _ (pck & tpk & qi & ti & qissue & tissue & f & lv & R)].
    decompose [and] R. unfold signed_region. auto.
  Qed.

  (* the header is the first 48 bytes of the signed region, the TEE type is read from the header,
     and the output is computed from TEE type and body *)
  Lemma output_covered_by_signature_l pol1 pol2 ts1 ts2 raw1 raw2 c1 c2 o1 o2 :
    verify P env pol1 ts1 raw1 c1 = Ok o1 ->
    verify P env pol2 ts2 raw2 c2 = Ok o2 ->
    (forall q1 q2, parse_quote P raw1 = inl q1 -> parse_quote P raw2 = inl q2 -> signed_region q1 = signed_region q2) ->
    o1 = o2.
  Proof.
    intros H1 H2 Hs.
    apply verify_ok in H1 as (q1 & E1 & H1), H2 as (q2 & E2 & H2).
    specialize (Hs q1 q2 E1 E2).
    apply output_is_function_of_signed_body in H1 as [-> _], H2 as [-> _].
    apply parse_quote_inl in E1 as ((Hh1 & _) & L1 & T1 & _), E2 as ((Hh2 & _) & L2 & T2 & _).
    unfold blen in L1, L2.
    apply app_inv_len in Hs as [Hh Hb]; [|rewrite Hh1, Hh2, !slice_length by lia; reflexivity].
    assert (Hle : forall off len, (off + len <= 48)%nat -> le off len raw1 = le off len raw2).
    { intros off len L. unfold le.
      rewrite <- (slice_prefix 48 off len raw1 L), <- (slice_prefix 48 off len raw2 L), <- Hh1, <- Hh2, Hh.
      reflexivity. }
    rewrite T1, T2, Hb, (Hle 0 2)%nat, (Hle 4 4)%nat by lia. reflexivity.
  Qed.

  (* components that are outside every signed region and not read by any check:
     the slack after the certification data.  Verdict and output do not depend on it. *)
  Definition set_slack (q : Quote) (s : bytes) : Quote :=
    mkQuote (q_version q) (q_tee q) (q_header q) (q_body q) (q_sig q) (q_attkey q) (q_qe_report q)
            (q_qe_sig q) (q_auth q) (q_cert_type q) (q_cert_data q) s.

  Lemma unread_components_irrelevant pol ts q c s :
    verify_parsed P env pol ts (set_slack q s) c = verify_parsed P env pol ts q c.
  Proof. reflexivity. Qed.

  (* neither the version field nor the slack is among the components the verdict depends on *)
  Lemma verdict_frame pol ts q q' c :
    q_tee q = q_tee q' -> q_body q = q_body q' -> q_header q = q_header q' -> q_sig q = q_sig q' ->
    q_attkey q = q_attkey q' -> q_qe_report q = q_qe_report q' -> q_qe_sig q = q_qe_sig q' ->
    q_auth q = q_auth q' -> q_cert_type q = q_cert_type q' -> q_cert_data q = q_cert_data q' ->
    verify_parsed P env pol ts q c = verify_parsed P env pol ts q' c.
  Proof.
    intros. unfold verify_parsed, pre_checks, pck_stage, qe_binding, qeid_stage, tcbinfo_stage, quote_sig_stage, tdx_svn_of.
    repeat match goal with E : _ q = _ q' |- _ => rewrite E; clear E end. reflexivity.
  Qed.

  Lemma expired_never_accepted_l pol ts raw c :
    (forall qi issue, parse_qeid P (c_qeid c) = Some qi -> qi_issue qi = Some issue ->
                      ~ in_window (p_period pol) issue ts)
    \/ (forall ti issue, parse_tcbinfo P (c_tcbinfo c) = Some ti -> ti_issue ti = Some issue ->
                      ~ in_window (p_period pol) issue ts)
    \/ pck_chain_ok P ts (match parse_quote P raw with inl q => q_cert_data q | inr _ => [] end) = false
    \/ tcb_chain_ok P ts (c_certs c) = false ->
    forall out, verify P env pol ts raw c <> Ok out.
  Proof.
    intros Hx out H. apply accept_implies_all_checks_l in H as (q & Ep & [_ _ _ _ R]).
    destruct R as (pck & tpk & qi & ti & qissue & tissue & f & lv & R). decompose [and] R. clear R.
    rewrite Ep in Hx.
    destruct Hx as [Hx|[Hx|[Hx|Hx]]]; [eapply Hx; eassumption|eapply Hx; eassumption|congruence|congruence].
  Qed.

  Lemma status_allowed_true lax s :
    status_allowed lax s = true ->
    s = ST_UpToDate \/ s = ST_SWHardeningNeeded \/
    lax = true /\ (s = ST_OutOfDate \/ s = ST_ConfigurationNeeded \/ s = ST_OutOfDateConfigurationNeeded).
  Proof.
    unfold status_allowed. lia.
  Qed.

  Lemma disallowed_status_never_accepted_l pol ts raw c out :
    verify P env pol ts raw c = Ok out ->
    exists q pck ti lv, parse_quote P raw = inl q /\ pck_info P (q_cert_data q) = PckOk pck /\
      parse_tcbinfo P (c_tcbinfo c) = Some ti /\
      get_tcb_level ti (pk_compsvn pck) (tdx_svn_of q) (pk_pcesvn pck) = Ok lv /\
      (tl_status lv = ST_UpToDate \/ tl_status lv = ST_SWHardeningNeeded \/
       e_lax env = true /\ (tl_status lv = ST_OutOfDate \/ tl_status lv = ST_ConfigurationNeeded \/
                            tl_status lv = ST_OutOfDateConfigurationNeeded)).
  Proof.
    intros H. apply accept_implies_all_checks_l in H as (q & Ep & [_ _ _ _ R]).
    destruct R as (pck & tpk & qi & ti & qissue & tissue & f & lv & R). decompose [and] R. clear R.
    exists q, pck, ti, lv. repeat split; auto using status_allowed_true.
  Qed.

  Lemma foreign_fmspc_never_accepted_l pol ts raw c :
    (forall q pck ti, parse_quote P raw = inl q -> pck_info P (q_cert_data q) = PckOk pck ->
                      parse_tcbinfo P (c_tcbinfo c) = Some ti ->
                      hexdecode (ti_fmspc ti) <> Some (pk_fmspc pck)
                      \/ mem_bytes (ti_fmspc ti) (p_blacklist pol) = true
                      \/ (p_whitelist pol <> [] /\ mem_bytes (ti_fmspc ti) (p_whitelist pol) = false)
                      \/ ti_id ti <> (if q_tee q =? TEE_TDX then s_TDX else s_SGX)) ->
    forall out, verify P env pol ts raw c <> Ok out.
  Proof.
    intros Hx out H. apply accept_implies_all_checks_l in H as (q & Ep & [_ _ _ _ R]).
    destruct R as (pck & tpk & qi & ti & qissue & tissue & f & lv & R). decompose [and] R. clear R.
    assert (fmspc_policy_ok pol (ti_fmspc ti)) as [W B] by assumption.
    destruct (Hx q pck ti) as [Hy|[Hy|[[Hy Hz]|Hy]]]; try assumption.
    - apply Hy. congruence.
    - congruence.
    - destruct W; congruence.
    - congruence.
  Qed.

  Lemma find_enclave_level_find isvsvn l :
    find_enclave_level isvsvn l = find (fun x => el_isvsvn x <=? isvsvn) l.
  Proof. induction l as [|a l IH]; cbn [find_enclave_level find]; [|rewrite IH]; reflexivity. Qed.

  Definition first_matching_level (ti : TcbInfo) (sgxsvn : list Z) (tdxsvn : option bytes) (pcesvn : N) (lv : TcbLevel) : Prop :=
    exists pre post, ti_levels ti = pre ++ lv :: post /\
      level_matches sgxsvn tdxsvn pcesvn lv = true /\
      (forall l, In l pre -> level_matches sgxsvn tdxsvn pcesvn l = false).

  (* for a TDX TCB info with TEE TCB SVN[1] >= 1 the module identity "TDX_<SVN[1]>" must exist and its first level
     with isvsvn <= SVN[0] must be UpToDate (tcb.go:351-394) *)
  Definition tdx_module_ok (ti : TcbInfo) (tdxsvn : option bytes) : Prop :=
    ti_id ti = s_TDX ->
    exists t, tdxsvn = Some t /\
      (1 <= nth 1 t 0 ->
       exists m ml pre post, find_module (tdx_module_id (nth 1 t 0)) (ti_modids ti) = Some m /\
         tm_levels m = pre ++ ml :: post /\ el_isvsvn ml <= nth 0 t 0 /\
         (forall y, In y pre -> nth 0 t 0 < el_isvsvn y) /\ el_status ml = ST_UpToDate).

  Lemma get_tcb_level_spec ti sgxsvn tdxsvn pcesvn lv :
    get_tcb_level ti sgxsvn tdxsvn pcesvn = Ok lv ->
    first_matching_level ti sgxsvn tdxsvn pcesvn lv /\ tl_status lv <> ST_MISSING /\ tdx_module_ok ti tdxsvn.
  Proof.
    unfold get_tcb_level. intros H.
    destruct (find (level_matches sgxsvn tdxsvn pcesvn) (ti_levels ti)) as [l|] eqn:EF; [|discriminate H].
    apply chk_ok in H as [EM H]. apply negb_true_iff, N.eqb_neq in EM.
    apply find_first in EF as (pre & post & A & B & C).
    (* the remaining branches return [l] or reject: what is left is the module rule *)
    enough (lv = l /\ tdx_module_ok ti tdxsvn) as [-> M] by (split; [exists pre, post|]; auto).
    unfold tdx_module_ok. destruct (bytes_eqb (ti_id ti) s_TDX) eqn:EI.
    - destruct tdxsvn as [t|]; [|discriminate H].
      destruct (1 <=? nth 1 t 0) eqn:EV.
      + destruct (find_module (tdx_module_id (nth 1 t 0)) (ti_modids ti)) as [m|] eqn:EMo; [|discriminate H].
        destruct (find_enclave_level (nth 0 t 0) (tm_levels m)) as [ml|] eqn:EL; [|discriminate H].
        apply chk_ok in H as [ES H]. apply N.eqb_eq in ES. injection H as <-. split; [reflexivity|].
        intros _. exists t. split; [reflexivity|]. intros _.
        rewrite find_enclave_level_find in EL. apply find_first in EL as (pre' & post' & A' & B' & C').
        apply N.leb_le in B'. exists m, ml, pre', post'. repeat split; auto.
        intros y Hy. apply N.leb_gt, C', Hy.
      + injection H as <-. split; [reflexivity|]. intros _. exists t. split; [reflexivity|]. lia.
    - injection H as <-. split; [reflexivity|]. intros Hid. apply bytes_eqb_eq in Hid. congruence.
  Qed.

  (* TdxQuotePolicy.Verify / TdxModulePolicy.Matches (policy.go:37-87): an entry matches iff EVERY field it sets
     matches -- the pinned MRSEAM (if any) AND the MRSIGNERSEAM; an empty list admits exactly the all-zero (Intel) signer *)
  Definition entry_matches (body : bytes) (m : TdxModulePolicy) : Prop :=
    (forall s, mp_mrseam m = Some s -> s = td_mrseam body) /\ mp_mrsigner m = td_mrsignerseam body.
  Definition tdx_policy_admits (mods : list TdxModulePolicy) (body : bytes) : Prop :=
    (exists m, In m mods /\ entry_matches body m) \/ (mods = [] /\ td_mrsignerseam body = zeros 48).

  Lemma module_matches_spec body m : module_matches body m = true <-> entry_matches body m.
  Proof.
    unfold module_matches, entry_matches. rewrite andb_true_iff, bytes_eqb_eq. apply and_iff_compat_r.
    destruct (mp_mrseam m) as [s|].
    - rewrite bytes_eqb_eq. split; [intros -> s0 [= <-]; reflexivity|intros A; apply A; reflexivity].
    - split; [intros _ s0 [=]|reflexivity].
  Qed.

  Lemma tdx_module_allowed_spec mods body : tdx_module_allowed mods body = true <-> tdx_policy_admits mods body.
  Proof.
    unfold tdx_module_allowed, tdx_policy_admits.
    rewrite orb_true_iff, existsb_exists, andb_true_iff, bytes_eqb_eq.
    setoid_rewrite module_matches_spec.
    destruct mods; intuition congruence.
  Qed.

  (* what acceptance of a raw quote + collateral establishes, in one piece, clause by clause as the code enforces it *)
  Record ChainAndTcb (pol : Policy) (ts : Z) (q : Quote) (c : Collateral) (out : Output) : Prop := {
    (* 0. policy: not disabled; a TDX quote needs a TDX policy that admits the module of the (signed) TD report;
          the debug attribute of the report equals the process mode *)
    ct_policy : p_disabled pol = false /\
                (q_tee q = TEE_TDX -> exists mods, p_tdx pol = Some mods /\ tdx_policy_admits mods (q_body q)) /\
                e_allow_debug env = (if q_tee q =? TEE_TDX then td_debug (q_body q) else sgx_debug (q_body q));
    (* 1. PCK chain: three certificates, path-valid at ts up to the pinned root (abstract X.509) *)
    ct_pck_chain : q_cert_type q = 5 /\ pck_count P (q_cert_data q) = 3 /\ pck_chain_ok P ts (q_cert_data q) = true;
    ct_links : exists pck tpk ti qi tissue qissue lv,
      pck_info P (q_cert_data q) = PckOk pck /\
      (* 2. QE report signed by the PCK leaf key *)
      ecdsa_ok P (pk_key pck) (sha256 P (q_qe_report q)) (q_qe_sig q) = true /\
      (* 3. QE report data = SHA-256(attestation key || authentication data) || 0^32 *)
      sgx_report_data (q_qe_report q) = sha256 P (q_attkey q ++ q_auth q) ++ zeros 32 /\
      (* 4. header || report body signed by that attestation key *)
      ecdsa_ok P (q_attkey q) (sha256 P (q_header q ++ q_body q)) (q_sig q) = true /\
      (* 5. TCB signing chain path-valid at ts; TCB info and QE identity bodies signed by its key *)
      tcb_certs P (c_certs c) = Some (Some tpk) /\ tcb_chain_ok P ts (c_certs c) = true /\
      tcb_sig_ok P tpk (c_tcbinfo c) (c_tcbinfo_sig c) = true /\ tcb_sig_ok P tpk (c_qeid c) (c_qeid_sig c) = true /\
      parse_tcbinfo P (c_tcbinfo c) = Some ti /\ parse_qeid P (c_qeid c) = Some qi /\
      (* 6. the platform TCB level used is the first level of the signed TCB info not above the platform's SVNs *)
      first_matching_level ti (pk_compsvn pck) (tdx_svn_of q) (pk_pcesvn pck) lv /\
      tdx_module_ok ti (tdx_svn_of q) /\
      (* 7. its status is admitted: UpToDate / SWHardeningNeeded, or (lax switch) OutOfDate / ConfigurationNeeded / both *)
      status_allowed (e_lax env) (tl_status lv) = true /\
      (* 8. evaluation data numbers of both bodies >= policy minimum *)
      p_min_eval pol <= ti_eval ti /\ p_min_eval pol <= qi_eval qi /\
      (* 9. not expired / not from the future at ts -- by the code's rule issueDate <= ts <= issueDate + period days *)
      ti_issue ti = Some tissue /\ in_window (p_period pol) tissue ts /\
      qi_issue qi = Some qissue /\ in_window (p_period pol) qissue ts /\
      (* 10. the platform binding and the QE identity *)
      hexdecode (ti_fmspc ti) = Some (pk_fmspc pck) /\ qe_identity_matches qi (q_qe_report q) /\
      (* 11. what is returned *)
      out = output_of P (q_tee q) (q_body q)
  }.

  Lemma accept_chain_and_tcb_parsed pol ts q c out :
    384 <= blen (q_qe_report q) ->
    verify_parsed P env pol ts q c = Ok out -> ChainAndTcb pol ts q c out.
  Proof.
    intros L H.
    assert (L64 : length (sgx_report_data (q_qe_report q)) = (32 + 32)%nat).
    { unfold sgx_report_data. apply slice_length. unfold blen in L. lia. }
    apply accept_parsed_implies_all_checks in H.
    destruct H as [P0 P1 P2 _ (pck & tpk & qi & ti & qissue & tissue & f & lv & R)].
    decompose [and] R. clear R. subst f.
    pose proof (get_tcb_level_spec _ _ _ _ _ ltac:(eassumption)) as (F1 & F2 & F3).
    assert (D : sgx_report_data (q_qe_report q) = sha256 P (q_attkey q ++ q_auth q) ++ zeros 32).
    { rewrite (slice_halves 32 32 _ L64). congruence. }
    constructor; [|auto|].
    - split; [exact P0|]. split; [|exact P2].
      intros Ht. destruct (P1 Ht) as (mods & A & B). exists mods. split; [exact A|]. apply tdx_module_allowed_spec, B.
    - exists pck, tpk, ti, qi, tissue, qissue, lv.
      repeat match goal with |- _ /\ _ => split end; auto.
  Qed.

  Lemma accept_chain_and_tcb_l pol ts raw c out :
    verify P env pol ts raw c = Ok out ->
    exists q, parse_quote P raw = inl q /\ ChainAndTcb pol ts q c out.
  Proof.
    intros H. apply verify_ok in H as (q & E & H). exists q. split; [exact E|].
    apply accept_chain_and_tcb_parsed; [|exact H]. apply parse_quote_inl in E as (_ & _ & _ & ->). apply N.le_refl.
  Qed.

  (* [convex f]: the times at which [f] accepts form an interval, with one result on it.
     It holds of a pipeline as soon as it holds of its checks. *)
  Definition convex {A} (f : Z -> Res A) : Prop :=
    forall t1 t2 t3 a b, (t1 <= t2 <= t3)%Z -> f t1 = Ok a -> f t3 = Ok b -> f t2 = Ok a /\ b = a.

  Lemma convex_const {A} (x : Res A) : convex (fun _ => x).
  Proof. intros t1 t2 t3 a b _ Ha Hb. split; [exact Ha|congruence]. Qed.

  Lemma convex_check (ok : Z -> bool) r :
    (forall t1 t2 t3, (t1 <= t2 <= t3)%Z -> ok t1 = true -> ok t3 = true -> ok t2 = true) ->
    convex (fun t => check (ok t) r).
  Proof.
    intros Hok t1 t2 t3 [] [] Ht H1 H3. apply check_ok in H1, H3.
    rewrite (Hok _ _ _ Ht H1 H3). auto.
  Qed.

  Lemma convex_bind {A B} (f : Z -> Res A) (g : A -> Z -> Res B) :
    convex f -> (forall a, convex (g a)) -> convex (fun t => bind (f t) (fun a => g a t)).
  Proof.
    intros Hf Hg t1 t2 t3 x y Ht H1 H3.
    apply bind_ok in H1 as (a & F1 & G1), H3 as (b & F3 & G3).
    destruct (Hf _ _ _ _ _ Ht F1 F3) as [F2 ->]. rewrite F2. exact (Hg a _ _ _ _ _ Ht G1 G3).
  Qed.

  Definition interval_shaped (ok : Z -> bytes -> bool) : Prop :=
    forall x t1 t2 t3, (t1 <= t2 <= t3)%Z -> ok t1 x = true -> ok t3 x = true -> ok t2 x = true.

  (* every stage is convex in the verification time, provided the two certificate-chain validations are *)
  Hypothesis pck_chain_interval : interval_shaped (pck_chain_ok P).
  Hypothesis tcb_chain_interval : interval_shaped (tcb_chain_ok P).

  Lemma pck_stage_convex q : convex (fun ts => pck_stage P ts q).
  Proof.
    unfold pck_stage.
    apply convex_bind; [apply convex_const|intros _].
    apply convex_bind; [apply convex_const|intros _].
    apply convex_bind; [apply convex_check, pck_chain_interval|intros _; apply convex_const].
  Qed.

  Lemma tcb_key_stage_convex c : convex (fun ts => tcb_key_stage P ts c).
  Proof.
    unfold tcb_key_stage. destruct (tcb_certs P (c_certs c)) as [k|]; [|apply convex_const].
    apply convex_bind; [apply convex_check, tcb_chain_interval|intros _; apply convex_const].
  Qed.

  Lemma window_convex {A} period issue r1 r2 (k : Res A) :
    convex (fun ts => chk not_future issue ts orelse r1; chk not_expired period issue ts orelse r2; k).
  Proof.
    apply convex_bind; [apply convex_check; unfold not_future; lia|intros _].
    apply convex_bind; [apply convex_check; unfold not_expired; lia|intros _; apply convex_const].
  Qed.

  Lemma qeid_validate_convex pol tee qi : convex (fun ts => qeid_validate pol tee ts qi).
  Proof.
    unfold qeid_validate.
    apply convex_bind; [apply convex_const|intros _].
    apply convex_bind; [apply convex_const|intros _].
    destruct (qi_issue qi) as [issue|]; [|apply convex_const].
    destruct (qi_next qi); [apply window_convex|apply convex_const].
  Qed.

  Lemma tcbinfo_validate_convex pol tee ti : convex (fun ts => tcbinfo_validate pol tee ts ti).
  Proof.
    unfold tcbinfo_validate.
    apply convex_bind; [apply convex_const|intros _].
    apply convex_bind; [apply convex_const|intros _].
    destruct (ti_issue ti) as [issue|]; [|apply convex_const].
    destruct (ti_next ti); [apply window_convex|apply convex_const].
  Qed.

  Lemma qeid_stage_convex pol tee tpk c rep : convex (fun ts => qeid_stage P pol tee ts tpk c rep).
  Proof.
    unfold qeid_stage. apply convex_bind; [apply convex_const|intros _].
    destruct (parse_qeid P (c_qeid c)) as [qi|]; [|apply convex_const].
    apply convex_bind; [apply qeid_validate_convex|intros _; apply convex_const].
  Qed.

  Lemma tcbinfo_stage_convex pol tee tpk c pck tdx : convex (fun ts => tcbinfo_stage P env pol tee ts tpk c pck tdx).
  Proof.
    unfold tcbinfo_stage. apply convex_bind; [apply convex_const|intros _].
    destruct (parse_tcbinfo P (c_tcbinfo c)) as [ti|]; [|apply convex_const].
    apply convex_bind; [apply tcbinfo_validate_convex|intros _; apply convex_const].
  Qed.

  Lemma verify_convex pol raw c : convex (fun ts => verify P env pol ts raw c).
  Proof.
    unfold verify. destruct (parse_quote P raw) as [q|e]; [|apply convex_const]. unfold verify_parsed.
    apply convex_bind; [apply convex_const|intros _].
    apply convex_bind; [apply pck_stage_convex|intros pck].
    apply convex_bind; [apply convex_const|intros _].
    apply convex_bind; [apply tcb_key_stage_convex|intros tpk].
    apply convex_bind; [apply qeid_stage_convex|intros _].
    apply convex_bind; [apply tcbinfo_stage_convex|intros _; apply convex_const].
  Qed.

  Lemma validity_window_interval_l pol t1 t2 t3 raw c o1 o3 :
    (t1 <= t2 <= t3)%Z ->
    verify P env pol t1 raw c = Ok o1 -> verify P env pol t3 raw c = Ok o3 ->
    verify P env pol t2 raw c = Ok o1.
  Proof. intros Ht H1 H3. exact (proj1 (verify_convex pol raw c _ _ _ _ _ Ht H1 H3)). Qed.

End Pcs.

(* Non-vacuity: a concrete instantiation on which the pipeline accepts, and
   refutation witnesses for the statements the faithful model falsifies.  *)

Definition toy_sha (x : bytes) : bytes := firstn 32 (x ++ zeros 32).
Definition toy_window (ts : Z) (_ : bytes) : bool := ((10 <=? ts) && (ts <=? 100000))%Z.
Definition toy_ti (id fmspc : bytes) (next : Z) (status : N) : TcbInfo :=
  mkTI id 3 (Some 20%Z) (Some next) fmspc 13 [mkTM (tdx_module_id 1) [mkEL 0 ST_UpToDate]]
       [mkTL (repeat 6%Z 16) 11 (repeat 1%Z 16) ST_OutOfDate; mkTL (repeat 5%Z 16) 10 [] status]
       (repeat 48 96) (repeat 48 16) (repeat 70 16).
Definition toy_qi (id : bytes) : QeId :=
  mkQI id 2 (Some 15%Z) (Some 40%Z) 12 (repeat 48 8) (repeat 48 8) (repeat 48 32) (repeat 48 32) (repeat 48 64) 0
       [mkEL 3 ST_Revoked; mkEL 0 ST_UpToDate].
Definition toyP (ti : TcbInfo) (qi : QeId) : Prims :=
  mkPrims toy_sha (fun _ _ _ => true) (fun _ => true) (fun _ => true) (fun _ => 3) toy_window
          (fun _ => PckOk (mkPck [1] [0xAB] (repeat 5%Z 16) 10))
          (fun _ => Some (Some [2])) toy_window (fun _ => Some ti) (fun _ => Some qi) (fun x => firstn 32 x).
Definition toy_env : Env := mkEnv false false [].
Definition toy_coll : Collateral := mkColl [123] (repeat 48 128) [125] (repeat 48 128) [45].
Definition toy_tail : bytes :=   (* signature field: sig, key, QE report, QE sig, auth size 0, type 5, size 1, data *)
  zeros 64 ++ zeros 64 ++ zeros 384 ++ zeros 64 ++ [0; 0] ++ [5; 0] ++ [1; 0; 0; 0] ++ [7].
Definition toy_sgx_raw : bytes :=
  [3; 0; 2; 0; 0; 0; 0; 0; 9; 0; 13; 0] ++ intel_vendor ++ zeros 20
  ++ (zeros 64 ++ repeat 0xEE 32 ++ zeros 32 ++ repeat 0x51 32 ++ zeros 160 ++ repeat 0xDA 64)
  ++ [0x49; 2; 0; 0] ++ toy_tail.
Definition toy_tdx_raw : bytes :=
  [4; 0; 2; 0; 0x81; 0; 0; 0; 0; 0; 0; 0] ++ intel_vendor ++ zeros 20
  ++ ([0; 1] ++ zeros 14 ++ repeat 0x5E 48 ++ zeros 520)
  ++ [0x4F; 2; 0; 0] ++ zeros 64 ++ zeros 64 ++ [6; 0; 0xC9; 1; 0; 0] ++ skipn 128 toy_tail.

Definition sgxP := toyP (toy_ti s_SGX [65; 66] 30 ST_SWHardeningNeeded) (toy_qi s_QE).
Definition tdxP := toyP (toy_ti s_TDX [65; 66] 30 ST_UpToDate) (toy_qi s_TD_QE).
Definition tdx_policy : Policy := mkPolicy false 30 12 [] [] (Some [mkMP (Some (repeat 0x5E 48)) (zeros 48)]).

Example ex_sgx_accepted :
  verify sgxP toy_env default_policy 50 toy_sgx_raw toy_coll = Ok (repeat 0xEE 32, repeat 0x51 32, repeat 0xDA 64).
Proof. vm_compute. reflexivity. Qed.

Example ex_tdx_accepted :
  verify tdxP toy_env tdx_policy 50 toy_tdx_raw toy_coll = Ok (zeros 32, zeros 32, zeros 64).
Proof. vm_compute. reflexivity. Qed.

Example ex_rejections :
  verify tdxP toy_env default_policy 50 toy_tdx_raw toy_coll = Rej RTeeNotAllowed /\
  verify tdxP toy_env (mkPolicy false 30 12 [] [] (Some [mkMP None (repeat 1 48)])) 50 toy_tdx_raw toy_coll = Rej RTdxModuleNotAllowed /\
  verify sgxP toy_env (mkPolicy true 30 12 [] [] None) 50 toy_sgx_raw toy_coll = Rej RDisabled /\
  verify sgxP toy_env default_policy (15 + 30 * day_ns + 1) toy_sgx_raw toy_coll = Rej RPckChain /\
  verify sgxP toy_env (mkPolicy false 0 12 [] [] None) 50 toy_sgx_raw toy_coll = Rej RQeIdExpired /\
  verify sgxP toy_env default_policy 14 toy_sgx_raw toy_coll = Rej RQeIdFuture /\
  verify sgxP toy_env default_policy 19 toy_sgx_raw toy_coll = Rej RTcbInfoFuture /\
  verify sgxP toy_env (mkPolicy false 30 14 [] [] None) 50 toy_sgx_raw toy_coll = Rej RQeIdEvalNum /\
  verify sgxP toy_env (mkPolicy false 30 12 [] [[65; 66]] None) 50 toy_sgx_raw toy_coll = Rej RFmspcBlacklisted /\
  verify sgxP toy_env (mkPolicy false 30 12 [[65; 67]] [] None) 50 toy_sgx_raw toy_coll = Rej RFmspcNotWhitelisted /\
  verify (toyP (toy_ti s_SGX [65; 67] 30 1) (toy_qi s_QE)) toy_env default_policy 50 toy_sgx_raw toy_coll = Rej RFmspcMismatch /\
  verify (toyP (toy_ti s_SGX [65; 66] 30 ST_OutOfDate) (toy_qi s_QE)) toy_env default_policy 50 toy_sgx_raw toy_coll = Rej RTcbStatus /\
  verify (toyP (toy_ti s_SGX [65; 66] 30 ST_OutOfDate) (toy_qi s_QE)) (mkEnv false true []) default_policy 50 toy_sgx_raw toy_coll
    = Ok (repeat 0xEE 32, repeat 0x51 32, repeat 0xDA 64) /\
  verify (toyP (toy_ti s_TDX [65; 66] 30 1) (toy_qi s_QE)) toy_env default_policy 50 toy_sgx_raw toy_coll = Rej RTcbInfoId /\
  verify sgxP toy_env default_policy 50 (toy_sgx_raw ++ [0]) toy_coll = Rej (RParse PETrailing).
Proof. repeat apply conj; vm_compute; reflexivity. Qed.

(* hypotheses of validity_window_interval are satisfiable: an interval-shaped chain predicate and two accepting times *)
Example ex_interval_hypotheses :
  interval_shaped toy_window /\
  (exists o, verify sgxP toy_env default_policy 20 toy_sgx_raw toy_coll = Ok o) /\
  (exists o, verify sgxP toy_env default_policy 100000 toy_sgx_raw toy_coll = Ok o).
Proof.
  split; [|split; eexists; vm_compute; reflexivity].
  unfold interval_shaped, toy_window. lia.
Qed.

(* the slack after the certification data is not read: same verdict with 3 extra bytes (lengths adjusted) *)
Example ex_slack_ignored :
  verify sgxP toy_env default_policy 50
    (firstn 432 toy_sgx_raw ++ [0x4C; 2; 0; 0] ++ toy_tail ++ [9; 9; 9]) toy_coll
  = verify sgxP toy_env default_policy 50 toy_sgx_raw toy_coll.
Proof. vm_compute. reflexivity. Qed.

(* REFUTED: "accepted -> ts < nextUpdate".  The code parses nextUpdate (tcb.go:258, 625) but never
   compares it with the verification time; expiry is issueDate + TCBValidityPeriod only. *)
Lemma accept_implies_before_next_update_refuted_l :
  exists P env pol ts raw c out ti next,
    verify P env pol ts raw c = Ok out /\ parse_tcbinfo P (c_tcbinfo c) = Some ti /\
    ti_next ti = Some next /\ (next <= ts)%Z.
Proof.
  exists sgxP, toy_env, default_policy, 50%Z, toy_sgx_raw, toy_coll. do 2 eexists. exists 30%Z.
  split; [exact ex_sgx_accepted|]. split; [reflexivity|]. split; [reflexivity|]. lia.
Qed.

(* REFUTED: "accepted -> no blacklist entry denotes the platform's FMSPC".  The black/whitelists are
   compared with the TCB info's FMSPC *string* (tcb.go:274-281), the platform binding with its hex
   decoding (tcb.go:288-294); an entry in the other letter case does not block the platform. *)
Lemma fmspc_blacklist_by_value_refuted_l :
  exists P env pol ts raw c out q pck entry,
    verify P env pol ts raw c = Ok out /\ parse_quote P raw = inl q /\
    pck_info P (q_cert_data q) = PckOk pck /\
    In entry (p_blacklist pol) /\ hexdecode entry = Some (pk_fmspc pck).
Proof.
  assert (H : verify sgxP toy_env (mkPolicy false 30 12 [] [[97; 98]] None) 50 toy_sgx_raw toy_coll
              = Ok (repeat 0xEE 32, repeat 0x51 32, repeat 0xDA 64)) by (vm_compute; reflexivity).
  (* the quote parses because it is accepted; the toy PCK information does not depend on it *)
  destruct (verify_ok _ _ _ _ _ _ _ H) as (q & Ep & _).
  exists sgxP, toy_env, (mkPolicy false 30 12 [] [[97; 98]] None), 50%Z, toy_sgx_raw, toy_coll.
  eexists. exists q. eexists. exists [97; 98].
  split; [exact H|]. split; [exact Ep|]. split; [reflexivity|]. split; [left; reflexivity|reflexivity].
Qed.

(* REFUTED: "accepted TDX quote -> SEAMATTRIBUTES of the TD report match tdxModule.attributes under
   tdxModule.attributesMask of the signed TCB info" (step of Intel's TDX quote verification).  The code never reads
   TdReport.seamAttributes nor TCBInfo.TDXModule; MRSIGNERSEAM is only compared with the *policy's* module list
   (or required to be zero), not with the TCB info. *)
Definition toy_tdx_raw_seam : bytes := firstn 160 toy_tdx_raw ++ [1] ++ skipn 161 toy_tdx_raw.
Lemma tdx_seam_attributes_checked_refuted_l :
  exists P env pol ts raw c out q ti a m,
    verify P env pol ts raw c = Ok out /\ parse_quote P raw = inl q /\ q_tee q = TEE_TDX /\
    parse_tcbinfo P (c_tcbinfo c) = Some ti /\
    hexdecode (ti_seam_attrs ti) = Some a /\ hexdecode (ti_seam_mask ti) = Some m /\ m = repeat 255 8 /\
    td_seamattributes (q_body q) <> a.
Proof.
  exists tdxP, toy_env, tdx_policy, 50%Z, toy_tdx_raw_seam, toy_coll. do 3 eexists. exists (zeros 8), (repeat 255 8).
  split; [vm_compute; reflexivity|]. split; [vm_compute; reflexivity|].
  split; [reflexivity|]. split; [reflexivity|]. split; [vm_compute; reflexivity|].
  split; [vm_compute; reflexivity|]. split; [reflexivity|]. vm_compute. discriminate.
Qed.
