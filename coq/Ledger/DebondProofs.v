(* Proofs about the debonding model (Ledger/Debond.v): over every history of
   escrow additions, reclaims, epoch transitions, rewards and slashes, every
   reclaimed delegation is paid exactly once, at the first epoch transition at
   or after its end epoch and not before, at the debonding pool's price. *)
From Verif Require Import Lib.Base Ledger.SharePool Ledger.SharePoolProofs Ledger.Debond.

Fixpoint qsorted (q : list dentry) : Prop :=
  match q with
  | [] => True
  | x :: r => match r with [] => True | y :: _ => klt (eend x) (edel x) y = true end /\ qsorted r
  end.

(* what is recorded about a completed debonding *)
Definition plog_ok (r : payout) : Prop :=
  pend r <= pat r /\ pamt r = worth (ppool r) (psh r) /\ psh r <= tsh (ppool r) /\
  pamt r * tsh (ppool r) <= psh r * bal (ppool r).

Definition wfD (st : dst) : Prop :=
  dhalt st = false /\
  qsorted (dq st) /\
  qtotal (dq st) = tsh (ddeb st) /\
  Forall (fun x => depoch st <= eend x) (dq st) /\
  (forall e d, ksum e d (dminted st) = lsum e d (dlog st) + ksum e d (dq st)) /\
  Forall plog_ok (dlog st).

Lemma keq_true e d x : keq e d x = true <-> (e = eend x /\ d = edel x).
Proof. unfold keq. lia. Qed.

Lemma ksum_qinsert e' d' e d sh q :
  ksum e' d' (qinsert e d sh q) = ksum e' d' q + (if (e' =? e) && (d' =? d) then sh else 0).
Proof.
  induction q as [|x r IH]; cbn [qinsert ksum].
  - unfold keq. cbn [eend edel esh]. lia.
  - destruct (keq e d x) eqn:K.
    + apply keq_true in K as [-> ->]. cbn [ksum]. unfold keq. cbn [eend edel esh].
      destruct ((e' =? eend x) && (d' =? edel x)); lia.
    + destruct (klt e d x); cbn [ksum].
      * unfold keq at 1. cbn [eend edel esh]. lia.
      * rewrite IH. lia.
Qed.

Lemma qtotal_qinsert e d sh q : qtotal (qinsert e d sh q) = qtotal q + sh.
Proof.
  induction q as [|x r IH]; cbn [qinsert qtotal esh]; [lia|].
  destruct (keq e d x); [cbn [qtotal esh]; lia|].
  destruct (klt e d x); cbn [qtotal esh]; [lia|]. rewrite IH. lia.
Qed.

Lemma forall_qinsert c e d sh q : c <= e ->
  Forall (fun x => c <= eend x) q -> Forall (fun x => c <= eend x) (qinsert e d sh q).
Proof.
  intros Hc H. induction H as [|x r Hx Hr IH]; cbn [qinsert].
  - constructor; [exact Hc|constructor].
  - destruct (keq e d x).
    + constructor; [exact Hc|exact Hr].
    + destruct (klt e d x).
      * constructor; [exact Hc|]. constructor; assumption.
      * constructor; assumption.
Qed.

(* an entry below the key (e, d) that is below the head of r stays below the
   head after the insertion *)
Lemma qinsert_above x e d sh r : keq e d x = false -> klt e d x = false ->
  match r with [] => True | y :: _ => klt (eend x) (edel x) y = true end ->
  match qinsert e d sh r with [] => True | y :: _ => klt (eend x) (edel x) y = true end.
Proof.
  intros K L H. destruct r as [|y r]; cbn [qinsert]; [|destruct (keq e d y); [|destruct (klt e d y)]];
    try exact H; unfold klt, keq in *; cbn [eend edel]; lia.
Qed.

Lemma qsorted_qinsert e d sh q : qsorted q -> qsorted (qinsert e d sh q).
Proof.
  induction q as [|x r IH]; cbn [qinsert]; [intros _; cbn; tauto|].
  intros [Hx Hr]. destruct (keq e d x) eqn:K.
  - apply keq_true in K as [E1 E2]. cbn [qsorted]. split; [|exact Hr].
    destruct r as [|y r']; [exact I|]. cbn [eend edel]. rewrite E1, E2. exact Hx.
  - destruct (klt e d x) eqn:L.
    + cbn [qsorted]. cbn [eend edel]. split; [exact L|]. split; assumption.
    + split; [exact (qinsert_above x e d sh r K L Hx)|exact (IH Hr)].
Qed.

(* in a sorted queue whose head is not due nothing is due *)
Lemma sorted_not_due e q : qsorted q -> match q with [] => True | x :: _ => e < eend x end ->
  Forall (fun y => e < eend y) q.
Proof.
  induction q as [|x r IH]; intros Hs Hx; constructor; [exact Hx|]. destruct Hs as [Hh Hr].
  apply IH; [exact Hr|]. destruct r as [|y r']; [exact I|]. unfold klt in Hh. lia.
Qed.

Lemma filter_none_due (e : N) q : Forall (fun x => e < eend x) q ->
  filter (fun x => e <? eend x) q = q /\ filter (fun x => eend x <=? e) q = [].
Proof.
  intros H. induction H as [|x r Hx Hr [IH1 IH2]]; cbn [filter]; [split; reflexivity|].
  destruct (N.ltb_spec e (eend x)); [|lia]. destruct (N.leb_spec (eend x) e); [lia|].
  rewrite IH1. split; [reflexivity|exact IH2].
Qed.

Lemma pay_expired_spec e q : forall deb log q' deb' log' h,
  pay_expired e q deb log = (q', deb', log', h) ->
  qtotal q = tsh deb -> qsorted q -> Forall plog_ok log ->
  h = false /\ qtotal q' = tsh deb' /\ qsorted q' /\
  Forall (fun x => e < eend x) q' /\
  q' = filter (fun x => e <? eend x) q /\
  (forall e0 d0, lsum e0 d0 log' + ksum e0 d0 q' = lsum e0 d0 log + ksum e0 d0 q) /\
  Forall plog_ok log' /\
  (* every new record is a payment made now, for an entry that was due *)
  (exists new, log' = new ++ log /\ Forall (fun r => pat r = e) new /\
               length new = length (filter (fun x => eend x <=? e) q)).
Proof.
  induction q as [|x r IH]; intros deb log q' deb' log' h E Ht Hs Hl; cbn [pay_expired] in E.
  - injection E as <- <- <- <-. repeat split; try assumption; try constructor.
    exists []. repeat split. constructor.
  - destruct (eend x <=? e) eqn:Hdue; [apply N.leb_le in Hdue|apply N.leb_gt in Hdue; rename Hdue into Hnot].
    + cbn [qtotal] in Ht. destruct Hs as [Hx Hr].
      assert (Hok : rcode (withdraw deb 0 (esh x) (esh x)) = COk) by (apply withdraw_ok_iff; lia).
      rewrite Hok in E.
      pose proof (withdraw_pays_at_most_prorata_l deb 0 (esh x) (esh x) Hok)
        as [W1 [W2 [_ [_ [W5 [_ [W7 _]]]]]]].
      set (w := withdraw deb 0 (esh x) (esh x)) in *.
      assert (Hl2 : Forall plog_ok (mkP e (eend x) (edel x) (esh x) (rret w) deb :: log)).
      { constructor; [|exact Hl]. unfold plog_ok. cbn [pend pat pamt ppool psh]. repeat split; assumption. }
      assert (Ht2 : qtotal r = tsh (rpool w)) by (rewrite W7; cbn [tsh]; lia).
      destruct (IH _ _ _ _ _ _ E Ht2 Hr Hl2) as [A1 [A2 [A3 [A4 [A5 [A6 [A7 [new [B1 [B2 B3]]]]]]]]]].
      repeat split; try assumption.
      * cbn [filter]. destruct (N.ltb_spec e (eend x)); [lia|exact A5].
      * intros e0 d0. rewrite A6. cbn [lsum ksum pend pdel psh]. unfold keq. lia.
      * exists (new ++ [mkP e (eend x) (edel x) (esh x) (rret w) deb]). split.
        { rewrite <- app_assoc. exact B1. }
        split.
        { apply Forall_app. split; [exact B2|]. constructor; [reflexivity|constructor]. }
        { rewrite app_length, B3. cbn [filter length].
          destruct (N.leb_spec (eend x) e); [cbn [length]; lia|lia]. }
    + injection E as <- <- <- <-.
      pose proof (sorted_not_due e (x :: r) Hs Hnot) as Hall.
      destruct (filter_none_due e (x :: r) Hall) as [F1 F2]. pose proof Hs as [Hx Hr].
      repeat split; try assumption; [symmetry; exact F1|].
      exists []. rewrite F2. repeat split. constructor.
Qed.

(* a reclaim either fails and stores nothing, or moves the worth p of the s
   shares from the active into the debonding pool for m debonding shares,
   queued under the end epoch *)
Lemma dstep_reclaim st d s iv : dhalt st = false ->
  let p := worth (dact st) s in
  (dnext st (DReclaim d s iv) = st /\ snd (dstep st (DReclaim d s iv)) <> COk) \/
  (s <> 0 /\ s <= sget d (ddels st) /\ s <= tsh (dact st) /\
   exists m, shares_for_stake (ddeb st) p = Some m /\
     dstep st (DReclaim d s iv) =
     (mkD (mkPool (bal (dact st) - p) (tsh (dact st) - s)) (mkPool (bal (ddeb st) + p) (tsh (ddeb st) + m))
          (aset d (sget d (ddels st) - s) (ddels st)) (qinsert (depoch st + iv) d m (dq st)) (depoch st)
          (dlog st) (mkE (depoch st + iv) d m :: dminted st) false, COk)).
Proof.
  intros H0 p. unfold dnext, dstep. rewrite H0.
  destruct (N.eqb_spec s 0) as [|S0]; [left; split; [reflexivity|discriminate]|].
  destruct (rcode (withdraw (dact st) 0 (sget d (ddels st)) s)) eqn:Ew;
    try (left; split; [reflexivity|discriminate]).
  apply withdraw_ok_iff in Ew as [L1 L2]. rewrite (withdraw_ok_eq _ _ _ _ L1 L2). cbn [rret rpool rsrc].
  fold (worth (dact st) s). fold p.
  destruct (rcode (deposit (ddeb st) 0 p p)) eqn:Ed; try (left; split; [reflexivity|discriminate]).
  destruct (deposit_ok_spec _ _ _ _ Ed) as (m & -> & _ & Em). cbn [rpool rret].
  right. repeat split; try assumption. exists m. split; [exact Em|reflexivity].
Qed.

Lemma wfD_step st o : wfD st -> wfD (dnext st o).
Proof.
  intros [H0 [H1 [H2 [H3 [H4 H5]]]]].
  destruct o as [d a|d s iv|e|a|a]; [unfold dnext, dstep; rewrite H0| |unfold dnext, dstep; rewrite H0..].
  - destruct (rcode (deposit (dact st) (sget d (ddels st)) a a)) eqn:E; cbn [fst];
      unfold wfD; cbn [dhalt dq ddeb depoch dminted dlog]; repeat split; assumption.
  - destruct (dstep_reclaim st d s iv H0) as [[-> _]|(_ & _ & _ & m & _ & E)]; [repeat split; assumption|].
    unfold dnext. rewrite E. unfold wfD. cbn [fst dhalt dq ddeb depoch dminted dlog tsh].
    split; [reflexivity|]. split; [apply qsorted_qinsert; exact H1|].
    split; [rewrite qtotal_qinsert; lia|].
    split; [apply forall_qinsert; [lia|exact H3]|].
    split; [|exact H5].
    intros e0 d0. rewrite ksum_qinsert. cbn [ksum]. unfold keq at 1. cbn [eend edel esh].
    rewrite H4. lia.
  - destruct (pay_expired e (dq st) (ddeb st) (dlog st)) as [[[q deb] log] h] eqn:E. cbn [fst].
    destruct (pay_expired_spec e (dq st) _ _ _ _ _ _ E H2 H1 H5) as [A1 [A2 [A3 [A4 [_ [A6 [A7 _]]]]]]].
    unfold wfD. cbn [dhalt dq ddeb depoch dminted dlog].
    split; [exact A1|]. split; [exact A3|]. split; [exact A2|].
    split; [eapply Forall_impl; [|exact A4]; intros z Hz; cbn beta in Hz; lia|].
    split; [|exact A7]. intros e0 d0. rewrite A6. apply H4.
  - cbn [fst]. unfold wfD. cbn [dhalt dq ddeb depoch dminted dlog]. repeat split; assumption.
  - destruct (slash_pools (bal (dact st)) (bal (ddeb st)) a) as [ta td]. cbn [fst].
    unfold wfD. cbn [dhalt dq ddeb depoch dminted dlog tsh]. repeat split; assumption.
Qed.

Lemma wfD_run ops : forall st, wfD st -> wfD (drun st ops).
Proof.
  induction ops as [|o r IH]; intros st H; [exact H|]. cbn [drun]. apply IH. apply wfD_step. exact H.
Qed.

(* a fresh escrow account: nothing debonding yet (covers dinit and dinit2) *)
Lemma wfD_fresh act dels epoch : wfD (mkD act (mkPool 0 0) dels [] epoch [] [] false).
Proof. unfold wfD. cbn. repeat split; constructor. Qed.

Lemma reclaim_paid_exactly_once_l st0 ops :
  wfD st0 ->
  let st := drun st0 ops in
  dhalt st = false /\
  Forall (fun x => depoch st <= eend x) (dq st) /\
  (forall e d, ksum e d (dminted st) = lsum e d (dlog st) + ksum e d (dq st)) /\
  Forall plog_ok (dlog st).
Proof.
  intros H st. destruct (wfD_run ops st0 H) as [A [_ [_ [B [C D]]]]]. repeat split; assumption.
Qed.

(* One transition to epoch e pays exactly the queued delegations with end
   epoch <= e (one pay-out record each, stamped e) and leaves every other one
   untouched. *)
Lemma epoch_pays_exactly_due_l st e :
  wfD st ->
  let st' := dnext st (DEpoch e) in
  dq st' = filter (fun x => e <? eend x) (dq st) /\
  depoch st' = e /\ dact st' = dact st /\
  exists new, dlog st' = new ++ dlog st /\ Forall (fun r => pat r = e) new /\
              length new = length (filter (fun x => eend x <=? e) (dq st)).
Proof.
  intros [H0 [H1 [H2 [H3 [H4 H5]]]]] st'. subst st'. unfold dnext, dstep. rewrite H0.
  destruct (pay_expired e (dq st) (ddeb st) (dlog st)) as [[[q deb] log] h] eqn:E. cbn [fst].
  destruct (pay_expired_spec e (dq st) _ _ _ _ _ _ E H2 H1 H5) as [_ [_ [_ [_ [A5 [_ [_ A8]]]]]]].
  cbn [dq depoch dact dlog]. repeat split; assumption.
Qed.

(* A reclaim at epoch c with interval iv moves exactly the redeemed stake from
   the active into the debonding pool and queues the minted debonding shares
   under end epoch c + iv; nothing is paid to the delegator at that time. *)
Lemma reclaim_moves_stake_l st d s iv :
  dhalt st = false -> snd (dstep st (DReclaim d s iv)) = COk ->
  let st' := dnext st (DReclaim d s iv) in
  let p := worth (dact st) s in
  s <> 0 /\ s <= sget d (ddels st) /\
  dact st' = mkPool (bal (dact st) - p) (tsh (dact st) - s) /\
  bal (ddeb st') = bal (ddeb st) + p /\
  dlog st' = dlog st /\ depoch st' = depoch st /\
  exists m, tsh (ddeb st') = tsh (ddeb st) + m /\
            dq st' = qinsert (depoch st + iv) d m (dq st) /\
            (~ orphan (ddeb st) -> m * bal (ddeb st) <= p * tsh (ddeb st)).
Proof.
  intros H0 Hok.
  destruct (dstep_reclaim st d s iv H0) as [[_ Hn]|(S0 & L1 & _ & m & Em & E)]; [contradiction|].
  unfold dnext. rewrite E. cbn [fst dact ddeb dlog depoch dq bal tsh].
  repeat split; try assumption. exists m. repeat split. exact (sfs_prorata _ _ _ Em).
Qed.
