(* The byte-level port of the tree iterator (Mkvs/Iter.v) yields exactly the
   specification iterator's sequence [al_seek].  The invariant is [ok_found]:
   a search for key in a part of the tree with contents L returns the first
   entry of [al_seek key L], and the atoms it pushed have exactly the rest of
   that sequence still to visit ([rest_of]: what an atom's visit state leaves
   of its node).  Section NodeStep proves it for the visit-state machine of one
   internal node from the same fact about its three tryNext continuations; the
   keys below a node with path q have bits q ++ b :: s, byte strings compare as
   their bit lists (BitsProofs.bytes_cmp_bits), and Split / Merge / AppendBit
   act on bits as Mkvs/KeyLift.v says.  [do_next_spec] is the induction over
   the tree, [it_next_spec] resumes from the position stack ([pos_inv]),
   [it_collect_spec] runs Next to exhaustion.  At the end: the store runner
   with the ported iterator ([s_run_p]) equals the one with the specification
   iterator. *)
From Verif Require Import Lib.Base Mkvs.Trie Mkvs.BitsProofs Mkvs.AlistProofs Mkvs.TrieProofs
  Mkvs.Key Mkvs.KeyProofs Mkvs.KeyLift Mkvs.Overlay Mkvs.OverlayProofs Mkvs.Iter.

Lemma pcmp_eq u : forall w, pcmp u w = Eq -> u = w.
Proof.
  induction u as [|x u IH]; intros [|y w]; cbn; try discriminate; auto.
  destruct x, y; try discriminate; intros H; f_equal; auto.
Qed.
Lemma pcmp_antisym a : forall b, pcmp b a = CompOpp (pcmp a b).
Proof. induction a as [|x a IH]; intros [|y b]; cbn; auto. destruct x, y; cbn; auto. Qed.
Lemma pcmp_same_len_neq u w : length u = length w -> u <> w -> pcmp u w <> Eq.
Proof. intros _ Hne E. apply pcmp_eq in E. contradiction. Qed.
Lemma pcmp_ge_zeros E : forall m, (m <= length E)%nat -> pcmp E (repeat false m) <> Lt.
Proof.
  induction E as [|e E IH]; intros [|m] Hm; cbn in *; try lia; try discriminate.
  destruct e; [discriminate|]. apply IH. lia.
Qed.
Lemma pcmp_nil_r E : pcmp E [] <> Lt.
Proof. destruct E; cbn; discriminate. Qed.
Lemma pcmp_zeros X : forall E m, (length X + m <= length E)%nat ->
  (pcmp E (X ++ repeat false m) = Lt <-> pcmp E X = Lt).
Proof.
  induction X as [|x X IH]; intros E m Hl.
  - cbn [app]. split; intros H; exfalso.
    + now apply (pcmp_ge_zeros E m).
    + now apply (pcmp_nil_r E).
  - destruct E as [|e E]; [cbn in Hl; lia|]. cbn [app pcmp].
    destruct e, x; try tauto; apply IH; cbn in Hl; lia.
Qed.

Lemma skipn_cons {A} (X : list A) n : (n < length X)%nat -> exists b S, skipn n X = b :: S.
Proof.
  intros H. destruct (skipn n X) as [|b S] eqn:ES; [|eauto].
  apply (f_equal (@length A)) in ES. rewrite skipn_length in ES. cbn in ES. lia.
Qed.

Lemma seek_app_found k (A B : list entry) e R : al_seek k A = e :: R -> al_seek k (A ++ B) = e :: R ++ B.
Proof.
  induction A as [|[k0 v0] A IH]; cbn [al_seek app]; [discriminate|].
  destruct (bytes_cmp k0 k); auto; intros [= <- <-]; reflexivity.
Qed.
Lemma seek_app_none k (A B : list entry) : al_seek k A = [] -> al_seek k (A ++ B) = al_seek k B.
Proof.
  induction A as [|[k0 v0] A IH]; cbn [al_seek app]; [reflexivity|].
  destruct (bytes_cmp k0 k); auto; discriminate.
Qed.
Lemma seek_ext k k' (L : list entry) :
  (forall e, In e L -> (bytes_cmp (fst e) k = Lt <-> bytes_cmp (fst e) k' = Lt)) ->
  al_seek k L = al_seek k' L.
Proof.
  induction L as [|[k0 v0] L IH]; intros H; [reflexivity|]. cbn [al_seek].
  pose proof (H (k0, v0) (or_introl eq_refl)) as H0. cbn [fst] in H0.
  assert (al_seek k L = al_seek k' L) as IH' by (apply IH; intros e He; apply H; now right).
  destruct H0 as [H1 H2]. destruct (bytes_cmp k0 k), (bytes_cmp k0 k'); try reflexivity; try exact IH';
    (now specialize (H1 eq_refl)) || now specialize (H2 eq_refl).
Qed.
Lemma seek_all_ge k (L : list entry) : (forall e, In e L -> bytes_cmp (fst e) k <> Lt) -> al_seek k L = L.
Proof.
  destruct L as [|[k0 v0] L]; intros H; [reflexivity|]. cbn [al_seek].
  specialize (H (k0, v0) (or_introl eq_refl)). cbn [fst] in H. destruct (bytes_cmp k0 k); tauto.
Qed.
Lemma seek_all_lt k (L : list entry) : (forall e, In e L -> bytes_cmp (fst e) k = Lt) -> al_seek k L = [].
Proof.
  induction L as [|[k0 v0] L IH]; intros H; [reflexivity|]. cbn [al_seek].
  pose proof (H (k0, v0) (or_introl eq_refl)) as H0. cbn [fst] in H0. rewrite H0.
  apply IH. intros e He. apply H. now right.
Qed.
Lemma seek_in k (L : list entry) e R : al_seek k L = e :: R -> In e L /\ incl R L.
Proof.
  induction L as [|[k0 v0] L IH]; cbn [al_seek]; [discriminate|].
  destruct (bytes_cmp k0 k); try (intros [= <- <-]; split; [now left|intros x Hx; now right]).
  intros H. destruct (IH H) as [H1 H2]. split; [now right|intros x Hx; right; now apply H2].
Qed.
Lemma al_seek_length k (L : list entry) : (length (al_seek k L) <= length L)%nat.
Proof.
  induction L as [|[k0 v0] L IH]; cbn [al_seek length]; [lia|].
  destruct (bytes_cmp k0 k); cbn [length]; lia.
Qed.

Lemma pad_mult8 a c : (a <= 8 * c)%nat -> (a + pad_len a <= 8 * c)%nat.
Proof.
  unfold pad_len. intros H. pose proof (Nat.div_mod a 8 ltac:(lia)) as E.
  pose proof (Nat.mod_upper_bound a 8 ltac:(lia)) as B.
  destruct (Nat.eq_dec (a mod 8) 0) as [Z|NZ].
  - rewrite Z. cbn. lia.
  - rewrite (Nat.mod_small (8 - a mod 8) 8) by lia.
    assert (a / 8 < c)%nat by (apply Nat.div_lt_upper_bound; lia). lia.
Qed.
(* AppendBit(key, nd, false) on a key not longer than nd bits: the key followed by zeros *)
Lemma a0_bits x nq : valid_bytes x -> (length (bits_of x) <= nq)%nat ->
  let x' := k_appendbit x (N.of_nat nq) false in
  valid_bytes x' /\
  exists M, bits_of x' = bits_of x ++ repeat false M /\
            (nq < length (bits_of x'))%nat /\
            (forall c, (nq + 1 <= 8 * c)%nat -> (length (bits_of x') <= 8 * c)%nat).
Proof.
  intros Hv Hl x'. unfold x'. rewrite bits_of_len in Hl.
  rewrite appendbit_bytes by assumption. split; [apply valid_pack|].
  rewrite pack_bits. set (Z := bits_of x ++ repeat false (nq - 8 * length x) ++ [false]).
  assert (length Z = nq + 1)%nat as LZ.
  { unfold Z. rewrite !app_length, repeat_length, bits_of_len. cbn [length]. lia. }
  exists (nq - 8 * length x + 1 + pad_len (length Z))%nat. split; [|split].
  - unfold Z. rewrite <- !app_assoc. f_equal. change [false] with (repeat false 1).
    now rewrite <- !repeat_app, Nat.add_assoc.
  - rewrite app_length, LZ, repeat_length. lia.
  - intros c Hc. rewrite app_length, LZ, repeat_length. now apply pad_mult8.
Qed.

Lemma adv_bits y nq : valid_bytes y -> (nq <= length (bits_of y))%nat ->
  adv_key (N.of_nat nq) y = pack (firstn nq (bits_of y) ++ [true]).
Proof.
  intros Hv Hl. unfold adv_key. rewrite k_bitlen_bits.
  rewrite <- (pack_bits_of y Hv) at 1. rewrite key_split_general by exact Hl. cbn [fst].
  rewrite <- (firstn_length_le (bits_of y) Hl) at 2. apply key_appendbit_general.
Qed.

(* a packed bit string against a whole-byte key at least as long: the padding zeros do not matter *)
Lemma cmp_pack_lt x (P : path) : valid_bytes x -> (length P <= 8 * length x)%nat ->
  (bytes_cmp x (pack P) = Lt <-> pcmp (bits_of x) P = Lt).
Proof.
  intros Hv Hl. rewrite bytes_cmp_bits, pack_bits by (assumption || apply valid_pack).
  apply pcmp_zeros. rewrite bits_of_len. now apply pad_mult8.
Qed.

Definition remaining (st : vstate) (t : tree) : list entry :=
  match t with
  | Node lbl lf l r =>
      match st with
      | VBefore => contents t
      | VAt => contents l ++ contents r
      | VAtLeft => contents r
      | VAfter => []
      end
  | _ => contents t
  end.
Lemma remaining_before t : remaining VBefore t = contents t.
Proof. destruct t; reflexivity. Qed.
Lemma remaining_incl st t : incl (remaining st t) (contents t).
Proof.
  destruct t as [|k v|lbl lf l r]; try apply incl_refl. destruct st; cbn [remaining contents].
  - apply incl_refl.
  - apply incl_appr, incl_refl.
  - apply incl_appr, incl_appr, incl_refl.
  - intros ? [].
Qed.
Definition rest_of (a : atom) : list entry := remaining (a_state a) (a_node a).

Section NodeStep.
  (* SK: whatever else is known about a returned stack; passed through unchanged *)
  Variable SK : entry -> list atom -> Prop.

  Definition ok_found (f : found) (key : bytes) (L Tail : list entry) : Prop :=
    match f with
    | Some (e, stk) => exists R, al_seek key L = e :: R /\ flat_map rest_of stk = R ++ Tail /\ SK e stk
    | None => al_seek key L = []
    end.

  Lemma ok_found_key f k k' L T : al_seek k L = al_seek k' L -> ok_found f k' L T -> ok_found f k L T.
  Proof. intros E. unfold ok_found. destruct f as [[e stk]|]; now rewrite E. Qed.

  (* a leaf, or the leaf embedded in an internal node: found unless it is below the key *)
  Lemma ok_single (e : entry) stk key T : SK e stk -> flat_map rest_of stk = T ->
    ok_found (if cmp_lt (fst e) key then None else Some (e, stk)) key [e] T.
  Proof.
    intros HS HT. destruct e as [k0 v0]. unfold cmp_lt. cbn [fst al_seek ok_found].
    destruct (bytes_cmp k0 key) eqn:C; cbn [ok_found al_seek]; rewrite ?C; try reflexivity; exists []; auto.
  Qed.

  Lemma ok_orelse f1 f2 k k2 A B :
    ok_found f1 k A B -> ok_found f2 k2 B [] ->
    (al_seek k A = [] -> al_seek k2 B = al_seek k B) ->
    ok_found (orelse f1 (fun _ => f2)) k (A ++ B) [].
  Proof.
    intros H1 H2 HE. unfold orelse. destruct f1 as [[e stk]|]; cbn [ok_found] in *.
    - destruct H1 as (R & S1 & F1 & K1). exists (R ++ B). split; [now apply seek_app_found|].
      split; [now rewrite app_nil_r|exact K1].
    - specialize (HE H1). cbv beta.
      destruct f2 as [[e stk]|]; cbn [ok_found] in *.
      + destruct H2 as (R & S2 & F2 & K2). exists R. rewrite (seek_app_none _ _ _ H1), <- HE. auto.
      + now rewrite (seek_app_none _ _ _ H1), <- HE.
  Qed.
  Lemma ok_right f k A B : ok_found f k B [] -> al_seek k A = [] -> ok_found f k (A ++ B) [].
  Proof. intros H HA. exact (ok_orelse None f k k A B HA H (fun _ => eq_refl)). Qed.

  Definition under (q : path) (b : bool) (L : list entry) : Prop :=
    forall e, In e L -> valid_bytes (fst e) /\ exists s, bits_of (fst e) = q ++ b :: s.
  Definition at_path (q : path) (L : list entry) : Prop :=
    forall e, In e L -> valid_bytes (fst e) /\ bits_of (fst e) = q.

  Variable q : path.
  Variables lfc cl cr : list entry.
  Hypothesis Hlf : at_path q lfc.
  Hypothesis Hcl : under q false cl.
  Hypothesis Hcr : under q true cr.
  Variables try_lf try_l try_r : bytes -> found.
  Hypothesis HLF : forall k, valid_bytes k -> ok_found (try_lf k) k lfc (cl ++ cr).
  Hypothesis HL : forall k, valid_bytes k -> ok_found (try_l k) k cl cr.
  Hypothesis HR : forall k, valid_bytes k -> ok_found (try_r k) k cr [].

  Let nq := length q.
  Let nd := N.of_nat nq.

  Lemma cmp_entry_key (e : entry) b s (x : bytes) :
    valid_bytes (fst e) -> valid_bytes x -> bits_of (fst e) = q ++ b :: s ->
    bytes_cmp (fst e) x = pcmp (q ++ b :: s) (bits_of x).
  Proof. intros V1 V2 E. rewrite bytes_cmp_bits by assumption. now rewrite E. Qed.

  Lemma entry_len (e : entry) b s : bits_of (fst e) = q ++ b :: s ->
    (nq + 1 <= 8 * length (fst e))%nat.
  Proof.
    intros E. rewrite <- bits_of_len, E, app_length. cbn [length]. unfold nq. lia.
  Qed.

  (* an entry at or below the node against a key of at least nq bits: the first nq bits decide, then the rest *)
  Lemma cmp_below (e : entry) t (x : bytes) :
    valid_bytes (fst e) -> valid_bytes x -> bits_of (fst e) = q ++ t -> (nq <= length (bits_of x))%nat ->
    bytes_cmp (fst e) x =
    match pcmp q (firstn nq (bits_of x)) with Eq => pcmp t (skipn nq (bits_of x)) | c => c end.
  Proof.
    intros Ve Vx Ee Hl. rewrite bytes_cmp_bits, Ee by assumption.
    rewrite <- (firstn_skipn nq (bits_of x)) at 1. apply pcmp_app_same_len. rewrite firstn_length. fold nq. lia.
  Qed.
  (* an entry of the right subtree is below advanceKeyToRight of a key iff q is below the key's first nq bits *)
  Lemma cmp_adv (e : entry) s (Q' : path) :
    valid_bytes (fst e) -> bits_of (fst e) = q ++ true :: s -> length Q' = nq ->
    (bytes_cmp (fst e) (pack (Q' ++ [true])) = Lt <-> pcmp q Q' = Lt).
  Proof.
    intros Ve Ee LQ. rewrite cmp_pack_lt, Ee by (try assumption; rewrite app_length, LQ; exact (entry_len e true s Ee)).
    rewrite pcmp_app_same_len by (fold nq; lia). cbn [pcmp].
    destruct (pcmp q Q'); [|tauto|tauto]. split; [intros H; now apply pcmp_nil_r in H|discriminate].
  Qed.

  (* take_first, key_not_longer and the key [from_at] goes on with, as bound inside
     [node_step] at depth nd and path pack q; [from_at_f] below is its from_at (node_step_eq) *)
  Definition tf_of (key : bytes) : bool := (0 <? nd) && (nd <=? k_bitlen key) && cmp_lt key (pack q).
  Definition knl_of (key : bytes) : bool := k_bitlen key <=? nd.
  Definition xprime (key : bytes) : bytes := if knl_of key then k_appendbit key nd false else key.

  (* takeFirst, iterator.go:286 *)
  Lemma tf_of_spec key : valid_bytes key ->
    (tf_of key = true <-> (nq <= length (bits_of key))%nat /\ pcmp (firstn nq (bits_of key)) q = Lt).
  Proof.
    intros Hv. set (Q' := firstn nq (bits_of key)).
    assert ((nq <= length (bits_of key))%nat -> (cmp_lt key (pack q) = true <-> pcmp Q' q = Lt)) as Hc.
    { intros Hl. unfold cmp_lt.
      assert (bytes_cmp key (pack q) = Lt <-> pcmp Q' q = Lt) as <-; [|destruct (bytes_cmp key (pack q)); split; congruence].
      rewrite cmp_pack_lt by (assumption || (rewrite <- bits_of_len; exact Hl)).
      rewrite <- (firstn_skipn nq (bits_of key)) at 1. rewrite <- (app_nil_r q) at 1. fold Q'.
      rewrite pcmp_app_same_len by (unfold Q'; rewrite firstn_length; fold nq; lia).
      destruct (pcmp Q' q); [|tauto|tauto]. split; [intros H; now apply pcmp_nil_r in H|discriminate]. }
    unfold tf_of, nd. rewrite k_bitlen_bits, !andb_true_iff, N.ltb_lt, N.leb_le. split.
    - intros [[_ Hl] C]. assert (nq <= length (bits_of key))%nat as Hl' by lia. split; [exact Hl'|]. now apply Hc.
    - intros [Hl C]. split; [split; [|lia]|now apply Hc].
      destruct (Nat.eq_dec nq 0) as [Z|Z]; [|lia]. exfalso. unfold Q' in C. rewrite Z in C.
      apply length_zero_iff_nil in Z. rewrite Z in C. discriminate.
  Qed.

  Lemma xprime_facts key : valid_bytes key ->
    let x' := xprime key in
    let Q' := firstn nq (bits_of x') in
    valid_bytes x' /\ (nq < length (bits_of x'))%nat /\
    (forall (e : entry) b s, valid_bytes (fst e) -> bits_of (fst e) = q ++ b :: s ->
        (bytes_cmp (fst e) key = Lt <-> bytes_cmp (fst e) x' = Lt)) /\
    (tf_of key = true -> Q' <> q) /\
    (pcmp Q' q = Lt -> bit (bits_of x') nq = true -> tf_of key = true) /\
    (knl_of key = false -> x' = key /\ (pcmp Q' q = Lt -> tf_of key = true)).
  Proof.
    intros Hv x' Q'. subst x' Q'. unfold xprime, knl_of, nd.
    replace (k_bitlen key <=? N.of_nat nq) with (length (bits_of key) <=? nq)%nat by (rewrite k_bitlen_bits; lia).
    assert (forall Q' : path, pcmp Q' q = Lt -> Q' <> q) as Hlt_ne
      by (intros Q' H E; rewrite E, pcmp_refl in H; discriminate).
    destruct (Nat.leb_spec (length (bits_of key)) nq) as [Hle|Hgt].
    - (* key not longer: zero padded *)
      destruct (a0_bits key nq Hv Hle) as (Hv' & M & EB & Hlen & Hmul). cbv zeta in *.
      set (x' := k_appendbit key (N.of_nat nq) false) in *.
      split; [exact Hv'|]. split; [exact Hlen|]. split; [|split; [|split]].
      + intros e b s Ve Ee. rewrite !bytes_cmp_bits by assumption. rewrite EB. symmetry. apply pcmp_zeros.
        assert (length (bits_of x') = length (bits_of key) + M)%nat as LX
          by (rewrite EB, app_length, repeat_length; reflexivity).
        pose proof (Hmul (length (fst e)) (entry_len e b s Ee)) as L.
        rewrite (bits_of_len (fst e)). lia.
      + (* takeFirst needs exactly nq bits, which are then the first nq bits of x' *)
        intros Htf. apply tf_of_spec in Htf as [Hl C]; [|exact Hv]. apply Hlt_ne.
        rewrite EB, firstn_app. replace (nq - length (bits_of key))%nat with 0%nat by lia. now rewrite app_nil_r.
      + (* the appended bit is 0 *)
        intros _ Hb. rewrite EB, bit_app in Hb. replace (nq <? _)%nat with false in Hb by lia.
        rewrite bit_zeros in Hb. discriminate.
      + discriminate.
    - (* key longer than the node depth: unchanged *)
      assert (pcmp (firstn nq (bits_of key)) q = Lt -> tf_of key = true) as T2
        by (intros H; apply tf_of_spec; [exact Hv|split; [lia|exact H]]).
      split; [exact Hv|]. split; [exact Hgt|]. split; [tauto|]. split; [|split; [|split; [reflexivity|]]].
      + intros Htf. apply tf_of_spec in Htf as [_ C]; [|exact Hv]. now apply Hlt_ne.
      + intros HLt _. now apply T2.
      + exact T2.
  Qed.

  Definition from_at_f (key : bytes) : found :=
    let k' := xprime key in
    if negb (k_getbit k' nd) || tf_of key
    then orelse (try_l k') (fun _ => try_r (adv_key nd k'))
    else try_r k'.

  Lemma from_at_correct key : valid_bytes key -> ok_found (from_at_f key) key (cl ++ cr) [].
  Proof.
    intros Hv. destruct (xprime_facts key Hv) as (Hv' & Hlen & Hsame & TF1 & TF2 & _).
    cbv zeta in *. unfold from_at_f. set (x' := xprime key) in *.
    apply (ok_found_key _ key x').
    { apply seek_ext. intros e He. apply in_app_or in He as [He|He].
      - destruct (Hcl e He) as (Ve & s & Ee). eapply Hsame; eauto.
      - destruct (Hcr e He) as (Ve & s & Ee). eapply Hsame; eauto. }
    set (X' := bits_of x') in *. set (Q' := firstn nq X') in *.
    destruct (skipn_cons X' nq Hlen) as (b & S & ES).
    assert (length Q' = nq) as LQ by (unfold Q'; rewrite firstn_length; lia).
    assert (bit X' nq = b) as Hb by (now rewrite <- (Nat.add_0_r nq), <- bit_skipn, ES).
    assert (k_getbit x' nd = b) as Hgb by (unfold nd; now rewrite k_getbit_bit).
    assert (adv_key nd x' = pack (Q' ++ [true])) as Hadv by (apply adv_bits; [assumption|fold X'; lia]).
    assert (valid_bytes (adv_key nd x')) as Vadv by (rewrite Hadv; apply valid_pack).
    assert (forall (e : entry) be s, valid_bytes (fst e) -> bits_of (fst e) = q ++ be :: s ->
              bytes_cmp (fst e) x' = match pcmp q Q' with Eq => pcmp (be :: s) (b :: S) | c => c end) as CMP.
    { intros e be s Ve Ee. rewrite (cmp_below e (be :: s) x') by (assumption || (fold X'; lia)). fold X' Q'. now rewrite ES. }
    rewrite Hgb. destruct (negb b || tf_of key) eqn:Br.
    - (* try left, then right with the advanced key *)
      apply (ok_orelse _ _ x' (adv_key nd x')); [apply HL; exact Hv'|apply HR; exact Vadv|].
      intros _. apply seek_ext. intros e He. destruct (Hcr e He) as (Ve & s & Ee).
      rewrite Hadv, (cmp_adv e s Q' Ve Ee LQ), (CMP e true s Ve Ee).
      destruct (pcmp q Q') eqn:C; [|tauto|tauto]. apply pcmp_eq in C.
      (* the key is inside the node's range: no takeFirst, so its bit nq is 0 and the right subtree lies above it *)
      assert (tf_of key = false) as Htf by (destruct (tf_of key); [exfalso; now apply TF1|reflexivity]).
      rewrite Htf, orb_false_r in Br. destruct b; [cbn in Br; discriminate Br|]. cbn [pcmp]. split; discriminate.
    - (* the key is in or above the right part: right subtree only *)
      apply orb_false_iff in Br as [Hb1 Htf]. destruct b; [|cbn in Hb1; discriminate Hb1].
      apply ok_right; [apply HR; exact Hv'|]. apply seek_all_lt. intros e He.
      destruct (Hcl e He) as (Ve & s & Ee). rewrite (CMP e false s Ve Ee).
      destruct (pcmp q Q') eqn:C; [reflexivity|reflexivity|]. exfalso.
      rewrite TF2 in Htf; [discriminate| |exact Hb]. now rewrite pcmp_antisym, C.
  Qed.

  Lemma node_step_eq key st :
    node_step try_lf try_l try_r nd (pack q) key st =
    match st with
    | VBefore => if knl_of key || tf_of key then orelse (try_lf key) (fun _ => from_at_f key) else from_at_f key
    | VAt => from_at_f key
    | VAtLeft => try_r (adv_key nd key)
    | VAfter => None
    end.
  Proof. reflexivity. Qed.

  Lemma node_step_correct key st : valid_bytes key ->
    (st = VAtLeft -> (nq <= length (bits_of key))%nat /\ forall e, In e cr -> bytes_cmp (fst e) key <> Lt) ->
    ok_found (node_step try_lf try_l try_r nd (pack q) key st) key
      (match st with VBefore => lfc ++ cl ++ cr | VAt => cl ++ cr | VAtLeft => cr | VAfter => [] end) [].
  Proof.
    intros Hv Hst. rewrite node_step_eq. destruct st.
    - (* visitBefore *)
      destruct (knl_of key || tf_of key) eqn:Br.
      + apply (ok_orelse _ _ key key); [apply HLF; exact Hv|apply from_at_correct; exact Hv|auto].
      + apply orb_false_iff in Br as [Hk Ht].
        apply ok_right; [apply from_at_correct; exact Hv|]. apply seek_all_lt. intros e He.
        destruct (Hlf e He) as [Ve Ee].
        destruct (xprime_facts key Hv) as (_ & Hlen & _ & _ & _ & Hlong). cbv zeta in *.
        destruct (Hlong Hk) as [Ex T4]. rewrite Ex in *.
        rewrite (cmp_below e [] key) by (assumption || lia || now rewrite app_nil_r).
        destruct (skipn_cons (bits_of key) nq Hlen) as (b & S & ->).
        destruct (pcmp q _) eqn:C; [reflexivity|reflexivity|].
        rewrite T4 in Ht; [discriminate|]. now rewrite pcmp_antisym, C.
    - apply from_at_correct; exact Hv.
    - (* visitAtLeft: resume in the right subtree *)
      destruct (Hst eq_refl) as [Hlen Hge]. set (Q' := firstn nq (bits_of key)).
      assert (length Q' = nq) as LQ by (unfold Q'; rewrite firstn_length; lia).
      assert (adv_key nd key = pack (Q' ++ [true])) as Hadv by now apply adv_bits.
      assert (valid_bytes (adv_key nd key)) as Vadv by (rewrite Hadv; apply valid_pack).
      apply (ok_found_key _ key (adv_key nd key)); [|apply HR; exact Vadv].
      rewrite (seek_all_ge key cr Hge). symmetry. apply seek_all_ge. intros e He.
      destruct (Hcr e He) as (Ve & s & Ee). rewrite Hadv, (cmp_adv e s Q' Ve Ee LQ). intros C.
      apply (Hge e He). rewrite (cmp_below e (true :: s) key) by assumption. fold Q'. now rewrite C.
    - reflexivity.
  Qed.
End NodeStep.

Definition atom_ok (a : atom) : Prop :=
  exists p, a_depth a = N.of_nat (length p) /\ a_path a = pack p /\ wf_at p (a_node a).
Fixpoint nest (pos : list atom) : Prop :=
  match pos with
  | [] => True
  | a :: rem => (forall b, In b rem -> incl (contents (a_node a)) (contents (a_node b))) /\ nest rem
  end.
Definition stk_ok (Cont : list entry) (e : entry) (stk : list atom) : Prop :=
  Forall atom_ok stk /\
  Forall (fun a => incl (contents (a_node a)) Cont /\ In e (contents (a_node a))) stk /\
  nest stk.

Lemma nest_app s1 s2 : nest s1 -> nest s2 ->
  (forall a b, In a s1 -> In b s2 -> incl (contents (a_node a)) (contents (a_node b))) -> nest (s1 ++ s2).
Proof.
  induction s1 as [|x s1 IH]; intros N1 N2 H; cbn [app nest]; [exact N2|].
  destruct N1 as [Hx N1]. split.
  - intros b Hb. apply in_app_or in Hb as [Hb|Hb]; [now apply Hx|apply H; [now left|exact Hb]].
  - apply IH; auto. intros a b Ha Hb. apply H; [now right|exact Hb].
Qed.
Lemma nest_snoc stk a : nest stk -> (forall b, In b stk -> incl (contents (a_node b)) (contents (a_node a))) ->
  nest (stk ++ [a]).
Proof.
  intros Hn Hi. apply nest_app; [exact Hn|split; [intros ? []|exact I]|].
  intros x y Hx [<-|[]]. now apply Hi.
Qed.

Lemma push_ok Cont (f : found) k L T a :
  ok_found (stk_ok L) f k L [] ->
  incl L Cont -> atom_ok a -> contents (a_node a) = Cont -> rest_of a = T ->
  ok_found (stk_ok Cont) (push f a) k L T.
Proof.
  intros H HL Ha Ea Er. unfold push, ok_found in *. destruct f as [[e stk]|]; [|exact H].
  destruct H as (R & S1 & F1 & (A1 & I1 & N1)). exists R. split; [exact S1|]. split.
  - rewrite flat_map_app, F1. cbn [flat_map]. now rewrite Er, !app_nil_r.
  - destruct (seek_in _ _ _ _ S1) as [He _]. split; [|split].
    + apply Forall_app. split; [exact A1|]. constructor; [exact Ha|constructor].
    + apply Forall_app. split.
      * eapply Forall_impl; [|exact I1]. intros b [Hb1 Hb2]. split; [|exact Hb2].
        intros x Hx. apply HL. now apply Hb1.
      * constructor; [|constructor]. rewrite Ea. split; [apply incl_refl|]. now apply HL.
    + apply nest_snoc; [exact N1|]. intros b Hb. rewrite Forall_forall in I1.
      destruct (I1 b Hb) as [Hb1 _]. rewrite Ea. intros x Hx. apply HL. now apply Hb1.
Qed.

Lemma do_next_spec t : forall p key st,
  wf_at p t -> valid_bytes key ->
  (st = VAtLeft ->
     match t with
     | Node lbl lf l r => (length (p ++ lbl) <= length (bits_of key))%nat /\
                          forall e, In e (contents r) -> bytes_cmp (fst e) key <> Lt
     | _ => True
     end) ->
  ok_found (stk_ok (contents t)) (do_next t (N.of_nat (length p)) (pack p) key st) key (remaining st t) [].
Proof.
  induction t as [|k v|lbl lf l IHl r IHr]; intros p key st Hwf Hv Hst.
  - reflexivity.
  - apply (ok_single _ (k, v) [] key []); [|reflexivity]. repeat split; constructor.
  - pose proof Hwf as Hwf0. cbn [wf_at] in Hwf. destruct Hwf as (Hlf & Hl & Hr & Hsl & Hsr & Hc).
    cbn [do_next].
    set (t := Node lbl lf l r) in *. set (q := p ++ lbl) in *.
    assert (atom_ok_t : forall s, atom_ok (mkAtom s t (N.of_nat (length p)) (pack p))).
    { intros s. exists p. auto. }
    replace (N.of_nat (length p) + N.of_nat (length lbl)) with (N.of_nat (length q))
      by (unfold q; rewrite app_length; lia).
    rewrite key_merge_general. fold q.
    assert (contents t = lf_contents lf ++ contents l ++ contents r) as Ect by reflexivity.
    replace (remaining st t) with
      (match st with VBefore => lf_contents lf ++ contents l ++ contents r | VAt => contents l ++ contents r
                | VAtLeft => contents r | VAfter => [] end) by (destruct st; reflexivity).
    apply (node_step_correct (stk_ok (contents t)) q (lf_contents lf) (contents l) (contents r)).
    + (* the embedded leaf *)
      intros e He. destruct lf as [[k0 v0]|]; cbn in He; [|tauto]. destruct He as [<-|[]]. exact Hlf.
    + intros [k1 v1] He. destruct (wf_keys _ _ _ _ Hl He) as [V _]. split; [exact V|].
      apply prefix_bit_form. exact (starts_keys _ _ _ _ _ Hl Hsl He).
    + intros [k1 v1] He. destruct (wf_keys _ _ _ _ Hr He) as [V _]. split; [exact V|].
      apply prefix_bit_form. exact (starts_keys _ _ _ _ _ Hr Hsr He).
    + (* tryNext on LeafNode *)
      intros k Vk. destruct lf as [[k0 v0]|]; [|reflexivity].
      apply (ok_single _ (k0, v0)); [|apply app_nil_r].
      split; [repeat constructor; apply atom_ok_t|split; [|split; [intros ? []|exact I]]].
      constructor; [|constructor]. cbn [a_node]. split; [apply incl_refl|rewrite Ect; now left].
    + (* tryNext on Left *)
      intros k Vk. apply (push_ok (contents t)); try reflexivity; [|rewrite Ect; apply incl_appr, incl_appl, incl_refl|apply atom_ok_t].
      pose proof (IHl q k VBefore Hl Vk ltac:(discriminate)) as HH. now rewrite remaining_before in HH.
    + (* tryNext on Right *)
      intros k Vk. apply (push_ok (contents t)); try reflexivity; [|rewrite Ect; apply incl_appr, incl_appr, incl_refl|apply atom_ok_t].
      pose proof (IHr q k VBefore Hr Vk ltac:(discriminate)) as HH. now rewrite remaining_before in HH.
    + exact Hv.
    + intros E. exact (Hst E).
Qed.

Definition pos_inv (e0 : entry) (pos : list atom) : Prop :=
  Forall atom_ok pos /\ nest pos /\ Forall (fun a => In e0 (contents (a_node a))) pos.

Lemma it_next_spec pos : forall e0,
  pos_inv e0 pos -> valid_bytes (fst e0) ->
  (forall e, In e (flat_map rest_of pos) -> bytes_cmp (fst e) (fst e0) <> Lt) ->
  match it_next (fst e0) pos with
  | Some (e', pos') => flat_map rest_of pos = e' :: flat_map rest_of pos' /\ pos_inv e' pos'
  | None => flat_map rest_of pos = []
  end.
Proof.
  induction pos as [|a rem IH]; intros e0 (HA & HN & HI) Hv Hge; [reflexivity|].
  cbn [it_next flat_map].
  inversion HA as [|? ? Ha HArem]; subst. inversion HI as [|? ? Hin HIrem]; subst.
  destruct HN as [Hnest HNrem]. destruct Ha as (p & Ed & Ep & Hwf).
  rewrite Ed, Ep.
  pose proof (do_next_spec (a_node a) p (fst e0) (a_state a) Hwf Hv) as S.
  assert (forall e, In e (rest_of a) -> bytes_cmp (fst e) (fst e0) <> Lt) as Hge_a.
  { intros e He. apply Hge. cbn [flat_map]. apply in_or_app. now left. }
  specialize (S ltac:(
    intros Est; destruct (a_node a) as [|? ?|lbl lf l r] eqn:En; try exact I; split;
    [destruct e0 as [k0 v0]; pose proof (wf_node_keys _ _ _ _ _ _ _ Hwf Hin) as Hp; now apply is_prefix_len in Hp
    |intros e He; apply Hge_a; unfold rest_of; rewrite En, Est; exact He])).
  destruct (do_next (a_node a) (N.of_nat (length p)) (pack p) (fst e0) (a_state a)) as [[e' stk]|];
    cbn [ok_found] in S; fold (rest_of a) in S; rewrite (seek_all_ge _ _ Hge_a) in S.
  - destruct S as (R & S1 & F1 & (A1 & I1 & N1)). rewrite app_nil_r in F1. split.
    + rewrite flat_map_app, F1, S1. reflexivity.
    + assert (In e' (contents (a_node a))) as He'.
      { apply (remaining_incl (a_state a)). fold (rest_of a). rewrite S1. now left. }
      split; [|split].
      * apply Forall_app. split; assumption.
      * apply nest_app; auto. intros x y Hx Hy. rewrite Forall_forall in I1.
        destruct (I1 x Hx) as [Hx1 _]. intros z Hz. apply (Hnest y Hy). now apply Hx1.
      * apply Forall_app. split.
        -- eapply Forall_impl; [|exact I1]. intros x [_ Hx]. exact Hx.
        -- apply Forall_forall. intros y Hy. now apply (Hnest y Hy).
  - rewrite S. cbn [app]. apply IH; auto.
    + split; [|split]; assumption.
    + intros e He. apply Hge. cbn [flat_map]. apply in_or_app. now right.
Qed.

Definition cur_is (cur : found) (L : list entry) : Prop :=
  match cur with
  | Some (e, pos) => L = e :: flat_map rest_of pos /\ pos_inv e pos
  | None => L = []
  end.

Lemma it_collect_spec : forall fuel L cur,
  cur_is cur L -> sorted L -> (forall e, In e L -> valid_bytes (fst e)) -> (length L < fuel)%nat ->
  it_collect fuel cur = L.
Proof.
  induction fuel as [|f IH]; intros L cur Hc Hs Hv Hl; [lia|].
  destruct cur as [[e pos]|]; cbn [cur_is it_collect] in *; [|now subst].
  destruct Hc as [-> Hinv]. f_equal. cbn [sorted] in Hs. destruct Hs as [Hlt Hs].
  apply IH; auto.
  - pose proof (it_next_spec pos e Hinv (Hv e (or_introl eq_refl))) as S.
    specialize (S ltac:(intros x Hx; rewrite Forall_forall in Hlt; specialize (Hlt x Hx);
                        unfold key_lt in Hlt; rewrite bytes_cmp_antisym, Hlt; discriminate)).
    destruct (it_next (fst e) pos) as [[e' pos']|]; cbn [cur_is]; exact S.
  - intros x Hx. apply Hv. now right.
  - cbn [length] in Hl. lia.
Qed.

Lemma it_collect_seek t k fuel :
  wf t -> valid_bytes k -> (length (contents t) < fuel)%nat ->
  it_collect fuel (it_seek t k) = al_seek k (contents t).
Proof.
  intros Hwf Hv Hfuel. unfold it_seek.
  pose proof (do_next_spec t [] k VBefore Hwf Hv ltac:(discriminate)) as S.
  cbn [length N.of_nat pack] in S. rewrite remaining_before in S.
  destruct (al_seek_spec k (contents t) (contents_sorted _ Hwf)) as [Ss Sm].
  apply it_collect_spec.
  - destruct (do_next t 0 [] k VBefore) as [[e stk]|]; cbn [ok_found cur_is] in *; [|exact S].
    destruct S as (R & S1 & F1 & (A1 & I1 & N1)). rewrite app_nil_r in F1. split; [now rewrite S1, F1|].
    split; [exact A1|split; [exact N1|]]. eapply Forall_impl; [|exact I1]. intros x [_ Hx]. exact Hx.
  - exact Ss.
  - intros [k1 v1] He. apply Sm in He as [He _]. apply (wf_keys _ _ _ _ Hwf He).
  - eapply Nat.le_lt_trans; [apply al_seek_length|exact Hfuel].
Qed.

Theorem doNext_refines_seek t k :
  wf t -> valid_bytes k -> port_iter k t = al_seek k (contents t).
Proof. intros Hwf Hv. apply it_collect_seek; [exact Hwf|exact Hv|apply Nat.lt_succ_diag_r]. Qed.

Definition sop_valid_p (o : sop) : Prop :=
  sop_valid o /\ match o with SIter k _ => valid_bytes k | _ => True end.

Lemma s_iter_p_eq s os k : port_iter k (tr s) = t_iter k s -> s_iter_p k s os = s_iter k s os.
Proof. intros P. induction os as [|o r IH]; cbn [s_iter_p s_iter]; [exact P|now rewrite IH]. Qed.

Lemma s_step_p_eq_wf st o : st_inv st -> sop_valid_p o -> s_step_p st o = s_step st o.
Proof.
  intros [[W _] _] [_ V]. destruct o; cbn [s_step_p s_step]; auto.
  now rewrite s_iter_p_eq by now apply doNext_refines_seek.
Qed.

Theorem port_run_refines ops : forall st,
  Forall sop_valid_p ops -> st_inv st -> s_run_p st ops = s_run st ops.
Proof.
  induction ops as [|o r IH]; intros st Hv Hi; cbn [s_run_p s_run]; [reflexivity|].
  inversion Hv as [|? ? Ho Hr]; subst. rewrite s_step_p_eq_wf by assumption.
  destruct (step_refines st o (proj1 Ho) Hi) as (I1 & _ & _).
  destruct (s_step st o) as [st1 res]. cbn [fst] in I1. now rewrite IH.
Qed.

Theorem tree_refines_map_port b ops :
  Forall sop_valid_p ops ->
  snd (s_run_p (t_init b, []) ops) = snd (a_run a_init ops).
Proof.
  intros Hv. rewrite port_run_refines; [|exact Hv|apply init_inv].
  apply tree_refines_map. eapply Forall_impl; [|exact Hv]. intros o [H _]. exact H.
Qed.
