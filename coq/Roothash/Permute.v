(* The order of the committee member list and the iteration order of Go's vote map do not
   influence ProcessCommitments. *)
From Coq Require Import Permutation.
From Verif Require Import Lib.Base Roothash.Pool Roothash.PoolSpec Roothash.PoolProofs Roothash.EarlyDetect.

Lemma perm_filter {A} (f : A -> bool) l l' : Permutation l l' -> Permutation (filter f l) (filter f l').
Proof.
  induction 1 as [|x l l' _ IH|x y l|l l' l'' _ IH1 _ IH2]; cbn [filter].
  - constructor.
  - destruct (f x); [constructor|]; exact IH.
  - destruct (f x), (f y); try apply Permutation_refl. apply perm_swap.
  - eapply Permutation_trans; eassumption.
Qed.

Lemma perm_sel d c c' : Permutation c c' -> Permutation (sel d c) (sel d c').
Proof. intros H. unfold sel. apply Permutation_map. apply perm_filter. exact H. Qed.

Lemma perm_count f l l' : Permutation l l' -> count f l = count f l'.
Proof. intros H. unfold count. f_equal. apply Permutation_length. apply perm_filter. exact H. Qed.

Definition vpos (l : list (N * N)) : Prop := forall k v, In (k, v) l -> 0 < v.
Definition teq (l l' : list (N * N)) : Prop :=
  NoDup (keys l) /\ NoDup (keys l') /\ vpos l /\ vpos l' /\ forall h, vget h l = vget h l'.

Lemma vpos_vinc h l : vpos l -> vpos (vinc h l).
Proof.
  intros P k v [H|H].
  - injection H as <- <-. destruct (aget h l); lia.
  - apply adel_incl in H. apply (P k v H).
Qed.

Lemma vpos_tallyv hs l : vpos l -> vpos (tallyv hs l).
Proof. apply (fold_left_invariant vpos). intros a h. apply vpos_vinc. Qed.

Lemma teq_tallyv hs hs' : Permutation hs hs' -> teq (tallyv hs []) (tallyv hs' []).
Proof.
  intros H. repeat split.
  - apply tallyv_nodup. constructor.
  - apply tallyv_nodup. constructor.
  - apply vpos_tallyv. intros k v [].
  - apply vpos_tallyv. intros k v [].
  - intros h. rewrite !tallyv_vget. f_equal. apply (perm_count (fun x => x =? h)). exact H.
Qed.

Lemma in_keys_ex {V} k (l : list (N * V)) : In k (keys l) -> exists v, In (k, v) l.
Proof.
  unfold keys. intros H. apply in_map_iff in H as [[a v] [E H]]. cbn in E. subst a. exists v. exact H.
Qed.

Lemma key_iff_pos l k : NoDup (keys l) -> vpos l -> (In k (keys l) <-> 0 < vget k l).
Proof.
  intros Hn Hp. split.
  - intros H. apply in_keys_ex in H as [v H]. pose proof (Hp k v H).
    unfold vget. rewrite (In_aget k v l Hn H). assumption.
  - unfold vget. destruct (aget k l) eqn:E; [|lia]. intros _. eapply aget_in_keys. exact E.
Qed.

Lemma teq_vlen l l' : teq l l' -> vlen l = vlen l'.
Proof.
  intros (N1 & N2 & P1 & P2 & E). unfold vlen. f_equal.
  rewrite <- (map_length fst l), <- (map_length fst l').
  apply Permutation_length. apply NoDup_Permutation; try assumption.
  intros k. fold (keys l) (keys l'). rewrite (key_iff_pos l k N1 P1), (key_iff_pos l' k N2 P2), E. reflexivity.
Qed.

Lemma teq_best l l' h b h' b' :
  teq l l' -> vbest l 0 0 = (h, b) -> vbest l' 0 0 = (h', b') -> b = b'.
Proof.
  intros (N1 & N2 & P1 & P2 & E) H H'.
  apply vbest_max in H as (_ & B & C). apply vbest_max in H' as (_ & B' & C').
  assert (Hle : forall l1 l2 h1 b1 b2, NoDup (keys l1) -> NoDup (keys l2) ->
            (forall x, vget x l1 = vget x l2) -> (forall k v, In (k, v) l2 -> v <= b2) ->
            ((h1 = 0 /\ b1 = 0) \/ In (h1, b1) l1) -> b1 <= b2).
  { intros l1 l2 h1 b1 b2 M1 M2 Eq Bd [[_ ->]|Hin]; [lia|].
    pose proof (In_aget h1 b1 l1 M1 Hin) as G.
    assert (V : vget h1 l2 = b1) by (rewrite <- Eq; unfold vget; rewrite G; reflexivity).
    unfold vget in V. destruct (aget h1 l2) as [w|] eqn:G2; [|lia]. subst w.
    apply (Bd h1 b1 (aget_In _ _ _ G2)). }
  assert (b <= b') by (apply (Hle l l' h b b' N1 N2 E B' C)).
  assert (b' <= b) by (apply (Hle l' l h' b' b N2 N1 (fun x => eq_sym (E x)) B C')).
  lia.
Qed.

Lemma vget_le_vsum h l : NoDup (keys l) -> vget h l <= vsum l.
Proof. intros H. pose proof (vsum_adel h l H). lia. Qed.

Lemma vget_two_le_vsum h h' l : NoDup (keys l) -> h <> h' -> vget h l + vget h' l <= vsum l.
Proof.
  intros Hn Hne. pose proof (vsum_adel h l Hn) as E.
  assert (vget h' (adel h l) = vget h' l) by (unfold vget; rewrite aget_adel_other by congruence; reflexivity).
  pose proof (vget_le_vsum h' (adel h l) (adel_nodup h l Hn)). lia.
Qed.

(* pool.go:418-448 as a function of the tally *)
Definition resolution_code (total commits : N) (timeout : bool) (sc : sched_commitment) (l : list (N * N)) : N :=
  let required := total / 2 + 1 in
  let remaining := total - commits in
  let '(h, best) := vbest l 0 0 in
  if best + remaining <? required then 13
  else if (best <? required) && timeout then 13
  else if best <? required then 11
  else match sc_commit sc with
       | None => 16
       | Some ec => if negb (h =? ec_vote ec) then 15 else 10
       end.

(* equivalent tallies (in particular: the same map iterated in another order) give the same
   outcome of discrepancy resolution *)
Lemma resolution_code_teq total commits timeout sc l l' :
  teq l l' -> vsum l <= total ->
  resolution_code total commits timeout sc l = resolution_code total commits timeout sc l'.
Proof.
  intros T Hs. unfold resolution_code.
  destruct (vbest l 0 0) as [h b] eqn:V. destruct (vbest l' 0 0) as [h' b'] eqn:V'.
  pose proof (teq_best _ _ _ _ _ _ T V V') as Eb. subst b'.
  destruct (b + (total - commits) <? total / 2 + 1); [reflexivity|].
  destruct (b <? total / 2 + 1) eqn:Er; cbn [andb]; [reflexivity|].
  destruct (sc_commit sc) as [ec|]; [|reflexivity].
  assert (h = h'); [|subst h'; reflexivity].
  destruct T as (N1 & N2 & P1 & P2 & E).
  apply vbest_max in V as (_ & _ & C). apply vbest_max in V' as (_ & _ & C').
  assert (Hb : total / 2 + 1 <= b) by lia.
  destruct C as [[_ ->]|C]; [lia|]. destruct C' as [[_ Hz]|C']; [lia|].
  destruct (N.eq_dec h h') as [Eq|Ne]; [exact Eq|exfalso].
  pose proof (In_aget h b l N1 C) as G. pose proof (In_aget h' b l' N2 C') as G'.
  assert (vget h l = b) by (unfold vget; rewrite G; reflexivity).
  assert (vget h' l = b) by (rewrite E; unfold vget; rewrite G'; reflexivity).
  pose proof (vget_two_le_vsum h h' l N1 Ne). pose proof (majority_lt total b Hb). lia.
Qed.

Lemma aget_perm {V} k (l l' : list (N * V)) :
  Permutation l l' -> NoDup (keys l) -> aget k l = aget k l'.
Proof.
  intros H Hn.
  assert (Hn' : NoDup (keys l')) by (apply (Permutation_NoDup (Permutation_map fst H)); exact Hn).
  destruct (aget k l) as [v|] eqn:G.
  - symmetry. apply In_aget; [exact Hn'|]. exact (Permutation_in _ H (aget_In _ _ _ G)).
  - destruct (aget k l') as [v|] eqn:G'; [|reflexivity].
    rewrite (In_aget k v l Hn (Permutation_in _ (Permutation_sym H) (aget_In _ _ _ G'))) in G. discriminate G.
Qed.

Lemma teq_perm l l' : Permutation l l' -> NoDup (keys l) -> vpos l -> teq l l'.
Proof.
  intros H Hn Hp.
  assert (Hn' : NoDup (keys l')) by (apply (Permutation_NoDup (Permutation_map fst H)); exact Hn).
  repeat split; try assumption.
  - intros k v Hin. apply (Hp k v). exact (Permutation_in _ (Permutation_sym H) Hin).
  - intros h. unfold vget. rewrite (aget_perm h l l' H Hn). reflexivity.
Qed.

(* Go iterates the vote map in an unspecified order (pool.go:427): irrelevant *)
Lemma resolution_map_order_irrelevant total commits timeout sc l l' :
  Permutation l l' -> NoDup (keys l) -> vpos l -> vsum l <= total ->
  resolution_code total commits timeout sc l = resolution_code total commits timeout sc l'.
Proof. intros H Hn Hp Hs. apply resolution_code_teq; [apply teq_perm; assumption|exact Hs]. Qed.

Lemma process_inner_resolution c p strag timeout sc t :
  aget (hr p) (scs p) = Some sc -> disc p = true ->
  gather true (hr p) strag timeout (sc_votes sc) c tally0 = Some t ->
  outcome_code (process_inner c p strag timeout) = resolution_code (t_total t) (t_commits t) timeout sc (t_votes t)
  /\ (forall sc', process_inner c p strag timeout = POk sc' -> sc' = sc).
Proof.
  intros Ha Hd G. rewrite process_inner_eq, Ha, Hd, G. split.
  - unfold resolve, resolution_code. destruct (vbest (t_votes t) 0 0) as [h best].
    destruct (_ <? _); [reflexivity|]. destruct (_ && _); [reflexivity|]. destruct (best <? _); [reflexivity|].
    destruct (sc_commit sc); [destruct (negb _)|]; reflexivity.
  - intros sc' H. pose proof (resolve_cases timeout sc t) as R. rewrite H in R. exact R.
Qed.

Lemma tally_of_perm d votes c c' :
  Permutation c c' ->
  let a := tally_of d votes c tally0 in
  let b := tally_of d votes c' tally0 in
  t_total a = t_total b /\ t_failures a = t_failures b /\ t_commits a = t_commits b /\
  teq (t_votes a) (t_votes b) /\ vsum (t_votes a) = vsum (t_votes b) /\ vsum (t_votes a) <= t_total a.
Proof.
  intros HP. pose proof (perm_sel d c c' HP) as Psel.
  pose proof (Permutation_flat_map (fun n => match aget n votes with Some (Some h) => [h] | _ => [] end) Psel) as Pnf.
  cbn. fold (nonfail votes (sel d c)) (nonfail votes (sel d c')) in Pnf.
  rewrite !tallyv_vsum by constructor.
  rewrite (Permutation_length Psel), (Permutation_length Pnf), !(perm_count _ _ _ Psel).
  split; [reflexivity|]. split; [reflexivity|]. split; [reflexivity|].
  split; [apply teq_tallyv; exact Pnf|]. split; [reflexivity|].
  cbn [vsum]. rewrite nonfail_length. pose proof (count_le_length (fun n => match aget n votes with Some (Some _) => true | _ => false end) (sel d c')). lia.
Qed.

Theorem process_member_order_irrelevant c c' p strag timeout :
  Permutation c c' ->
  outcome_code (process_inner c p strag timeout) = outcome_code (process_inner c' p strag timeout) /\
  chosen (process_inner c p strag timeout) = chosen (process_inner c' p strag timeout).
Proof.
  intros HP.
  destruct (aget (hr p) (scs p)) as [sc|] eqn:Ha.
  2:{ rewrite !process_inner_eq, Ha. split; reflexivity. }
  set (votes := sc_votes sc).
  destruct (tally_of_perm (disc p) votes c c' HP) as (Et & Ef & Ec & T & Es & Hle).
  pose proof (teq_vlen _ _ T) as El.
  destruct (disc p) eqn:D.
  - (* discrepancy resolution *)
    destruct (gather_resolution_total (hr p) strag timeout votes c tally0) as [t G].
    destruct (gather_resolution_total (hr p) strag timeout votes c' tally0) as [t' G'].
    destruct (process_inner_resolution c p strag timeout sc t Ha D G) as [R Rs].
    destruct (process_inner_resolution c' p strag timeout sc t' Ha D G') as [R' Rs'].
    apply gather_some in G. apply gather_some in G'. subst t t'.
    assert (Hcode : outcome_code (process_inner c p strag timeout) = outcome_code (process_inner c' p strag timeout)).
    { rewrite R, R', <- Et, <- Ec. apply resolution_code_teq; assumption. }
    split; [exact Hcode|].
    destruct (process_inner c p strag timeout) eqn:O; destruct (process_inner c' p strag timeout) eqn:O';
      cbn [outcome_code] in Hcode; try discriminate Hcode; try reflexivity.
    rewrite (Rs sc0 eq_refl), (Rs' sc1 eq_refl). reflexivity.
  - (* discrepancy detection *)
    pose proof (early_detection_equals_final (hr p) strag timeout votes c) as [Hn Hs].
    pose proof (early_detection_equals_final (hr p) strag timeout votes c') as [Hn' Hs'].
    rewrite gather_all_tally in Hn, Hs, Hn', Hs'.
    assert (Eb : bad strag (tally_of false votes c tally0) = bad strag (tally_of false votes c' tally0)).
    { unfold bad. rewrite El, Ef. reflexivity. }
    rewrite !process_inner_eq, Ha, D. fold votes.
    destruct (gather false (hr p) strag timeout votes c tally0) as [t|] eqn:G;
      destruct (gather false (hr p) strag timeout votes c' tally0) as [t'|] eqn:G'.
    + rewrite (Hs t eq_refl), (Hs' t' eq_refl). unfold detect. rewrite El, Ef, Et, Es.
      destruct (_ || _); [split; reflexivity|]. destruct (0 <? _)%Z; [destruct timeout|]; split; reflexivity.
    + exfalso. destruct (proj1 Hn' eq_refl) as [He Hb]. rewrite <- Eb in Hb.
      assert (Hx : Some t = None) by (apply Hn; split; assumption). discriminate Hx.
    + exfalso. destruct (proj1 Hn eq_refl) as [He Hb]. rewrite Eb in Hb.
      assert (Hx : Some t' = None) by (apply Hn'; split; assumption). discriminate Hx.
    + split; reflexivity.
Qed.

(* the same for ProcessCommitments itself: the resulting pool does not depend on the member
   order either (it is determined by the outcome class) *)
Theorem process_member_order_irrelevant_full c c' p strag timeout :
  Permutation c c' ->
  fst (process c p strag timeout) = fst (process c' p strag timeout) /\
  outcome_code (snd (process c p strag timeout)) = outcome_code (snd (process c' p strag timeout)) /\
  chosen (snd (process c p strag timeout)) = chosen (snd (process c' p strag timeout)).
Proof.
  intros HP. destruct (process_member_order_irrelevant c c' p strag timeout HP) as [Hc Hch].
  unfold process.
  destruct (process_inner c p strag timeout) eqn:O; destruct (process_inner c' p strag timeout) eqn:O';
    cbn [outcome_code] in Hc; try discriminate Hc; cbn [fst snd outcome_code]; repeat split; try reflexivity; exact Hch.
Qed.
