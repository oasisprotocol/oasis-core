From Verif Require Import Lib.Base Decode.Cbor Decode.CborProofs Decode.CborValue Gen.MiscConsts.

Definition nofuel_gt {A} (lim off : N) (proj : A -> N) (r : wres A) : Prop :=
  match r with WOk a => off < proj a /\ off < lim | WErr _ => True | WFuel => False end.
Definition nofuel_ge {A} (off : N) (proj : A -> N) (r : wres A) : Prop :=
  match r with WOk a => off <= proj a | WErr _ => True | WFuel => False end.

Lemma head_gt data off t ai val off' : valid_head data off = WOk (t, ai, val, off') -> off < off' /\ off < dlen data.
Proof.
  intros H. pose proof (head_spec _ _ _ _ _ _ H) as [H1 H2]. lia.
Qed.

Lemma pv_spec : forall f,
  (forall data off, (N.to_nat (2 * (dlen data - off) + 1) <= f)%nat ->
     nofuel_gt (dlen data) off (fun x : N * vstate * kdesc => fst (fst x)) (pv_item f data off)) /\
  (forall n data off st, (N.to_nat (2 * (dlen data - off) + 2) <= f)%nat ->
     nofuel_ge off (fun x : N * vstate => fst x) (pv_array f n data off st)) /\
  (forall n data off st seen, (N.to_nat (2 * (dlen data - off) + 2) <= f)%nat ->
     nofuel_ge off (fun x : N * vstate => fst x) (pv_map f n data off st seen)).
Proof.
  induction f as [|f (IHi & IHa & IHm)]; repeat split; try (intros; lia).
  - intros data off Hf. cbn [pv_item].
    destruct (valid_head data off) as [[[[t ai] val] off1]|e|] eqn:Hh;
      [|exact I|exfalso; eapply head_no_fuel; exact Hh].
    apply head_gt in Hh. destruct Hh as [Ho1 Ho2].
    destruct (t =? 0); [cbn; lia|]. destruct (t =? 1); [cbn; lia|]. destruct (t =? 2); [cbn; lia|].
    destruct (t =? 3); [cbn; lia|].
    destruct (t =? 4).
    { specialize (IHa val data off1 (mkV true true) ltac:(lia)).
      destruct (pv_array f val data off1 (mkV true true)) as [[o st]|e|]; cbn in *; try exact I; try contradiction. lia. }
    destruct (t =? 5).
    { specialize (IHm val data off1 (mkV true true) [] ltac:(lia)).
      destruct (pv_map f val data off1 (mkV true true) []) as [[o st]|e|]; cbn in *; try exact I; try contradiction. lia. }
    destruct (t =? 7); [|exact I].
    destruct ((ai <? 20) || (ai =? 24)); [cbn; lia|]. destruct (ai =? 20); [cbn; lia|].
    destruct (ai =? 21); [cbn; lia|]. destruct ((ai =? 22) || (ai =? 23)); cbn; lia.
  - intros n data off st Hf. cbn [pv_array]. destruct (n =? 0); [cbn; lia|].
    specialize (IHi data off ltac:(lia)).
    destruct (pv_item f data off) as [[[o st'] k]|e|]; cbn in IHi; try exact I; try contradiction.
    specialize (IHa (n - 1) data o (v_and st st') ltac:(lia)).
    destruct (pv_array f (n - 1) data o (v_and st st')) as [[o2 s2]|e|]; cbn in *; try exact I; try contradiction. lia.
  - intros n data off st seen Hf. cbn [pv_map]. destruct (n =? 0); [cbn; lia|].
    pose proof (IHi data off ltac:(lia)) as H1.
    destruct (pv_item f data off) as [[[o1 stk] k]|e|]; cbn in H1; try exact I; try contradiction.
    pose proof (IHi data o1 ltac:(lia)) as H2.
    destruct (pv_item f data o1) as [[[o2 stv] k2]|e|]; cbn in H2; try exact I; try contradiction.
    match goal with |- nofuel_ge _ _ (pv_map f (n - 1) data o2 ?s ?l) =>
      specialize (IHm (n - 1) data o2 s l ltac:(lia));
      destruct (pv_map f (n - 1) data o2 s l) as [[o3 s3]|e|]; cbn in *; try exact I; try contradiction end.
    lia.
Qed.

Lemma cbor_unmarshal_verdict_total_l : forall data, cbor_unmarshal_verdict data <> WFuel.
Proof.
  intros data. unfold cbor_unmarshal_verdict.
  pose proof (cbor_recognizer_total_l data) as Hv.
  destruct (cbor_valid data) as [x|e|]; [|discriminate|contradiction].
  pose proof (proj1 (pv_spec (N.to_nat (4 * dlen data + 4))) data 0 ltac:(lia)) as H.
  destruct (pv_item (N.to_nat (4 * dlen data + 4)) data 0) as [[[o st] k]|e|]; cbn in H;
    [discriminate|discriminate|contradiction].
Qed.

Lemma cbor_verdict_refines_valid_l : forall data e,
  cbor_valid data = WErr e -> cbor_unmarshal_verdict data = WOk (Some false).
Proof. intros data e H. unfold cbor_unmarshal_verdict. rewrite H. reflexivity. Qed.

Example cbor_verdict_examples :
  cbor_unmarshal_verdict [162; 1; 2; 1; 3] = WOk (Some false) /\            (* duplicate key 1 *)
  cbor_unmarshal_verdict [162; 1; 2; 24; 1; 3] = WOk (Some false) /\        (* 1 and non-minimal 1 *)
  cbor_unmarshal_verdict [162; 1; 2; 225; 3] = WOk (Some false) /\          (* 1 and simple(1) *)
  cbor_unmarshal_verdict [162; 1; 2; 32; 3] = WOk (Some true) /\            (* 1 and -1 *)
  cbor_unmarshal_verdict [161; 65; 0; 1] = WOk (Some false) /\              (* byte-string key *)
  cbor_unmarshal_verdict [161; 128; 1] = WOk (Some false) /\                (* array key *)
  cbor_unmarshal_verdict [98; 195; 40] = WOk (Some false) /\                (* invalid UTF-8 *)
  cbor_unmarshal_verdict [98; 195; 169] = WOk (Some true) /\
  cbor_unmarshal_verdict [162; 246; 1; 247; 2] = WOk (Some false) /\        (* null and undefined *)
  cbor_unmarshal_verdict [161; 249; 60; 0; 1] = WOk None /\                 (* float key: undetermined *)
  cbor_unmarshal_verdict [1; 255; 255] = WOk (Some true).                   (* trailing bytes ignored *)
Proof. repeat apply conj; vm_compute; reflexivity. Qed.
