(* C14, committee election: an elected committee satisfies [committee_ok]
   (sizes, eligibility of every member, per-entity limit, pool size), what
   eligibility means spelled out, and soundness of the committee checker. *)
From Verif Require Import Lib.Base Sched.Elect Sched.ElectSpec Sched.ElectLemmas Sched.ElectCore.
From Coq Require Import Permutation.

Lemma dedup_sub lim : forall l seen n, In n (dedup lim seen l) -> In n l.
Proof.
  induction l as [|x r IH]; intros seen n; cbn [dedup]; [tauto|].
  destruct (lim <=? cnt_of (n_ent x) seen).
  - intros H. right. eapply IH. exact H.
  - intros [<-|H]; [left; reflexivity|right; eapply IH; exact H].
Qed.

Lemma role_pool_sub p ents vents epoch rt src cs cnodes n :
  In n (role_pool p ents vents epoch rt src cs cnodes) ->
  In n cnodes /\ role_eligible p ents vents epoch rt (src_haspi src) cs n = true.
Proof.
  unfold role_pool. intros H.
  assert (H0 : In n (filter (role_eligible p ents vents epoch rt (src_haspi src) cs) cnodes)).
  { destruct (c_max cs) as [lim|]; [|exact H].
    destruct (0 <? lim); [|exact H].
    destruct src as [tbl|db eb]; apply dedup_sub in H; [exact H|].
    apply vrf_sort_In in H. tauto. }
  apply filter_In in H0. exact H0.
Qed.

Lemma cnt_of_aset e k v m : cnt_of e (aset k v m) = if k =? e then v else cnt_of e m.
Proof.
  unfold cnt_of. destruct (k =? e) eqn:E.
  - apply N.eqb_eq in E. subst. rewrite aget_aset_same. reflexivity.
  - rewrite aget_aset_other by lia. reflexivity.
Qed.

Lemma elect_loop_sound cs wanted pool : forall idxs elected cnt el,
  elect_loop cs wanted pool idxs elected cnt = Some el ->
  (forall n, In n elected -> In n pool) ->
  (forall lim, c_max cs = Some lim ->
     forall e, cnt_of e cnt = count_node_ent e elected /\ count_node_ent e elected <= lim) ->
  (forall n, In n el -> In n pool) /\
  (forall lim, c_max cs = Some lim -> forall e, count_node_ent e el <= lim).
Proof.
  induction idxs as [|i r IH]; intros elected cnt el H Hsub Hcnt; cbn [elect_loop] in H.
  - injection H as <-. split; [exact Hsub|]. intros lim Hl e. apply (Hcnt lim Hl e).
  - destruct (wanted <=? len elected).
    { injection H as <-. split; [exact Hsub|]. intros lim Hl e. apply (Hcnt lim Hl e). }
    destruct (nth_error pool (N.to_nat i)) as [n|] eqn:En; [|eapply IH; eassumption].
    assert (Hn : In n pool) by (eapply nth_error_In; exact En).
    assert (Hsub' : forall m, In m (elected ++ [n]) -> In m pool).
    { intros m Hm. apply in_app_or in Hm. destruct Hm as [Hm|[<-|[]]]; [apply Hsub; exact Hm|exact Hn]. }
    destruct (c_max cs) as [lim|] eqn:Ec.
    + destruct (lim <=? cnt_of (n_ent n) cnt) eqn:El; [discriminate|].
      eapply IH; [exact H|exact Hsub'|].
      intros lim' [= <-] e. destruct (Hcnt lim eq_refl e) as [H1 H2].
      destruct (Hcnt lim eq_refl (n_ent n)) as [H3 _].
      rewrite cnt_of_aset, count_node_ent_app, count_node_ent_cons.
      change (count_node_ent e []) with 0.
      destruct (n_ent n =? e) eqn:E; cbn [ind].
      * assert (e = n_ent n) by lia. subst e. lia.
      * lia.
    + eapply IH; [exact H|exact Hsub'|]. intros lim' [=].
Qed.

Lemma elect_role_sound p ents vents epoch rt cs wanted cnodes src el :
  elect_role p ents vents epoch rt cs wanted cnodes src = Some el ->
  role_ok p ents vents epoch rt src cs wanted cnodes el.
Proof.
  unfold elect_role, role_ok.
  set (pool := role_pool p ents vents epoch rt src cs cnodes).
  destruct (len pool <? min_pool cs) eqn:E1; [discriminate|].
  destruct (len pool <? wanted) eqn:E2; [discriminate|].
  destruct (elect_loop cs wanted pool (role_idxs src pool) [] []) as [el'|] eqn:El; [|discriminate].
  destruct (len el' =? wanted) eqn:E3; [|discriminate]. intros [= <-].
  destruct (elect_loop_sound _ _ _ _ _ _ _ El) as [H1 H2].
  - intros n [].
  - intros lim _ e. unfold cnt_of, count_node_ent. cbn. split; [reflexivity|lia].
  - split; [lia|]. split; [|split; [exact H2|lia]].
    rewrite Forall_forall. intros n Hn. eapply role_pool_sub. apply H1. exact Hn.
Qed.

(* only eligible nodes, per-entity limit, exact sizes or no committee at all --
   for the entropy tables AND for VRF sortition with any beta hashing *)
Theorem committee_sound fv p ents vents epoch rt cnodes blocked sw sb ms :
  elect_committee fv p ents vents epoch rt cnodes blocked sw sb = Some ms ->
  committee_ok fv p ents vents epoch rt cnodes blocked sw sb ms.
Proof.
  unfold elect_committee, committee_ok.
  destruct (r_suspended rt); [discriminate|].
  destruct (fv && negb (r_compute rt)) eqn:Ek; [discriminate|].
  destruct blocked; [discriminate|].
  destruct (r_gsize rt =? 0) eqn:Eg; [discriminate|].
  destruct (elect_role p ents vents epoch rt (r_cw rt) (r_gsize rt) cnodes sw) as [w|] eqn:Ew; [|discriminate].
  apply elect_role_sound in Ew.
  intros H. split; [reflexivity|]. split; [intros ->; destruct (r_compute rt); [reflexivity|discriminate]|].
  split; [reflexivity|]. split; [lia|].
  destruct (r_bsize rt =? 0) eqn:Eb.
  - injection H as <-. exists w, []. cbn [map]. rewrite app_nil_r. split; [reflexivity|]. split; [exact Ew|reflexivity].
  - destruct (elect_role p ents vents epoch rt (r_cb rt) (r_bsize rt) cnodes sb) as [b|] eqn:Ebk; [|discriminate].
    apply elect_role_sound in Ebk. injection H as <-. exists w, b.
    split; [reflexivity|]. split; [exact Ew|exact Ebk].
Qed.

Lemma committee_member fv p ents vents epoch rt cnodes blocked sw sb ms role id :
  committee_ok fv p ents vents epoch rt cnodes blocked sw sb ms -> In (role, id) ms ->
  exists n cs src wanted el,
    role_ok p ents vents epoch rt src cs wanted cnodes el /\ In n el /\ n_id n = id /\
    ((role = ROLE_WORKER /\ cs = r_cw rt /\ src = sw) \/ (role = ROLE_BACKUP /\ cs = r_cb rt /\ src = sb)).
Proof.
  intros [_ [_ [_ [_ [w [b [-> [Hw Hb]]]]]]]] Hin.
  apply in_app_or in Hin. destruct Hin as [Hin|Hin]; apply in_map_iff in Hin; destruct Hin as [n [[= <- <-] Hn]].
  - exists n, (r_cw rt), sw, (r_gsize rt), w. tauto.
  - destruct (r_bsize rt =? 0); [subst b; contradiction|].
    exists n, (r_cb rt), sb, (r_bsize rt), b. tauto.
Qed.

Lemma suitable_rts_spec rt_id ver hw susp rts :
  suitable_rts rt_id ver hw susp rts = true ->
  exists tee, In (rt_id, ver, tee) rts /\ tee_ok hw tee = true /\ susp = false.
Proof.
  induction rts as [|[[id v] tee] r IH]; cbn [suitable_rts]; [discriminate|].
  destruct ((id =? rt_id) && (v =? ver)) eqn:E.
  - rewrite andb_true_iff, !N.eqb_eq in E. destruct E as [-> ->].
    destruct susp; [discriminate|]. intros H. exists tee. split; [left; reflexivity|]. split; [exact H|reflexivity].
  - intros H. destruct (IH H) as [t [H1 H2]]. exists t. split; [right; exact H1|exact H2].
Qed.

(* a runtime without TEE hardware takes only nodes without a TEE capability; a
   TEE runtime only nodes with the same hardware and a verifying attestation *)
Lemma tee_ok_spec hw tee :
  tee_ok hw tee = true ->
  (hw = 0 /\ tee = None) \/ (hw <> 0 /\ tee = Some (hw, true)).
Proof.
  unfold tee_ok. destruct (hw =? 0) eqn:E.
  - apply N.eqb_eq in E. destruct tee; [discriminate|]. intros _. left. split; [exact E|reflexivity].
  - apply N.eqb_neq in E. destruct tee as [[h v]|]; [|discriminate].
    rewrite andb_true_iff, N.eqb_eq. intros [-> ->]. right. split; [exact E|reflexivity].
Qed.

Lemma role_eligible_spec p ents vents epoch rt haspi cs n :
  role_eligible p ents vents epoch rt haspi cs n = true ->
  (p_bypass p = true \/ stake_ok ents (n_ent n) = true) /\
  has_role ROLE_COMPUTE n = true /\
  (exists ver from tee, active_deployment epoch (r_deps rt) = Some (ver, from) /\
                        In (r_id rt, ver, tee) (n_rts n) /\ tee_ok (r_tee rt) tee = true) /\
  suspended epoch (r_id rt) n = false /\
  haspi n = true /\
  (c_vset cs = true -> In (n_ent n) vents).
Proof.
  unfold role_eligible, suitable. intros H.
  rewrite !andb_true_iff, !orb_true_iff in H. destruct H as [[[Hs [Hr H]] Hpi] Hv].
  split; [exact Hs|]. split; [exact Hr|].
  destruct (active_deployment epoch (r_deps rt)) as [[ver from]|] eqn:Ea; [|discriminate].
  apply suitable_rts_spec in H. destruct H as [tee [H1 [H2 H3]]].
  split; [exists ver, from, tee; split; [reflexivity|split; assumption]|]. split; [exact H3|].
  split; [exact Hpi|].
  intros Hc. rewrite Hc in Hv. destruct Hv as [Hv|Hv]; [discriminate|]. unfold memN in Hv.
  apply existsb_exists in Hv. destruct Hv as [x [Hx Ex]]. apply N.eqb_eq in Ex. subst x. exact Hx.
Qed.

(* every committee member is a registered, unexpired, unfrozen node with the
   compute role, a deployment of the active runtime version with the right TEE
   capability, not suspended, with a VRF proof when sortition is used, whose
   entity's escrow covers its claims and, under the validator-set constraint,
   whose entity is in the validator set *)
Theorem committee_members_eligible fv p ents vents epoch rt nodes cnodes blocked sw sb ms role id :
  (forall n, In n cnodes -> In n (live_nodes epoch nodes)) ->
  elect_committee fv p ents vents epoch rt cnodes blocked sw sb = Some ms ->
  In (role, id) ms ->
  exists n cs src,
    In n nodes /\ n_id n = id /\ n_freeze n = 0 /\ epoch <= n_exp n /\
    ((role = ROLE_WORKER /\ cs = r_cw rt /\ src = sw) \/ (role = ROLE_BACKUP /\ cs = r_cb rt /\ src = sb)) /\
    (p_bypass p = true \/ stake_ok ents (n_ent n) = true) /\
    has_role ROLE_COMPUTE n = true /\
    (exists ver from tee, active_deployment epoch (r_deps rt) = Some (ver, from) /\
                          In (r_id rt, ver, tee) (n_rts n) /\ tee_ok (r_tee rt) tee = true) /\
    suspended epoch (r_id rt) n = false /\
    src_haspi src n = true /\
    (c_vset cs = true -> In (n_ent n) vents).
Proof.
  intros Hsub H Hin. apply committee_sound in H.
  destruct (committee_member _ _ _ _ _ _ _ _ _ _ _ _ _ H Hin)
    as [n [cs [src [wanted [el [[_ [Hall _]] [Hn [Hid Hrole]]]]]]]].
  rewrite Forall_forall in Hall. destruct (Hall n Hn) as [H1 H2].
  apply Hsub, live_nodes_spec in H1. destruct H1 as [H1 H3]. apply live_spec in H3. destruct H3 as [Hfr Hexp].
  apply role_eligible_spec in H2. exists n, cs, src.
  split; [exact H1|]. split; [exact Hid|]. split; [exact Hfr|]. split; [exact Hexp|]. split; [exact Hrole|exact H2].
Qed.

Lemma committee_nodes_live i nodes n :
  In n (committee_nodes i nodes) -> In n (live_nodes (i_epoch i) nodes).
Proof.
  unfold committee_nodes. destruct (i_vrf i) as [v|]; [|tauto].
  destruct (v_weak v); [tauto|]. rewrite filter_In. tauto.
Qed.

Lemma lookup_all_In ids l : forall ns, lookup_all ids l = Some ns -> Forall (fun n => In n l) ns.
Proof.
  induction ids as [|id r IH]; intros ns; cbn [lookup_all].
  - intros [= <-]. constructor.
  - unfold find_node. destruct (find (fun n => n_id n =? id) l) as [n|] eqn:Ef; [|discriminate].
    destruct (lookup_all r l) as [ns'|]; [|discriminate]. intros [= <-].
    constructor; [|apply IH; reflexivity]. apply find_some in Ef. tauto.
Qed.

Lemma role_ok_b_sound p ents vents epoch rt src cs wanted cnodes el :
  Forall (fun n => In n cnodes) el ->
  role_ok_b p ents vents epoch rt src cs wanted cnodes el = true ->
  role_ok p ents vents epoch rt src cs wanted cnodes el.
Proof.
  unfold role_ok_b, role_ok. intros Hin H.
  rewrite !andb_true_iff, N.eqb_eq, N.leb_le, forallb_forall in H. destruct H as [[[Hlen Hel] Hmax] Hmin].
  split; [exact Hlen|]. split; [|split; [|exact Hmin]].
  - rewrite Forall_forall in *. intros n Hn. split; [apply Hin|apply Hel]; exact Hn.
  - intros lim Hl e. rewrite Hl, forallb_forall in Hmax.
    destruct (len_filter_zero_or_in (fun n => n_ent n =? e) el) as [H0|[n [Hn He]]].
    + unfold count_node_ent. rewrite H0. apply N.le_0_l.
    + apply N.eqb_eq in He. subst e. apply N.leb_le, Hmax, Hn.
Qed.

Lemma list_eqb_pair_eq (a b : list (N * N)) : list_eqb pair_eqb a b = true -> a = b.
Proof.
  apply list_eqb_eq. intros [x y] [x' y']. unfold pair_eqb. cbn [fst snd].
  rewrite andb_true_iff, !N.eqb_eq. intros [-> ->]. reflexivity.
Qed.

Theorem committee_ok_b_sound fv p ents vents epoch rt cnodes blocked sw sb ms :
  committee_ok_b fv p ents vents epoch rt cnodes blocked sw sb ms = true ->
  committee_ok fv p ents vents epoch rt cnodes blocked sw sb ms.
Proof.
  unfold committee_ok_b, committee_ok. intros H.
  rewrite !andb_true_iff, !negb_true_iff, N.leb_le in H. destruct H as [[[[Hs Hc] Hb] Hg] Hm].
  split; [exact Hs|]. split; [intros ->; exact Hc|]. split; [exact Hb|]. split; [exact Hg|].
  destruct (lookup_all (map snd (filter (fun m => fst m =? ROLE_WORKER) ms)) cnodes) as [w|] eqn:Ew; [|discriminate].
  destruct (lookup_all (map snd (filter (fun m => fst m =? ROLE_BACKUP) ms)) cnodes) as [b|] eqn:Eb; [|discriminate].
  apply lookup_all_In in Ew. apply lookup_all_In in Eb.
  rewrite !andb_true_iff in Hm. destruct Hm as [[Heq Hw] Hbk].
  exists w, b. split; [apply list_eqb_pair_eq; exact Heq|].
  split; [apply role_ok_b_sound; assumption|].
  destruct (r_bsize rt =? 0).
  - apply N.eqb_eq in Hbk. destruct b; [reflexivity|]. rewrite len_cons in Hbk. clear -Hbk. lia.
  - apply role_ok_b_sound; assumption.
Qed.

Theorem comms_ok_b_sound fv p ents vents epoch cnodes blocked : forall rts srcs outs,
  comms_ok_b fv p ents vents epoch cnodes blocked rts srcs outs = true ->
  comms_ok fv p ents vents epoch cnodes blocked rts srcs outs.
Proof.
  induction rts as [|rt r IH]; intros srcs [|[id oc] o]; cbn [comms_ok_b comms_ok]; try discriminate; [tauto|].
  rewrite !andb_true_iff, N.eqb_eq. intros [[Hid Hc] Hr].
  split; [exact Hid|]. split; [|apply IH; exact Hr].
  destruct oc as [ms|]; [|exact I]. apply committee_ok_b_sound. exact Hc.
Qed.
