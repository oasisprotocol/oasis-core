(* Every path that adds a vote to the pool checks that the signer is a committee member with
   the role required in the current phase, and that the scheduler is a primary worker whose
   rank for the commitment's round selects the bucket. *)
From Verif Require Import Lib.Base Roothash.Pool Roothash.PoolSpec Roothash.PoolProofs.

Lemma add_ok_roles c p ec p1 :
  add c p ec = (p1, AOk) ->
  (disc p = false -> is_member c (ec_node ec) = true) /\
  (disc p = true -> is_backup_worker c (ec_node ec) = true) /\
  is_member c (ec_node ec) = true /\
  exists r, scheduler_rank c (ec_round ec) (ec_sched ec) = Some r /\
            In (ec_sched ec) (primary_nodes c) /\ r <= hr p /\ (disc p = true -> r = hr p) /\
            exists sc, aget r (scs p1) = Some sc /\
                       aget (ec_node ec) (sc_votes sc) = Some (if ec_fail ec then None else Some (ec_vote ec)).
Proof.
  intros H. apply add_ok_admitted in H as (r & (Er & Hle & Hm & Hd) & H).
  split; [intros _; exact Hm|]. split; [intros D; apply (Hd D)|]. split; [exact Hm|].
  exists r. split; [exact Er|]. split; [apply (scheduler_rank_some _ _ _ _ Er)|].
  split; [exact Hle|]. split; [intros D; apply (Hd D)|].
  unfold add_at in H. destruct (aget (ec_node ec) _); [discriminate H|]. injection H as <-.
  eexists. split; apply aget_aset_same.
Qed.

(* every vote held by the pool belongs to a committee member *)
Definition votes_members (c : committee) (p : pool) : Prop :=
  forall r sc n v, aget r (scs p) = Some sc -> aget n (sc_votes sc) = Some v -> is_member c n = true.

Lemma votes_members_buckets c p :
  votes_members c p <->
  buckets (fun _ sc => forall n v, aget n (sc_votes sc) = Some v -> is_member c n = true) p.
Proof. split; intros H r sc; [intros Hr n v|intros n v Hr]; apply (H r sc); exact Hr. Qed.

Lemma votes_members_new c : votes_members c new_pool.
Proof. intros r sc n v H. discriminate H. Qed.

Lemma votes_members_process c p s t : votes_members c p -> votes_members c (fst (process c p s t)).
Proof. rewrite !votes_members_buckets. apply buckets_process. Qed.

Lemma votes_members_add c p ec : votes_members c p -> votes_members c (fst (add c p ec)).
Proof.
  rewrite !votes_members_buckets. intros I. apply buckets_add; [exact I|].
  intros r sc (_ & _ & Hm & _) Hsc n v Hv. cbn [voted sc_votes] in Hv.
  destruct (N.eq_dec n (ec_node ec)) as [->|Hn]; [exact Hm|]. rewrite aget_aset_other in Hv by exact Hn.
  destruct Hsc as [->|Hq]; [discriminate Hv|exact (Hq n v Hv)].
Qed.

Lemma votes_members_run c ops : forall p, votes_members c p -> votes_members c (run c ops p).
Proof.
  intros p. apply (run_invariant c (fun _ => True) (votes_members c)).
  - intros q ec _. apply votes_members_add.
  - intros q s t. apply votes_members_process.
  - apply Forall_forall. intros [] _; exact I.
Qed.

(* no vote of a non-member is ever held by a reachable pool (no premise on the commitments) *)
Lemma votes_members_reachable c ops r sc n v :
  aget r (scs (run c ops new_pool)) = Some sc -> aget n (sc_votes sc) = Some v -> is_member c n = true.
Proof. apply (votes_members_run c ops new_pool (votes_members_new c)). Qed.
