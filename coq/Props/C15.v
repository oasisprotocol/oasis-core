From Verif Require Import Lib.Base Ledger.SharePool Ledger.SharePoolProofs Ledger.SharePoolSeq Ledger.SharePoolExamples.
From Verif Require Import Ledger.Debond Ledger.DebondProofs Ledger.DebondExamples.
From Verif Require Import Ledger.Rewards Ledger.RewardsProofs.
From Verif Require Import Gen.AtomicConsts Ledger.Msg Ledger.MsgProofs.

(* Deposit (api.go:659): on success the pool becomes (B+a, S+m), m = a when no
   shares exist, else floor(a*S/B); unless the pool holds an orphan balance
   (S = 0 < B) the minted shares are at most pro rata and worth at most a. *)
Theorem deposit_mints_at_most_prorata : forall p dst src a,
  let r := deposit p dst src a in
  rcode r = COk ->
  rpool r = mkPool (bal p + a) (tsh p + rret r) /\
  rdst r = dst + rret r /\ rsrc r + a = src /\
  (tsh p = 0 -> rret r = a) /\
  (tsh p <> 0 -> bal p <> 0 /\ rret r * bal p <= a * tsh p /\ a * tsh p < (rret r + 1) * bal p) /\
  (~ orphan p -> rret r * bal p <= a * tsh p /\ worth (rpool r) (rret r) <= a).
Proof. exact deposit_mints_at_most_prorata_l. Qed.
Print Assumptions deposit_mints_at_most_prorata.

(* The orphan-balance case stated explicitly: with S = 0 the depositor of
   a > 0 gets a shares and can redeem B + a. *)
Theorem deposit_orphan_takes_balance : forall p dst src a,
  tsh p = 0 -> a <= src -> a <> 0 ->
  let r := deposit p dst src a in
  rcode r = COk /\ rret r = a /\ rpool r = mkPool (bal p + a) a /\
  worth (rpool r) (rret r) = bal p + a.
Proof. exact deposit_orphan_l. Qed.
Print Assumptions deposit_orphan_takes_balance.

Theorem deposit_fails_exactly : forall p dst src a,
  let r := deposit p dst src a in
  (rcode r = CInvalidArgument <-> (tsh p <> 0 /\ bal p = 0)) /\
  (rcode r = CInsufficient <-> (~ (tsh p <> 0 /\ bal p = 0) /\ src < a)) /\
  (rcode r <> COk -> rpool r = p /\ rdst r = dst /\ rsrc r = src /\ rret r = 0).
Proof. exact deposit_fails_exactly_l. Qed.
Print Assumptions deposit_fails_exactly.

Theorem withdraw_pays_at_most_prorata : forall p dst src s,
  let r := withdraw p dst src s in
  rcode r = COk ->
  rret r = worth p s /\
  rret r * tsh p <= s * bal p /\
  (tsh p <> 0 -> s * bal p < (rret r + 1) * tsh p) /\
  rret r <= bal p /\ s <= tsh p /\ s <= src /\
  rpool r = mkPool (bal p - rret r) (tsh p - s) /\
  rdst r = dst + rret r /\ rsrc r = src - s.
Proof. exact withdraw_pays_at_most_prorata_l. Qed.
Print Assumptions withdraw_pays_at_most_prorata.

Theorem withdraw_fails_exactly : forall p dst src s,
  let r := withdraw p dst src s in
  (rcode r <> COk <-> (src < s \/ tsh p < s)) /\
  (src < s -> rcode r = CInsufficient /\ rpool r = p /\ rdst r = dst /\ rsrc r = src /\ rret r = 0) /\
  (s <= src -> tsh p < s -> rcode r = CInsufficient /\ rpool r = p /\ rdst r = dst /\ rsrc r = src - s).
Proof. exact withdraw_fails_exactly_l. Qed.
Print Assumptions withdraw_fails_exactly.

(* In every reachable state of a well-formed ledger Withdraw fails iff the
   holder lacks the shares, and then changes nothing. *)
Theorem withdraw_partial_failure_unreachable : forall st0 ops d s,
  wfm st0 -> let st := mfinal st0 ops in
  let r := withdraw (mpool st) 0 (dsh (dget d (mdel st))) s in
  (rcode r = COk <-> s <= dsh (dget d (mdel st))) /\
  (rcode r <> COk -> rpool r = mpool st /\ rsrc r = dsh (dget d (mdel st))).
Proof. exact (fun st0 ops d s H => withdraw_partial_failure_unreachable_l _ d s (wfm_run ops st0 H)). Qed.
Print Assumptions withdraw_partial_failure_unreachable.

Theorem others_never_lose : forall p dst src x u,
  (rcode (deposit p dst src x) = COk -> worth p u <= worth (rpool (deposit p dst src x)) u) /\
  (rcode (withdraw p dst src x) = COk -> u + x <= tsh p ->
   worth p u <= worth (rpool (withdraw p dst src x)) u).
Proof. exact others_never_lose_l. Qed.
Print Assumptions others_never_lose.

(* Over any history of deposits, redemptions (by others) and rewards, a
   holder who does nothing keeps its shares and their worth never falls. *)
Theorem passive_holder_never_loses : forall d ops, Forall (passive d) ops ->
  forall st, wfm st ->
  dget d (mdel (mfinal st ops)) = dget d (mdel st) /\
  worth (mpool st) (dsh (dget d (mdel st))) <= worth (mpool (mfinal st ops)) (dsh (dget d (mdel st))).
Proof. exact passive_holder_never_loses_l. Qed.
Print Assumptions passive_holder_never_loses.

Theorem price_falls_only_by_slash : forall st o,
  (~ is_slash o -> price_le (mpool st) (mpool (mnext st o))) /\
  (is_slash o -> price_le (mpool (mnext st o)) (mpool st) /\ tsh (mpool (mnext st o)) = tsh (mpool st)).
Proof. exact price_falls_only_by_slash_l. Qed.
Print Assumptions price_falls_only_by_slash.

(* paid out + balance + slashed = paid in + rewards + c along every history *)
Theorem conservation : forall ops st c, wfm st -> conserved c st -> conserved c (mfinal st ops).
Proof. exact conservation_l. Qed.
Print Assumptions conservation.

(* For every set A of delegators containing all acting ones (the others hold
   arbitrary shares and stay passive), over every history of deposits,
   redemptions, rewards and slashes: what A got out plus what its shares are
   still worth is at most what A paid in plus A's pro-rata part of every reward
   (rounded up per reward; a reward to a share-less pool counted in full) plus
   what A's shares were worth at the start (the whole balance if the pool
   started with an orphan balance). *)
Theorem profit_bound : forall A st0 ops,
  wfm st0 -> Forall (actor_in A) ops ->
  let st := mfinal st0 ops in
  outA A st + worth (mpool st) (uA A st) + inA A st0
  <= inA A st + outA A st0 + rshare A st0 ops + start_value A st0.
Proof. exact profit_bound_l. Qed.
Print Assumptions profit_bound.

Theorem no_profit_without_rewards : forall A b s hold ops,
  wfm (minit b s hold) -> (s = 0 -> b = 0) ->
  Forall plain ops -> Forall (actor_in A) ops ->
  let st0 := minit b s hold in
  let st := mfinal st0 ops in
  outA A st + worth (mpool st) (uA A st) <= inA A st + worth (mpool st0) (uA A st0).
Proof. exact no_profit_without_rewards_l. Qed.
Print Assumptions no_profit_without_rewards.

Theorem sole_actor_no_profit : forall d b s hold ops,
  wfm (minit b s hold) -> (s = 0 -> b = 0) ->
  Forall plain ops -> Forall (only_actor d) ops ->
  let st0 := minit b s hold in
  let st := mfinal st0 ops in
  dout (dget d (mdel st)) + worth (mpool st) (dsh (dget d (mdel st)))
  <= din (dget d (mdel st)) + worth (mpool st0) (dsh (dget d (mdel st0))).
Proof. exact sole_actor_no_profit_l. Qed.
Print Assumptions sole_actor_no_profit.

(* The per-delegator reading with other delegators acting is false: another
   delegator's own rounding loss is shared by all holders. *)
Theorem naive_per_delegator_no_profit_refuted :
  exists b s hold ops d,
    wfm (minit b s hold) /\ (s = 0 -> b = 0) /\ Forall plain ops /\
    dsh (dget d (mdel (minit b s hold))) = 0 /\
    let st := mfinal (minit b s hold) ops in
    din (dget d (mdel st)) < dout (dget d (mdel st)).
Proof. exact naive_per_delegator_refuted_l. Qed.
Print Assumptions naive_per_delegator_no_profit_refuted.

Theorem slash_same_fraction : forall ba bd amount,
  let '(ta, td) := slash_pools ba bd amount in
  ta <= ba /\ td <= bd /\ ta + td <= amount /\
  (amount <= ba + bd -> ba + bd <> 0 ->
     ta = ba * amount / (ba + bd) /\ td = bd * amount / (ba + bd) /\
     ta * (ba + bd) <= ba * amount < (ta + 1) * (ba + bd) /\
     td * (ba + bd) <= bd * amount < (td + 1) * (ba + bd) /\
     amount <= ta + td + 1) /\
  (ba + bd <= amount -> ta = ba /\ td = bd) /\
  ta * bd <= (td + 1) * ba /\ td * ba <= (ta + 1) * bd.
Proof. exact slash_same_fraction_l. Qed.
Print Assumptions slash_same_fraction.

(* The orphan-balance state (no shares, non-zero balance) is unreachable when
   rewards are proportional to the balance, as the code computes them. *)
Theorem no_orphan_invariant : forall ops st, wfm st -> no_orphan st -> prop_rewards st ops ->
  no_orphan (mfinal st ops).
Proof. exact (fun ops st _ => no_orphan_invariant_l ops st). Qed.
Print Assumptions no_orphan_invariant.

(* Debonding. Over every history of escrow additions, reclaims (with any
   debonding interval), epoch transitions (any epochs), rewards and slashes
   from a well-formed state: onEpochChange never fails; every delegation still
   queued ends at or after the epoch of the last transition (whatever was due
   has been paid at the transition that reached it); per (end epoch, delegator)
   the debonding shares minted by reclaims = shares redeemed by pay-outs +
   shares still queued (paid exactly once); every pay-out was made at a
   transition at or after the end epoch, for the worth of the shares in the
   debonding pool at that moment, at most pro rata. *)
Theorem reclaim_paid_exactly_once : forall st0 ops,
  wfD st0 ->
  let st := drun st0 ops in
  dhalt st = false /\
  Forall (fun x => depoch st <= eend x) (dq st) /\
  (forall e d, ksum e d (dminted st) = lsum e d (dlog st) + ksum e d (dq st)) /\
  Forall plog_ok (dlog st).
Proof. exact reclaim_paid_exactly_once_l. Qed.
Print Assumptions reclaim_paid_exactly_once.

Theorem epoch_pays_exactly_due : forall st e,
  wfD st ->
  let st' := dnext st (DEpoch e) in
  dq st' = filter (fun x => e <? eend x) (dq st) /\
  depoch st' = e /\ dact st' = dact st /\
  exists new, dlog st' = new ++ dlog st /\ Forall (fun r => pat r = e) new /\
              length new = length (filter (fun x => eend x <=? e) (dq st)).
Proof. exact epoch_pays_exactly_due_l. Qed.
Print Assumptions epoch_pays_exactly_due.

Theorem reclaim_moves_stake : forall st d s iv,
  wfD st -> snd (dstep st (DReclaim d s iv)) = COk ->
  let st' := dnext st (DReclaim d s iv) in
  let p := worth (dact st) s in
  s <> 0 /\ s <= sget d (ddels st) /\
  dact st' = mkPool (bal (dact st) - p) (tsh (dact st) - s) /\
  bal (ddeb st') = bal (ddeb st) + p /\
  dlog st' = dlog st /\ depoch st' = depoch st /\
  exists m, tsh (ddeb st') = tsh (ddeb st) + m /\
            dq st' = qinsert (depoch st + iv) d m (dq st) /\
            (~ orphan (ddeb st) -> m * bal (ddeb st) <= p * tsh (ddeb st)).
Proof. exact (fun st d s iv H => reclaim_moves_stake_l st d s iv (proj1 H)). Qed.
Print Assumptions reclaim_moves_stake.

Theorem debond_wf_reachable : forall epoch ops, wfD (drun (dinit epoch) ops).
Proof. exact (fun epoch ops => wfD_run ops _ (wfD_fresh _ _ epoch)). Qed.
Print Assumptions debond_wf_reachable.

Theorem debond_wf_reachable2 : forall epoch b s ops, wfD (drun (dinit2 epoch b s) ops).
Proof. exact (fun epoch b s ops => wfD_run ops _ (wfD_fresh _ _ epoch)). Qed.
Print Assumptions debond_wf_reachable2.

(* Rewards with commission (AddRewards / AddRewardSingleAttenuated /
   computeCommission), for all balances, factors, scales, rates, attenuations
   and denominators. *)
Theorem reward_raises_price : forall rd cd a common factor scale rate att,
  price_le (rapool a) (rapool (rracct (add_reward rd cd a common factor scale rate att))).
Proof. exact reward_raises_price_l. Qed.
Print Assumptions reward_raises_price.

Theorem commission_is_ordinary_deposit : forall rd cd a common factor scale rate att,
  let r := add_reward rd cd a common factor scale rate att in
  tsh (rapool a) <> 0 ->
  rrminted r * (bal (rapool a) + (rrq r - rrcom r)) <= rrcom r * tsh (rapool a) /\
  worth (rapool (rracct r)) (rrminted r) <= rrcom r /\
  (cd <> 0 -> rrcom r * cd <= rrq r * rate).
Proof. exact commission_is_ordinary_deposit_l. Qed.
Print Assumptions commission_is_ordinary_deposit.

Theorem reward_split_conserves : forall rd cd a common factor scale rate att,
  let r := add_reward rd cd a common factor scale rate att in
  rrcom r <= rrq r /\ rrq r <= common /\
  rrcommon r = common - rrq r /\
  bal (rapool (rracct r)) = bal (rapool a) + (rrq r - rrcom r) + rrcom r /\
  bal (rapool (rracct r)) + rrcommon r = bal (rapool a) + common /\
  tsh (rapool (rracct r)) = tsh (rapool a) + rrminted r /\
  raself (rracct r) = raself a + rrminted r /\
  (rrcode r <> COk -> rracct r = a /\ rrcommon r = common).
Proof. exact reward_split_conserves_l. Qed.
Print Assumptions reward_split_conserves.

(* every holder's redeemable worth after a reward is at least what it was,
   the entity's (with its commission shares) included *)
Theorem reward_holders_never_lose : forall rd cd a common factor scale rate att u,
  let r := add_reward rd cd a common factor scale rate att in
  worth (rapool a) u <= worth (rapool (rracct r)) u /\
  worth (rapool a) (raself a) <= worth (rapool (rracct r)) (raself (rracct r)).
Proof. exact reward_holders_never_lose_l. Qed.
Print Assumptions reward_holders_never_lose.

(* a reward with commission IS the operation list [plain reward; deposit by
   the entity] of the multi-delegator machine, so profit_bound, conservation
   and passive_holder_never_loses cover histories with commission rewards *)
Theorem reward_is_machine_ops : forall rd cd st ent common factor scale rate att,
  let a := mkRA (mpool st) (dsh (dget ent (mdel st))) in
  let r := add_reward rd cd a common factor scale rate att in
  let ops := reward_ops rd cd (mpool st) common factor scale rate att ent in
  rrcode r = COk ->
  mpool (mfinal st ops) = rapool (rracct r) /\
  dsh (dget ent (mdel (mfinal st ops))) = raself (rracct r) /\
  (forall d, d <> ent -> Forall (passive d) ops /\ dget d (mdel (mfinal st ops)) = dget d (mdel st)) /\
  Forall (actor_in (N.eqb ent)) ops.
Proof. exact reward_is_machine_ops_l. Qed.
Print Assumptions reward_is_machine_ops.

(* the address loop of AddRewards: no account is worse off, and balances plus
   common pool are conserved *)
Theorem add_rewards_conserves : forall rd cd accts common factor scale,
  let '(c, out, cm) := add_rewards rd cd accts common factor scale in
  Forall2 (fun x a' => no_worse (fst x) a') accts out /\
  (c = COk -> sumbal out + cm = sumbal (map fst accts) + common) /\
  (c <> COk -> cm = common).
Proof. exact add_rewards_conserves_l. Qed.
Print Assumptions add_rewards_conserves.

(* Runtime messages are not rolled back individually (roothash/messages.go).
   A handler whose checks all precede its writes needs no rollback: *)
Theorem checks_before_writes_atomic_thm : forall steps,
  no_check_after_write (events_of steps) = true ->
  forall s w s' c, run_steps s w steps = (s', c) -> c <> MOk -> s' = s.
Proof. exact checks_before_writes_atomic. Qed.
Print Assumptions checks_before_writes_atomic_thm.

(* a failed staking message (or transaction) leaves every account, pool,
   delegation and debonding delegation unchanged *)
Theorem failed_message_changes_nothing : forall pr s o s' c,
  lstep pr s o = (s', c) -> c <> MOk -> s' = s.
Proof. exact failed_message_changes_nothing_l. Qed.
Print Assumptions failed_message_changes_nothing.

(* the step orders of addEscrow / reclaimEscrow read from the CURRENT source
   (go/ast, Gen/AtomicConsts.v): no fallible check after the first state write,
   and the write part is the model's *)
Theorem escrow_handlers_write_after_last_check :
  no_check_after_write add_escrow_events = true /\
  no_check_after_write reclaim_escrow_events = true /\
  (forall pr m d a, from_first_write add_escrow_events
                    = from_first_write (events_of (add_escrow_steps pr m d a))) /\
  (forall pr m d s iv, from_first_write reclaim_escrow_events
                       = from_first_write (events_of (reclaim_steps pr m d s iv))).
Proof. exact escrow_handlers_write_after_last_check_l. Qed.
Print Assumptions escrow_handlers_write_after_last_check.

(* the sender is debited exactly when (and by what) the pool is credited *)
Theorem add_escrow_debit_credit : forall pr s m d a s',
  lstep pr s (LAdd m d a) = (s', MOk) ->
  sget d (lgen s') + a = sget d (lgen s) /\
  bal (lact s') = bal (lact s) + a /\
  p_min_transact pr <= sget d (lgen s') /\ p_min_deleg pr <= a /\
  exists minted, tsh (lact s') = tsh (lact s) + minted /\
                 sget d (ldels s') = sget d (ldels s) + minted /\
                 ldeb s' = ldeb s /\ lq s' = lq s.
Proof. exact add_escrow_debit_credit_l. Qed.
Print Assumptions add_escrow_debit_credit.

(* TransferFromCommon (escrowed rewards from slashed funds, state.go:953):
   conservation, and: the entity receives exactly the commission share
   t*rate/denominator unless the pool has NO shares (then everything is
   commission); the rest goes to the pool balance without shares, also for a
   pool slashed to zero with shares outstanding; the commission is deposited at
   most pro rata, or stays liquid only when the pool is still dead. *)
Theorem transfer_from_common_spec : forall cd a common amount escrow rate,
  let r := transfer_from_common cd a common amount escrow rate in
  let t := N.min common amount in
  ((t = 0 \/ trcode r <> COk) -> tracct r = a /\ trcommon r = common /\ trmoved r = 0) /\
  (trcode r = COk -> t <> 0 ->
     trmoved r = t /\ trcommon r = common - t /\
     tagen (tracct r) + bal (tapool (tracct r)) + trcommon r = tagen a + bal (tapool a) + common /\
     tsh (tapool (tracct r)) = tsh (tapool a) + trminted r /\
     taself (tracct r) = taself a + trminted r /\
     (escrow = false -> tracct r = mkTA (tagen a + t) (tapool a) (taself a)) /\
     (escrow = true ->
        trcom r <= t /\
        (tsh (tapool a) <> 0 -> trcom r = t * rate / cd) /\
        (tsh (tapool a) = 0 -> trcom r = t) /\
        bal (tapool a) + (t - trcom r) <= bal (tapool (tracct r)) /\
        ((tagen (tracct r) = tagen a /\ bal (tapool (tracct r)) = bal (tapool a) + t /\
          (tsh (tapool a) <> 0 ->
           trminted r * (bal (tapool a) + (t - trcom r)) <= trcom r * tsh (tapool a))) \/
         (tagen (tracct r) = tagen a + trcom r /\ trminted r = 0 /\
          bal (tapool a) = 0 /\ t - trcom r = 0 /\ tsh (tapool a) <> 0 /\
          bal (tapool (tracct r)) = 0)))).
Proof. exact tfc_spec. Qed.
Print Assumptions transfer_from_common_spec.

(* fairness of an escrowed reward: price and every holder's worth do not fall,
   and with shares outstanding every holder of u shares can redeem at least
   its pro-rata part of balance + non-commission part *)
Theorem transfer_from_common_holders_get_noncommission : forall cd a common amount escrow rate u,
  let r := transfer_from_common cd a common amount escrow rate in
  price_le (tapool a) (tapool (tracct r)) /\
  worth (tapool a) u <= worth (tapool (tracct r)) u /\
  (trcode r = COk -> escrow = true -> tsh (tapool a) <> 0 ->
   u * (bal (tapool a) + (trmoved r - trcom r)) / tsh (tapool a) <= worth (tapool (tracct r)) u).
Proof. exact tfc_holders_get_noncommission_l. Qed.
Print Assumptions transfer_from_common_holders_get_noncommission.
