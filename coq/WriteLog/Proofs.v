(* C13, part 1: the write log built at commit, for every old contents and every
   batch.  Two per-key facts carry the file: [commit_log_spec] (from the
   pending-log invariant [inv]) says what the commit log records about the old
   and the new contents; [get_apply_writelog] says what applying a log with
   distinct keys gives.  Equalities of whole maps follow by [sorted_ext]. *)
From Verif Require Import Lib.Base WriteLog.Model WriteLog.MapFacts.
From Coq Require Import Permutation.

Lemma lookup_pupd k v l k2 :
  lookup k2 (pupd k v l) =
  if bytes_eqb k k2 then option_map (fun e => mkPe v (pe_existed e)) (lookup k l) else lookup k2 l.
Proof.
  induction l as [|[k' e] r IH]; cbn [pupd lookup]; [destruct (bytes_eqb k k2); reflexivity|].
  destruct (bytes_eqb_spec k' k) as [->|Hne]; cbn [lookup option_map].
  - destruct (bytes_eqb k k2); reflexivity.
  - rewrite IH. destruct (bytes_eqb_spec k' k2) as [->|_]; [|reflexivity].
    destruct (bytes_eqb_spec k k2); [congruence|reflexivity].
Qed.

Lemma pupd_keys k v l : map fst (pupd k v l) = map fst l.
Proof.
  induction l as [|[k' e'] r IH]; cbn [pupd map fst]; [reflexivity|].
  destruct (bytes_eqb k' k); cbn [map fst]; [reflexivity|]. rewrite IH. reflexivity.
Qed.

Lemma get_apply_entry m e k :
  get k (apply_entry m e) = if bytes_eqb (fst e) k then snd e else get k m.
Proof. unfold apply_entry. destruct (snd e); [apply get_set|apply get_remove]. Qed.

(* For every key: untouched keys still have their old binding; a touched key's
   entry holds the current binding and remembers whether the key was in the
   OLD contents.  Keys of the log are distinct. *)
Definition inv (old : kvmap) (s : tstate) : Prop :=
  NoDup (map fst (ts_log s)) /\
  forall k, match lookup k (ts_log s) with
            | None => get k (ts_tree s) = get k old
            | Some e => get k (ts_tree s) = pe_value e /\ pe_existed e = is_some (get k old)
            end.

Lemma inv_open old : inv old (open_tree old).
Proof. split; [constructor|]. intros k. reflexivity. Qed.

(* Insert and RemoveExisting change the state in one of two ways: the value of
   an existing entry is replaced, or an entry is appended for a key touched
   for the first time *)
Lemma inv_update old s k v e :
  inv old s -> lookup k (ts_log s) = Some e ->
  inv old (mkTs (apply_entry (ts_tree s) (k, v)) (pupd k v (ts_log s))).
Proof.
  intros [Hnd Hk] Ep. split; cbn [ts_log ts_tree]; [rewrite pupd_keys; exact Hnd|].
  intros k2. rewrite lookup_pupd, get_apply_entry. cbn [fst snd].
  destruct (bytes_eqb_spec k k2) as [<-|_]; [|apply Hk].
  specialize (Hk k). rewrite Ep in *. split; [reflexivity|apply Hk].
Qed.

Lemma inv_append old s k v :
  inv old s -> lookup k (ts_log s) = None ->
  inv old (mkTs (apply_entry (ts_tree s) (k, v))
                (ts_log s ++ [(k, mkPe v (is_some (get k (ts_tree s))))])).
Proof.
  intros [Hnd Hk] Ep. split; cbn [ts_log ts_tree].
  - rewrite map_app. apply (Permutation_NoDup (Permutation_cons_append _ _)).
    constructor; [apply lookup_none_iff; exact Ep|exact Hnd].
  - intros k2. rewrite lookup_app, get_apply_entry. cbn [lookup fst snd].
    destruct (bytes_eqb_spec k k2) as [<-|_].
    + specialize (Hk k). rewrite Ep in *. cbn [pe_value pe_existed]. rewrite Hk. split; reflexivity.
    + specialize (Hk k2). destruct (lookup k2 (ts_log s)); exact Hk.
Qed.

Lemma inv_step old s o : inv old s -> inv old (step s o).
Proof.
  intros H. destruct o as [k v|k]; cbn [step]; [unfold do_insert|unfold do_remove];
    rewrite pget_lookup.
  - destruct (lookup k (ts_log s)) as [e|] eqn:E.
    + apply (inv_update old s k (Some v) e H E).
    + apply (inv_append old s k (Some v) H E).
  - destruct (lookup k (ts_log s)) as [[[v|] ex]|] eqn:E.
    + apply (inv_update old s k None _ H E).
    + exact H.
    + apply (inv_append old s k None H E).
Qed.

Lemma inv_run old ops : inv old (run_batch old ops).
Proof. apply (fold_left_invariant (inv old) step); [apply inv_step|apply inv_open]. Qed.

Definition entry_of_op (o : op) : entry :=
  match o with
  | OInsert k v => (k, Some v)
  | ORemove k => (k, None)
  end.

Lemma tree_step old s o :
  inv old s -> ts_tree (step s o) = apply_entry (ts_tree s) (entry_of_op o).
Proof.
  intros [_ Hk]. destruct o as [k v|k]; cbn [step entry_of_op].
  - unfold do_insert. destruct (pget k (ts_log s)); reflexivity.
  - unfold do_remove. specialize (Hk k). rewrite <- pget_lookup in Hk.
    destruct (pget k (ts_log s)) as [[[v|] ex]|]; try reflexivity.
    (* the entry says the key is already removed: it is absent from the tree *)
    symmetry. apply remove_absent. apply Hk.
Qed.

Lemma tree_fold old ops : forall s, inv old s ->
  ts_tree (fold_left step ops s) = apply_simple (ts_tree s) (map entry_of_op ops).
Proof.
  unfold apply_simple.
  induction ops as [|o ops IH]; intros s H; cbn [fold_left map]; [reflexivity|].
  rewrite IH by (apply inv_step; exact H). rewrite (tree_step old s o H). reflexivity.
Qed.

Lemma contents_run old ops : contents (run_batch old ops) = apply_simple old (map entry_of_op ops).
Proof. exact (tree_fold old ops _ (inv_open old)). Qed.

Lemma apply_writelog_simple old wl : apply_writelog old wl = apply_simple old wl.
Proof.
  unfold apply_writelog. rewrite contents_run, map_map. f_equal.
  rewrite <- (map_id wl) at 2. apply map_ext. intros [k [v|]]; reflexivity.
Qed.

Lemma sorted_apply_simple wl : forall m, sorted m -> sorted (apply_simple m wl).
Proof.
  apply (fold_left_invariant sorted apply_entry). intros m e H.
  unfold apply_entry. destruct (snd e); [apply sorted_set|apply sorted_remove]; exact H.
Qed.

Lemma sorted_contents old ops : sorted old -> sorted (contents (run_batch old ops)).
Proof. rewrite contents_run. apply sorted_apply_simple. Qed.

Lemma sorted_apply_writelog old wl : sorted old -> sorted (apply_writelog old wl).
Proof. apply sorted_contents. Qed.

Lemma get_apply_simple k wl : forall m, NoDup (map fst wl) ->
  get k (apply_simple m wl) = match lookup k wl with Some x => x | None => get k m end.
Proof.
  unfold apply_simple.
  induction wl as [|[k' x] r IH]; intros m Hnd; cbn [fold_left lookup]; [reflexivity|].
  cbn [map fst] in Hnd. inversion Hnd as [|? ? Hnotin Hnd']; subst.
  rewrite IH, get_apply_entry by exact Hnd'. cbn [fst snd].
  destruct (bytes_eqb_spec k' k) as [->|_]; [|reflexivity].
  apply lookup_none_iff in Hnotin. rewrite Hnotin. reflexivity.
Qed.

Lemma get_apply_writelog k old wl : NoDup (map fst wl) ->
  get k (apply_writelog old wl) = match lookup k wl with Some x => x | None => get k old end.
Proof. rewrite apply_writelog_simple. apply get_apply_simple. Qed.

Lemma get_apply_in old wl k x :
  NoDup (map fst wl) -> In (k, x) wl -> get k (apply_writelog old wl) = x.
Proof.
  intros Hnd Hin. apply (lookup_in_iff _ _ _ Hnd) in Hin.
  rewrite get_apply_writelog, Hin by exact Hnd. reflexivity.
Qed.

Lemma get_apply_notin old wl k :
  NoDup (map fst wl) -> ~ In k (map fst wl) -> get k (apply_writelog old wl) = get k old.
Proof.
  intros Hnd Hin. apply lookup_none_iff in Hin.
  rewrite get_apply_writelog, Hin by exact Hnd. reflexivity.
Qed.

Lemma lookup_commit k l : NoDup (map fst l) ->
  lookup k (flat_map commit_entry l) =
  match lookup k l with
  | Some e => match pe_value e, pe_existed e with None, false => None | v, _ => Some v end
  | None => None
  end.
Proof.
  induction l as [|[k' e] r IH]; intros Hnd; cbn [flat_map lookup]; [reflexivity|].
  cbn [map fst] in Hnd. inversion Hnd as [|? ? Hnotin Hnd']; subst.
  rewrite (lookup_app (V:=option bytes)), (IH Hnd').
  destruct (bytes_eqb_spec k' k) as [->|Hne].
  - apply lookup_none_iff in Hnotin. rewrite Hnotin.
    destruct e as [[v|] [|]]; cbn; rewrite ?bytes_eqb_refl; reflexivity.
  - destruct e as [[v|] [|]]; cbn; try reflexivity;
      destruct (bytes_eqb_spec k' k); try contradiction; reflexivity.
Qed.

Lemma commit_keys_nodup l : NoDup (map fst l) -> NoDup (map fst (flat_map commit_entry l)).
Proof.
  induction l as [|[k e] r IH]; cbn [flat_map map fst]; intros Hnd; [constructor|].
  inversion Hnd as [|? ? Hnotin Hnd']; subst. specialize (IH Hnd'). rewrite map_app.
  assert (Hk : ~ In k (map fst (flat_map commit_entry r))).
  { apply lookup_none_iff. apply lookup_none_iff in Hnotin.
    rewrite lookup_commit, Hnotin by exact Hnd'. reflexivity. }
  destruct e as [[v|] [|]]; cbn; try exact IH; constructor; assumption.
Qed.

Lemma commit_log_spec old ops k :
  match lookup k (commit_writelog (run_batch old ops)) with
  | Some x => get k (contents (run_batch old ops)) = x /\ (x = None -> get k old <> None)
  | None => get k (contents (run_batch old ops)) = get k old
  end.
Proof.
  destruct (inv_run old ops) as [Hnd Hk]. unfold commit_writelog, contents.
  rewrite lookup_commit by exact Hnd. specialize (Hk k).
  destruct (lookup k (ts_log (run_batch old ops))) as [[[v|] [|]]|];
    cbn [pe_value pe_existed] in *; try exact Hk; destruct Hk as [H1 H2].
  - split; [exact H1|discriminate].
  - split; [exact H1|discriminate].
  - split; [exact H1|]. intros _ E. rewrite E in H2. discriminate.
  - rewrite H1. destruct (get k old); [discriminate|reflexivity].
Qed.

Lemma writelog_keys_nodup_lem old ops :
  NoDup (map fst (commit_writelog (run_batch old ops))).
Proof. apply commit_keys_nodup. apply (inv_run old ops). Qed.

Lemma writelog_correct_ext old ops k :
  get k (apply_writelog old (commit_writelog (run_batch old ops))) =
  get k (contents (run_batch old ops)).
Proof.
  rewrite get_apply_writelog by apply writelog_keys_nodup_lem.
  pose proof (commit_log_spec old ops k) as H.
  destruct (lookup k (commit_writelog (run_batch old ops))); symmetry; apply H.
Qed.

Lemma writelog_correct_lem old ops : sorted old ->
  apply_writelog old (commit_writelog (run_batch old ops)) = contents (run_batch old ops).
Proof.
  intros Hs. apply sorted_ext.
  - apply sorted_apply_writelog. exact Hs.
  - apply sorted_contents. exact Hs.
  - intros k. apply writelog_correct_ext.
Qed.

Lemma writelog_entries_sound_lem old ops k x :
  In (k, x) (commit_writelog (run_batch old ops)) ->
  get k (contents (run_batch old ops)) = x /\ (x = None -> get k old <> None).
Proof.
  intros Hin. apply (lookup_in_iff _ _ _ (writelog_keys_nodup_lem old ops)) in Hin.
  pose proof (commit_log_spec old ops k) as H. rewrite Hin in H. exact H.
Qed.

Lemma writelog_minimal_lem old ops k :
  get k old = None -> get k (contents (run_batch old ops)) = None ->
  ~ In k (map fst (commit_writelog (run_batch old ops))).
Proof.
  intros Ho Hn. apply lookup_none_iff. pose proof (commit_log_spec old ops k) as H.
  destruct (lookup k (commit_writelog (run_batch old ops))) as [x|]; [|reflexivity].
  exfalso. destruct H as [H1 H2]. apply H2; congruence.
Qed.

Lemma writelog_complete_lem old ops k :
  get k (contents (run_batch old ops)) <> get k old ->
  In k (map fst (commit_writelog (run_batch old ops))).
Proof.
  intros Hne. pose proof (commit_log_spec old ops k) as H.
  destruct (lookup k (commit_writelog (run_batch old ops))) as [x|] eqn:E; [|contradiction].
  apply lookup_in in E. apply (in_map fst) in E. exact E.
Qed.

(* commit.go:101 ranges over a Go map: the order of a log is free *)
Lemma apply_order_irrelevant_lem old wl wl' :
  sorted old -> NoDup (map fst wl) -> Permutation wl wl' ->
  apply_writelog old wl = apply_writelog old wl'.
Proof.
  intros Hs Hnd Hp. apply sorted_ext; try (apply sorted_apply_writelog; exact Hs).
  intros k. rewrite !get_apply_writelog, (lookup_perm k wl wl' Hnd Hp); [reflexivity| |exact Hnd].
  apply (Permutation_NoDup (Permutation_map fst Hp) Hnd).
Qed.

Lemma served_log_any_order_lem old ops wl' :
  sorted old -> Permutation (commit_writelog (run_batch old ops)) wl' ->
  apply_writelog old wl' = contents (run_batch old ops).
Proof.
  intros Hs Hp. rewrite <- (writelog_correct_lem old ops Hs). symmetry.
  apply apply_order_irrelevant_lem; [exact Hs|apply writelog_keys_nodup_lem|exact Hp].
Qed.

Lemma serve_is_commit_log b seq f wl wl' : serve b seq f wl = Some wl' -> wl' = wl.
Proof.
  unfold serve. destruct wl as [|e r]; [discriminate|].
  destruct f; [destruct b; [|destruct (seq =? 0)]| |]; congruence.
Qed.

Lemma served_fork_log_correct_lem old ops b seq f wl' :
  sorted old ->
  serve b seq f (commit_writelog (run_batch old ops)) = Some wl' ->
  apply_writelog old wl' = contents (run_batch old ops).
Proof.
  intros Hs H. apply serve_is_commit_log in H. subst wl'. apply writelog_correct_lem. exact Hs.
Qed.

Lemma run_history_ops_lem old hs : run_history old hs = run_batch old (ops_of hs).
Proof.
  unfold run_history, run_batch. generalize (open_tree old).
  induction hs as [|[o|] r IH]; intros s; cbn [fold_left ops_of hstep]; [reflexivity| |]; apply IH.
Qed.

Lemma history_log_correct_lem old hs : sorted old ->
  apply_writelog old (commit_writelog (run_history old hs)) = contents (run_history old hs) /\
  NoDup (map fst (commit_writelog (run_history old hs))) /\
  (forall k, get k (contents (run_history old hs)) <> get k old ->
             In k (map fst (commit_writelog (run_history old hs)))).
Proof.
  intros Hs. rewrite run_history_ops_lem. split; [apply writelog_correct_lem; exact Hs|].
  split; [apply writelog_keys_nodup_lem|]. intros k. apply writelog_complete_lem.
Qed.

(* forgetting the pending log at a rejected attempt loses entries: the model
   of that variant, refuted *)
Definition hstep_forgetful (s : tstate) (h : hop) : tstate :=
  match h with
  | HOp o => step s o
  | HRejected => mkTs (ts_tree s) []
  end.
Example forgetful_rejected_commit_refuted :
  let old : kvmap := [([97], [1])] in
  let hs := [HOp (OInsert [98] [2]); HRejected; HOp (OInsert [99] [3])] in
  let s := fold_left hstep_forgetful hs (open_tree old) in
  apply_writelog old (commit_writelog s) <> contents s /\
  apply_writelog old (commit_writelog (run_history old hs)) = contents (run_history old hs).
Proof. cbv zeta. split; vm_compute; [discriminate|reflexivity]. Qed.

Lemma apply_writelog_app old wl1 wl2 :
  apply_writelog old (wl1 ++ wl2) = apply_writelog (apply_writelog old wl1) wl2.
Proof. rewrite !apply_writelog_simple. unfold apply_simple. apply fold_left_app. Qed.

Lemma multi_hop_log_correct_lem path : forall old, sorted old ->
  apply_writelog old (path_log old path) = run_path old path.
Proof.
  induction path as [|ops r IH]; intros old Hs; cbn [path_log run_path].
  - reflexivity.
  - rewrite apply_writelog_app, (writelog_correct_lem old ops Hs).
    apply IH. apply sorted_contents. exact Hs.
Qed.

(* both hops write the same key: path order is right, newest-hop-first is not *)
Example multi_hop_same_key :
  let old : kvmap := [] in
  let path := [[OInsert [97; 98] [120]]; [OInsert [97; 98] []]] in
  path_log old path = [([97; 98], Some [120]); ([97; 98], Some [])] /\
  apply_writelog old (path_log old path) = run_path old path /\
  apply_writelog old (rev (path_log old path)) <> run_path old path.
Proof. cbv zeta. split; [vm_compute; reflexivity|]. split; [vm_compute; reflexivity|]. vm_compute. discriminate. Qed.

Lemma revive_make_hashed new wl :
  (forall k v, In (k, Some v) wl -> get k new = Some v) ->
  revive new (make_hashed wl) = Some wl.
Proof.
  induction wl as [|[k [v|]] r IH]; intros H; cbn [make_hashed map revive fst snd is_some];
    [reflexivity| |]; fold (make_hashed r);
    rewrite IH by (intros k0 v0 Hin; apply H; right; exact Hin).
  - rewrite (H k v (or_introl eq_refl)). reflexivity.
  - reflexivity.
Qed.

Lemma revive_roundtrip_lem old ops :
  revive (contents (run_batch old ops)) (make_hashed (commit_writelog (run_batch old ops)))
  = Some (commit_writelog (run_batch old ops)).
Proof.
  apply revive_make_hashed. intros k v Hin. apply (writelog_entries_sound_lem old ops k (Some v) Hin).
Qed.

(* the hashed log, too, comes from ranging over a Go map *)
Definition hentry_entry (new : kvmap) (h : hentry) : option entry :=
  match h with
  | (k, false) => Some (k, None)
  | (k, true) => match get k new with Some v => Some (k, Some v) | None => None end
  end.

Lemma revive_cons new h r :
  revive new (h :: r) =
  match hentry_entry new h, revive new r with
  | Some e, Some wl => Some (e :: wl)
  | _, _ => None
  end.
Proof.
  destruct h as [k [|]]; cbn [revive hentry_entry].
  - destruct (get k new); [|reflexivity]. destruct (revive new r); reflexivity.
  - destruct (revive new r); reflexivity.
Qed.

Lemma revive_perm_lem new hl hl' :
  Permutation hl hl' -> forall wl, revive new hl = Some wl ->
  exists wl', revive new hl' = Some wl' /\ Permutation wl wl'.
Proof.
  induction 1 as [|x l l' Hp IH|x y l|l1 l2 l3 H12 IH12 H23 IH23]; intros wl Hr.
  - exists wl. split; [exact Hr|apply Permutation_refl].
  - rewrite revive_cons in Hr. rewrite revive_cons.
    destruct (hentry_entry new x) as [e|]; [|discriminate].
    destruct (revive new l) as [wl0|] eqn:E; [|discriminate]. injection Hr as <-.
    destruct (IH wl0 eq_refl) as [wl0' [H1 H2]]. rewrite H1.
    exists (e :: wl0'). split; [reflexivity|apply perm_skip; exact H2].
  - rewrite !revive_cons in Hr. rewrite !revive_cons.
    destruct (hentry_entry new y) as [ey|]; [|discriminate].
    destruct (hentry_entry new x) as [ex|]; [|destruct (revive new l); discriminate].
    destruct (revive new l) as [wl0|]; [|discriminate]. injection Hr as <-.
    exists (ex :: ey :: wl0). split; [reflexivity|apply perm_swap].
  - destruct (IH12 wl Hr) as [wl2 [H1 H2]]. destruct (IH23 wl2 H1) as [wl3 [H3 H4]].
    exists wl3. split; [exact H3|eapply Permutation_trans; eassumption].
Qed.

Lemma revive_any_order_correct_lem old ops hl' :
  sorted old ->
  Permutation (make_hashed (commit_writelog (run_batch old ops))) hl' ->
  exists wl', revive (contents (run_batch old ops)) hl' = Some wl' /\
              Permutation (commit_writelog (run_batch old ops)) wl' /\
              apply_writelog old wl' = contents (run_batch old ops).
Proof.
  intros Hs Hp.
  destruct (revive_perm_lem _ _ _ Hp _ (revive_roundtrip_lem old ops)) as [wl' [H1 H2]].
  exists wl'. repeat split; [exact H1|exact H2|].
  apply served_log_any_order_lem; assumption.
Qed.

Lemma dropped_entry_differs_lem old wl1 e wl2 :
  NoDup (map fst (wl1 ++ e :: wl2)) -> get (fst e) old <> snd e ->
  apply_writelog old (wl1 ++ wl2) <> apply_writelog old (wl1 ++ e :: wl2).
Proof.
  intros Hnd Heff Heq. apply Heff.
  rewrite <- (get_apply_in old _ (fst e) (snd e) Hnd) by (destruct e; apply in_elt).
  rewrite <- Heq. symmetry. rewrite map_app in Hnd. cbn [map] in Hnd.
  apply NoDup_remove in Hnd. rewrite <- map_app in Hnd. apply get_apply_notin; apply Hnd.
Qed.

Lemma altered_value_differs_lem old wl1 k x y wl2 :
  NoDup (map fst (wl1 ++ (k, x) :: wl2)) -> x <> y ->
  apply_writelog old (wl1 ++ (k, y) :: wl2) <> apply_writelog old (wl1 ++ (k, x) :: wl2).
Proof.
  intros Hnd Hxy Heq. apply Hxy.
  rewrite <- (get_apply_in old _ k x Hnd) by apply in_elt. rewrite <- Heq.
  apply get_apply_in; [|apply in_elt]. rewrite map_app in *. exact Hnd.
Qed.

Lemma appended_entry_differs_lem old wl k x :
  get k (apply_writelog old wl) <> x ->
  apply_writelog old (wl ++ [(k, x)]) <> apply_writelog old wl.
Proof.
  intros Hne Heq. apply Hne. rewrite <- Heq at 1.
  rewrite apply_writelog_app, (apply_writelog_simple _ [(k, x)]). cbn [apply_simple fold_left].
  rewrite get_apply_entry. cbn [fst snd]. rewrite bytes_eqb_refl. reflexivity.
Qed.

(* non-vacuity: one batch with all five patterns *)
Definition ex_old : kvmap := [([1], [10]); ([1; 2], [11]); ([3], [])].
Definition ex_ops : list op :=
  [ OInsert [1] [10];                   (* overwrite with the same value *)
    ORemove [1; 2]; OInsert [1; 2] [12]; (* remove then reinsert *)
    OInsert [2] [20]; ORemove [2];       (* insert then remove (never existed) *)
    OInsert [4] [];                      (* empty value *)
    ORemove [3]; ORemove [3];            (* removal, repeated *)
    ORemove [9] ].                       (* removal of an absent key *)

Example ex_sorted : sorted ex_old.
Proof. cbn. repeat split; repeat constructor. Qed.

Example ex_log :
  commit_writelog (run_batch ex_old ex_ops) =
  [([1], Some [10]); ([1; 2], Some [12]); ([4], Some []); ([3], None)] /\
  contents (run_batch ex_old ex_ops) = [([1], [10]); ([1; 2], [12]); ([4], [])].
Proof. split; vm_compute; reflexivity. Qed.

Example ex_dropped_effective :
  get (fst ([3], @None bytes)) ex_old <> snd ([3], @None bytes).
Proof. vm_compute. discriminate. Qed.
