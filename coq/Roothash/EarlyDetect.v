(* Early discrepancy detection inside the member loop (pool.go:365-388) is equivalent to
   evaluating the same condition on the complete tally after the loop. *)
From Verif Require Import Lib.Base Roothash.Pool Roothash.PoolSpec Roothash.PoolProofs.

(* the loop without the early exit *)
Fixpoint gather_all (d : bool) (votes : list (N * option N)) (ms : committee) (t : tally) : tally :=
  match ms with
  | [] => t
  | (ro, k) :: r =>
      if negb (counts d ro) then gather_all d votes r t
      else match aget k votes with
           | None => gather_all d votes r (mkT (t_total t + 1) (t_commits t) (t_failures t) (t_votes t))
           | Some None => gather_all d votes r (mkT (t_total t + 1) (t_commits t + 1) (t_failures t + 1) (t_votes t))
           | Some (Some h) => gather_all d votes r (mkT (t_total t + 1) (t_commits t + 1) (t_failures t) (vinc h (t_votes t)))
           end
  end.

(* pool.go:370 / :394, negated: a discrepancy is visible in the tally *)
Definition bad (strag : N) (t : tally) : bool := (1 <? vlen (t_votes t)) || (strag <? t_failures t).
(* pool.go:373: backup schedulers only detect on timeout *)
Definition exit_enabled (hr0 : N) (timeout : bool) : bool := negb ((0 <? hr0) && negb timeout).

Lemma gather_all_cons d votes ro k r t :
  gather_all d votes ((ro, k) :: r) t =
  if counts d ro then gather_all d votes r (tstep votes k t) else gather_all d votes r t.
Proof.
  cbn [gather_all]. unfold tstep. destruct (counts d ro); cbn [negb]; [|reflexivity].
  destruct (aget k votes) as [[h|]|]; reflexivity.
Qed.

Lemma gather_all_tally d votes ms : forall t, gather_all d votes ms t = tally_of d votes ms t.
Proof.
  induction ms as [|[ro k] r IH]; intros t; [symmetry; apply tally_of_nil|].
  rewrite gather_all_cons, tally_of_cons. destruct (counts d ro); apply IH.
Qed.

Lemma gather_some_all d hr0 strag timeout votes ms t t' :
  gather d hr0 strag timeout votes ms t = Some t' -> t' = gather_all d votes ms t.
Proof. rewrite gather_all_tally. apply gather_some. Qed.

Lemma bad_cond strag t : bad strag t = false <-> cond strag t.
Proof. unfold bad, cond. rewrite orb_false_iff. split; intros [A B]; split; lia. Qed.

Lemma gather_enabled_good hr0 strag timeout votes ms t t' :
  exit_enabled hr0 timeout = true ->
  gather false hr0 strag timeout votes ms t = Some t' -> bad strag t = false -> bad strag t' = false.
Proof.
  unfold exit_enabled. rewrite negb_true_iff, !bad_cond. intros He. apply (gather_exit_cond _ _ _ _ _ He).
Qed.

Lemma tstep_nodup votes k t : NoDup (keys (t_votes t)) -> NoDup (keys (t_votes (tstep votes k t))).
Proof.
  intros H. unfold tstep. destruct (aget k votes) as [[h|]|]; cbn [t_votes]; [apply aset_nodup| |]; exact H.
Qed.

Lemma bad_tstep strag votes k t :
  NoDup (keys (t_votes t)) -> bad strag t = true -> bad strag (tstep votes k t) = true.
Proof.
  intros Hnd. unfold bad, tstep. rewrite !orb_true_iff.
  destruct (aget k votes) as [[h|]|]; cbn [t_votes t_failures]; intros [H|H]; auto.
  - left. pose proof (vlen_vinc h (t_votes t) Hnd). lia.
  - right. lia.
Qed.

Lemma bad_monotone d strag votes ms : forall t,
  NoDup (keys (t_votes t)) -> bad strag t = true -> bad strag (gather_all d votes ms t) = true.
Proof.
  induction ms as [|[ro k] r IH]; intros t Hnd Hb; [exact Hb|].
  rewrite gather_all_cons. destruct (counts d ro); apply IH; try assumption.
  - apply tstep_nodup. exact Hnd.
  - apply bad_tstep; assumption.
Qed.

Lemma gather_none_bad hr0 strag timeout votes ms : forall t,
  NoDup (keys (t_votes t)) ->
  gather false hr0 strag timeout votes ms t = None ->
  exit_enabled hr0 timeout = true /\ bad strag (gather_all false votes ms t) = true.
Proof.
  induction ms as [|[ro k] r IH]; intros t Hnd; [discriminate|].
  rewrite gather_cons, gather_all_cons. destruct (counts false ro); [|apply IH; exact Hnd].
  pose proof (tstep_nodup votes k t Hnd) as Hnd2. cbn [negb andb].
  destruct (has_vote votes k && stops hr0 strag timeout (tstep votes k t)) eqn:E; [|apply IH; exact Hnd2].
  intros _. apply andb_true_iff in E as [_ E]. apply andb_true_iff in E as [E1 E2].
  split; [exact E2|]. apply bad_monotone; [exact Hnd2|].
  unfold bad. apply negb_true_iff, andb_false_iff in E1. apply orb_true_iff. destruct E1; [left|right]; lia.
Qed.

(* the loop stops early exactly when the complete tally shows a discrepancy (and detection is
   enabled: primary scheduler, or timeout); otherwise it returns the complete tally *)
Lemma early_detection_from hr0 strag timeout votes ms t :
  NoDup (keys (t_votes t)) -> bad strag t = false ->
  (gather false hr0 strag timeout votes ms t = None <->
   exit_enabled hr0 timeout = true /\ bad strag (gather_all false votes ms t) = true)
  /\ (forall t', gather false hr0 strag timeout votes ms t = Some t' ->
                 t' = gather_all false votes ms t).
Proof.
  intros Hnd H0. split; [split|].
  - apply gather_none_bad. exact Hnd.
  - intros [He Hb]. destruct (gather false hr0 strag timeout votes ms t) as [t'|] eqn:G; [|reflexivity].
    pose proof (gather_enabled_good _ _ _ _ _ _ _ He G H0) as Hg.
    apply gather_some_all in G. subst t'. congruence.
  - intros t' G. apply gather_some_all in G. exact G.
Qed.

Lemma early_detection_equals_final hr0 strag timeout votes ms :
  (gather false hr0 strag timeout votes ms tally0 = None <->
   exit_enabled hr0 timeout = true /\ bad strag (gather_all false votes ms tally0) = true)
  /\ (forall t, gather false hr0 strag timeout votes ms tally0 = Some t ->
                t = gather_all false votes ms tally0).
Proof.
  apply early_detection_from; [constructor|].
  unfold bad, tally0, vlen. cbn [t_votes t_failures length]. apply orb_false_iff. split; lia.
Qed.
