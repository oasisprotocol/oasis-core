(* Reachability invariant of the commitment pool: in every pool reached from
   NewPool by adding verified commitments and processing, the entry of the
   highest-ranked scheduler holds that scheduler's own commitment. *)
From Verif Require Import Lib.Base Roothash.Pool Roothash.PoolSpec Roothash.PoolProofs.

(* what VerifyExecutorCommitment (pool.go:84-221) guarantees and the pool relies on:
   the commitment is for the round being processed (IsParentOf, :107) and a scheduler
   does not submit a failure for its own proposal (:118-126) *)
Definition verified (R : N) (ec : commitment) : Prop :=
  ec_round ec = R /\ (ec_node ec = ec_sched ec -> ec_fail ec = false).

Definition verified_op (R : N) (o : op) : Prop :=
  match o with OAdd ec => verified R ec | _ => True end.

Definition rank_inj (c : committee) (R : N) : Prop :=
  forall a b r, scheduler_rank c R a = Some r -> scheduler_rank c R b = Some r -> a = b.

Definition small (c : committee) : Prop := N.of_nat (length c) <= U64MAX.

Definition below_ok (c : committee) (R : N) (p : pool) : Prop :=
  forall r sc n v, aget r (scs p) = Some sc -> r < hr p ->
                   aget n (sc_votes sc) = Some v -> scheduler_rank c R n <> Some r.
Definition hr_present (p : pool) : Prop :=
  hr p < U64MAX -> exists sc, aget (hr p) (scs p) = Some sc.
Definition no_worse (p : pool) : Prop :=
  forall r sc, aget r (scs p) = Some sc -> r <= hr p.

Definition inv (c : committee) (R : N) (p : pool) : Prop :=
  hr_entry_ok c p /\ below_ok c R p /\ hr_present p /\ no_worse p.

Lemma inv_new c R : inv c R new_pool.
Proof.
  repeat split.
  - intros sc H. discriminate H.
  - intros r sc n v H. discriminate H.
  - intros H. cbn in H. unfold U64MAX in H. lia.
  - intros r sc H. discriminate H.
Qed.

Lemma inv_process c R p strag timeout : inv c R p -> inv c R (fst (process c p strag timeout)).
Proof.
  intros (I1 & I2 & I3 & I4). pose proof (hr_entry_ok_process c p strag timeout I1) as I1'.
  destruct (process_cases c p strag timeout) as [E|(_ & [sc0 Hsc0] & E)]; rewrite E in *;
    [repeat split; assumption|].
  split; [exact I1'|]. unfold below_ok, hr_present, no_worse. cbn [restricted hr scs]. split; [|split].
  - intros r sc n v H Hlt. rewrite aget_filter_eq in H. destruct (r =? hr p) eqn:Er; [lia|discriminate H].
  - intros _. rewrite aget_filter_eq, N.eqb_refl. exists sc0. exact Hsc0.
  - intros r sc H. rewrite aget_filter_eq in H. destruct (r =? hr p) eqn:Er; [lia|discriminate H].
Qed.

(* what [hr_entry_ok] asks of the bucket of the highest rank *)
Definition entry_ok (c : committee) (sc : sched_commitment) : Prop :=
  exists ec, sc_commit sc = Some ec /\ ec_node ec = ec_sched ec /\ ec_fail ec = false /\
             In (ec_node ec) (primary_nodes c) /\
             aget (ec_node ec) (sc_votes sc) = Some (Some (ec_vote ec)).

(* writing bucket [r]: at the highest rank the new bucket must be a good entry; below it the old
   entry stays and no voter of the new bucket may be the scheduler of rank [r] *)
Lemma inv_stored c R q r sc :
  below_ok c R q -> no_worse q -> r <= hr q ->
  (r = hr q -> entry_ok c sc) ->
  (r < hr q -> hr_entry_ok c q /\ hr_present q /\
               forall n v, aget n (sc_votes sc) = Some v -> scheduler_rank c R n <> Some r) ->
  inv c R (stored r sc q).
Proof.
  intros I2 I4 Hle Heq Hlt.
  repeat split; unfold hr_entry_ok, below_ok, hr_present, no_worse; cbn [stored hr scs].
  - intros sc' H. destruct (N.eq_dec r (hr q)) as [E|E].
    + rewrite <- E, aget_aset_same in H. injection H as <-. exact (Heq E).
    + rewrite aget_aset_other in H by congruence. apply (Hlt ltac:(lia)). exact H.
  - intros r' sc' n v H Hl. destruct (N.eq_dec r' r) as [->|E].
    + rewrite aget_aset_same in H. injection H as <-. apply (Hlt Hl).
    + rewrite aget_aset_other in H by exact E. exact (I2 r' sc' n v H Hl).
  - intros Hx. destruct (N.eq_dec r (hr q)) as [E|E].
    + rewrite <- E, aget_aset_same. eexists. reflexivity.
    + rewrite aget_aset_other by congruence. apply (Hlt ltac:(lia)). exact Hx.
  - intros r' sc' H. destruct (N.eq_dec r' r) as [->|E]; [exact Hle|].
    rewrite aget_aset_other in H by exact E. exact (I4 r' sc' H).
Qed.

Lemma inv_add c R p ec :
  small c -> rank_inj c R -> verified R ec -> inv c R p -> inv c R (fst (add c p ec)).
Proof.
  intros Hsmall Hinj [HR Hvf] I. destruct (add_cases c p ec) as [[-> _]|(rank & A)]; [exact I|].
  rewrite (add_admitted _ _ _ _ A). destruct A as (Er & Hle & _). rewrite HR in Er.
  destruct I as (I1 & I2 & I3 & I4).
  destruct (scheduler_rank_some _ _ _ _ Er) as [Hprim Hlen].
  assert (Hrk : rank < U64MAX) by (unfold small in Hsmall; lia).
  assert (Hown : forall sc, ec_node ec = ec_sched ec -> entry_ok c (voted ec sc)).
  { intros sc Eown. exists ec. unfold voted. cbn [sc_commit sc_votes].
    rewrite aget_aset_same, (Hvf Eown), Eown, N.eqb_refl. repeat split; assumption. }
  unfold add_at. destruct ((rank <? hr p) && (ec_node ec =? ec_sched ec)) eqn:El.
  - (* the scheduler of a better rank commits: highest rank lowered; it cannot have voted in
       its own bucket before *)
    apply andb_true_iff in El as [El1 El2]. apply N.eqb_eq in El2.
    assert (Hb : bucket rank (lowered rank p) = bucket rank p).
    { unfold bucket. cbn [lowered scs]. rewrite aget_filter_le, N.leb_refl. reflexivity. }
    assert (Hnone : aget (ec_node ec) (sc_votes (bucket rank p)) = None).
    { unfold bucket. destruct (aget rank (scs p)) as [sc0|] eqn:E0; [|reflexivity].
      destruct (aget (ec_node ec) (sc_votes sc0)) as [v|] eqn:Ev; [|reflexivity].
      destruct (I2 rank sc0 (ec_node ec) v E0 ltac:(lia) Ev). rewrite El2. exact Er. }
    rewrite Hb, Hnone. cbn [fst]. apply inv_stored; cbn [lowered hr]; [| |lia|intros _; exact (Hown _ El2)|lia].
    + intros r sc n v H Hl. cbn [lowered scs hr] in H, Hl. rewrite aget_filter_le in H.
      destruct (r <=? rank); [|discriminate H]. apply (I2 r sc n v H). lia.
    + intros r sc H. cbn [lowered scs hr] in *. rewrite aget_filter_le in H.
      destruct (r <=? rank) eqn:E; [lia|discriminate H].
  - destruct (aget (ec_node ec) (sc_votes (bucket rank p))) eqn:Hnone; cbn [fst]; [repeat split; assumption|].
    apply inv_stored; [exact I2|exact I4|exact Hle| |].
    + (* a vote for the highest-ranked scheduler *)
      intros ->. destruct (I3 Hrk) as [sc0 Hsc0]. unfold bucket in *. rewrite Hsc0 in *.
      destruct (ec_node ec =? ec_sched ec) eqn:Eown; [apply Hown; apply N.eqb_eq; exact Eown|].
      destruct (I1 sc0 Hsc0) as (ec0 & Hc0 & Hn0 & Hf0 & Hp0 & Hv0).
      exists ec0. unfold voted. rewrite Eown. cbn [sc_commit sc_votes]. repeat split; try assumption.
      rewrite aget_aset_other; [exact Hv0|]. intros Heq'. rewrite Heq' in Hv0. congruence.
    + (* a vote for a better-ranked scheduler that has not committed yet: by [rank_inj] the
         voter is not that scheduler *)
      intros Hlt. split; [exact I1|]. split; [exact I3|]. intros n v. unfold voted. cbn [sc_votes].
      assert (E : rank <? hr p = true) by lia. rewrite E in El. cbn [andb] in El.
      destruct (N.eq_dec n (ec_node ec)) as [->|Hnn].
      * intros _ Hx. rewrite (Hinj _ _ rank Hx Er), N.eqb_refl in El. discriminate El.
      * rewrite aget_aset_other by exact Hnn. unfold bucket.
        destruct (aget rank (scs p)) as [sc0|] eqn:E0; [apply (I2 rank sc0 n v E0 Hlt)|discriminate].
Qed.

Lemma inv_run c R ops : forall p,
  small c -> rank_inj c R -> Forall (verified_op R) ops -> inv c R p -> inv c R (run c ops p).
Proof.
  intros p Hs Hi Hv. apply (run_invariant c (verified R) (inv c R)); [| |exact Hv].
  - intros q ec. apply inv_add; assumption.
  - intros q s t. apply inv_process.
Qed.

Lemma finalize_only_if_rule_reachable c R ops strag timeout p' sc :
  small c -> rank_inj c R -> Forall (verified_op R) ops ->
  process c (run c ops new_pool) strag timeout = (p', POk sc) ->
  rule c strag (disc (run c ops new_pool)) sc.
Proof.
  intros Hs Hi Hv H.
  destruct (inv_run c R ops new_pool Hs Hi Hv (inv_new c R)) as (I1 & _).
  eapply finalize_only_if_rule; eassumption.
Qed.

Lemma no_panic_reachable c R ops strag timeout :
  small c -> rank_inj c R -> Forall (verified_op R) ops ->
  snd (process c (run c ops new_pool) strag timeout) <> PPanic.
Proof.
  intros Hs Hi Hv.
  destruct (inv_run c R ops new_pool Hs Hi Hv (inv_new c R)) as (I1 & _).
  apply no_panic. exact I1.
Qed.

Lemma no_worse_reachable c R ops r sc :
  small c -> rank_inj c R -> Forall (verified_op R) ops ->
  aget r (scs (run c ops new_pool)) = Some sc -> r <= hr (run c ops new_pool).
Proof.
  intros Hs Hi Hv.
  destruct (inv_run c R ops new_pool Hs Hi Hv (inv_new c R)) as (_ & _ & _ & I4).
  apply I4.
Qed.

Lemma mul_window T q1 q2 m : T * q1 + m <= T * q2 + m < T * q1 + m + T -> q1 = q2.
Proof. nia. Qed.

Lemma mod_inj_window T x y : x mod T = y mod T -> x <= y < x + T -> x = y.
Proof.
  intros Hm Hxy. assert (HT : T <> 0) by lia.
  pose proof (N.div_mod x T HT) as Hx. pose proof (N.div_mod y T HT) as Hy.
  rewrite Hm in Hx. clear Hm. revert Hx Hy. generalize (x / T) (y / T) (y mod T). intros q1 q2 m Hx Hy.
  assert (q1 = q2) by (apply (mul_window T q1 q2 m); lia). congruence.
Qed.

(* [W] stands for 2^64: as long as round + committee size does not wrap, ranks are the
   positions shifted by the round, modulo the number of workers.  ([lia] is kept away from
   hypotheses containing [mod]: each costs it a euclidean division.) *)
Lemma rank_eq_no_wrap W T R i j :
  R + T <= W -> i < T -> j < T -> ((R + i) mod W) mod T = ((R + j) mod W) mod T -> i = j.
Proof.
  intros HW Hi Hj. rewrite !(N.mod_small _ W) by lia. intros H.
  assert (E : R + i = R + j \/ R + j = R + i).
  { destruct (N.le_ge_cases i j); [left|right; symmetry in H]; apply (mod_inj_window T _ _ H); clear H; lia. }
  clear H. lia.
Qed.

Lemma rank_inj_no_wrap c R : R + N.of_nat (length c) <= W64 -> rank_inj c R.
Proof.
  intros Hnw a b r Ha Hb.
  apply scheduler_rank_spec in Ha as (i & Hi & Ha). apply scheduler_rank_spec in Hb as (j & Hj & Hb).
  assert (Hil : (i < length (wprefix c))%nat) by (apply nth_error_Some; congruence).
  assert (Hjl : (j < length (wprefix c))%nat) by (apply nth_error_Some; congruence).
  pose proof (wprefix_length c) as Hl.
  assert (E : N.of_nat i = N.of_nat j).
  { rewrite Ha in Hb. clear Ha. revert Hb. apply rank_eq_no_wrap; lia. }
  apply Nat2N.inj in E. subst j. congruence.
Qed.

Lemma no_wrap_premises c R : R + N.of_nat (length c) < W64 -> small c /\ rank_inj c R.
Proof.
  intros Hnw. split; [unfold small, U64MAX; unfold W64 in Hnw; lia|apply rank_inj_no_wrap; lia].
Qed.

Lemma finalize_only_if_rule_history c R ops strag timeout p' sc :
  R + N.of_nat (length c) < W64 -> Forall (verified_op R) ops ->
  process c (run c ops new_pool) strag timeout = (p', POk sc) ->
  rule c strag (disc (run c ops new_pool)) sc.
Proof.
  intros Hnw. destruct (no_wrap_premises c R Hnw) as [Hs Hi].
  apply finalize_only_if_rule_reachable; assumption.
Qed.

Example ex_history_premises :
  0 + N.of_nat (length ex_c) < W64 /\ Forall (verified_op 0) ex_discrepant /\ Forall (verified_op 0) ex_unanimous.
Proof.
  split; [vm_compute; reflexivity|].
  split; repeat constructor; cbn; try discriminate; try reflexivity.
Qed.
