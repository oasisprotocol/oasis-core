(* C13, part 2: Apply with a known root (root_cache.go:25-62 +
   commit.go:29-39).  [root_of] is an arbitrary function from contents to
   digests; it is never assumed injective. *)
From Verif Require Import Lib.Base WriteLog.Model WriteLog.MapFacts WriteLog.Proofs.
From Coq Require Import Permutation.

Section ApplyProofs.
  Variable digest : Type.
  Variable digest_eqb : digest -> digest -> bool.
  Hypothesis digest_eqb_spec : forall a b, digest_eqb a b = true <-> a = b.
  Variable root_of : kvmap -> digest.
  Variable strict : bool.

  Notation root := (root digest).
  Notation db := (db digest).
  Notation apply := (apply digest digest_eqb root_of strict).
  Notation has_root := (has_root digest digest_eqb root_of).
  Notation open_root := (open_root digest digest_eqb root_of).
  Notation root_eqb := (root_eqb digest digest_eqb).
  Notation follows := (follows digest).

  Definition collision : Prop := exists x y : kvmap, x <> y /\ root_of x = root_of y.

  Lemma digest_eqb_refl a : digest_eqb a a = true.
  Proof. apply digest_eqb_spec. reflexivity. Qed.

  Lemma root_eqb_eq a b : root_eqb a b = true <-> a = b.
  Proof.
    unfold Model.root_eqb. destruct a as [v1 t1 h1], b as [v2 t2 h2]. cbn [r_version r_type r_hash].
    split.
    - intros H. apply andb_true_iff in H as [H H3]. apply andb_true_iff in H as [H1 H2].
      apply N.eqb_eq in H1, H2. apply digest_eqb_spec in H3. congruence.
    - intros H. injection H as -> -> ->. rewrite !N.eqb_refl, digest_eqb_refl. reflexivity.
  Qed.

  Lemma has_root_stored d r m : has_root (d ++ [(r, m)]) r = true.
  Proof.
    unfold Model.has_root. rewrite existsb_app. cbn [existsb fst].
    rewrite (proj2 (root_eqb_eq r r) eq_refl), !orb_true_r. reflexivity.
  Qed.

  Definition db_wf (d : db) : Prop := forall r m, In (r, m) d -> root_of m = r_hash r.

  (* the six ways out of Apply *)
  Inductive apply_spec fin d src dst wl : db * acode -> Prop :=
  | AsFollow :
      follows dst src = false -> apply_spec fin d src dst wl (d, AFollow)
  | AsKnown :
      follows dst src = true -> has_root d dst = true -> apply_spec fin d src dst wl (d, AOk)
  | AsUnknown c :
      follows dst src = true -> has_root d dst = false -> open_root d src = None ->
      c = AOther \/ c = AMismatch -> apply_spec fin d src dst wl (d, c)
  | AsStored old :
      follows dst src = true -> has_root d dst = false -> open_root d src = Some old ->
      root_of (apply_writelog old wl) = r_hash dst -> is_finalized fin (r_version dst) = false ->
      apply_spec fin d src dst wl (d ++ [(dst, apply_writelog old wl)], AOk)
  | AsFinalized old :
      follows dst src = true -> has_root d dst = false -> open_root d src = Some old ->
      root_of (apply_writelog old wl) = r_hash dst -> is_finalized fin (r_version dst) = true ->
      apply_spec fin d src dst wl (d, AOther)
  | AsMismatch old :
      follows dst src = true -> has_root d dst = false -> open_root d src = Some old ->
      root_of (apply_writelog old wl) <> r_hash dst -> apply_spec fin d src dst wl (d, AMismatch).

  Lemma apply_spec_holds fin d src dst wl : apply_spec fin d src dst wl (apply fin d src dst wl).
  Proof.
    unfold Model.apply.
    destruct (follows dst src) eqn:Ef; cbn [negb]; [|apply AsFollow; exact Ef].
    destruct (has_root d dst) eqn:Eh; [apply AsKnown; assumption|].
    destruct (open_root d src) as [old|] eqn:Eo.
    - destruct (digest_eqb (root_of (apply_writelog old wl)) (r_hash dst)) eqn:Ed.
      + apply digest_eqb_spec in Ed. destruct (is_finalized fin (r_version dst)) eqn:Efin;
          [apply (AsFinalized _ _ _ _ _ old)|apply (AsStored _ _ _ _ _ old)]; assumption.
      + apply (AsMismatch _ _ _ _ _ old); try assumption.
        intros H. apply digest_eqb_spec in H. congruence.
    - destruct wl; [destruct strict; [|destruct (digest_eqb (r_hash src) (r_hash dst))]|];
        apply AsUnknown; auto.
  Qed.

  Lemma apply_known_root_lem fin d src dst wl old :
    follows dst src = true -> has_root d dst = false -> open_root d src = Some old ->
    is_finalized fin (r_version dst) = false ->
    (snd (apply fin d src dst wl) = AOk <-> root_of (apply_writelog old wl) = r_hash dst).
  Proof.
    intros Hf Hh Ho Hfin.
    destruct (apply_spec_holds fin d src dst wl) as [| | |o ? ? Ho'|o ? ? Ho'|o ? ? Ho'];
      cbn [snd]; try congruence; assert (o = old) by congruence; subst o; split; congruence.
  Qed.

  Lemma apply_error_unchanged_lem fin d src dst wl :
    snd (apply fin d src dst wl) <> AOk -> fst (apply fin d src dst wl) = d.
  Proof. destruct (apply_spec_holds fin d src dst wl); cbn [fst snd]; congruence. Qed.

  Lemma apply_rejected_no_root_lem fin d src dst wl :
    snd (apply fin d src dst wl) = AMismatch \/ snd (apply fin d src dst wl) = AOther ->
    fst (apply fin d src dst wl) = d /\ has_root (fst (apply fin d src dst wl)) dst = false.
  Proof.
    destruct (apply_spec_holds fin d src dst wl); cbn [fst snd]; intros [Hc|Hc];
      try discriminate Hc; (split; [reflexivity|assumption]).
  Qed.

  Lemma apply_ok_persisted_lem fin d src dst wl :
    snd (apply fin d src dst wl) = AOk ->
    has_root (fst (apply fin d src dst wl)) dst = true /\
    (fst (apply fin d src dst wl) = d \/
     exists old, open_root d src = Some old /\
       fst (apply fin d src dst wl) = d ++ [(dst, apply_writelog old wl)] /\
       root_of (apply_writelog old wl) = r_hash dst).
  Proof.
    destruct (apply_spec_holds fin d src dst wl) as [| |c ? ? ? [->| ->]|old| |];
      cbn [fst snd]; intros Hc; try discriminate Hc.
    - split; [assumption|left; reflexivity].
    - split.
      + apply has_root_stored.
      + right. exists old. repeat split; assumption.
  Qed.

  Lemma apply_preserves_wf fin d src dst wl : db_wf d -> db_wf (fst (apply fin d src dst wl)).
  Proof.
    intros Hwf. destruct (apply_spec_holds fin d src dst wl); cbn [fst]; try exact Hwf.
    intros r m Hin. apply in_app_or in Hin as [Hin|[Hin|[]]]; [apply Hwf; exact Hin|].
    injection Hin as <- <-. assumption.
  Qed.

  (* any history of Apply requests (each with the finalization state of its
     moment) on an initially empty database *)
  Definition request := (option N * root * root * writelog)%type.
  Definition apply_all (d : db) (reqs : list request) : db :=
    fold_left (fun d q => fst (apply (fst (fst (fst q))) d (snd (fst (fst q))) (snd (fst q)) (snd q))) reqs d.

  Lemma stored_roots_hash_to_contents_lem reqs r m :
    In (r, m) (apply_all [] reqs) -> root_of m = r_hash r.
  Proof.
    apply (fold_left_invariant db_wf); [intros d q; apply apply_preserves_wf|intros ? ? []].
  Qed.

  Lemma corrupted_log_rejected_lem fin d src dst wl' old new :
    follows dst src = true -> has_root d dst = false -> open_root d src = Some old ->
    r_hash dst = root_of new ->
    apply_writelog old wl' <> new ->
    (snd (apply fin d src dst wl') = AMismatch /\ fst (apply fin d src dst wl') = d /\
     has_root (fst (apply fin d src dst wl')) dst = false)
    \/ collision.
  Proof.
    intros Hf Hh Ho Hd Hne.
    destruct (apply_spec_holds fin d src dst wl') as [| | |o ? ? Ho'|o ? ? Ho'|o ? ? Ho'];
      cbn [fst snd]; try congruence; assert (o = old) by congruence; subst o.
    1, 2: right; exists (apply_writelog old wl'), new; split; [exact Hne|congruence].
    left. repeat split. exact Hh.
  Qed.

  Lemma unknown_start_rejected_lem fin d src dst wl :
    follows dst src = true -> has_root d dst = false -> open_root d src = None ->
    snd (apply fin d src dst wl) <> AOk /\ fst (apply fin d src dst wl) = d.
  Proof.
    intros Hf Hh Ho. destruct (apply_spec_holds fin d src dst wl) as [| |c ? ? ? [->| ->]| | |];
      cbn [fst snd]; try congruence; split; congruence.
  Qed.

  Lemma finalized_version_rejected_lem fin d src dst wl :
    has_root d dst = false -> is_finalized fin (r_version dst) = true ->
    snd (apply fin d src dst wl) <> AOk /\ fst (apply fin d src dst wl) = d.
  Proof.
    intros Hh Hfin. destruct (apply_spec_holds fin d src dst wl) as [| |c ? ? ? [->| ->]| | |];
      cbn [fst snd]; try congruence; split; congruence.
  Qed.

  Lemma sync_reaches_end_root_lem fin d src dst old ops wl :
    sorted old ->
    follows dst src = true -> open_root d src = Some old ->
    is_finalized fin (r_version dst) = false ->
    r_hash dst = root_of (contents (run_batch old ops)) ->
    Permutation (commit_writelog (run_batch old ops)) wl ->
    snd (apply fin d src dst wl) = AOk /\ has_root (fst (apply fin d src dst wl)) dst = true /\
    (has_root d dst = false ->
     fst (apply fin d src dst wl) = d ++ [(dst, contents (run_batch old ops))]).
  Proof.
    intros Hs Hf Ho Hfin Hd Hp.
    pose proof (served_log_any_order_lem old ops wl Hs Hp) as Hcontents.
    (* with [Hcontents] the recomputed root is the expected one: no mismatch *)
    destruct (apply_spec_holds fin d src dst wl) as [| | |o ? ? Ho'|o ? ? Ho'|o ? ? Ho'];
      cbn [fst snd]; try congruence.
    - repeat split; [assumption|congruence].
    - assert (o = old) by congruence. subst o. rewrite Hcontents. repeat split.
      apply has_root_stored.
  Qed.

  Notation sync_root := (sync_root digest digest_eqb root_of strict).
  Notation sync_with_peers := (sync_with_peers digest digest_eqb root_of strict).

  Lemma open_root_wf d r m : db_wf d -> open_root d r = Some m -> root_of m = r_hash r.
  Proof.
    intros Hwf. unfold Model.open_root.
    destruct (digest_eqb (r_hash r) (root_of [])) eqn:E.
    - intros H. injection H as <-. apply digest_eqb_spec in E. congruence.
    - destruct (find _ d) as [x|] eqn:Ef; [|discriminate]. intros H. injection H as <-.
      apply find_some in Ef as [Hin Heq]. apply root_eqb_eq in Heq. subst r.
      apply Hwf. destruct x. exact Hin.
  Qed.

  Lemma has_root_opens d r : has_root d r = true -> exists m, open_root d r = Some m.
  Proof.
    unfold Model.has_root, Model.open_root. destruct (digest_eqb (r_hash r) (root_of [])).
    - intros _. exists []. reflexivity.
    - cbn [orb]. intros H. destruct (find (fun x => root_eqb (fst x) r) d) as [x|] eqn:Ef.
      + exists (snd x). reflexivity.
      + exfalso. apply existsb_exists in H as [x [Hin Hx]].
        pose proof (find_none _ _ Ef x Hin) as Hn. cbv beta in Hn. congruence.
  Qed.

  Lemma same_or_collision m new : root_of m = root_of new -> m = new \/ collision.
  Proof.
    intros H. destruct (kvmap_eqb m new) eqn:E.
    - left. apply kvmap_eqb_eq. exact E.
    - right. exists m, new. split; [|exact H]. intros Heq. apply kvmap_eqb_eq in Heq. congruence.
  Qed.

  Definition holds_announced (d : db) (this : root) : Prop :=
    has_root d this = true /\
    exists m, open_root d this = Some m /\ root_of m = r_hash this /\
      forall new, root_of new = r_hash this -> m = new \/ collision.

  Lemma holds_announced_of_has d this : db_wf d -> has_root d this = true -> holds_announced d this.
  Proof.
    intros Hwf Hh. split; [exact Hh|]. destruct (has_root_opens d this Hh) as [m Hm].
    exists m. split; [exact Hm|]. pose proof (open_root_wf d this m Hwf Hm) as Hr.
    split; [exact Hr|]. intros new Hn. apply same_or_collision. congruence.
  Qed.

  Lemma sync_root_sound_lem fin d prev this peer :
    db_wf d -> accepted (snd (sync_root fin d prev this peer)) = true ->
    db_wf (fst (sync_root fin d prev this peer)) /\
    holds_announced (fst (sync_root fin d prev this peer)) this.
  Proof.
    intros Hwf. unfold Model.sync_root. destruct (has_root d this) eqn:Eh; cbn [fst snd].
    - intros _. split; [exact Hwf|]. apply holds_announced_of_has; assumption.
    - set (wl := if digest_eqb (r_hash this) (r_hash prev) then [] else peer).
      intros Hacc. assert (Hok : snd (apply fin d prev this wl) = AOk).
      { revert Hacc. destruct (apply_spec_holds fin d prev this wl) as [| |c ? ? ? [->| ->]| | |];
          cbn; congruence. }
      split; [apply apply_preserves_wf; exact Hwf|].
      destruct (apply_ok_persisted_lem fin d prev this wl Hok) as [Hhas _].
      apply holds_announced_of_has; [apply apply_preserves_wf; exact Hwf|exact Hhas].
  Qed.

  Lemma sync_root_rejected_lem fin d prev this peer :
    accepted (snd (sync_root fin d prev this peer)) = false ->
    fst (sync_root fin d prev this peer) = d.
  Proof.
    unfold Model.sync_root. destruct (has_root d this); cbn [fst snd accepted]; [discriminate|].
    intros H. apply apply_error_unchanged_lem. intros E. rewrite E in H. discriminate.
  Qed.

  Lemma sync_with_peers_sound_lem fin answers : forall d prev this,
    db_wf d ->
    let res := sync_with_peers fin d prev this answers in
    db_wf (fst res) /\
    (snd res = true -> holds_announced (fst res) this) /\
    (snd res = false -> fst res = d).
  Proof.
    induction answers as [|wl r IH]; intros d prev this Hwf; cbn [Model.sync_with_peers].
    - cbn [fst snd]. split; [exact Hwf|split; [discriminate|intros _; reflexivity]].
    - generalize (sync_root_sound_lem fin d prev this wl Hwf), (sync_root_rejected_lem fin d prev this wl).
      destruct (sync_root fin d prev this wl) as [d' c]. cbn [fst snd]. intros Hacc Hrej.
      destruct (accepted c); cbn [fst snd].
      + destruct (Hacc eq_refl) as [H1 H2]. split; [exact H1|split; [intros _; exact H2|discriminate]].
      + rewrite (Hrej eq_refl). apply IH. exact Hwf.
  Qed.

  Lemma sync_root_honest_lem fin d prev this old ops wl :
    db_wf d -> sorted old ->
    follows this prev = true -> open_root d prev = Some old ->
    is_finalized fin (r_version this) = false ->
    r_hash this = root_of (contents (run_batch old ops)) ->
    Permutation (commit_writelog (run_batch old ops)) wl ->
    accepted (snd (sync_root fin d prev this wl)) = true.
  Proof.
    intros Hwf Hs Hf Ho Hfin Hd Hp. unfold Model.sync_root.
    destruct (has_root d this) eqn:Eh; cbn [snd accepted]; [reflexivity|].
    destruct (digest_eqb (r_hash this) (r_hash prev)) eqn:Ee.
    - apply digest_eqb_spec in Ee.
      assert (H : snd (apply fin d prev this []) = AOk).
      { apply (apply_known_root_lem fin d prev this [] old Hf Eh Ho Hfin).
        change (apply_writelog old []) with old. rewrite (open_root_wf d prev old Hwf Ho). congruence. }
      rewrite H. reflexivity.
    - destruct (sync_reaches_end_root_lem fin d prev this old ops wl Hs Hf Ho Hfin Hd Hp) as [H _].
      rewrite H. reflexivity.
  Qed.

  Lemma sync_with_peers_live_lem fin answers : forall d prev this old ops wl,
    db_wf d -> sorted old ->
    follows this prev = true -> open_root d prev = Some old ->
    is_finalized fin (r_version this) = false ->
    r_hash this = root_of (contents (run_batch old ops)) ->
    Permutation (commit_writelog (run_batch old ops)) wl ->
    In wl answers ->
    snd (sync_with_peers fin d prev this answers) = true.
  Proof.
    induction answers as [|a r IH]; intros d prev this old ops wl Hwf Hs Hf Ho Hfin Hd Hp Hin;
      [destruct Hin|]. cbn [Model.sync_with_peers]. destruct Hin as [->|Hin].
    - generalize (sync_root_honest_lem fin d prev this old ops wl Hwf Hs Hf Ho Hfin Hd Hp).
      destruct (sync_root fin d prev this wl) as [d' c]. cbn [snd]. intros ->. reflexivity.
    - generalize (sync_root_rejected_lem fin d prev this a).
      destruct (sync_root fin d prev this a) as [d' c]. cbn [fst snd]. intros Hrej.
      destruct (accepted c); [reflexivity|]. rewrite (Hrej eq_refl). eapply IH; eassumption.
  Qed.

  Lemma find_none_of_existsb {A} (f : A -> bool) l : existsb f l = false -> find f l = None.
  Proof.
    induction l as [|x r IH]; cbn [existsb find]; [reflexivity|].
    destruct (f x); [discriminate|exact IH].
  Qed.

  Lemma find_app_none {A} (f : A -> bool) l1 l2 : find f l1 = None -> find f (l1 ++ l2) = find f l2.
  Proof.
    induction l1 as [|x r IH]; cbn [find app]; [reflexivity|].
    destruct (f x); [discriminate|exact IH].
  Qed.
End ApplyProofs.

Definition ex_root (v : N) (m : kvmap) : croot := mkRoot v 1 m.

(* the correct log is accepted; the log with the deletion dropped is rejected
   and the root does not appear; an Apply for a root that does not follow
   fails before anything else *)
Example ex_apply :
  let new := contents (run_batch ex_old ex_ops) in
  let wl := commit_writelog (run_batch ex_old ex_ops) in
  let d := [(ex_root 5 ex_old, ex_old)] in
  run_attempts false (Some 5) d
    [ mkAttempt (ex_root 5 ex_old) (ex_root 6 new) (removelast wl) false;
      mkAttempt (ex_root 5 ex_old) (ex_root 8 new) wl false;
      mkAttempt (ex_root 5 ex_old) (ex_root 6 new) (rev wl) false;
      mkAttempt (ex_root 5 ex_old) (ex_root 6 new) [] false;
      mkAttempt (ex_root 4 [([9], [9])]) (ex_root 5 [([8], [])]) [([8], Some [])] false;
      mkAttempt (ex_root 4 [([9], [9])]) (ex_root 5 [([8], [])]) [] false;
      mkAttempt (ex_root 5 ex_old) (ex_root 5 [([8], [])]) [([1], None); ([1; 2], None); ([3], None); ([8], Some [])] false ]
  = [(AMismatch, false); (AFollow, false); (AOk, true); (AOk, true);
     (AOther, false); (AMismatch, false); (AOther, false)].
Proof. vm_compute. reflexivity. Qed.

Example ex_hyps :
  follows kvmap (ex_root 6 [([7], [])]) (ex_root 5 ex_old) = true /\
  has_root kvmap kvmap_eqb (fun m => m) [(ex_root 5 ex_old, ex_old)] (ex_root 6 [([7], [])]) = false /\
  open_root kvmap kvmap_eqb (fun m => m) [(ex_root 5 ex_old, ex_old)] (ex_root 5 ex_old) = Some ex_old.
Proof. vm_compute. repeat split. Qed.
