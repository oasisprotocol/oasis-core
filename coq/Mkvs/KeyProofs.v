(* The byte-wise key functions (Mkvs/Key.v, port of node/key.go) against the
   bit lists of the trie model.  A byte string is read as its sequence of bits,
   most significant first ([kbit]): [bits_of] lists them, [pack] stores a bit
   list in them, and byte strings with the same bits are equal ([bytes_ext]).
   The bits of the uint8 shifts and masks come from N.testbit of * 2^s, / 2^s,
   mod 2^8, N.lor and N.land.  BitLength and GetBit here; Split, Merge,
   AppendBit and CommonPrefixLen in Mkvs/KeyLift.v. *)
From Verif Require Import Lib.Base Mkvs.Trie Mkvs.BitsProofs Mkvs.Key Mkvs.KeySweep.

Lemma k_bitlen_bits k : k_bitlen k = N.of_nat (length (bits_of k)).
Proof. unfold k_bitlen, blen. rewrite bits_of_len. lia. Qed.

Lemma byte_high x t : x < 256 -> 8 <= t -> N.testbit x t = false.
Proof.
  intros Hx Ht. rewrite <- (N.mod_small x (2 ^ 8)) by exact Hx. now apply N.mod_pow2_bits_high.
Qed.
Lemma byte_bound x : (forall t, 8 <= t -> N.testbit x t = false) -> x < 256.
Proof.
  intros H. replace x with (x mod 2 ^ 8); [now apply N.mod_lt|].
  apply N.bits_inj. intros t. destruct (N.lt_ge_cases t 8) as [Ht|Ht].
  - now apply N.mod_pow2_bits_low.
  - rewrite N.mod_pow2_bits_high by exact Ht. symmetry. now apply H.
Qed.
(* bit u of a byte, counted from the most significant one, is N.testbit _ (7 - u) *)
Lemma byte_ext x y : x < 256 -> y < 256 ->
  (forall u, u < 8 -> N.testbit x (7 - u) = N.testbit y (7 - u)) -> x = y.
Proof.
  intros Hx Hy H. apply N.bits_inj. intros t. destruct (N.lt_ge_cases t 8) as [Ht|Ht].
  - replace t with (7 - (7 - t)) by lia. apply H. lia.
  - now rewrite !byte_high.
Qed.

Lemma testbit_shr8 x s t : N.testbit (shr8 x s) t = N.testbit x (t + s).
Proof. apply N.div_pow2_bits. Qed.
Lemma testbit_shl8 x s t : t < 8 -> N.testbit (shl8 x s) t = (s <=? t) && N.testbit x (t - s).
Proof.
  intros Ht. unfold shl8. change 256 with (2 ^ 8). rewrite N.mod_pow2_bits_low by exact Ht.
  destruct (N.leb_spec s t) as [H|H].
  - replace t with (t - s + s) at 1 by lia. apply N.mul_pow2_bits_add.
  - now apply N.mul_pow2_bits_low.
Qed.

Lemma lor_byte x y : x < 256 -> y < 256 -> N.lor x y < 256.
Proof. intros Hx Hy. apply byte_bound. intros t Ht. now rewrite N.lor_spec, !byte_high. Qed.
Lemma land_byte x y : x < 256 -> N.land x y < 256.
Proof. intros Hx. apply byte_bound. intros t Ht. now rewrite N.land_spec, byte_high. Qed.
Lemma shl8_byte x s : shl8 x s < 256.
Proof. now apply N.mod_lt. Qed.
Lemma shr8_byte x s : x < 256 -> shr8 x s < 256.
Proof. intros Hx. apply byte_bound. intros t Ht. rewrite testbit_shr8. apply byte_high; [exact Hx|lia]. Qed.

(* a byte-aligned window of 8 bits starting r bits into x and running over into y *)
Lemma window_byte x y r u : y < 256 -> r < 8 -> u < 8 ->
  N.testbit (N.lor (shl8 x r) (shr8 y (8 - r))) (7 - u) =
  if u + r <? 8 then N.testbit x (7 - (u + r)) else N.testbit y (7 - (u + r - 8)).
Proof.
  intros Hy Hr Hu. rewrite N.lor_spec, testbit_shl8, testbit_shr8 by lia.
  destruct (N.ltb_spec (u + r) 8) as [H|H].
  - replace (r <=? 7 - u) with true by (symmetry; apply N.leb_le; lia).
    rewrite (byte_high y) by (assumption || lia). rewrite orb_false_r. cbn [andb]. f_equal. lia.
  - replace (r <=? 7 - u) with false by (symmetry; apply N.leb_gt; lia). cbn [andb orb]. f_equal. lia.
Qed.

(* zeros beyond the end of k *)
Definition kbit (k : bytes) (i : N) : bool := N.testbit (nthb k (i / 8)) (7 - i mod 8).

Lemma divmod8 n : n = 8 * (n / 8) + n mod 8 /\ n mod 8 < 8.
Proof. split; [apply N.div_mod|apply N.mod_lt]; lia. Qed.
Lemma kbit_at k j u : u < 8 -> kbit k (8 * j + u) = N.testbit (nthb k j) (7 - u).
Proof.
  intros H. unfold kbit. now rewrite <- (N.div_unique _ 8 j u H eq_refl), <- (N.mod_unique _ 8 j u H eq_refl).
Qed.

Lemma k_getbit_kbit k i : k_getbit k i = kbit k i.
Proof.
  unfold k_getbit, kbit. set (x := nthb k (i / 8)). set (n := 7 - i mod 8).
  replace (N.land x (2 ^ n)) with (if N.testbit x n then 2 ^ n else 0).
  - destruct (N.testbit x n); [|reflexivity]. apply negb_true_iff, N.eqb_neq, N.pow_nonzero. lia.
  - apply N.bits_inj. intros m. rewrite N.land_spec, N.pow2_bits_eqb.
    destruct (N.eqb_spec n m) as [<-|Hne].
    + destruct (N.testbit x n); [now rewrite N.pow2_bits_true|reflexivity].
    + rewrite andb_false_r. destruct (N.testbit x n); [now apply N.pow2_bits_false|reflexivity].
Qed.

Lemma nthb_succ x k i : nthb (x :: k) (1 + i) = nthb k i.
Proof. unfold nthb. rewrite N2Nat.inj_add. reflexivity. Qed.
Lemma blen_cons x k : blen (x :: k) = 1 + blen k.
Proof. unfold blen. cbn [length]. lia. Qed.
Lemma nthb_oob k j : blen k <= j -> nthb k j = 0.
Proof. unfold nthb, blen. intros H. apply nth_overflow. lia. Qed.
Lemma nthb_valid k j : valid_bytes k -> nthb k j < 256.
Proof.
  intros Hv. unfold nthb. destruct (Nat.lt_ge_cases (N.to_nat j) (length k)) as [H|H].
  - unfold valid_bytes in Hv. rewrite Forall_forall in Hv. apply Hv. now apply nth_In.
  - rewrite nth_overflow by exact H. lia.
Qed.

Lemma div_add8 n : (8 + n) / 8 = 1 + n / 8.
Proof. replace (8 + n) with (n + 1 * 8) by lia. rewrite N.div_add by lia. lia. Qed.
Lemma mod_add8 n : (8 + n) mod 8 = n mod 8.
Proof. replace (8 + n) with (n + 1 * 8) by lia. now rewrite N.mod_add by lia. Qed.

Lemma kbit_cons x k i : kbit (x :: k) (8 + i) = kbit k i.
Proof. unfold kbit. now rewrite div_add8, mod_add8, nthb_succ. Qed.
Lemma kbit_oob k i : 8 * blen k <= i -> kbit k i = false.
Proof.
  intros H. unfold kbit. rewrite nthb_oob; [apply N.bits_0|].
  apply N.div_le_lower_bound; lia.
Qed.

Lemma bit_bits_of k : forall i, bit (bits_of k) i = kbit k (N.of_nat i).
Proof.
  induction k as [|x k IH]; intros i.
  - unfold bit. cbn [bits_of]. rewrite kbit_oob by (cbn; lia). now destruct i.
  - do 8 (destruct i as [|i]; [reflexivity|]).
    change (S (S (S (S (S (S (S (S i)))))))) with (8 + i)%nat.
    rewrite Nat2N.inj_add, kbit_cons, <- IH. reflexivity.
Qed.

Lemma k_getbit_bit k (i : nat) : k_getbit k (N.of_nat i) = bit (bits_of k) i.
Proof. now rewrite k_getbit_kbit, bit_bits_of. Qed.
Theorem k_getbit_bits k : valid_bytes k -> forall i : nat,
  (i < 8 * length k)%nat -> k_getbit k (N.of_nat i) = bit (bits_of k) i.
Proof. intros _ i _. apply k_getbit_bit. Qed.

Lemma bit_oob (p : path) i : (length p <= i)%nat -> bit p i = false.
Proof. apply nth_overflow. Qed.
Lemma bit_app (a b : path) i :
  bit (a ++ b) i = if (i <? length a)%nat then bit a i else bit b (i - length a).
Proof.
  unfold bit. destruct (Nat.ltb_spec i (length a)); [now apply app_nth1|now apply app_nth2].
Qed.
Lemma bit_snoc (p : path) v i : bit (p ++ [v]) i = if (i =? length p)%nat then v else bit p i.
Proof.
  rewrite bit_app. destruct (Nat.ltb_spec i (length p)), (Nat.eqb_spec i (length p)); try reflexivity; try lia.
  - subst i. now rewrite Nat.sub_diag.
  - rewrite (bit_oob p) by lia. apply bit_oob. cbn [length]. lia.
Qed.
Lemma bit_zeros n i : bit (repeat false n) i = false.
Proof. apply nth_repeat. Qed.
Lemma nth_firstn {A} n (l : list A) d i : nth i (firstn n l) d = if (i <? n)%nat then nth i l d else d.
Proof.
  revert n i; induction l as [|x l IH]; intros [|n] [|i]; cbn [firstn nth]; try reflexivity.
  - now destruct (S i <? S n)%nat.
  - exact (IH n i).
Qed.
Lemma nth_skipn {A} n (l : list A) d i : nth i (skipn n l) d = nth (n + i) l d.
Proof.
  revert n; induction l as [|x l IH]; intros [|n]; cbn [skipn Nat.add nth]; try reflexivity.
  - now destruct i.
  - apply IH.
Qed.
Lemma bit_firstn n (p : path) i : bit (firstn n p) i = (i <? n)%nat && bit p i.
Proof. unfold bit. rewrite nth_firstn. now destruct (i <? n)%nat. Qed.
Lemma bit_skipn n (p : path) i : bit (skipn n p) i = bit p (n + i).
Proof. apply nth_skipn. Qed.

Lemma to_bytes_spec d : d <= 8 * to_bytes d < d + 8.
Proof.
  unfold to_bytes. pose proof (divmod8 d). destruct (N.eqb_spec (d mod 8) 0); lia.
Qed.
Lemma to_bytes_add8 n : to_bytes (8 + n) = 1 + to_bytes n.
Proof. unfold to_bytes. rewrite div_add8, mod_add8. lia. Qed.

Lemma pack_cons8 b0 b1 b2 b3 b4 b5 b6 b7 rest :
  pack (b0 :: b1 :: b2 :: b3 :: b4 :: b5 :: b6 :: b7 :: rest) =
  (bv b0 128 + bv b1 64 + bv b2 32 + bv b3 16 + bv b4 8 + bv b5 4 + bv b6 2 + bv b7 1) :: pack rest.
Proof. reflexivity. Qed.

Lemma bv_le b w : bv b w <= w.
Proof. destruct b; cbn; lia. Qed.
Lemma valid_pack p : valid_bytes (pack p).
Proof.
  induction p as [p Hl|b0 b1 b2 b3 b4 b5 b6 b7 rest IH] using chunk8_ind.
  1: destruct p as [|b0 [|b1 [|b2 [|b3 [|b4 [|b5 [|b6 [|b7 rest]]]]]]]]; try (cbn in Hl; lia).
  all: repeat constructor; try exact IH.
  (* a sum of [bv b w] with distinct weights w below 256: each term is at most its weight *)
  all: repeat match goal with |- context [bv ?b ?w] => generalize (bv_le b w); generalize (bv b w); intros ? ? end.
  all: lia.
Qed.
Lemma blen_pack p : blen (pack p) = to_bytes (N.of_nat (length p)).
Proof.
  induction p as [p Hl|b0 b1 b2 b3 b4 b5 b6 b7 rest IH] using chunk8_ind.
  - destruct p as [|b0 [|b1 [|b2 [|b3 [|b4 [|b5 [|b6 [|b7 rest]]]]]]]]; try (cbn in Hl; lia); reflexivity.
  - rewrite pack_cons8, blen_cons, IH, <- to_bytes_add8. f_equal. cbn [length]. lia.
Qed.
Lemma pack_bit p i : kbit (pack p) i = bit p (N.to_nat i).
Proof.
  rewrite <- (N2Nat.id i) at 1. rewrite <- bit_bits_of, pack_bits, bit_app.
  destruct (Nat.ltb_spec (N.to_nat i) (length p)); [reflexivity|]. now rewrite bit_zeros, bit_oob.
Qed.
Lemma pack_bit_at p j u : u < 8 -> N.testbit (nthb (pack p) j) (7 - u) = bit p (N.to_nat (8 * j + u)).
Proof. intros H. now rewrite <- kbit_at, pack_bit. Qed.

Lemma in_all_paths p : In p (all_paths (length p)).
Proof.
  induction p as [|b p IH]; cbn; [auto|]. apply in_or_app.
  destruct b; [right|left]; now apply in_map.
Qed.
Lemma in_lens n i : (i <= n)%nat -> In i (lens n).
Proof. intros H. apply in_seq. lia. Qed.
Lemma in_paths_upto n p : (length p <= n)%nat -> In p (paths_upto n).
Proof. intros H. apply in_flat_map. exists (length p). split; [now apply in_lens|apply in_all_paths]. Qed.

Definition getbit_ok (p : path) (i : nat) : bool :=
  Bool.eqb (k_getbit (pack p) (N.of_nat i)) (bit p i).
Lemma getbit_sweep :
  forallb (fun p => forallb (getbit_ok p) (seq 0 (8 * length (pack p)))) (paths_upto 13) = true.
Proof.
  apply forallb_forall. intros p _. apply forallb_forall. intros i _.
  unfold getbit_ok. rewrite k_getbit_kbit, pack_bit, Nat2N.id. apply Bool.eqb_reflx.
Qed.

Lemma blen_map_nrange (f : N -> N) n : blen (map f (nrange n)) = n.
Proof. unfold blen, nrange. rewrite !map_length, seq_length. lia. Qed.
Lemma nthb_map_nrange (f : N -> N) n j : j < n -> nthb (map f (nrange n)) j = f j.
Proof.
  intros H. unfold nthb, nrange. rewrite map_map.
  rewrite (nth_indep _ 0 (f (N.of_nat 0))) by (rewrite map_length, seq_length; lia).
  rewrite (map_nth (fun i => f (N.of_nat i))), seq_nth by lia. f_equal. lia.
Qed.

Lemma bytes_ext a b : valid_bytes b -> blen a = blen b -> (forall j, j < blen a -> nthb a j < 256) ->
  (forall j u, j < blen a -> u < 8 -> N.testbit (nthb a j) (7 - u) = N.testbit (nthb b j) (7 - u)) -> a = b.
Proof.
  intros Hb Hl Ha H. apply (nth_ext _ _ 0 0); [unfold blen in Hl; lia|]. intros n Hn.
  assert (N.of_nat n < blen a) as Hj by (unfold blen; lia).
  rewrite <- (Nat2N.id n). apply byte_ext; [now apply Ha|now apply nthb_valid|]. intros u Hu. now apply H.
Qed.

Lemma pack_bits_of k : valid_bytes k -> pack (bits_of k) = k.
Proof.
  intros Hv. symmetry. apply bytes_ext; [apply valid_pack| |intros; now apply nthb_valid|].
  - rewrite blen_pack, bits_of_len. pose proof (to_bytes_spec (N.of_nat (8 * length k))). unfold blen. lia.
  - intros j u _ Hu. now rewrite pack_bit_at, bit_bits_of, N2Nat.id, kbit_at.
Qed.
