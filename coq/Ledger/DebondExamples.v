(* Non-vacuity examples for the debonding theorems. *)
From Verif Require Import Lib.Base Ledger.SharePool Ledger.Debond Ledger.DebondProofs.

Definition ex_ops : list dop :=
  [DAdd 1 100; DAdd 2 50; DReward 30; DReclaim 1 40 3; DReclaim 2 10 3; DReclaim 1 5 3;
   DSlash 20; DEpoch 6; DEpoch 7].

(* after epochs 6 and 7 nothing is paid: both delegations (end epoch 8, the two
   reclaims of delegator 1 merged) are still queued *)
Example ex_not_before :
  let st := drun (dinit 5) ex_ops in
  dlog st = [] /\ dq st = [mkE 8 1 54; mkE 8 2 12] /\ dhalt st = false /\
  dact st = mkPool 102 95 /\ ddeb st = mkPool 59 66.
Proof. vm_compute. repeat split; reflexivity. Qed.

(* the transition to epoch 8 pays both, once, at the debonding pool's price *)
Example ex_paid_at_end :
  let st := drun (dinit 5) (ex_ops ++ [DEpoch 8; DEpoch 9; DEpoch 12]) in
  dq st = [] /\ ddeb st = mkPool 0 0 /\
  dlog st = [mkP 8 8 2 12 11 (mkPool 11 12); mkP 8 8 1 54 48 (mkPool 59 66)].
Proof. vm_compute. repeat split; reflexivity. Qed.

(* interval 0: the delegation ends in the current epoch and is paid at the next
   transition; reclaiming from a dead debonding pool fails *)
Example ex_interval0 :
  let st := drun (dinit 5) [DAdd 1 10; DReclaim 1 4 0; DEpoch 6] in
  dlog st = [mkP 6 5 1 4 4 (mkPool 4 4)] /\ dq st = [].
Proof. vm_compute. split; reflexivity. Qed.

(* after total slashing both pools are dead (balance 0, shares outstanding):
   AddEscrow fails, and so does a reclaim (its zero stake cannot be deposited
   into the dead debonding pool) until the queued delegations complete *)
Example ex_dead_pools :
  let st := drun (dinit 5) [DAdd 1 10; DReclaim 1 4 2; DSlash 100] in
  dact st = mkPool 0 6 /\ ddeb st = mkPool 0 4 /\
  snd (dstep st (DAdd 2 7)) = CInvalidArgument /\
  snd (dstep st (DReclaim 1 1 2)) = CInvalidArgument /\
  snd (dstep (drun st [DEpoch 7]) (DReclaim 1 1 2)) = COk.
Proof. vm_compute. repeat split; reflexivity. Qed.

Example ex_wfD : wfD (drun (dinit 5) ex_ops) /\ dq (drun (dinit 5) ex_ops) <> [].
Proof. split; [apply wfD_run; apply wfD_fresh|vm_compute; discriminate]. Qed.
