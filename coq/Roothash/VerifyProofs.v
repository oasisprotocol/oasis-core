(* VerifyExecutorCommitment establishes the premise [verified] of the history
   theorems; rank buckets hold the proposal of the scheduler of that rank. *)
From Verif Require Import Lib.Base Roothash.Pool Roothash.PoolSpec Roothash.PoolProofs
  Roothash.PoolInv Roothash.Verify.

Definition next_round (b : blockinfo) : N := (blk_round b + 1) mod W64.

Lemma verify_ok_verified br bh mm vc :
  verify br bh mm vc = VOk -> verified ((br + 1) mod W64) (vc_ec vc).
Proof.
  unfold verify. intros H.
  destruct (negb (vc_sig_ok vc)); [discriminate H|].
  destruct (negb (validate_basic vc)); [discriminate H|].
  destruct (negb (is_parent_of vc br bh)) eqn:Ep; [discriminate H|].
  apply negb_false_iff in Ep. unfold is_parent_of in Ep. apply andb_true_iff in Ep as [Er _].
  apply N.eqb_eq in Er. split; [exact Er|]. cbn [vc_ec ec_node ec_sched ec_fail].
  intros Heq. destruct (vc_fail vc); [|reflexivity].
  rewrite Heq, N.eqb_refl in H. discriminate H.
Qed.

Lemma verify_ok_header br bh mm vc :
  verify br bh mm vc = VOk ->
  vc_sig_ok vc = true /\ validate_basic vc = true /\
  vc_round vc = (br + 1) mod W64 /\ vc_prev vc = bh.
Proof.
  unfold verify. intros H.
  destruct (vc_sig_ok vc); [|discriminate H]. cbn [negb] in H.
  destruct (validate_basic vc); [|discriminate H]. cbn [negb] in H.
  destruct (is_parent_of vc br bh) eqn:Ep; [|discriminate H].
  unfold is_parent_of in Ep. apply andb_true_iff in Ep as [Er Eh].
  apply N.eqb_eq in Er. apply N.eqb_eq in Eh. repeat split; assumption.
Qed.

Lemma lower_verified b ops : Forall (verified_op (next_round b)) (lower b ops).
Proof.
  unfold lower. induction ops as [|o ops IH]; cbn [flat_map]; [constructor|].
  apply Forall_app. split; [|exact IH].
  destruct o as [vc|s t|s t]; cbn [lower1].
  - destruct (verify (blk_round b) (blk_hash b) (blk_max_msgs b) vc) eqn:E; try constructor.
    + cbn [verified_op]. apply verify_ok_verified in E. exact E.
    + constructor.
  - repeat constructor.
  - repeat constructor.
Qed.

Lemma finalize_only_if_rule_verified_history b c ops strag timeout p' sc :
  next_round b + N.of_nat (length c) < W64 ->
  process c (vrun b c ops new_pool) strag timeout = (p', POk sc) ->
  rule c strag (disc (vrun b c ops new_pool)) sc.
Proof.
  intros Hnw H. unfold vrun in *.
  eapply finalize_only_if_rule_history; [exact Hnw|apply lower_verified|exact H].
Qed.

(* the commitment stored in bucket r is the own proposal of the scheduler of rank r in round R *)
Definition commit_rank_ok (c : committee) (R : N) (p : pool) : Prop :=
  forall r sc ec, aget r (scs p) = Some sc -> sc_commit sc = Some ec ->
    ec_node ec = ec_sched ec /\ ec_round ec = R /\ scheduler_rank c R (ec_sched ec) = Some r.

Lemma commit_rank_buckets c R p :
  commit_rank_ok c R p <->
  buckets (fun r sc => forall ec, sc_commit sc = Some ec ->
             ec_node ec = ec_sched ec /\ ec_round ec = R /\ scheduler_rank c R (ec_sched ec) = Some r) p.
Proof. split; intros H r sc; [intros Hr ec|intros ec Hr]; apply (H r sc); exact Hr. Qed.

Lemma commit_rank_new c R : commit_rank_ok c R new_pool.
Proof. intros r sc ec H. discriminate H. Qed.

Lemma commit_rank_process c R p strag timeout :
  commit_rank_ok c R p -> commit_rank_ok c R (fst (process c p strag timeout)).
Proof. rewrite !commit_rank_buckets. apply buckets_process. Qed.

Lemma commit_rank_add c R p ec :
  verified R ec -> commit_rank_ok c R p -> commit_rank_ok c R (fst (add c p ec)).
Proof.
  intros [HR _]. rewrite !commit_rank_buckets. intros I. apply buckets_add; [exact I|].
  intros r sc (Er & _) Hsc e Hc. cbn [voted sc_commit] in Hc.
  destruct (ec_node ec =? ec_sched ec) eqn:Eown.
  - injection Hc as <-. apply N.eqb_eq in Eown. rewrite HR in Er. repeat split; assumption.
  - destruct Hsc as [->|Hq]; [discriminate Hc|exact (Hq e Hc)].
Qed.

Lemma commit_rank_run c R ops : forall p,
  Forall (verified_op R) ops -> commit_rank_ok c R p -> commit_rank_ok c R (run c ops p).
Proof.
  intros p Hv. apply (run_invariant c (verified R) (commit_rank_ok c R)); [| |exact Hv].
  - intros q ec. apply commit_rank_add.
  - intros q s t. apply commit_rank_process.
Qed.

(* the finalized proposal is the own proposal of the scheduler whose rank, computed for
   round (latest block round + 1), is the pool's highest rank *)
Lemma rank_priority_verified_history b c ops strag timeout p' sc :
  next_round b + N.of_nat (length c) < W64 ->
  process c (vrun b c ops new_pool) strag timeout = (p', POk sc) ->
  exists ec, sc_commit sc = Some ec /\ ec_node ec = ec_sched ec /\ ec_round ec = next_round b /\
             scheduler_rank c (next_round b) (ec_sched ec) = Some (hr (vrun b c ops new_pool)).
Proof.
  intros Hnw H. pose proof (process_ok_is_highest _ _ _ _ _ _ H) as Hsc. unfold vrun in *.
  destruct (no_wrap_premises c _ Hnw) as [Hs Hi].
  destruct (inv_run c _ _ new_pool Hs Hi (lower_verified b ops) (inv_new c _)) as (I1 & _).
  destruct (I1 sc Hsc) as (ec & Hc & _).
  destruct (commit_rank_run c _ _ new_pool (lower_verified b ops) (commit_rank_new c _) _ _ _ Hsc Hc)
    as (H1 & H2 & H3).
  exists ec. repeat split; assumption.
Qed.

(* every bucket of a reachable pool: its stored proposal belongs to the scheduler of that rank *)
Lemma rank_buckets_verified_history b c ops r sc ec :
  aget r (scs (vrun b c ops new_pool)) = Some sc -> sc_commit sc = Some ec ->
  ec_node ec = ec_sched ec /\ ec_round ec = next_round b /\
  scheduler_rank c (next_round b) (ec_sched ec) = Some r.
Proof.
  apply (commit_rank_run c _ _ new_pool (lower_verified b ops) (commit_rank_new c _)).
Qed.

(* once a scheduler's own verified commitment was accepted, the highest rank stays at least
   as good as that scheduler's rank for the rest of the round *)
Lemma rank_priority_best_committed b c ops1 vc ops2 p1 r :
  verify (blk_round b) (blk_hash b) (blk_max_msgs b) vc = VOk ->
  add c (vrun b c ops1 new_pool) (vc_ec vc) = (p1, AOk) ->
  vc_node vc = vc_sched vc ->
  scheduler_rank c (next_round b) (vc_sched vc) = Some r ->
  hr (vrun b c (ops1 ++ VAdd vc :: ops2) new_pool) <= r.
Proof.
  intros Hv Ha Hown Hr. unfold vrun, lower. rewrite flat_map_app. cbn [flat_map lower1]. rewrite Hv.
  unfold run. rewrite fold_left_app. cbn [app fold_left step].
  change (fold_left (step c) (flat_map (lower1 b) ops1) new_pool) with (vrun b c ops1 new_pool).
  rewrite Ha. cbn [fst].
  pose proof (run_hr_mono c (flat_map (lower1 b) ops2) p1) as Hm. unfold run in Hm.
  assert (hr p1 = r).
  { eapply add_own_sets_rank; [exact Ha|exact Hown|].
    cbn [vc_ec ec_round ec_sched]. apply verify_ok_header in Hv as (_ & _ & -> & _). exact Hr. }
  lia.
Qed.
