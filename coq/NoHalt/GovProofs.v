(* C10: the governance deposits pool always holds exactly the recorded deposits of the open
   proposals, whatever parameter changes happen in between, so closing proposals never asks
   the pool for more than it holds. *)
From Verif Require Import Lib.Base NoHalt.Model NoHalt.Proofs.

Fixpoint dsum (l : list (N * N)) : N := match l with [] => 0 | (_, d) :: r => d + dsum r end.

(* pool = sum of the recorded deposits; ids are unique and below the next identifier *)
Definition ginv (st : gst) : Prop :=
  g_pool st = dsum (g_open st) /\ NoDup (map fst (g_open st)) /\
  Forall (fun x => fst x < g_next st) (g_open st).

Lemma dsum_adel id l dep :
  NoDup (map fst l) -> aget id l = Some dep -> dsum l = dep + dsum (adel id l).
Proof.
  induction l as [|[k v] r IH]; cbn [aget adel dsum map fst]; intros Hnd H; [discriminate|].
  inversion Hnd as [|x xs Hnotin Hnd']; subst.
  destruct (N.eqb_spec k id) as [->|E].
  - injection H as <-. rewrite adel_notin by exact Hnotin. reflexivity.
  - cbn [dsum]. rewrite (IH Hnd' H). lia.
Qed.

Lemma gstep_ok st o : ginv st -> yields (gstep st o) ginv.
Proof.
  intros [Hp [Hnd Hlt]]. destruct o as [|x|id]; cbn [gstep].
  - (* the new proposal gets the next identifier, which is above all open ones *)
    rewrite Forall_forall in Hlt.
    repeat split; cbn [g_pool g_open g_next dsum map fst].
    + lia.
    + constructor; [|exact Hnd]. intros Hin. apply in_map_iff in Hin as [kv [Hk Hin]].
      specialize (Hlt kv Hin). lia.
    + constructor; [cbn [fst]; lia|]. apply Forall_forall. intros kv Hin. specialize (Hlt kv Hin). lia.
  - repeat split; assumption.
  - destruct (aget id (g_open st)) as [dep|] eqn:E; [|repeat split; assumption].
    (* the recorded deposit is part of the pool *)
    pose proof (dsum_adel id _ dep Hnd E) as Hsum.
    rewrite qsub_ok by lia. repeat split; cbn [bind g_pool g_open g_next].
    + lia.
    + apply adel_nodup, Hnd.
    + exact (incl_Forall (adel_incl id _) Hlt).
Qed.

Lemma grun_ok ops st : ginv st -> exists st', grun ops st = Ok st' /\ ginv st'.
Proof.
  intros H. apply yields_ex. revert st H.
  induction ops as [|o r IH]; intros st H; [exact H|].
  exact (yields_bind _ _ _ _ (gstep_ok st o H) IH).
Qed.

Definition ginit (min : N) : gst := mkG 0 min 1 [].
Lemma ginit_inv min : ginv (ginit min).
Proof. repeat split; cbn; constructor. Qed.

Lemma gov_close_ok pool deps rest :
  pool = fold_right N.add rest deps ->
  exists l, gov_close pool deps = Ok (l, rest) /\ map (fun x => fst (fst x)) l = deps.
Proof.
  revert pool. induction deps as [|d r IH]; intros pool H; cbn [gov_close fold_right] in *.
  - subst. exists []. split; reflexivity.
  - rewrite qsub_ok by lia. cbn [bind].
    destruct (IH (pool - d) ltac:(lia)) as [l [-> Hm]]. cbn [bind].
    exists ((d, 0, 0) :: l). split; [reflexivity|cbn; f_equal; exact Hm].
Qed.

(* The variant that refunds the CURRENT minimum deposit is refuted: raise the minimum while a
   proposal is open, then close it. *)
Lemma current_min_refund_refuted :
  exists ops, grun_current_min ops (ginit 100) = Fatal /\
              exists st, grun ops (ginit 100) = Ok st /\ g_pool st = 0.
Proof.
  exists [GSubmit; GSetMin 1000; GClose 1]. split; [reflexivity|].
  eexists. split; reflexivity.
Qed.

(* and when the minimum is LOWERED it silently leaves money behind (invariant broken) *)
Lemma current_min_refund_breaks_invariant :
  exists ops st, grun_current_min ops (ginit 100) = Ok st /\ g_open st = [] /\ g_pool st <> 0.
Proof.
  exists [GSubmit; GSetMin 10; GClose 1]. eexists. split; [reflexivity|]. split; [reflexivity|discriminate].
Qed.

Example grun_ex :
  match grun [GSubmit; GSubmit; GSetMin 5000; GSubmit; GClose 2; GSetMin 1; GClose 1; GSubmit; GClose 3]
             (ginit 100) with
  | Ok st => (g_pool st, g_open st) = (1, [(4, 1)])
  | Fatal => False
  end.
Proof. vm_compute. reflexivity. Qed.
