(* An overlay and its copy evolve independently, and each refines the ordered
   map over the shared inner tree. *)
From Verif Require Import Lib.Base Mkvs.Trie Mkvs.Overlay Mkvs.OverlayProofs Mkvs.Iter Mkvs.IterLift Mkvs.Fork.

Definition f_inv (fs : fstore) : Prop :=
  st_inv (fst fs) /\
  match snd fs with Some ob => o_inv ob /\ snd (fst fs) <> [] | None => True end.

Definition fop_ok (fs : fstore) (o : fop) : Prop :=
  match o with
  | FA o' => sop_valid_p o' /\ (snd fs = None \/ side_op o' = true \/ o' = STreeCommit)
  | FB o' => sop_valid_p o' /\ side_op o' = true
  | _ => True
  end.

Lemma local_step s x rest o : local_op o = true ->
  exists x', fst (s_step (s, x :: rest) o) = (s, x' :: rest).
Proof.
  destruct o; cbn [local_op]; try discriminate; intros _; cbn [s_step s_insert s_remove fst snd]; eauto.
  cbn [s_remove_existing]. destruct (ks_mem k (dirty x)); [|destruct (s_get k s rest)]; eexists; reflexivity.
Qed.
Lemma side_step s x rest o : side_op o = true ->
  exists s' x' rest', fst (s_step (s, x :: rest) o) = (s', x' :: rest').
Proof.
  intros H. destruct (local_op o) eqn:L.
  - destruct (local_step s x rest o L) as (x' & E). eauto.
  - destruct o; cbn [side_op local_op] in *; try discriminate.
    cbn [s_step s_commit_top fst]. eauto.
Qed.
(* the port of the iterator answers differently, but leaves the same store *)
Lemma s_step_p_store st o : fst (s_step_p st o) = fst (s_step st o).
Proof. now destruct o. Qed.

Definition f_spec_res (fs : fstore) (o : fop) : sres :=
  match o with
  | FA o' => snd (a_step (abs_of (fst fs)) o')
  | FB o' =>
      match snd (fst fs), snd fs with
      | _ :: rest, Some ob => snd (a_step (abs_of (fst (fst fs), ob :: rest)) o')
      | _, _ => RUnit
      end
  | _ => RUnit
  end.

Lemma f_step_spec fs o : f_inv fs -> fop_ok fs o ->
  snd (f_step fs o) = f_spec_res fs o /\ f_inv (fst (f_step fs o)).
Proof.
  destruct fs as [st b]. intros [Hi Hb] Hok. cbn [fst snd] in *.
  destruct o as [o' | | o' | ]; cbn [f_step f_spec_res fop_ok fst snd] in *.
  - destruct Hok as [Hv Hside]. rewrite (s_step_p_eq_wf st o' Hi Hv).
    destruct (step_refines st o' (proj1 Hv) Hi) as (I1 & _ & R1).
    destruct (s_step st o') as [st' res] eqn:E. cbn [fst snd] in *. split; [exact R1|].
    split; [exact I1|]. destruct b as [ob|]; [|exact I]. destruct Hb as [Hob Hne]. split; [exact Hob|].
    destruct st as [s [|x rest]]; [contradiction|]. apply (f_equal fst) in E. cbn [fst] in E.
    destruct Hside as [Hn | [Hs | ->]]; [discriminate| |].
    + destruct (side_step s x rest o' Hs) as (s' & x' & rest' & E'). rewrite E' in E. subst st'. discriminate.
    + subst st'. discriminate.
  - destruct st as [s [|a rest]]; cbn [snd fst]; [split; [reflexivity|split; [exact Hi|exact Hb]]|].
    destruct b as [ob|]; cbn [fst snd]; (split; [reflexivity|split; [exact Hi|]]); [exact Hb|].
    split; [|discriminate]. destruct Hi as [_ Ho]. cbn [snd] in Ho. now inversion Ho.
  - destruct Hok as [Hv Hs]. destruct st as [s [|a rest]]; cbn [fst snd] in *;
      [split; [reflexivity|split; [exact Hi|exact Hb]]|].
    destruct b as [ob|]; [|split; [reflexivity|split; [exact Hi|exact I]]].
    destruct Hb as [Hob _]. destruct Hi as [Ht Ho]. cbn [fst snd] in *.
    inversion Ho as [|? ? Hoa Hor]; subst.
    assert (st_inv (s, ob :: rest)) as HiB by (split; [exact Ht|constructor; assumption]).
    rewrite (s_step_p_eq_wf (s, ob :: rest) o' HiB Hv).
    destruct (step_refines (s, ob :: rest) o' (proj1 Hv) HiB) as (I1 & _ & R1).
    destruct (side_step s ob rest o' Hs) as (s' & ob' & rest' & E').
    destruct (s_step (s, ob :: rest) o') as [st' res]. cbn [fst snd] in *. subst st'.
    split; [exact R1|]. destruct I1 as [Ht' Ho']. cbn [fst snd] in *.
    inversion Ho' as [|? ? Hob' Hor']; subst.
    split; [split; [exact Ht'|constructor; assumption]|split; [exact Hob'|discriminate]].
  - split; [reflexivity|split; [exact Hi|exact I]].
Qed.

(* whole histories: every answer on either side is the ordered map's answer *)
Fixpoint f_ok_run (fs : fstore) (ops : list fop) : Prop :=
  match ops with [] => True | o :: r => fop_ok fs o /\ f_ok_run (fst (f_step fs o)) r end.
Fixpoint f_spec_run (fs : fstore) (ops : list fop) : list sres :=
  match ops with [] => [] | o :: r => f_spec_res fs o :: f_spec_run (fst (f_step fs o)) r end.

Theorem fork_refines_map ops : forall fs,
  f_inv fs -> f_ok_run fs ops -> snd (f_run fs ops) = f_spec_run fs ops /\ f_inv (fst (f_run fs ops)).
Proof.
  induction ops as [|o r IH]; intros fs Hi Hok; cbn [f_run f_spec_run f_ok_run] in *; [auto|].
  destruct Hok as [Ho Hr]. destruct (f_step_spec fs o Hi Ho) as [R I1].
  destruct (f_step fs o) as [fs1 res]. cbn [fst snd] in *.
  destruct (IH fs1 I1 Hr) as [R2 I2]. destruct (f_run fs1 r) as [fs2 rs]. cbn [fst snd] in *.
  subst. auto.
Qed.

Definition local_fb (o : fop) : Prop := match o with FB o' => local_op o' = true | _ => False end.
Definition local_fa (o : fop) : Prop := match o with FA o' => local_op o' = true | _ => False end.

Lemma fb_local_keeps_a fs o : local_fb o -> fst (fst (f_step fs o)) = fst fs.
Proof.
  destruct o as [ | | o' | ]; cbn [local_fb]; try contradiction. intros L.
  destruct fs as [[s [|a rest]] [ob|]]; cbn [f_step fst snd]; try reflexivity.
  destruct (local_step s ob rest o' L) as (x' & E). rewrite <- s_step_p_store in E.
  destruct (s_step_p (s, ob :: rest) o') as [st' res]. cbn [fst] in E. now subst st'.
Qed.

Lemma fa_local_keeps_b s a rest b o : local_fa o ->
  exists a', fst (f_step ((s, a :: rest), b) o) = ((s, a' :: rest), b).
Proof.
  destruct o as [o' | | | ]; cbn [local_fa]; try contradiction. intros L. cbn [f_step].
  destruct (local_step s a rest o' L) as (a' & E). rewrite <- s_step_p_store in E.
  destruct (s_step_p (s, a :: rest) o') as [st' res]. cbn [fst] in *. subst st'. eauto.
Qed.

(* observations of the other side are untouched by local operations *)
Theorem copy_independent_b fs o k : local_fa o -> snd (fst fs) <> [] ->
  obs_b (fst (f_step fs o)) k = obs_b fs k.
Proof.
  intros L Hne. destruct fs as [[s [|a rest]] b]; [contradiction|].
  destruct (fa_local_keeps_b s a rest b o L) as (a' & ->). reflexivity.
Qed.

Theorem copy_independent_a fs o k : local_fb o -> obs_a (fst (f_step fs o)) k = obs_a fs k.
Proof. intros L. unfold obs_a. now rewrite (fb_local_keeps_a fs o L). Qed.

(* right after Copy the two sides observe the same map *)
Theorem copy_same_view fs k : snd fs = None -> snd (fst fs) <> [] ->
  obs_b (fst (f_step fs FFork)) k = Some (obs_a fs k).
Proof.
  destruct fs as [[s [|a rest]] b]; cbn [fst snd]; intros -> Hne; [contradiction|]. reflexivity.
Qed.

Lemma f_init_inv b : f_inv ((t_init b, []), None).
Proof. split; [apply init_inv|exact I]. Qed.

(* the function evaluated by the correspondence check *)
Corollary fork_run_refines_init b ops :
  f_ok_run ((t_init b, []), None) ops ->
  snd (f_run ((t_init b, []), None) ops) = f_spec_run ((t_init b, []), None) ops.
Proof. intros H. apply fork_refines_map; [apply f_init_inv|exact H]. Qed.

Theorem copy_independent_a_run ops : forall fs k,
  Forall local_fb ops -> obs_a (fst (f_run fs ops)) k = obs_a fs k.
Proof.
  induction ops as [|o r IH]; intros fs k H; cbn [f_run]; [reflexivity|].
  inversion H as [|? ? Ho Hr]; subst.
  pose proof (copy_independent_a fs o k Ho) as E.
  destruct (f_step fs o) as [fs1 res]. cbn [fst] in E.
  specialize (IH fs1 k Hr). destruct (f_run fs1 r) as [fs2 rs]. cbn [fst] in *. congruence.
Qed.

Theorem copy_independent_b_run ops : forall fs k,
  Forall local_fa ops -> snd (fst fs) <> [] -> obs_b (fst (f_run fs ops)) k = obs_b fs k.
Proof.
  induction ops as [|o r IH]; intros fs k H Hne; cbn [f_run]; [reflexivity|].
  inversion H as [|? ? Ho Hr]; subst. destruct fs as [[s [|a rest]] b]; [contradiction|].
  destruct (fa_local_keeps_b s a rest b o Ho) as (a' & E).
  destruct (f_step (s, a :: rest, b) o) as [fs1 res]. cbn [fst] in E. subst fs1.
  specialize (IH (s, a' :: rest, b) k Hr ltac:(discriminate)).
  destruct (f_run (s, a' :: rest, b) r) as [fs2 rs]. cbn [fst] in *. now rewrite IH.
Qed.
