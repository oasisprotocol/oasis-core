(* C16 -- Untrusted bytes are decoded or rejected, never crash the node.
   Proof part: the hand-written binary decoders (MKVS keys, depths, leaf and
   internal nodes, node dispatch, the Merkle proof verifier walk).  Every
   theorem is for all byte strings / entry lists / allocation counters. *)
From Verif Require Import Lib.Base Decode.GoSlice Decode.GoSliceFacts Decode.Node Decode.NodeProofs
  Decode.ProofEntries Decode.ProofEntriesProofs Decode.RoundTrip Decode.Quote Decode.QuoteProofs
  Decode.KeyFormat Decode.KeyFormatProofs Decode.Misc Decode.MiscProofs Decode.Cbor Decode.CborProofs
  Decode.More Decode.MoreProofs Decode.StreamDepth Decode.StreamDepthProofs Decode.Coverage Gen.DecoderInventory
  Decode.CborValue Decode.CborValueProofs
  Gen.DecodeConsts Gen.QuoteConsts Gen.MiscConsts.
From Verif Require Decode.Conn Decode.ConnProofs Decode.Evidence Decode.EvidenceProofs.
(* the entry point of the correspondence files: required here so that it is rebuilt with the proofs *)
From Verif Require Decode.Cases.

Theorem gen_layout_expected :
  DepthSize = 2 /\ ValueLengthSize = 4 /\ HashSize = 32 /\
  PrefixLeafNode = 0 /\ PrefixInternalNode = 1 /\ PrefixNilNode = 2 /\
  glen emptyHash = HashSize.
Proof. exact NodeProofs.gen_layout_expected. Qed.
Print Assumptions gen_layout_expected.

Theorem gen_proof_consts_expected :
  maxProofDepth = 128 /\ proofEntryFull = 1 /\ proofEntryHash = 2 /\
  MinimumProofVersion = 0 /\ LatestProofVersion = 1.
Proof. exact ProofEntriesProofs.gen_proof_consts_expected. Qed.
Print Assumptions gen_proof_consts_expected.

Theorem decode_depth_total : forall b s, fst (depth_unmarshal b s) <> Panic.
Proof. exact decode_depth_total_l. Qed.
Print Assumptions decode_depth_total.

Theorem decode_key_total : forall b s, fst (key_sized_unmarshal b s) <> Panic.
Proof. exact decode_key_total_l. Qed.
Print Assumptions decode_key_total.

Theorem decode_leaf_total : forall b s, fst (leaf_sized_unmarshal b s) <> Panic.
Proof. exact decode_leaf_total_l. Qed.
Print Assumptions decode_leaf_total.

Theorem decode_internal_total : forall b s, fst (inode_sized_unmarshal b s) <> Panic.
Proof. exact decode_internal_total_l. Qed.
Print Assumptions decode_internal_total.

Theorem decode_node_total : forall b s, fst (node_unmarshal b s) <> Panic.
Proof. exact decode_node_total_l. Qed.
Print Assumptions decode_node_total.

Theorem decode_key_bounded : forall b s k n s',
  key_sized_unmarshal b s = (Ok (k, n), s') ->
  n <= glen b /\ glen k <= n /\ s' = s + glen k.
Proof. exact decode_key_bounded_l. Qed.
Print Assumptions decode_key_bounded.

Theorem decode_leaf_bounded : forall b s l n s',
  leaf_sized_unmarshal b s = (Ok (l, n), s') ->
  n <= glen b /\ leaf_size l <= n /\ s' = s + leaf_size l.
Proof. exact decode_leaf_bounded_l. Qed.
Print Assumptions decode_leaf_bounded.

Theorem decode_internal_bounded : forall b s nd n s',
  inode_sized_unmarshal b s = (Ok (nd, n), s') ->
  n <= glen b /\ inode_size nd <= n /\ s' <= s + inode_size nd /\
  glen (ilabel nd) = depth_to_bytes (ilbl nd).
Proof. exact decode_internal_bounded_l. Qed.
Print Assumptions decode_internal_bounded.

Theorem decode_node_bounded : forall b s nd s',
  node_unmarshal b s = (Ok nd, s') -> node_size nd <= glen b /\ s' <= s + node_size nd.
Proof. exact decode_node_bounded_l. Qed.
Print Assumptions decode_node_bounded.

(* declared_len_checked: on every path (Ok, Err) the bytes requested through
   make() are at most the input length *)
Theorem decode_alloc_bounded : forall b s,
  snd (key_sized_unmarshal b s) <= s + glen b /\
  snd (leaf_sized_unmarshal b s) <= s + glen b /\
  snd (inode_sized_unmarshal b s) <= s + glen b /\
  snd (node_unmarshal b s) <= s + glen b.
Proof. exact decode_alloc_bounded_l. Qed.
Print Assumptions decode_alloc_bounded.

Theorem truncated_internal_is_err :
  run (inode_sized_unmarshal [1; 64; 0; 170; 187]) = (Err E_NODE, 0) /\
  run (node_unmarshal [1; 64; 0; 170; 187]) = (Err E_NODE, 0).
Proof. exact NodeProofs.truncated_internal_is_err. Qed.
Print Assumptions truncated_internal_is_err.

Theorem verify_walk_total : forall v es idx depth s,
  v <= LatestProofVersion -> depth <= maxProofDepth + 1 ->
  fst (walk (walk_fuel depth) v es idx depth s) <> Panic.
Proof. exact verify_walk_total_l. Qed.
Print Assumptions verify_walk_total.

Theorem verify_depth_bounded : forall v es idx depth s,
  v <= LatestProofVersion -> depth <= maxProofDepth + 1 ->
  fst (walk (walk_fuel depth) v es idx depth s) <> Err E_FUEL.
Proof. exact verify_depth_bounded_l. Qed.
Print Assumptions verify_depth_bounded.

Theorem verify_walk_bounded : forall v es idx depth s idx' p s',
  v <= LatestProofVersion -> depth <= maxProofDepth + 1 ->
  walk (walk_fuel depth) v es idx depth s = (Ok (idx', p), s') ->
  idx < idx' /\ idx' <= elen es /\ ptr_entries v p = idx' - idx /\
  s' + rem es idx' <= s + rem es idx.
Proof. exact verify_walk_bounded_l. Qed.
Print Assumptions verify_walk_bounded.

Theorem verify_opts_total : forall v rm es s,
  fst (verify_opts v rm es s) <> Panic /\ fst (verify_opts v rm es s) <> Err E_FUEL /\
  snd (verify_opts v rm es s) <= s + total_len es.
Proof. exact verify_opts_total_l. Qed.
Print Assumptions verify_opts_total.

Theorem verify_opts_consumes_all : forall v rm es s p s',
  verify_opts v rm es s = (Ok p, s') -> ptr_entries v p = elen es.
Proof. exact verify_opts_consumes_all_l. Qed.
Print Assumptions verify_opts_consumes_all.

Theorem walk_panics_on_unsupported_version :
  fst (run (walk (walk_fuel 0) 2 [Some [1; 1; 0; 0; 2]; None; None] 0 0)) = Panic.
Proof. exact ProofEntriesProofs.walk_panics_on_unsupported_version. Qed.
Print Assumptions walk_panics_on_unsupported_version.

(* ---------- decode (encode n) = Ok (n, length (encode n)) ----------
   Well-formedness: wf_key k := glen k < 2^16;
   wf_leaf l := glen key < 2^16 /\ glen value < 2^32;
   wf_inode n := LabelBitLength < 2^16 /\ glen Label = ToBytes LabelBitLength /\
     the embedded leaf (if any) is wf /\ Left/Right are nil or 32-byte hashes
     different from the empty hash (an empty-hash pointer decodes as nil). *)
Theorem decode_encode_roundtrip_key : forall k rest s, wf_key k ->
  key_sized_unmarshal (key_marshal k ++ rest) s = (Ok (k, 2 + glen k), s + glen k).
Proof. exact key_rt. Qed.
Print Assumptions decode_encode_roundtrip_key.

Theorem decode_encode_roundtrip_leaf : forall l rest s, wf_leaf l ->
  leaf_sized_unmarshal (leaf_marshal l ++ rest) s
  = (Ok (l, 7 + glen (lkey l) + glen (lvalue l)), s + glen (lkey l) + glen (lvalue l)).
Proof. exact leaf_rt. Qed.
Print Assumptions decode_encode_roundtrip_leaf.

Theorem decode_encode_roundtrip_internal : forall n s, wf_inode n ->
  inode_sized_unmarshal (inode_marshal n) s
  = (Ok (n, glen (inode_marshal n)), s + glen (ilabel n) + oleaf_size (ileaf n)).
Proof. exact inode_rt_full. Qed.
Print Assumptions decode_encode_roundtrip_internal.

Theorem decode_encode_roundtrip_compact_v0 : forall n s,
  wf_inode n -> ileft n = None -> iright n = None ->
  inode_sized_unmarshal (inode_compact_marshal_v0 n) s
  = (Ok (n, glen (inode_compact_marshal_v0 n)), s + glen (ilabel n) + oleaf_size (ileaf n)).
Proof. exact inode_rt_compact_v0. Qed.
Print Assumptions decode_encode_roundtrip_compact_v0.

Theorem decode_encode_roundtrip_compact_v1 : forall n s,
  wf_inode n -> ileft n = None -> iright n = None -> ileaf n = None ->
  inode_sized_unmarshal (inode_compact_marshal_v1 n) s
  = (Ok (n, glen (inode_compact_marshal_v1 n)), s + glen (ilabel n)).
Proof. exact inode_rt_compact_v1. Qed.
Print Assumptions decode_encode_roundtrip_compact_v1.

Theorem decode_encode_roundtrip_node : forall n s,
  match n with NLeaf l => wf_leaf l | NInternal i => wf_inode i end ->
  fst (node_unmarshal (node_marshal n) s) = Ok n.
Proof. exact node_rt. Qed.
Print Assumptions decode_encode_roundtrip_node.

Theorem wf_example :
  wf_inode (mkInode 12 [171; 192] (Some (mkLeaf [171; 192] [1; 2; 3])) (Some (repeat 7 32)) None)
  /\ fst (run (inode_sized_unmarshal (inode_marshal
        (mkInode 12 [171; 192] (Some (mkLeaf [171; 192] [1; 2; 3])) (Some (repeat 7 32)) None))))
     = Ok (mkInode 12 [171; 192] (Some (mkLeaf [171; 192] [1; 2; 3])) (Some (repeat 7 32)) None, 81).
Proof. exact RoundTrip.wf_example. Qed.
Print Assumptions wf_example.

(* ---------- PCS quote binary layout (go/common/sgx/pcs/quote.go, report.go) ----------
   [pem_ok] is the observed outcome of the (unmodelled) PEM/X.509 parse of a
   PCK certificate chain; the statements hold for both values. *)
Theorem gen_quote_layout_expected :
  quoteHeaderLen = 48 /\ reportBodySgxLen = 384 /\ reportBodyTdLen = 584 /\
  quoteSigSizeLen = 4 /\ quoteSigEcdsaP256MinLen = 584 /\ ppidDataLen = 404 /\
  quoteVersionV3 = 3 /\ quoteVersionV4 = 4 /\ MrEnclaveSize = 32 /\ MrSignerSize = 32.
Proof. exact QuoteProofs.gen_quote_layout_expected. Qed.
Print Assumptions gen_quote_layout_expected.

Theorem decode_quote_total : forall pem_ok trailing b s,
  fst (quote_unmarshal pem_ok trailing b s) <> Panic.
Proof. exact decode_quote_total_l. Qed.
Print Assumptions decode_quote_total.

Theorem decode_quote_bounded : forall pem_ok trailing b s,
  snd (quote_unmarshal pem_ok trailing b s) <= s + glen b /\
  (forall q n s', quote_unmarshal pem_ok trailing b s = (Ok (q, n), s') ->
     n <= glen b /\ (trailing = false -> n = glen b)).
Proof. exact decode_quote_bounded_l. Qed.
Print Assumptions decode_quote_bounded.

Theorem decode_quote_parts_total : forall pem_ok version b s,
  fst (header_v3 b s) <> Panic /\ fst (header_v4 b s) <> Panic /\
  fst (sgx_report b s) <> Panic /\ fst (td_report b s) <> Panic /\
  fst (ppid b s) <> Panic /\ fst (qe_report pem_ok b s) <> Panic /\
  fst (sig_ecdsa pem_ok version b s) <> Panic.
Proof. exact decode_quote_parts_total_l. Qed.
Print Assumptions decode_quote_parts_total.

Theorem quote_huge_siglen_is_err :
  fst (run (quote_unmarshal true false
    ([3; 0; 2; 0; 0; 0; 0; 0; 0; 0; 0; 0] ++ QEVendorID_Intel ++ repeat 0 20 ++ repeat 0 384
       ++ [255; 255; 255; 255]))) = Err Q_TRAILING.
Proof. exact QuoteProofs.quote_huge_siglen_is_err. Qed.
Print Assumptions quote_huge_siglen_is_err.

(* ---------- database key formats (go/common/keyformat) and fixed-size helpers ---------- *)
(* KeyFormat.Decode as of the pinned tree (fix 4b7c32a): an empty key or a key
   shorter than the format does not match; the only remaining panic is the
   programmer error of passing more values than the layout has. *)
Theorem keyformat_decode_panics_iff : forall prefix layout nvals data s, wf_layout layout ->
  (fst (kf_decode prefix layout nvals data s) = Panic <->
   data <> [] /\ nth 0 data 0 = prefix /\ N.of_nat (length layout) < nvals).
Proof. exact keyformat_decode_panics_iff_l. Qed.
Print Assumptions keyformat_decode_panics_iff.

Theorem keyformat_decode_total : forall prefix layout nvals data s, wf_layout layout ->
  nvals <= N.of_nat (length layout) ->
  fst (kf_decode prefix layout nvals data s) <> Panic.
Proof. exact keyformat_decode_total_l. Qed.
Print Assumptions keyformat_decode_total.

Theorem keyformat_decode_bounded : forall prefix layout nvals data s, wf_layout layout ->
  fst (kf_decode prefix layout nvals data s) <> Panic ->
  snd (kf_decode prefix layout nvals data s) <= s + glen data /\
  (forall e, fst (kf_decode prefix layout nvals data s) <> Err e).
Proof. exact keyformat_decode_bounded_l. Qed.
Print Assumptions keyformat_decode_bounded.

(* the function BEFORE the fix panicked also on an empty key and on a short key
   with the matching prefix: exact characterisation and the witness "T" for
   the transaction key format of the runtime I/O tree *)
Theorem keyformat_decode_original_panics_iff : forall prefix layout nvals data s, wf_layout layout ->
  (fst (kf_decode_original prefix layout nvals data s) = Panic <->
   data = [] \/
   (nth 0 data 0 = prefix /\ (N.of_nat (length layout) < nvals \/ glen data < kf_size layout))).
Proof. exact keyformat_decode_original_panics_iff_l. Qed.
Print Assumptions keyformat_decode_original_panics_iff.

Theorem keyformat_decode_original_total_refuted :
  exists prefix layout nvals data,
    wf_layout layout /\ nvals <= N.of_nat (length layout) /\
    fst (run (kf_decode_original prefix layout nvals data)) = Panic.
Proof. exact keyformat_decode_original_total_refuted_l. Qed.
Print Assumptions keyformat_decode_original_total_refuted.

(* hash.Hash, common.Namespace, address.Address, signature.PublicKey/RawSignature,
   db/api.TypedHash, sgx.MrEnclave/MrSigner, keyformat.PreHashed, artifactKind *)
Theorem fixed_unmarshal_total : forall size kind data s,
  fst (fixed_unmarshal size kind data s) <> Panic /\ snd (fixed_unmarshal size kind data s) = s /\
  (forall d, fst (fixed_unmarshal size kind data s) = Ok d -> d = data /\ glen data = size).
Proof. exact fixed_unmarshal_total_l. Qed.
Print Assumptions fixed_unmarshal_total.

(* ---------- IAS quote body (go/common/sgx/ias/quote.go) ---------- *)
Theorem gen_ias_layout_expected :
  ias_quoteLen = 432 /\ ias_quoteBodyLen = 48 /\ ias_quoteReportLen = 384 /\
  ias_offsetReportReportData = 320.
Proof. exact MiscProofs.gen_ias_layout_expected. Qed.
Print Assumptions gen_ias_layout_expected.

Theorem decode_ias_quote_total : forall b s,
  fst (ias_body b s) <> Panic /\ fst (ias_report b s) <> Panic /\ fst (ias_quote b s) <> Panic /\
  snd (ias_quote b s) <= s.
Proof. exact decode_ias_quote_total_l. Qed.
Print Assumptions decode_ias_quote_total.

(* ---------- checkpoint chunk restore loop (go/storage/mkvs/checkpoint/chunk.go:262-312) ----------
   for every sequence of stream-decoder events (the snappy/CBOR decoder itself is not modelled) *)
Theorem restore_chunk_total : forall digest_ok evs s,
  fst (restore_chunk digest_ok evs s) <> Panic /\
  fst (restore_chunk digest_ok evs s) <> Err (W_CHUNK + E_FUEL) /\
  snd (restore_chunk digest_ok evs s) <= s + events_len evs.
Proof. exact restore_chunk_total_l. Qed.
Print Assumptions restore_chunk_total.

(* ---------- strict CBOR profile: a recogniser as SPECIFICATION (not a verified library) ----------
   cbor_valid follows the validity pass that cbor.Unmarshal runs first (definite
   lengths only, tags forbidden, nesting <= 32, array/map sizes <= 10^7, all
   regenerated from go/common/cbor/cbor.go and the library defaults).  Acceptance
   by the recogniser is NECESSARY for cbor.Unmarshal to accept (checked by the
   correspondence stream), not sufficient. *)
Theorem gen_cbor_profile_expected :
  decOptions_IndefLength_IndefLengthForbidden = true /\ decOptions_TagsMd_TagsForbidden = true /\
  decOptions_DupMapKey_DupMapKeyEnforcedAPF = true /\ decOptions_MaxNestedLevels = 32 /\
  decOptions_MaxArrayElements = 10000000 /\ decOptions_MaxMapPairs = 10000000 /\
  maxMessageSize = 67108864.
Proof. exact CborProofs.gen_cbor_profile_expected. Qed.
Print Assumptions gen_cbor_profile_expected.

(* fuel 2*len+2 (one unit per recursive call) is never exhausted: linear time *)
Theorem cbor_recognizer_total : forall data, cbor_valid data <> WFuel.
Proof. exact cbor_recognizer_total_l. Qed.
Print Assumptions cbor_recognizer_total.

Theorem cbor_recognizer_bounded : forall data off d,
  cbor_valid data = WOk (off, d) ->
  0 < off /\ off <= dlen data /\ d <= decOptions_MaxNestedLevels.
Proof. exact cbor_recognizer_bounded_l. Qed.
Print Assumptions cbor_recognizer_bounded.

Theorem cbor_examples :
  wres_class (cbor_valid [155; 255; 255; 255; 255; 255; 255; 255; 255]) = C_OVERFLOW /\
  wres_class (cbor_valid [154; 0; 152; 150; 129]) = C_ARRAY /\
  wres_class (cbor_valid [154; 0; 152; 150; 128; 1]) = C_UEOF /\
  wres_class (cbor_valid [91; 0; 0; 0; 1; 0; 0; 0; 0]) = C_UEOF /\
  wres_class (cbor_valid [159; 255]) = C_INDEF /\
  wres_class (cbor_valid [192; 0]) = C_TAG /\
  wres_class (cbor_valid (repeat 129 32 ++ [0])) = 0 /\
  wres_class (cbor_valid (repeat 129 33 ++ [0])) = C_NESTED /\
  cbor_valid [162; 1; 2; 1; 3; 255] = WOk (5, 1).
Proof. exact CborProofs.cbor_examples. Qed.
Print Assumptions cbor_examples.

(* Coverage tie to the source: every hand-written decoder found in go/ by the
   generator (functions named (Sized)Unmarshal{Binary,BinaryWithTrailing,Text,Hex,
   Base64,Bech32,PEM}; functions reading integers with encoding/binary; functions
   indexing or re-slicing a []byte parameter) is either ported (Decode/Coverage.v
   [ported]: model function + totality theorem + correspondence cases) or on the
   reviewed list with its reason.  A new decoder in the source makes this fail,
   and the unification error names it. *)
Theorem decoder_inventory_covered : unclassified = [] /\ stale = [].
Proof. split; vm_compute; reflexivity. Qed.
Print Assumptions decoder_inventory_covered.

Theorem hex_decode_total : forall s,
  hex_decode s <> Panic /\ (forall b, hex_decode s = Ok b -> 2 * glen b = glen s).
Proof. exact hex_decode_total_l. Qed.
Print Assumptions hex_decode_total.

(* X.UnmarshalHex / X.UnmarshalText (base64 outcome = oracle) *)
Theorem decode_text_total : forall size kind b64 text s,
  fst (unmarshal_hex size kind text s) <> Panic /\ snd (unmarshal_hex size kind text s) <= s /\
  fst (unmarshal_b64 size kind b64 s) <> Panic /\
  fst (unmarshal_hex_or_b64 size kind b64 text s) <> Panic.
Proof. exact decode_text_total_l. Qed.
Print Assumptions decode_text_total.

(* EnclaveIdentity hex/text, aesm AttestationKeyID, QEIdentity.verify masks, Quantity binary *)
Theorem decode_sgx_misc_total : forall decoded data rm rf rx ms msm att attm s, decoded <> Panic ->
  fst (enclave_identity decoded s) <> Panic /\ fst (akid data s) <> Panic /\
  fst (qe_masks rm rf rx ms msm att attm s) <> Panic /\ fst (quantity_unmarshal_binary data s) <> Panic.
Proof. exact decode_sgx_misc_total_l. Qed.
Print Assumptions decode_sgx_misc_total.

(* pathbadger node database value format *)
Theorem decode_pathbadger_total : forall data s,
  fst (pb_ptr data s) <> Panic /\ fst (pb_node data s) <> Panic /\
  snd (pb_node data s) <= s + 3 * glen data.
Proof. exact decode_pathbadger_total_l. Qed.
Print Assumptions decode_pathbadger_total.

(* runtime-host / p2p message framing: 4 bytes allocated whatever the prefix declares *)
Theorem frame_read_total : forall stream dec s,
  fst (frame_read stream dec s) <> Panic /\ snd (frame_read stream dec s) <= s + 4 /\
  (forall n, fst (frame_read stream dec s) = Ok n -> n <= maxMessageSize).
Proof. exact frame_read_total_l. Qed.
Print Assumptions frame_read_total.

Theorem enum_text_total : forall table text, enum_text table text <> Panic.
Proof. exact enum_text_total_l. Qed.
Print Assumptions enum_text_total.

Theorem gen_sigstruct_layout_expected :
  sigstructSize = 1808 /\ Forall (fun ow => fst ow + snd ow <= sigstructSize) sigstruct_offs.
Proof. exact MoreProofs.gen_sigstruct_layout_expected. Qed.
Print Assumptions gen_sigstruct_layout_expected.

Theorem sigstruct_reads_total : forall buf s, fst (sigstruct_reads sigstruct_offs buf s) <> Panic.
Proof. exact sigstruct_reads_total_l. Qed.
Print Assumptions sigstruct_reads_total.

(* ---------- nesting depth of the CBOR stream decoder (known finding, by computed depth) ---------- *)
Theorem stream_depth_unbounded : forall need,
  decode_frames (repeat 1 (N.to_nat need)) need 0 = trickle_frames need.
Proof. exact stream_depth_unbounded_l. Qed.
Print Assumptions stream_depth_unbounded.

Theorem stream_depth_le_reads : forall chunks need have,
  decode_frames chunks need have <= N.of_nat (length chunks) + 1.
Proof. exact decode_frames_le_chunks. Qed.
Print Assumptions stream_depth_le_reads.

Theorem death_depth_spec : forall maxstack frame base frames, 0 < frame -> base <= usable_stack maxstack ->
  (overflows maxstack frame base frames = true <-> death_depth maxstack frame base < frames).
Proof. exact death_depth_spec_l. Qed.
Print Assumptions death_depth_spec.

Theorem rhp_stack_overflow_reachable : forall frame base, 9 <= frame ->
  exists need, need <= maxMessageSize /\
    overflows defaultMaxStack frame base (decode_frames (repeat 1 (N.to_nat need)) need 0) = true.
Proof. exact rhp_stack_overflow_reachable_l. Qed.
Print Assumptions rhp_stack_overflow_reachable.

(* ---------- CBOR: accept/reject verdict of cbor.Unmarshal(data, &any) as a total function ----------
   validity pass (Cbor.v) + the checks made while building the value (UTF-8 text,
   hashable and non-duplicate map keys).  SPECIFICATION of the third-party
   decoder, tied to it by the correspondence stream only (exact verdict unless a
   map has a float key, where the model answers None). *)
Theorem cbor_unmarshal_verdict_total : forall data, cbor_unmarshal_verdict data <> WFuel.
Proof. exact cbor_unmarshal_verdict_total_l. Qed.
Print Assumptions cbor_unmarshal_verdict_total.

Theorem cbor_verdict_refines_valid : forall data e,
  cbor_valid data = WErr e -> cbor_unmarshal_verdict data = WOk (Some false).
Proof. exact cbor_verdict_refines_valid_l. Qed.
Print Assumptions cbor_verdict_refines_valid.

Theorem cbor_verdict_examples :
  cbor_unmarshal_verdict [162; 1; 2; 1; 3] = WOk (Some false) /\
  cbor_unmarshal_verdict [162; 1; 2; 24; 1; 3] = WOk (Some false) /\
  cbor_unmarshal_verdict [162; 1; 2; 225; 3] = WOk (Some false) /\
  cbor_unmarshal_verdict [162; 1; 2; 32; 3] = WOk (Some true) /\
  cbor_unmarshal_verdict [161; 65; 0; 1] = WOk (Some false) /\
  cbor_unmarshal_verdict [161; 128; 1] = WOk (Some false) /\
  cbor_unmarshal_verdict [98; 195; 40] = WOk (Some false) /\
  cbor_unmarshal_verdict [98; 195; 169] = WOk (Some true) /\
  cbor_unmarshal_verdict [162; 246; 1; 247; 2] = WOk (Some false) /\
  cbor_unmarshal_verdict [161; 249; 60; 0; 1] = WOk None /\
  cbor_unmarshal_verdict [1; 255; 255] = WOk (Some true).
Proof. exact CborValueProofs.cbor_verdict_examples. Qed.
Print Assumptions cbor_verdict_examples.

(* ---------- runtime-host protocol connection: message handling state machine ----------
   (go/runtime/host/protocol/connection.go handleMessage / workerIncoming / call / Close) for
   EVERY sequence of local calls, inbound frames (responses for any id in any multiplicity,
   requests, unknown types, malformed frames) and Close *)
Theorem conn_no_block : forall evs,
  (forall kv, In kv (Conn.sends (Conn.run true evs)) -> snd kv <= 1) /\
  Conn.blocked (Conn.run true evs) = 0 /\ Conn.close_returns (Conn.run true evs) = true.
Proof. exact ConnProofs.conn_no_block_l. Qed.
Print Assumptions conn_no_block.

Theorem conn_inbound_does_not_grow : forall s m,
  (length (Conn.pending (Conn.step true s (Conn.EFrame m))) <= length (Conn.pending s))%nat.
Proof. exact ConnProofs.conn_inbound_does_not_grow_l. Qed.
Print Assumptions conn_inbound_does_not_grow.

Theorem conn_close_empties : forall del s,
  Conn.pending (Conn.step del s Conn.EClose) = [] /\
  Conn.pending (Conn.step del s (Conn.EFrame Conn.IMalformed)) = [] \/ Conn.closed s = true.
Proof. exact ConnProofs.conn_close_empties_l. Qed.
Print Assumptions conn_close_empties.

Theorem conn_closed_stays_empty : forall del s e, Conn.closed s = true -> Conn.pending s = [] ->
  Conn.closed (Conn.step del s e) = true /\ Conn.pending (Conn.step del s e) = [].
Proof. exact ConnProofs.conn_closed_stays_empty_l. Qed.
Print Assumptions conn_closed_stays_empty.

(* the variant that leaves the deletion to call()'s deferred function blocks a handler
   goroutine forever on the third copy of a response: Close() never returns *)
Theorem conn_nodelete_blocks :
  exists evs, Conn.blocked (Conn.run false evs) = 1 /\ Conn.close_returns (Conn.run false evs) = false /\
              Conn.blocked (Conn.run true evs) = 0.
Proof. exact ConnProofs.conn_nodelete_blocks_l. Qed.
Print Assumptions conn_nodelete_blocks.

(* ---------- roothash equivocation evidence: stateless validation over optional wire fields ----------
   (roothash/api/api.go EquivocationExecutorEvidence.ValidateBasic, commitment/executor.go
   ExecutorCommitment.ValidateBasic, hash.Hash.Equal on a nil receiver = panic) *)
(* the statement order found in the source: MostlyEqual, both ValidateBasic calls, THEN the
   comparisons that dereference IORoot / StateRoot / MessagesHash, then the signatures *)
Theorem gen_evidence_order_expected : evidence_vb_order = Evidence.evidence_vb_order_expected.
Proof. reflexivity. Qed.
Print Assumptions gen_evidence_order_expected.

Theorem evidence_validate_basic_total : forall sigs_ok a b,
  Evidence.evidence_validate_basic sigs_ok a b <> Panic.
Proof. exact EvidenceProofs.evidence_validate_basic_total_l. Qed.
Print Assumptions evidence_validate_basic_total.

Theorem evidence_reordered_panics :
  exists a b, Evidence.evidence_validate_basic_reordered true a b = Panic /\
              Evidence.evidence_validate_basic true a b = Err Evidence.V_COMMIT_A.
Proof. exact EvidenceProofs.evidence_reordered_panics_l. Qed.
Print Assumptions evidence_reordered_panics.

(* ---------- proof walk: the depth counter covers ALL three child positions ---------- *)
(* whatever the fuel, an accepted subtree is never nested deeper than maxProofDepth through
   any combination of leaf / left / right positions (bounded stack of the recursive walk) *)
Theorem verify_nesting_bounded : forall v es idx s idx' p s' fuel,
  v <= LatestProofVersion ->
  walk fuel v es idx 0 s = (Ok (idx', p), s') -> ptr_nesting p <= maxProofDepth.
Proof. exact verify_nesting_bounded_l. Qed.
Print Assumptions verify_nesting_bounded.

Theorem walk_rejects_deep_every_position :
  fst (run (verify_opts 1 true (chain_pos 1 0 200))) = Err E_PROOF_DEPTH /\
  fst (run (verify_opts 1 true (chain_pos 1 1 200))) = Err E_PROOF_DEPTH /\
  fst (run (verify_opts 1 true (chain_pos 1 2 200))) = Err E_PROOF_DEPTH /\
  fst (run (verify_opts 0 true (chain_pos 0 1 200))) = Err E_PROOF_DEPTH /\
  fst (run (verify_opts 0 true (chain_pos 0 2 200))) = Err E_PROOF_DEPTH /\
  match fst (run (verify_opts 1 true (chain_pos 1 0 128))) with Ok p => ptr_nesting p | _ => 0 end = 128.
Proof. exact ProofEntriesProofs.walk_rejects_deep_every_position. Qed.
Print Assumptions walk_rejects_deep_every_position.

(* the variant that does not count the leaf position is refuted: fuel proportional to
   maxProofDepth is exhausted, and with more fuel a nesting of 300 is accepted *)
Theorem walk_leaf_same_depth_unbounded :
  fst (run (walk_leaf_same_depth (walk_fuel 0) 1 (chain_pos 1 0 300) 0 0)) = Err E_FUEL /\
  match fst (run (walk_leaf_same_depth 400 1 (chain_pos 1 0 300) 0 0)) with
  | Ok (_, p) => ptr_nesting p | _ => 0 end = 300 /\
  fst (run (walk (walk_fuel 0) 1 (chain_pos 1 0 300) 0 0)) = Err E_PROOF_DEPTH.
Proof. exact walk_leaf_same_depth_unbounded_l. Qed.
Print Assumptions walk_leaf_same_depth_unbounded.
