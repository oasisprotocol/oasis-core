(* Totality and boundedness of the PCS quote parser model (Quote.v). *)
From Verif Require Import Lib.Base Decode.GoSlice Decode.GoSliceFacts Decode.Quote Gen.QuoteConsts.

Lemma gen_quote_layout_expected :
  quoteHeaderLen = 48 /\ reportBodySgxLen = 384 /\ reportBodyTdLen = 584 /\
  quoteSigSizeLen = 4 /\ quoteSigEcdsaP256MinLen = 584 /\ ppidDataLen = 404 /\
  quoteVersionV3 = 3 /\ quoteVersionV4 = 4 /\ MrEnclaveSize = 32 /\ MrSignerSize = 32.
Proof. repeat split; reflexivity. Qed.

#[export] Hint Unfold quoteHeaderLen reportBodySgxLen reportBodyTdLen quoteSigSizeLen
  quoteSigEcdsaP256MinLen ppidDataLen MrEnclaveSize MrSignerSize : goconsts.

Lemma header_v3_safe data s : safe anyv 0 s (header_v3 data s).
Proof.
  unfold header_v3, rd16, rd32, cp. step; [step|]. assert (glen data = 48) by golia.
  repeat step.
Qed.

Lemma header_v4_safe data s : safe anyv 0 s (header_v4 data s).
Proof.
  unfold header_v4, rd16, rd32, cp. step; [step|]. assert (glen data = 48) by golia.
  repeat step.
Qed.

Lemma sgx_report_safe data s : safe anyv 0 s (sgx_report data s).
Proof.
  unfold sgx_report, rd16, rd32, rd64, cp. step; [step|]. assert (384 <= glen data) by golia.
  repeat step.
Qed.

Lemma td_attributes_safe data s : safe anyv 0 s (td_attributes data s).
Proof.
  unfold td_attributes. step; [step|]. assert (glen data = 8) by lia.
  repeat step.
Qed.

Lemma td_report_safe data s : safe anyv 0 s (td_report data s).
Proof.
  unfold td_report, cp. step; [step|]. assert (584 <= glen data) by golia.
  repeat step.
  call td_attributes_safe. repeat step.
Qed.

Lemma ppid_safe data s : safe anyv 0 s (ppid data s).
Proof.
  unfold ppid, rd16, cp. step; [step|]. assert (glen data = 404) by golia.
  repeat step.
Qed.

Lemma pck_chain_safe pem_ok data s : safe anyv 0 s (pck_chain pem_ok data s).
Proof. unfold pck_chain. repeat step. Qed.

Lemma qe_report_safe pem_ok data s : safe anyv (glen data) s (qe_report pem_ok data s).
Proof.
  unfold qe_report, rd16, rd32, cp. step; [step|]. assert (384 <= glen data) by golia.
  step. call sgx_report_safe.
  repeat step.
  - eapply (safe_bind anyv _ _ _ 0); [apply ppid_safe | golia | intros [p1 p2] ? ? ?]. step.
  - call pck_chain_safe. step.
Qed.

Lemma sig_ecdsa_safe pem_ok version data s : safe anyv (glen data) s (sig_ecdsa pem_ok version data s).
Proof.
  unfold sig_ecdsa, rd16, rd32, cp. step; [step|]. assert (584 <= glen data) by golia.
  repeat step.
  - eapply safe_rebase; [apply qe_report_safe | rewrite glen_sl by lia; lia | auto].
  - eapply safe_rebase; [apply qe_report_safe | rewrite glen_sl by lia; lia | auto].
Qed.

Definition quote_value_post (allowTrailing : bool) (data : bytes) (x : quote * N) : Prop :=
  snd x <= glen data /\ (allowTrailing = false -> snd x = glen data).

Lemma quote_tail_safe pem_ok allowTrailing data hdr rep offset s :
  offset + 4 <= glen data ->
  safe (quote_value_post allowTrailing data) (glen data) s
    ((sigLen <- rd32 data offset ;;
      let offset := offset + quoteSigSizeLen in
      if glen data <? offset + sigLen then fail Q_TRAILING else
      if negb allowTrailing && negb (glen data =? offset + sigLen) then fail Q_TRAILING else
      if h_ak hdr =? AttestationKeyECDSA_P256 then
        sd <- lift (slice data offset (offset + sigLen)) ;;
        q <- sig_ecdsa pem_ok (h_version hdr) sd ;;
        ret (mkQuote (h_version hdr) (h_tee hdr) (h_ak hdr) rep q, offset + sigLen)
      else fail Q_AKTYPE) s).
Proof.
  intros Hoff. unfold rd32. repeat step.
  eapply (safe_bind anyv); [apply sig_ecdsa_safe | glia |].
  intros q s2 _ Hs2. apply safe_ret; [rewrite glen_sl in Hs2 by golia; golia|].
  unfold quote_value_post. cbn [snd]. split; [golia|].
  intros ->. cbn [negb andb] in *. golia.
Qed.

Lemma quote_unmarshal_safe pem_ok allowTrailing data s :
  safe (quote_value_post allowTrailing data) (glen data) s (quote_unmarshal pem_ok allowTrailing data s).
Proof.
  unfold quote_unmarshal. step; [step|]. assert (436 <= glen data) by golia.
  unfold rd16 at 1. step. cbv zeta.
  eapply (safe_bind anyv _ _ _ 0); [| lia |].
  { repeat step.
    - eapply safe_rebase; [apply header_v3_safe | lia | auto].
    - eapply safe_rebase; [apply header_v4_safe | lia | auto]. }
  intros hdr s1 _ Hs1. step; [step|].
  eapply (safe_bind (fun x : option report * N => snd x + 4 <= glen data) _ _ _ 0); [| lia |].
  { step; [|step; [|]].
    - step. call sgx_report_safe. apply safe_ret; [lia | cbn [snd]; golia].
    - step; [step|]. step. call td_report_safe. apply safe_ret; [lia | cbn [snd]; golia].
    - apply safe_ret; [lia | cbn [snd]; golia]. }
  intros [rep offset] s2 Hoff Hs2. cbn [snd] in Hoff.
  eapply safe_rebase; [apply (quote_tail_safe pem_ok allowTrailing data hdr rep offset s2 Hoff) | | auto].
  lia.
Qed.

Lemma decode_quote_total_l : forall pem_ok trailing b s,
  fst (quote_unmarshal pem_ok trailing b s) <> Panic.
Proof. intros. exact (outcome_no_panic _ _ _ (quote_unmarshal_safe _ _ _ _)). Qed.

Lemma decode_quote_bounded_l : forall pem_ok trailing b s,
  snd (quote_unmarshal pem_ok trailing b s) <= s + glen b /\
  (forall q n s', quote_unmarshal pem_ok trailing b s = (Ok (q, n), s') ->
     n <= glen b /\ (trailing = false -> n = glen b)).
Proof.
  intros pem_ok trailing b s. pose proof (quote_unmarshal_safe pem_ok trailing b s) as H.
  split; [exact (safe_alloc _ _ _ _ H)|].
  intros q n s' E. exact (proj2 (outcome_ok _ _ _ _ _ H E)).
Qed.

Lemma decode_quote_parts_total_l : forall pem_ok version b s,
  fst (header_v3 b s) <> Panic /\ fst (header_v4 b s) <> Panic /\
  fst (sgx_report b s) <> Panic /\ fst (td_report b s) <> Panic /\
  fst (ppid b s) <> Panic /\ fst (qe_report pem_ok b s) <> Panic /\
  fst (sig_ecdsa pem_ok version b s) <> Panic.
Proof.
  intros pem_ok version b s. repeat apply conj; eapply outcome_no_panic.
  - apply header_v3_safe.
  - apply header_v4_safe.
  - apply sgx_report_safe.
  - apply td_report_safe.
  - apply ppid_safe.
  - apply qe_report_safe.
  - apply sig_ecdsa_safe.
Qed.

(* a quote whose declared signature length exceeds the input is an error *)
Example quote_huge_siglen_is_err :
  fst (run (quote_unmarshal true false
    ([3; 0; 2; 0; 0; 0; 0; 0; 0; 0; 0; 0] ++ QEVendorID_Intel ++ repeat 0 20 ++ repeat 0 384
       ++ [255; 255; 255; 255]))) = Err Q_TRAILING.
Proof. vm_compute. reflexivity. Qed.
