From Coq Require Import Permutation.
From Verif Require Import Lib.Base Roothash.Pool Roothash.PoolSpec Roothash.PoolProofs Roothash.PoolInv Roothash.Verify Roothash.VerifyProofs Roothash.App Roothash.AppProofs Roothash.EarlyDetect Roothash.Permute Roothash.Evidence Roothash.EvidenceProofs Roothash.Membership Roothash.AppInv Roothash.LivenessProofs.

Theorem finalize_only_if_rule :
  forall (c : committee) (p : pool) (strag : N) (timeout : bool) (p' : pool) (sc : sched_commitment),
    hr_entry_ok c p ->
    process c p strag timeout = (p', POk sc) ->
    (disc p = false /\ unanimity c strag sc) \/ (disc p = true /\ backup_majority c sc).
Proof. exact finalize_only_if_rule. Qed.
Print Assumptions finalize_only_if_rule.

Theorem no_wait_after_timeout :
  forall (c : committee) (p : pool) (strag : N), snd (process c p strag true) <> PStillWaiting.
Proof. exact no_wait_after_timeout. Qed.
Print Assumptions no_wait_after_timeout.

Theorem one_vote_per_member :
  forall (c : committee) (p : pool) (ec : commitment) (p1 : pool) (ec' : commitment),
    add c p ec = (p1, AOk) ->
    ec_node ec' = ec_node ec -> ec_sched ec' = ec_sched ec -> ec_round ec' = ec_round ec ->
    add c p1 ec' = (p1, AAlreadyCommitted).
Proof. exact one_vote_per_member. Qed.
Print Assumptions one_vote_per_member.

Theorem non_members_never_count :
  forall (c : committee) (p : pool) (ec : commitment),
    is_member c (ec_node ec) = false ->
    exists e, add c p ec = (p, e) /\ (e = ANotInCommittee \/ e = ANotBackup).
Proof. exact add_non_member. Qed.
Print Assumptions non_members_never_count.

Theorem non_backup_rejected_in_resolution :
  forall (c : committee) (p : pool) (ec : commitment),
    disc p = true -> is_backup_worker c (ec_node ec) = false -> add c p ec = (p, ANotBackup).
Proof. exact add_non_backup_in_resolution. Qed.
Print Assumptions non_backup_rejected_in_resolution.

Theorem rank_priority_worse_rejected :
  forall (c : committee) (p : pool) (ec : commitment) (r : N),
    scheduler_rank c (ec_round ec) (ec_sched ec) = Some r -> hr p < r ->
    exists e, add c p ec = (p, e) /\ e <> AOk.
Proof. exact add_worse_rank. Qed.
Print Assumptions rank_priority_worse_rejected.

Theorem rank_priority_own_commit_sets_rank :
  forall (c : committee) (p : pool) (ec : commitment) (p1 : pool) (r : N),
    add c p ec = (p1, AOk) -> ec_node ec = ec_sched ec ->
    scheduler_rank c (ec_round ec) (ec_sched ec) = Some r -> hr p1 = r.
Proof. exact add_own_sets_rank. Qed.
Print Assumptions rank_priority_own_commit_sets_rank.

Theorem rank_priority_monotone :
  forall (c : committee) (ops : list op) (p : pool), hr (run c ops p) <= hr p.
Proof. exact run_hr_mono. Qed.
Print Assumptions rank_priority_monotone.

Theorem rank_priority_ok_is_highest :
  forall (c : committee) (p : pool) (strag : N) (timeout : bool) (p' : pool) (sc : sched_commitment),
    process c p strag timeout = (p', POk sc) -> aget (hr p) (scs p) = Some sc.
Proof. exact process_ok_is_highest. Qed.
Print Assumptions rank_priority_ok_is_highest.

Theorem otherwise_wait_resolve_or_fail :
  forall (c : committee) (p : pool) (strag : N) (timeout : bool),
    outcome_shape c p timeout (fst (process c p strag timeout)) (snd (process c p strag timeout)).
Proof. exact otherwise_wait_resolve_or_fail. Qed.
Print Assumptions otherwise_wait_resolve_or_fail.

Theorem second_process_never_detects :
  forall (c : committee) (p : pool) (strag : N) (timeout : bool),
    disc p = true -> snd (process c p strag timeout) <> PDiscrepancy.
Proof. exact second_process_never_detects. Qed.
Print Assumptions second_process_never_detects.

(* ---- lifted to every history of verified commitments and processing calls ---- *)

Theorem finalize_only_if_rule_history :
  forall (c : committee) (R : N) (ops : list op) (strag : N) (timeout : bool) (p' : pool) (sc : sched_commitment),
    R + N.of_nat (length c) < W64 ->
    Forall (verified_op R) ops ->
    process c (run c ops new_pool) strag timeout = (p', POk sc) ->
    (disc (run c ops new_pool) = false /\ unanimity c strag sc) \/
    (disc (run c ops new_pool) = true /\ backup_majority c sc).
Proof. exact finalize_only_if_rule_history. Qed.
Print Assumptions finalize_only_if_rule_history.

Theorem reachable_invariant :
  forall (c : committee) (R : N) (ops : list op) (p : pool),
    small c -> rank_inj c R -> Forall (verified_op R) ops -> inv c R p -> inv c R (run c ops p).
Proof. exact inv_run. Qed.
Print Assumptions reachable_invariant.

Theorem rank_inj_unless_wraparound :
  forall (c : committee) (R : N), R + N.of_nat (length c) <= W64 -> rank_inj c R.
Proof. exact rank_inj_no_wrap. Qed.
Print Assumptions rank_inj_unless_wraparound.

Theorem no_nil_commitment_dereference_history :
  forall (c : committee) (R : N) (ops : list op) (strag : N) (timeout : bool),
    small c -> rank_inj c R -> Forall (verified_op R) ops ->
    snd (process c (run c ops new_pool) strag timeout) <> PPanic.
Proof. exact no_panic_reachable. Qed.
Print Assumptions no_nil_commitment_dereference_history.

Theorem rank_priority_no_worse_entry_history :
  forall (c : committee) (R : N) (ops : list op) (r : N) (sc : sched_commitment),
    small c -> rank_inj c R -> Forall (verified_op R) ops ->
    aget r (scs (run c ops new_pool)) = Some sc -> r <= hr (run c ops new_pool).
Proof. exact no_worse_reachable. Qed.
Print Assumptions rank_priority_no_worse_entry_history.

(* ---- verify-then-add histories (what the roothash application does) ---- *)

Theorem verify_establishes_verified :
  forall (br bh mm : N) (vc : vcommit),
    verify br bh mm vc = VOk -> verified ((br + 1) mod W64) (vc_ec vc).
Proof. exact verify_ok_verified. Qed.
Print Assumptions verify_establishes_verified.

Theorem verify_ok_header :
  forall (br bh mm : N) (vc : vcommit),
    verify br bh mm vc = VOk ->
    vc_sig_ok vc = true /\ validate_basic vc = true /\
    vc_round vc = (br + 1) mod W64 /\ vc_prev vc = bh.
Proof. exact verify_ok_header. Qed.
Print Assumptions verify_ok_header.

Theorem finalize_only_if_rule_verified_history :
  forall (b : blockinfo) (c : committee) (ops : list vop) (strag : N) (timeout : bool)
         (p' : pool) (sc : sched_commitment),
    next_round b + N.of_nat (length c) < W64 ->
    process c (vrun b c ops new_pool) strag timeout = (p', POk sc) ->
    (disc (vrun b c ops new_pool) = false /\ unanimity c strag sc) \/
    (disc (vrun b c ops new_pool) = true /\ backup_majority c sc).
Proof. exact finalize_only_if_rule_verified_history. Qed.
Print Assumptions finalize_only_if_rule_verified_history.

Theorem rank_priority_verified_history :
  forall (b : blockinfo) (c : committee) (ops : list vop) (strag : N) (timeout : bool)
         (p' : pool) (sc : sched_commitment),
    next_round b + N.of_nat (length c) < W64 ->
    process c (vrun b c ops new_pool) strag timeout = (p', POk sc) ->
    exists ec, sc_commit sc = Some ec /\ ec_node ec = ec_sched ec /\ ec_round ec = next_round b /\
               scheduler_rank c (next_round b) (ec_sched ec) = Some (hr (vrun b c ops new_pool)).
Proof. exact rank_priority_verified_history. Qed.
Print Assumptions rank_priority_verified_history.

Theorem rank_buckets_verified_history :
  forall (b : blockinfo) (c : committee) (ops : list vop) (r : N) (sc : sched_commitment) (ec : commitment),
    aget r (scs (vrun b c ops new_pool)) = Some sc -> sc_commit sc = Some ec ->
    ec_node ec = ec_sched ec /\ ec_round ec = next_round b /\
    scheduler_rank c (next_round b) (ec_sched ec) = Some r.
Proof. exact rank_buckets_verified_history. Qed.
Print Assumptions rank_buckets_verified_history.

Theorem rank_priority_best_committed :
  forall (b : blockinfo) (c : committee) (ops1 : list vop) (vc : vcommit) (ops2 : list vop) (p1 : pool) (r : N),
    verify (blk_round b) (blk_hash b) (blk_max_msgs b) vc = VOk ->
    add c (vrun b c ops1 new_pool) (vc_ec vc) = (p1, AOk) ->
    vc_node vc = vc_sched vc ->
    scheduler_rank c (next_round b) (vc_sched vc) = Some r ->
    hr (vrun b c (ops1 ++ VAdd vc :: ops2) new_pool) <= r.
Proof. exact rank_priority_best_committed. Qed.
Print Assumptions rank_priority_best_committed.

(* ---- the roothash application's finalization (finalization.go, timeout.go, transactions.go) ---- *)

Theorem app_second_process_never_detects :
  forall (H : Z) (prm : rt_params) (c : committee) (p : pool) (st : rt_state) (timeout : bool),
    try_finalize H prm c p st timeout <> TFErrDiscrepancy.
Proof. exact app_second_process_never_detects. Qed.
Print Assumptions app_second_process_never_detects.

Theorem try_finalize_shape :
  forall (H : Z) (prm : rt_params) (c : committee) (p : pool) (st : rt_state) (timeout : bool)
         (st' : rt_state) (evs : list app_event),
    try_finalize H prm c p st timeout = TFOk st' evs -> tf_shape H prm c p st timeout st' evs.
Proof. exact try_finalize_shape. Qed.
Print Assumptions try_finalize_shape.

Theorem normal_block_only_if_rule :
  forall (H : Z) (prm : rt_params) (c : committee) (p : pool) (st : rt_state) (timeout : bool)
         (st' : rt_state) (evs : list app_event),
    hr_entry_ok c p ->
    try_finalize H prm c p st timeout = TFOk st' evs ->
    In (EvFinalized (next_round_of st)) evs -> rs_htype st' = HNormal ->
    exists sc ec,
      snd (process c (fst (deciding H prm c p timeout)) (rp_strag prm) (snd (deciding H prm c p timeout))) = POk sc /\
      sc_commit sc = Some ec /\
      rs_root st' = lookup (ec_vote ec) (rp_roots prm) /\
      rule c (rp_strag prm) (disc (fst (deciding H prm c p timeout))) sc.
Proof. exact normal_block_only_if_rule. Qed.
Print Assumptions normal_block_only_if_rule.

Theorem failed_round_keeps_state_root :
  forall (H : Z) (prm : rt_params) (c : committee) (p : pool) (st : rt_state) (timeout : bool)
         (st' : rt_state) (evs : list app_event),
    try_finalize H prm c p st timeout = TFOk st' evs ->
    rs_htype st' = HRoundFailed -> In (EvFinalized (next_round_of st)) evs ->
    rs_root st' = rs_root st /\ rs_round st' = next_round_of st /\
    rs_pool st' = Some new_pool /\ rs_next_timeout st' = TimeoutNever.
Proof. exact failed_round_keeps_state_root. Qed.
Print Assumptions failed_round_keeps_state_root.

Theorem state_root_changes_only_with_normal_block :
  forall (H : Z) (prm : rt_params) (c : committee) (p : pool) (st : rt_state) (timeout : bool)
         (st' : rt_state) (evs : list app_event),
    try_finalize H prm c p st timeout = TFOk st' evs ->
    rs_root st' <> rs_root st -> rs_htype st' = HNormal /\ rs_round st' = next_round_of st.
Proof. exact state_root_changes_only_with_normal_block. Qed.
Print Assumptions state_root_changes_only_with_normal_block.

Theorem timeout_never_keeps_waiting :
  forall (H : Z) (prm : rt_params) (c : committee) (p : pool) (st st' : rt_state) (evs : list app_event),
    try_finalize H prm c p st true = TFOk st' evs ->
    (forall r, ~ In (EvFinalized r) evs) ->
    exists rank,
      evs = [EvDiscrepancy (next_round_of st) rank true] /\
      snd (process c p (rp_strag prm) true) = PDiscrepancy /\
      rs_next_timeout st' = (H + rp_round_timeout prm * 15 / 10)%Z /\
      rs_next_timeout st' <> H.
Proof. exact timeout_never_keeps_waiting. Qed.
Print Assumptions timeout_never_keeps_waiting.

Theorem suspended_runtime_has_no_armed_timeout :
  forall (prm : rt_params) (bs : list ablock) (round root : N),
    rs_suspended (app_states prm (new_runtime prm round root) bs) = true ->
    rs_next_timeout (app_states prm (new_runtime prm round root) bs) = TimeoutNever.
Proof. exact suspended_runtime_has_no_armed_timeout. Qed.
Print Assumptions suspended_runtime_has_no_armed_timeout.

Theorem armed_timeout_only_for_active_runtime :
  forall (prm : rt_params) (bs : list ablock) (st : rt_state),
    armed_ok st -> armed_ok (app_states prm st bs).
Proof. exact app_states_armed_ok. Qed.
Print Assumptions armed_timeout_only_for_active_runtime.

Theorem end_block_never_fails_on_inactive_runtime :
  forall (prm : rt_params) (st : rt_state) (b : ablock),
    armed_ok st -> (0 < ab_height b)%Z -> bo_halt (snd (app_block prm st b)) <> 1.
Proof. exact end_block_never_fails_on_inactive_runtime. Qed.
Print Assumptions end_block_never_fails_on_inactive_runtime.

Theorem process_ignores_non_member_votes :
  forall (c : committee) (p : pool) (sc sc' : sched_commitment) (strag : N) (timeout : bool),
    aget (hr p) (scs p) = Some sc ->
    sc_commit sc' = sc_commit sc ->
    (forall n, is_member c n = true -> aget n (sc_votes sc') = aget n (sc_votes sc)) ->
    outcome_code (process_inner c (mkPool (hr p) (aset (hr p) sc' (scs p)) (disc p)) strag timeout)
    = outcome_code (process_inner c p strag timeout).
Proof. exact process_ignores_non_member_votes. Qed.
Print Assumptions process_ignores_non_member_votes.

Theorem early_detection_equals_final :
  forall (hr0 strag : N) (timeout : bool) (votes : list (N * option N)) (ms : committee),
    (gather false hr0 strag timeout votes ms tally0 = None <->
     exit_enabled hr0 timeout = true /\ bad strag (gather_all false votes ms tally0) = true)
    /\ (forall t, gather false hr0 strag timeout votes ms tally0 = Some t ->
                  t = gather_all false votes ms tally0).
Proof. exact early_detection_equals_final. Qed.
Print Assumptions early_detection_equals_final.

(* ---- member order, Go map order ---- *)

Theorem process_member_order_irrelevant :
  forall (c c' : committee) (p : pool) (strag : N) (timeout : bool),
    Permutation c c' ->
    fst (process c p strag timeout) = fst (process c' p strag timeout) /\
    outcome_code (snd (process c p strag timeout)) = outcome_code (snd (process c' p strag timeout)) /\
    chosen (snd (process c p strag timeout)) = chosen (snd (process c' p strag timeout)).
Proof. exact process_member_order_irrelevant_full. Qed.
Print Assumptions process_member_order_irrelevant.

Theorem resolution_map_order_irrelevant :
  forall (total commits : N) (timeout : bool) (sc : sched_commitment) (l l' : list (N * N)),
    Permutation l l' -> NoDup (keys l) -> vpos l -> vsum l <= total ->
    resolution_code total commits timeout sc l = resolution_code total commits timeout sc l'.
Proof. exact resolution_map_order_irrelevant. Qed.
Print Assumptions resolution_map_order_irrelevant.

Theorem process_inner_is_resolution_code :
  forall (c : committee) (p : pool) (strag : N) (timeout : bool) (sc : sched_commitment) (t : tally),
    aget (hr p) (scs p) = Some sc -> disc p = true ->
    gather true (hr p) strag timeout (sc_votes sc) c tally0 = Some t ->
    outcome_code (process_inner c p strag timeout) = resolution_code (t_total t) (t_commits t) timeout sc (t_votes t)
    /\ (forall sc', process_inner c p strag timeout = POk sc' -> sc' = sc).
Proof. exact process_inner_resolution. Qed.
Print Assumptions process_inner_is_resolution_code.

(* ---- multi-commitment transactions ---- *)

Theorem executor_commit_all_or_nothing :
  forall (H : Z) (prm : rt_params) (st : rt_state) (vcs : list vcommit),
    snd (fst (executor_commit H prm st vcs)) <> 0 ->
    fst (fst (executor_commit H prm st vcs)) = st /\ snd (executor_commit H prm st vcs) = false.
Proof. exact executor_commit_all_or_nothing. Qed.
Print Assumptions executor_commit_all_or_nothing.

Theorem commit_all_ok :
  forall (round bh mm : N) (c : committee) (vcs : list vcommit) (p p1 : pool),
    commit_all round bh mm c p vcs = (p1, 0) ->
    Forall (fun vc => verify round bh mm vc = VOk) vcs /\
    p1 = fold_left (fun q vc => fst (add c q (vc_ec vc))) vcs p.
Proof. exact commit_all_ok. Qed.
Print Assumptions commit_all_ok.

(* ---- equivocation evidence ---- *)

Theorem valid_evidence_means_double_vote :
  forall (a b : ecommit),
    exec_evidence_check a b = EvOk ->
    vc_node (e_vc a) = vc_node (e_vc b) /\ vc_sched (e_vc a) = vc_sched (e_vc b) /\
    vc_round (e_vc a) = vc_round (e_vc b) /\
    vc_sig_ok (e_vc a) = true /\ vc_sig_ok (e_vc b) = true /\
    validate_basic (e_vc a) = true /\ validate_basic (e_vc b) = true /\
    (vc_fcode (e_vc a) <> vc_fcode (e_vc b) \/ vc_vote (e_vc a) <> vc_vote (e_vc b)) /\
    ((vc_fcode (e_vc a) = 0 /\ vc_fcode (e_vc b) = 0 /\
      (vc_prev (e_vc a) <> vc_prev (e_vc b) \/ e_io a <> e_io b \/ e_state a <> e_state b \/ e_mh a <> e_mh b))
     \/ vc_fcode (e_vc a) <> vc_fcode (e_vc b)).
Proof. exact valid_evidence_means_double_vote. Qed.
Print Assumptions valid_evidence_means_double_vote.

Theorem honest_node_never_accused :
  forall (n : N) (signed : vcommit -> Prop),
    (forall vc, vc_node vc = n -> vc_sig_ok vc = true -> signed vc) ->
    (forall x y, signed x -> signed y -> vc_round x = vc_round y -> vc_sched x = vc_sched y ->
                 vc_fcode x = vc_fcode y /\ vc_vote x = vc_vote y) ->
    forall (a b : ecommit), vc_node (e_vc a) = n -> exec_evidence_check a b <> EvOk.
Proof. exact honest_node_never_accused. Qed.
Print Assumptions honest_node_never_accused.

Theorem valid_proposal_evidence_means_double_proposal :
  forall (a b : proposal),
    prop_evidence_check a b = PvOk ->
    pr_node a = pr_node b /\ pr_round a = pr_round b /\
    pr_sig_ok a = true /\ pr_sig_ok b = true /\
    (pr_prev a <> pr_prev b \/ pr_batch_hash a <> pr_batch_hash b).
Proof. exact valid_proposal_evidence_means_double_proposal. Qed.
Print Assumptions valid_proposal_evidence_means_double_proposal.

Theorem honest_proposer_never_accused :
  forall (n : N) (proposed : proposal -> Prop),
    (forall p, pr_node p = n -> pr_sig_ok p = true -> proposed p) ->
    (forall x y, proposed x -> proposed y -> pr_round x = pr_round y ->
                 pr_prev x = pr_prev y /\ pr_batch_hash x = pr_batch_hash y) ->
    forall (a b : proposal), pr_node a = n -> prop_evidence_check a b <> PvOk.
Proof. exact honest_proposer_never_accused. Qed.
Print Assumptions honest_proposer_never_accused.

Theorem submit_evidence_spec :
  forall (st : rt_state) (store : list N) (slashes : bool) (max_age : N) (e : evidence) (id : N) (registered : bool),
    let r := submit_evidence st store slashes max_age e id registered in
    (snd r = 0 ->
       evidence_valid e = true /\ ~ In id store /\ fst r = id :: store /\ registered = true /\
       slashes = true /\ rs_suspended st = false) /\
    (snd r <> 0 -> fst r = store).
Proof. exact submit_evidence_spec. Qed.
Print Assumptions submit_evidence_spec.

(* ---- the application over arbitrary histories, liveness, membership ---- *)

Theorem normal_block_only_if_rule_history :
  forall (prm : rt_params) (bs : list ablock) (b : ablock) (round root : N),
    history_ok round (bs ++ [b]) ->
    let st := app_states prm (new_runtime prm round root) bs in
    let st' := fst (app_block prm st b) in
    let o := snd (app_block prm st b) in
    fin_count (bo_end o) = 1 -> rs_htype st' = HNormal ->
    exists c, rs_committee st' = Some c /\ normal_justified prm c st'.
Proof. exact normal_block_only_if_rule_history. Qed.
Print Assumptions normal_block_only_if_rule_history.

Theorem app_pool_invariant_history :
  forall (prm : rt_params) (bs : list ablock) (st : rt_state),
    pool_ok st -> committee_ok st -> history_ok (rs_round st) bs ->
    pool_ok (app_states prm st bs) /\ committee_ok (app_states prm st bs).
Proof. exact app_states_inv. Qed.
Print Assumptions app_pool_invariant_history.

Theorem failed_round_header :
  forall (H : Z) (prm : rt_params) (c : committee) (p : pool) (st : rt_state) (timeout : bool)
         (st' : rt_state) (evs : list app_event),
    try_finalize H prm c p st timeout = TFOk st' evs ->
    rs_htype st' = HRoundFailed -> In (EvFinalized (next_round_of st)) evs ->
    rs_root st' = rs_root st /\ rs_io st' = rp_empty prm /\ rs_msgs st' = rp_empty prm /\
    rs_prev st' = lookup (rs_round st) (rp_hashes prm) /\ rs_round st' = next_round_of st.
Proof. exact failed_round_header. Qed.
Print Assumptions failed_round_header.

Theorem epoch_and_suspend_blocks_keep_state :
  forall (prm : rt_params) (st : rt_state) (ep : option (option committee)),
    pool_ok st -> committee_ok st -> rs_round st + 2 < ROUND_BOUND ->
    (forall c, ep = Some (Some c) -> small_c c) ->
    let st1 := fst (begin_block prm st ep) in
    let e := snd (begin_block prm st ep) in
    pool_ok st1 /\ committee_ok st1 /\ fin_count e <= 1 /\ rs_round st1 = rs_round st + fin_count e /\
    (fin_count e = 1 -> rs_htype st1 <> HNormal /\ rs_root st1 = rs_root st /\ rs_io st1 = rp_empty prm /\
                        rs_msgs st1 = rp_empty prm /\ rs_prev st1 = lookup (rs_round st) (rp_hashes prm)).
Proof. exact begin_block_spec. Qed.
Print Assumptions epoch_and_suspend_blocks_keep_state.

Theorem rounds_increase_by_one_per_block :
  forall (prm : rt_params) (bs : list ablock) (st : rt_state),
    pool_ok st -> committee_ok st -> history_ok (rs_round st) bs ->
    rs_round (app_states prm st bs) =
    rs_round st + fold_right (fun o acc => fin_count (bo_begin o) + fin_count (bo_end o) + acc) 0 (app_run prm st bs).
Proof. exact rounds_increase_by_one_per_block. Qed.
Print Assumptions rounds_increase_by_one_per_block.

Theorem stale_commit_rejected :
  forall (H : Z) (prm : rt_params) (st : rt_state) (vcs : list vcommit) (vc : vcommit),
    In vc vcs -> vc_round vc <> next_round_of st ->
    snd (fst (executor_commit H prm st vcs)) <> 0 /\ fst (fst (executor_commit H prm st vcs)) = st.
Proof. exact stale_commit_rejected. Qed.
Print Assumptions stale_commit_rejected.

Theorem no_stale_commit_after_block :
  forall (H : Z) (prm : rt_params) (c : committee) (p : pool) (st : rt_state) (timeout : bool)
         (st' : rt_state) (evs : list app_event) (vcs : list vcommit) (vc : vcommit),
    round_ok st ->
    try_finalize H prm c p st timeout = TFOk st' evs -> fin_count evs = 1 ->
    In vc vcs -> vc_round vc = next_round_of st ->
    rs_pool st' = Some new_pool /\
    snd (fst (executor_commit H prm st' vcs)) <> 0 /\ fst (fst (executor_commit H prm st' vcs)) = st'.
Proof. exact no_stale_commit_after_block. Qed.
Print Assumptions no_stale_commit_after_block.

Theorem finalize_normal_liveness :
  forall (prm : rt_params) (c : committee) (s : rt_state) (p2 : pool) (lv : liveness)
         (sc : sched_commitment) (ec : commitment) (st2 : rt_state) (e2 : list app_event),
    finalize_normal prm c s p2 lv sc ec = Some (st2, e2) -> live_ok c lv ->
    exists lv' good bad,
      rs_live st2 = Some lv' /\ rs_results st2 = (good, bad) /\ live_ok c lv' /\
      lv_total lv' = lv_total lv + 1 /\
      lsum (lv_fin lv') + lsum (lv_miss lv') = lsum (lv_fin lv) + lsum (lv_miss lv) + 1 /\
      lsum (lv_live lv') = lsum (lv_live lv) + N.of_nat (length good) /\
      (forall n, is_member c n = true -> aget n (sc_votes sc) = Some (Some (ec_vote ec)) -> In n good) /\
      (forall n, aget n (sc_votes sc) = Some (Some (ec_vote ec)) -> ~ In n bad) /\
      (forall n, In n good -> is_member c n = true /\ aget n (sc_votes sc) = Some (Some (ec_vote ec))) /\
      (forall n, In n bad -> is_member c n = true /\
                             exists v, aget n (sc_votes sc) = Some (Some v) /\ v <> ec_vote ec).
Proof. exact finalize_normal_liveness. Qed.
Print Assumptions finalize_normal_liveness.

Theorem fail_round_liveness :
  forall (prm : rt_params) (c : committee) (s : rt_state) (p2 : pool) (lv : liveness)
         (st2 : rt_state) (e2 : list app_event),
    fail_round prm c s p2 lv = Some (st2, e2) -> live_ok c lv ->
    exists lv', rs_live st2 = Some lv' /\ live_ok c lv' /\
      lv_total lv' = lv_total lv /\ lv_live lv' = lv_live lv /\ lv_fin lv' = lv_fin lv /\
      lsum (lv_miss lv') = lsum (lv_miss lv) + 1.
Proof. exact fail_round_liveness. Qed.
Print Assumptions fail_round_liveness.

Theorem liveness_consistent_history :
  forall (prm : rt_params) (bs : list ablock) (round root : N),
    live_inv (app_states prm (new_runtime prm round root) bs).
Proof. exact liveness_consistent_history. Qed.
Print Assumptions liveness_consistent_history.

Theorem add_checks_membership_and_role :
  forall (c : committee) (p : pool) (ec : commitment) (p1 : pool),
    add c p ec = (p1, AOk) ->
    (disc p = false -> is_member c (ec_node ec) = true) /\
    (disc p = true -> is_backup_worker c (ec_node ec) = true) /\
    is_member c (ec_node ec) = true /\
    exists r, scheduler_rank c (ec_round ec) (ec_sched ec) = Some r /\
              In (ec_sched ec) (primary_nodes c) /\ r <= hr p /\ (disc p = true -> r = hr p) /\
              exists sc, aget r (scs p1) = Some sc /\
                         aget (ec_node ec) (sc_votes sc) = Some (if ec_fail ec then None else Some (ec_vote ec)).
Proof. exact add_ok_roles. Qed.
Print Assumptions add_checks_membership_and_role.

Theorem only_members_vote_history :
  forall (c : committee) (ops : list op) (r : N) (sc : sched_commitment) (n : N) (v : option N),
    aget r (scs (run c ops new_pool)) = Some sc -> aget n (sc_votes sc) = Some v -> is_member c n = true.
Proof. exact votes_members_reachable. Qed.
Print Assumptions only_members_vote_history.

Theorem executor_commit_is_the_only_writer_and_checks :
  forall (H : Z) (prm : rt_params) (st : rt_state) (vcs : list vcommit),
    pool_ok st -> committee_ok st -> round_ok st ->
    pool_ok (fst (fst (executor_commit H prm st vcs))).
Proof. exact executor_commit_pool_ok. Qed.
Print Assumptions executor_commit_is_the_only_writer_and_checks.
