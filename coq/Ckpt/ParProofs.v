(* The parallel chunker: every pair of the tree is carried by some chunk
   (coverage invariant over split / emit / filter), the lock-step rounds
   terminate within the fuel, the order in which the goroutines of one round
   run is irrelevant. *)
From Verif Require Import Lib.Base Mkvs.Trie Mkvs.BitsProofs Mkvs.AlistProofs Mkvs.TrieProofs Ckpt.Model Ckpt.Proofs.
From Coq Require Import Permutation.
Local Open Scope nat_scope.

Lemma skipn_app_l {A} n (a b : list A) : n <= length a -> skipn n (a ++ b) = skipn n a ++ b.
Proof. intros Hn. rewrite skipn_app. now replace (n - length a) with 0 by lia. Qed.

Lemma skipn_app_r {A} n (a b : list A) : length a <= n -> skipn n (a ++ b) = skipn (n - length a) b.
Proof. intros Hn. now rewrite skipn_app, skipn_all2. Qed.

Lemma length_concat_in {A} (x : list A) l : In x l -> length x <= length (concat l).
Proof.
  induction l as [|y l IH]; [intros []|]. intros [->|Hin]; cbn [concat]; rewrite app_length; [lia|].
  specialize (IH Hin). lia.
Qed.

Lemma take_more_split size l : forall acc,
  map aentry l = take_more size acc l ++ map aentry (skipn (length (take_more size acc l)) l).
Proof.
  induction l as [|[[e f] m] r IH]; intros acc; cbn [take_more]; [reflexivity|].
  destruct (N.ltb acc size); [|reflexivity].
  cbn [map length skipn app]. f_equal. apply IH.
Qed.

Lemma next_run_split size l :
  map aentry l = next_run size l ++ map aentry (skipn (length (next_run size l)) l).
Proof.
  destruct l as [|[[e f] m] r]; [reflexivity|]. cbn [next_run map length skipn app].
  f_equal. apply take_more_split.
Qed.

Lemma next_run_nonempty size l : l <> [] -> next_run size l <> [].
Proof. destruct l as [|[[e f] m] r]; [congruence|discriminate]. Qed.

Definition rem_entries (tk : task) : list entry := skipn (tdone tk) (contents (tsub tk)).

Lemma remaining_entries tk : map aentry (remaining tk) = rem_entries tk.
Proof. unfold remaining, rem_entries. now rewrite <- skipn_map, annot_entries. Qed.

Lemma rem_split size tk : rem_entries tk = task_run size tk ++ rem_entries (advance size tk).
Proof.
  rewrite <- (remaining_entries tk). unfold task_run. rewrite (next_run_split size (remaining tk)) at 1.
  f_equal. unfold rem_entries, advance, remaining. cbn [tdone tsub].
  rewrite <- skipn_skipn, <- !skipn_map, annot_entries. reflexivity.
Qed.

Lemma task_run_nonempty size tk : rem_entries tk <> [] -> task_run size tk <> [].
Proof.
  intros Hr. apply next_run_nonempty. intros E. apply Hr.
  rewrite <- remaining_entries, E. reflexivity.
Qed.

Lemma rem_nonempty tk : rem_entries tk <> [] <-> tdone tk < length (contents (tsub tk)).
Proof. rewrite <- length_zero_iff_nil. unfold rem_entries. rewrite skipn_length. lia. Qed.

Lemma unfinished_rem tk : unfinished tk = true <-> rem_entries tk <> [].
Proof. rewrite rem_nonempty. apply Nat.ltb_lt. Qed.

Lemma rem_incl tk : incl (rem_entries tk) (contents (tsub tk)).
Proof. intros e He. rewrite <- (firstn_skipn (tdone tk)). apply in_or_app. now right. Qed.

Lemma inrun_self run k v : In (k, v) run -> inrun run k = true.
Proof.
  intros Hin. unfold inrun. apply existsb_exists. exists (k, v). split; [assumption|].
  apply bytes_eqb_refl.
Qed.

Definition rems (ts : list task) : list entry := concat (map rem_entries ts).

Lemma rems_app a b : rems (a ++ b) = rems a ++ rems b.
Proof. unfold rems. now rewrite map_app, concat_app. Qed.

Lemma rems_one tk : rems [tk] = rem_entries tk.
Proof. unfold rems. cbn. apply app_nil_r. Qed.

Lemma child_tasks_in a cs c : In c cs -> c <> Nil -> In (mk c a 0) (child_tasks a cs).
Proof.
  intros Hin Hn. unfold child_tasks. apply in_flat_map. exists c. split; [assumption|].
  destruct c; [congruence| |]; cbn; auto.
Qed.

Lemma child_tasks_inv a cs tk : In tk (child_tasks a cs) -> exists c, In c cs /\ c <> Nil /\ tk = mk c a 0.
Proof.
  unfold child_tasks. rewrite in_flat_map. intros (c & Hc & Hin). exists c.
  destruct c; cbn in Hin; [tauto| |]; destruct Hin as [<-|[]]; repeat split; auto; discriminate.
Qed.

Lemma rems_child a cs : rems (child_tasks a cs) = concat (map contents cs).
Proof.
  induction cs as [|c cs IH]; [reflexivity|]. unfold child_tasks in *. cbn [flat_map map concat].
  rewrite rems_app, IH. destruct c; try reflexivity; now rewrite rems_one.
Qed.

(* The visit states of subtree.split as a function of [tdone]: the task is
   returned as it is, or handed to the children, or descends to the left
   (the right child becoming a task of its own) or to the right; with what the
   task has left in each case. *)
Lemma split_cases tk lbl lf l r :
  tsub tk = Node lbl lf l r ->
  let a := (tanc tk + node_cost lbl lf)%N in
  let nf := length (lf_contents lf) in
  let nl := length (contents l) in
  let d := tdone tk in
  (split tk = [tk] /\ (d <= nf /\ l = Nil /\ r = Nil \/ nf < d /\ d = nf + nl)) \/
  (split tk = child_tasks a [l; r] /\ d <= nf /\ (l <> Nil \/ r <> Nil) /\
     rem_entries tk = skipn d (lf_contents lf) ++ contents l ++ contents r) \/
  (split tk = child_tasks a [r] ++ [mk l a (d - nf)] /\ nf < d < nf + nl /\
     rem_entries tk = rem_entries (mk l a (d - nf)) ++ contents r) \/
  (split tk = [mk r a (d - nf - nl)] /\ nf + nl < d /\ rem_entries tk = rem_entries (mk r a (d - nf - nl))).
Proof.
  intros Et a nf nl d. unfold split, rem_entries. rewrite Et. cbn [contents tsub tdone]. fold nf nl d a.
  destruct (Nat.leb_spec d nf).
  { rewrite skipn_app_l by assumption.
    destruct l; [destruct r; [left; auto| |]|..]; right; left; repeat split; auto;
      ((left; discriminate) || (right; discriminate)). }
  rewrite skipn_app_r by (fold nf; lia). fold nf.
  destruct (Nat.ltb_spec d (nf + nl)); [do 2 right; left; rewrite skipn_app_l by (fold nl; lia); auto|].
  destruct (Nat.eqb_spec d (nf + nl)); [left; auto|do 3 right].
  rewrite skipn_app_r by (fold nl; lia). split; [reflexivity|]. split; [lia|reflexivity].
Qed.

Inductive splits : list task -> list task -> Prop :=
| splits_refl ts : splits ts ts
| splits_step a tk b ts' : splits (a ++ split tk ++ b) ts' -> splits (a ++ tk :: b) ts'.

Lemma splits_trans a b c : splits a b -> splits b c -> splits a c.
Proof. induction 1; [auto|]. intros Hc. apply splits_step. auto. Qed.

Lemma split_pass_splits threads tasks : forall acc,
  splits (acc ++ tasks) (fst (split_pass threads acc tasks)).
Proof.
  induction tasks as [|tk rest IH]; intros acc; cbn [split_pass].
  - rewrite app_nil_r. apply splits_refl.
  - destruct (threads <=? _); [apply splits_refl|]. apply splits_step. rewrite app_assoc. apply IH.
Qed.

Lemma split_tasks_splits threads n : forall ts, splits ts (split_tasks threads n ts).
Proof.
  induction n as [|n IH]; intros ts; cbn [split_tasks]; [apply splits_refl|].
  pose proof (split_pass_splits threads ts []) as P. destruct (split_pass threads [] ts) as [ts2 stop].
  destruct stop; [exact P|]. eapply splits_trans; [exact P|apply IH].
Qed.

Lemma splits_Forall (P : task -> Prop) :
  (forall tk, P tk -> Forall P (split tk)) ->
  forall ts ts', splits ts ts' -> Forall P ts -> Forall P ts'.
Proof.
  intros Hs ts ts'. induction 1 as [|a tk b ts' _ IH]; [auto|]. intros Hall. apply IH.
  apply Forall_app in Hall as [Ha Hb]. inversion Hb; subst. rewrite !Forall_app. auto.
Qed.

(* [sub_perm a b]: the elements of [a], with multiplicity, are among those of [b] *)
Definition sub_perm {A} (a b : list A) : Prop := exists c, Permutation (a ++ c) b.

Lemma sub_perm_refl {A} (a : list A) : sub_perm a a.
Proof. exists []. now rewrite app_nil_r. Qed.
Lemma sub_perm_nodup {A} (a b : list A) : sub_perm a b -> NoDup b -> NoDup a.
Proof.
  intros [c Hp] Hn. apply Permutation_sym in Hp. apply (Permutation_NoDup Hp) in Hn.
  clear Hp. induction a as [|x a IH]; [constructor|]. cbn [app] in Hn. inversion Hn; subst.
  constructor; [|auto]. intros Hi. apply H1. apply in_or_app. now left.
Qed.
Lemma sub_perm_app {A} (a a' b b' : list A) : sub_perm a a' -> sub_perm b b' -> sub_perm (a ++ b) (a' ++ b').
Proof.
  intros [c Hc] [d Hd]. exists (c ++ d).
  transitivity ((a ++ c) ++ (b ++ d)); [|now apply Permutation_app].
  rewrite <- !app_assoc. apply Permutation_app_head. rewrite !app_assoc. apply Permutation_app_tail.
  apply Permutation_app_comm.
Qed.
Lemma sub_perm_trans {A} (a b c : list A) : sub_perm a b -> sub_perm b c -> sub_perm a c.
Proof.
  intros [x Hx] [y Hy]. exists (x ++ y). rewrite app_assoc. transitivity (b ++ y); [|assumption].
  now apply Permutation_app_tail.
Qed.
Lemma sub_perm_skipn {A} n (l : list A) : sub_perm (skipn n l) l.
Proof. exists (firstn n l). rewrite <- (firstn_skipn n l) at 3. apply Permutation_app_comm. Qed.
Lemma sub_perm_perm {A} (a b : list A) : Permutation a b -> sub_perm a b.
Proof. intros Hp. exists []. now rewrite app_nil_r. Qed.
Lemma sub_perm_incl {A} (a b : list A) : sub_perm a b -> incl a b.
Proof. intros [c Hp] e He. eapply Permutation_in; [exact Hp|]. apply in_or_app. now left. Qed.
Lemma sub_perm_length {A} (a b : list A) : sub_perm a b -> length a <= length b.
Proof. intros [c Hp]. apply Permutation_length in Hp. rewrite app_length in Hp. lia. Qed.

Lemma split_rems tk : sub_perm (rems (split tk)) (rem_entries tk).
Proof.
  destruct (tsub tk) as [|k v|lbl lf l r] eqn:Et;
    try (unfold split; rewrite Et, rems_one; apply sub_perm_refl).
  destruct (split_cases tk _ _ _ _ Et) as [(-> & _)|[(-> & _ & _ & ->)|[(-> & _ & ->)|(-> & _ & ->)]]];
    rewrite ?rems_app, ?rems_child, ?rems_one; cbn [map concat]; rewrite ?app_nil_r; try apply sub_perm_refl.
  - eexists. apply Permutation_app_comm.
  - apply sub_perm_perm, Permutation_app_comm.
Qed.

Lemma splits_rems ts ts' : splits ts ts' -> sub_perm (rems ts') (rems ts).
Proof.
  induction 1 as [|a tk b ts' _ IH]; [apply sub_perm_refl|]. eapply sub_perm_trans; [exact IH|].
  change (tk :: b) with ([tk] ++ b). rewrite !rems_app, rems_one.
  apply sub_perm_app; [apply sub_perm_refl|]. apply sub_perm_app; [apply split_rems|apply sub_perm_refl].
Qed.

Lemma rems_filter l : rems (filter unfinished l) = rems l.
Proof.
  induction l as [|tk l IH]; [reflexivity|]. cbn [filter]. change (rems (tk :: l)) with (rem_entries tk ++ rems l).
  destruct (unfinished tk) eqn:E; [change (rems (tk :: ?x)) with (rem_entries tk ++ rems x); now rewrite IH|].
  rewrite IH. destruct (rem_entries tk) eqn:Er; [reflexivity|].
  assert (unfinished tk = true) by (apply unfinished_rem; congruence). congruence.
Qed.

Lemma emit_rems size ts :
  Permutation (concat (map (task_run size) ts) ++ rems (filter unfinished (map (advance size) ts))) (rems ts).
Proof.
  rewrite rems_filter. induction ts as [|tk ts IH]; [reflexivity|]. cbn [map concat].
  change (rems (?x :: ?y)) with (rem_entries x ++ rems y). rewrite (rem_split size tk), <- !app_assoc.
  apply Permutation_app_head. rewrite <- IH, !app_assoc. apply Permutation_app_tail, Permutation_app_comm.
Qed.

Lemma par_rounds_disjoint size threads fuel : forall ts,
  sub_perm (concat (fst (par_rounds fuel size threads ts))) (rems ts).
Proof.
  induction fuel as [|fuel IH]; intros ts; cbn [par_rounds]; [exists (rems ts); reflexivity|].
  destruct ts as [|tk0 rest] eqn:Ets; [apply sub_perm_refl|]. rewrite <- Ets. clear Ets tk0 rest.
  set (ts2 := split_tasks threads SPLIT_ITERS ts).
  specialize (IH (filter unfinished (map (advance size) ts2))).
  destruct (par_rounds fuel size threads (filter unfinished (map (advance size) ts2))) as [more lft].
  cbn [fst] in *. rewrite concat_app.
  eapply sub_perm_trans; [|apply splits_rems, split_tasks_splits]. fold ts2.
  eapply sub_perm_trans; [|apply sub_perm_perm, (emit_rems size ts2)].
  apply sub_perm_app; [apply sub_perm_refl|exact IH].
Qed.

Definition mu (ts : list task) : nat := length (rems ts).

Lemma par_rounds_nil fuel size threads : par_rounds fuel size threads [] = ([], []).
Proof. destruct fuel; reflexivity. Qed.

Theorem par_rounds_terminates size threads fuel : forall ts,
  mu ts < fuel -> snd (par_rounds fuel size threads ts) = [].
Proof.
  induction fuel as [|fuel IH]; intros ts Hm; [lia|]. cbn [par_rounds].
  destruct ts as [|tk0 rest] eqn:Ets; [reflexivity|]. rewrite <- Ets in *. clear Ets tk0 rest.
  pose proof (sub_perm_length _ _ (splits_rems _ _ (split_tasks_splits threads SPLIT_ITERS ts))) as M2.
  set (ts2 := split_tasks threads SPLIT_ITERS ts) in *.
  pose proof (Permutation_length (emit_rems size ts2)) as M3. rewrite app_length in M3.
  set (ts' := filter unfinished (map (advance size) ts2)) in *.
  destruct (par_rounds fuel size threads ts') as [more left] eqn:Epr. cbn [snd].
  destruct ts' as [|tk1 rest1] eqn:Et'.
  - rewrite par_rounds_nil in Epr. now injection Epr as _ <-.
  - (* a task that is still unfinished after its chunk has visited a key in it *)
    assert (In tk1 (filter unfinished (map (advance size) ts2))) as Hin by (fold ts'; rewrite Et'; now left).
    apply filter_In in Hin as [Hin Hu]. apply in_map_iff in Hin as (tk & <- & Hin).
    assert (task_run size tk <> []) as Hrun.
    { apply task_run_nonempty. rewrite (rem_split size tk). apply unfinished_rem in Hu.
      intros E. apply app_eq_nil in E as [_ E]. contradiction. }
    pose proof (length_concat_in _ _ (in_map (task_run size) _ _ Hin)) as Hc.
    destruct (task_run size tk); [congruence|]. cbn [length] in Hc.
    specialize (IH (advance size tk :: rest1)). rewrite Epr in IH. apply IH. unfold mu in *. lia.
Qed.

Lemma par_runs_nonnil size threads t : t <> Nil ->
  par_runs size threads t = par_rounds (S (length (contents t))) size threads [mk t 0%N 0].
Proof. destruct t; [congruence|reflexivity..]. Qed.

Theorem par_terminates size threads t : snd (par_runs size threads t) = [].
Proof.
  unfold par_runs. destruct t as [|k v|lbl lf l r]; [reflexivity| |];
    apply par_rounds_terminates; unfold mu; rewrite rems_one; apply Nat.lt_succ_diag_r.
Qed.

Section Live.
  Variable t : tree.
  Hypothesis Wt : wf t.

  Lemma sub_nonempty s : sub s t -> s <> Nil -> contents s <> [].
  Proof.
    intros Hs Hn. destruct (sub_wf _ _ Hs [] Wt) as [q Wq].
    pose proof (wf_present_len _ _ Wq) as L. destruct s; try congruence; cbn [present] in L;
      intros E; rewrite E in L; cbn in L; lia.
  Qed.

  (* tasks with work left on subtrees of [t] *)
  Definition live (tk : task) : Prop := sub (tsub tk) t /\ rem_entries tk <> [].

  Lemma live_root : t <> Nil -> live (mk t 0%N 0).
  Proof. intros Hn. split; [apply sub_refl|]. exact (sub_nonempty t (sub_refl t) Hn). Qed.

  Lemma child_live a c tk : sub c t -> In tk (child_tasks a [c]) -> live tk /\ rem_entries tk = contents c.
  Proof.
    intros Hc Hin. apply child_tasks_inv in Hin as (c' & [<-|[]] & Hn & ->).
    repeat split; auto. now apply sub_nonempty.
  Qed.

  Lemma child_tasks_two a l r : child_tasks a [l; r] = child_tasks a [l] ++ child_tasks a [r].
  Proof. unfold child_tasks. cbn [flat_map]. now rewrite !app_nil_r. Qed.

  Lemma split_live tk : live tk -> Forall live (split tk).
  Proof.
    intros [Hs Hne]. assert (Forall live [tk]) as Hsame by (repeat constructor; assumption).
    destruct (tsub tk) as [|k v|lbl lf l r] eqn:Et; try (unfold split; rewrite Et; exact Hsame).
    assert (sub l t) as Hl by (eapply sub_trans; [|exact Hs]; apply sub_l, sub_refl).
    assert (sub r t) as Hr by (eapply sub_trans; [|exact Hs]; apply sub_r, sub_refl).
    assert (forall a c, sub c t -> Forall live (child_tasks a [c])) as Hkid
      by (intros a c Hc; apply Forall_forall; intros tk' Hin; now apply (child_live a c)).
    destruct (split_cases tk _ _ _ _ Et) as [(-> & _)|[(-> & _)|[(-> & Hd & _)|(-> & _ & Er)]]].
    - exact Hsame.
    - rewrite child_tasks_two. apply Forall_app; auto.
    - apply Forall_app. split; [auto|]. repeat constructor; [exact Hl|]. apply rem_nonempty. cbn [tdone tsub]. lia.
    - repeat constructor; [exact Hr|]. now rewrite <- Er.
  Qed.

  Lemma task_run_sorted size tk : live tk -> sorted (task_run size tk).
  Proof.
    intros [Hs _]. destruct (sub_wf _ _ Hs [] Wt) as [q Wq]. pose proof (contents_sorted_at _ _ Wq) as Srt.
    rewrite <- (firstn_skipn (tdone tk)) in Srt. apply sorted_app_inv in Srt as (_ & Srt & _).
    fold (rem_entries tk) in Srt. rewrite (rem_split size) in Srt. now apply sorted_app_inv in Srt as (? & _).
  Qed.

  Lemma par_rounds_runs size threads fuel : forall ts,
    Forall live ts ->
    Forall (fun r => r <> [] /\ sorted r) (fst (par_rounds fuel size threads ts)).
  Proof.
    induction fuel as [|fuel IH]; intros ts Hl; cbn [par_rounds]; [constructor|].
    destruct ts as [|tk0 rest] eqn:Ets; [constructor|]. rewrite <- Ets in *. clear Ets tk0 rest.
    pose proof (splits_Forall live split_live _ _ (split_tasks_splits threads SPLIT_ITERS ts) Hl) as L2.
    set (ts2 := split_tasks threads SPLIT_ITERS ts) in *. rewrite Forall_forall in L2.
    assert (Forall live (filter unfinished (map (advance size) ts2))) as L3.
    { apply Forall_forall. intros tk Hin. apply filter_In in Hin as [Hin Hu].
      apply in_map_iff in Hin as (tk0 & <- & Hin). split; [apply (L2 _ Hin)|now apply unfinished_rem]. }
    specialize (IH _ L3).
    destruct (par_rounds fuel size threads (filter unfinished (map (advance size) ts2))) as [more lft].
    cbn [fst] in *. apply Forall_app. split; [|assumption].
    apply Forall_forall. intros run Hin. apply in_map_iff in Hin as (tk & <- & Hin).
    split; [apply task_run_nonempty, L2, Hin|apply task_run_sorted, L2, Hin].
  Qed.

  Lemma par_runs_runs size threads :
    t <> Nil -> Forall (fun r => r <> [] /\ sorted r) (fst (par_runs size threads t)).
  Proof.
    intros Hn. rewrite par_runs_nonnil by exact Hn. apply par_rounds_runs.
    constructor; [exact (live_root Hn)|constructor].
  Qed.

End Live.

Section Cover.
  Variable H : bytes -> bytes.
  Variable t : tree.
  Hypothesis Wt : wf t.

  Theorem par_runs_nonempty size threads :
    t <> Nil -> Forall (fun r => r <> []) (fst (par_runs size threads t)).
  Proof using H Wt.
    intros Hn. eapply Forall_impl; [|exact (par_runs_runs t Wt size threads Hn)]. now intros r [? _].
  Qed.

  Definition covered (rs : list (list entry)) (e : entry) : Prop :=
    exists run, In run rs /\ In e (pleaves (chunk_of H (inrun run) t)).

  (* what a task still owes: its unvisited keys, and (as long as it has any)
     whatever is carried inline with every key of its subtree *)
  Definition owes (tk : task) (e : entry) : Prop :=
    In e (rem_entries tk) \/ (rem_entries tk <> [] /\ inl H t (tsub tk) e).
  Definition owed (ts : list task) (e : entry) : Prop := exists tk, In tk ts /\ owes tk e.

  Lemma covered_mono rs rs' e : incl rs rs' -> covered rs e -> covered rs' e.
  Proof. intros Hi (run & Hin & He). exists run. auto. Qed.

  Lemma owed_app a b e : owed (a ++ b) e <-> owed a e \/ owed b e.
  Proof.
    unfold owed. split.
    - intros (tk & Hin & Ho). apply in_app_or in Hin as [Hin|Hin]; eauto.
    - intros [(tk & Hin & Ho)|(tk & Hin & Ho)]; exists tk; (split; [apply in_or_app|]); auto.
  Qed.

  Lemma split_owes tk e : live t tk -> owes tk e -> owed (split tk) e.
  Proof.
    intros Hlv Ho. pose proof (split_live t Wt tk Hlv) as Hall. rewrite Forall_forall in Hall. destruct Hlv as [Hs _].
    assert (owed [tk] e) as Hsame by (exists tk; split; [now left|assumption]).
    destruct (tsub tk) as [|k v|lbl lf l r] eqn:Et; try (unfold split; rewrite Et; exact Hsame).
    (* what is carried inline with the task is carried inline with every live descendant *)
    assert (forall tk', In tk' (split tk) -> incl (contents (tsub tk')) (contents (tsub tk)) ->
            In e (lf_contents lf) \/ (rem_entries tk <> [] /\ inl H t (tsub tk) e) -> owed (split tk) e) as Hinl.
    { intros tk' Hin Hi Hc. exists tk'. split; [assumption|]. right. split; [apply (Hall _ Hin)|].
      eapply inl_mono; [exact Hi|]. destruct Hc as [Hc|[_ Hc]]; [|exact Hc]. rewrite Et. now apply inl_lf. }
    assert (incl (contents l) (contents (tsub tk)) /\ incl (contents r) (contents (tsub tk))) as [Il Ir]
      by (rewrite Et; cbn [contents]; split; intros x Hx; rewrite !in_app_iff; auto).
    revert Hall Hinl.
    destruct (split_cases tk _ _ _ _ Et) as [(-> & _)|[(-> & _ & Hnn & Er)|[(-> & _ & Er)|(-> & _ & Er)]]];
      intros Hall Hinl; [exact Hsame| | |].
    - (* nothing, or only the subroot's own leaf, visited: the children take over *)
      assert (In e (contents l) \/ In e (contents r) \/
              In e (lf_contents lf) \/ (rem_entries tk <> [] /\ inl H t (tsub tk) e)) as Hcases.
      { destruct Ho as [Hin|Hin]; [|auto]. rewrite Er, !in_app_iff in Hin.
        destruct Hin as [Hin|[Hin|Hin]]; auto. do 2 right. left.
        rewrite <- (firstn_skipn (tdone tk)). apply in_or_app. auto. }
      destruct Hcases as [Hc|[Hc|Hc]].
      + exists (mk l (tanc tk + node_cost lbl lf)%N 0). split; [|now left].
        apply child_tasks_in; [now left|intros ->; destruct Hc].
      + exists (mk r (tanc tk + node_cost lbl lf)%N 0). split; [|now left].
        apply child_tasks_in; [now (right; left)|intros ->; destruct Hc].
      + destruct Hnn as [Hn|Hn].
        * apply (Hinl (mk l (tanc tk + node_cost lbl lf)%N 0)); [apply child_tasks_in; [now left|exact Hn]|exact Il|exact Hc].
        * apply (Hinl (mk r (tanc tk + node_cost lbl lf)%N 0)); [apply child_tasks_in; [now (right; left)|exact Hn]|exact Ir|exact Hc].
    - (* inside the left subtree *)
      destruct Ho as [Hin|Hin].
      + rewrite Er, in_app_iff in Hin. apply owed_app. destruct Hin as [Hin|Hin].
        * right. eexists. split; [now left|now left].
        * left. exists (mk r (tanc tk + node_cost lbl lf)%N 0).
          split; [apply child_tasks_in; [now left|intros ->; destruct Hin]|now left].
      + eapply Hinl; [apply in_or_app; right; now left|exact Il|auto].
    - (* inside the right subtree *)
      destruct Ho as [Hin|Hin].
      + eexists. split; [now left|]. left. now rewrite <- Er.
      + eapply Hinl; [now left|exact Ir|auto].
  Qed.

  Lemma splits_owed ts ts' e : splits ts ts' -> Forall (live t) ts -> owed ts e -> owed ts' e.
  Proof.
    induction 1 as [|a tk b ts' Hsp IH]; [auto|]. intros Hall Ho. apply IH.
    - eapply (splits_Forall (live t) (split_live t Wt)); [|exact Hall]. apply splits_step, splits_refl.
    - apply Forall_app in Hall as [_ Hb]. inversion Hb; subst.
      apply owed_app in Ho as [Ho|Ho]; [apply owed_app; auto|].
      apply (owed_app [tk] b) in Ho as [(tk0 & [<-|[]] & Ho)|Ho]; apply owed_app; right; apply owed_app;
        [left; now apply split_owes|auto].
  Qed.

  Lemma emit_owes size ts e :
    Forall (live t) ts -> owed ts e ->
    covered (map (task_run size) ts) e \/ owed (filter unfinished (map (advance size) ts)) e.
  Proof.
    intros Hok (tk & Hin & Ho). rewrite Forall_forall in Hok. destruct (Hok _ Hin) as [Hs Hne].
    assert (incl (task_run size tk) (contents (tsub tk))) as Hrun.
    { intros x Hx. apply rem_incl. rewrite (rem_split size). apply in_or_app. auto. }
    destruct Ho as [Hr|[_ Hi]].
    - rewrite (rem_split size tk), in_app_iff in Hr. destruct Hr as [Hr|Hr].
      + left. exists (task_run size tk). split; [now apply in_map|]. destruct e as [k v].
        apply chunk_complete; [|eapply inrun_self; eauto].
        eapply sub_contents; [exact Hs|]. auto.
      + right. exists (advance size tk). split; [|now left].
        apply filter_In. split; [now apply in_map|]. apply unfinished_rem. intros E. rewrite E in Hr. destruct Hr.
    - left. exists (task_run size tk). split; [now apply in_map|].
      pose proof (task_run_nonempty size tk Hne) as Hn.
      destruct (task_run size tk) as [|[k v] rr] eqn:Erun; [congruence|].
      apply (Hi _ k v); [apply Hrun; now left|]. eapply inrun_self. now left.
  Qed.

  Lemma par_rounds_cover size threads fuel : forall ts e,
    Forall (live t) ts -> owed ts e ->
    covered (fst (par_rounds fuel size threads ts)) e \/ owed (snd (par_rounds fuel size threads ts)) e.
  Proof.
    induction fuel as [|fuel IH]; intros ts e Hok Ho; cbn [par_rounds]; [now right|].
    destruct ts as [|tk0 rest] eqn:Ets; [destruct Ho as (? & [] & _)|]. rewrite <- Ets in *. clear Ets tk0 rest.
    pose proof (split_tasks_splits threads SPLIT_ITERS ts) as Hsp.
    pose proof (splits_Forall (live t) (split_live t Wt) _ _ Hsp Hok) as Ok2. pose proof (splits_owed _ _ e Hsp Hok Ho) as Ow2.
    set (ts2 := split_tasks threads SPLIT_ITERS ts) in *.
    assert (Forall (live t) (filter unfinished (map (advance size) ts2))) as Ok3.
    { rewrite Forall_forall in *. intros tk Hin. apply filter_In in Hin as [Hin Hu].
      apply in_map_iff in Hin as (tk0 & <- & Hin). split; [apply (Ok2 _ Hin)|now apply unfinished_rem]. }
    destruct (par_rounds fuel size threads (filter unfinished (map (advance size) ts2))) as [more left] eqn:Epr.
    cbn [fst snd].
    destruct (emit_owes size ts2 e Ok2 Ow2) as [Hc|Ho2].
    - left. eapply covered_mono; [|exact Hc]. intros x Hx. apply in_or_app. now left.
    - specialize (IH _ e Ok3 Ho2). rewrite Epr in IH. cbn [fst snd] in IH.
      destruct IH as [Hc|Hl]; [|now right]. left. eapply covered_mono; [|exact Hc].
      intros x Hx. apply in_or_app. now right.
  Qed.
End Cover.

(* every pair of the tree is carried by some chunk of the parallel chunker *)
Theorem par_cover H size threads t e :
  wf t -> In e (contents t) -> covered H t (fst (par_runs size threads t)) e.
Proof.
  intros W Hin. pose proof (par_terminates size threads t) as T.
  assert (t <> Nil) as Hn by (intros ->; destruct Hin).
  rewrite par_runs_nonnil in * by exact Hn.
  destruct (par_rounds_cover H t W size threads (S (length (contents t))) [mk t 0%N 0] e) as [Hc|Ho].
  - constructor; [exact (live_root t W Hn)|constructor].
  - exists (mk t 0%N 0). split; [now left|]. left. exact Hin.
  - exact Hc.
  - rewrite T in Ho. destruct Ho as (? & [] & _).
Qed.

Lemma sorted_nodup l : sorted l -> NoDup l.
Proof.
  induction l as [|x l IH]; cbn [sorted]; intros Hs; [constructor|]. destruct Hs as [Hx Hs].
  constructor; [|auto]. intros Hi. rewrite Forall_forall in Hx. specialize (Hx x Hi).
  unfold key_lt in Hx. rewrite bytes_cmp_refl in Hx. discriminate.
Qed.

(* the keys visited by the chunks of the parallel chunker are pairwise distinct
   pairs of the tree (no key is visited twice), and each run is in key order *)
Theorem par_runs_disjoint_l size threads t :
  wf t -> NoDup (concat (fst (par_runs size threads t))) /\
          incl (concat (fst (par_runs size threads t))) (contents t) /\
          Forall sorted (fst (par_runs size threads t)).
Proof.
  intros W. destruct (nil_or_not t) as [->|Hn]; [repeat constructor; intros ? []|].
  pose proof (par_runs_runs t W size threads Hn) as Hr. rewrite par_runs_nonnil in * by exact Hn.
  assert (sub_perm (concat (fst (par_rounds (S (length (contents t))) size threads [mk t 0%N 0]))) (contents t)) as Hs
    by (rewrite <- (rems_one (mk t 0%N 0)) at 2; apply par_rounds_disjoint).
  split; [eapply sub_perm_nodup; [exact Hs|apply sorted_nodup, contents_sorted; exact W]|].
  split; [apply sub_perm_incl, Hs|]. eapply Forall_impl; [|exact Hr]. now intros r [_ ?].
Qed.

Lemma upd_length {A} (x : A) l : forall i, length (upd i x l) = length l.
Proof. induction l as [|y l IH]; intros [|i]; cbn [upd length]; auto. Qed.

Lemma nth_error_upd_same {A} (x : A) l : forall i, i < length l -> nth_error (upd i x l) i = Some x.
Proof.
  induction l as [|y l IH]; intros [|i] Hi; cbn [upd nth_error length] in *; try lia; auto.
  apply IH. lia.
Qed.

Lemma nth_error_upd_other {A} (x : A) l : forall i j, i <> j -> nth_error (upd i x l) j = nth_error l j.
Proof.
  induction l as [|y l IH]; intros [|i] [|j] Hne; cbn [upd nth_error]; auto; try congruence.
Qed.

Lemma nth_error_ext {A} (l1 : list A) : forall l2,
  (forall i, nth_error l1 i = nth_error l2 i) -> l1 = l2.
Proof.
  induction l1 as [|x l1 IH]; intros [|y l2] E; auto.
  - specialize (E 0). discriminate.
  - specialize (E 0). discriminate.
  - pose proof (E 0) as E0. cbn in E0. injection E0 as <-. f_equal. apply IH. intros i. apply (E (S i)).
Qed.

Definition sel {A} (sched : list nat) (j : nat) (a b : A) : A :=
  if existsb (Nat.eqb j) sched then a else b.

Lemma round_sched_pointwise size sched : forall a b,
  NoDup sched -> length b = length a ->
  let st := fold_left (run_slot size) sched (a, b) in
  length (fst st) = length a /\ length (snd st) = length a /\
  forall j, nth_error (fst st) j = sel sched j (option_map (advance size) (nth_error a j)) (nth_error a j) /\
            nth_error (snd st) j = sel sched j (option_map (task_run size) (nth_error a j)) (nth_error b j).
Proof.
  induction sched as [|i sched IH]; intros a b Hnd Hlen; cbn [fold_left].
  - cbn. auto.
  - inversion Hnd as [|? ? Hni Hnd']; subst.
    destruct (nth_error a i) as [tk|] eqn:Ei.
    + replace (run_slot size (a, b) i) with (upd i (advance size tk) a, upd i (task_run size tk) b)
        by (unfold run_slot; cbn [fst snd]; rewrite Ei; reflexivity).
      assert (i < length a) as Hi by (apply nth_error_Some; congruence).
      specialize (IH (upd i (advance size tk) a) (upd i (task_run size tk) b) Hnd').
      rewrite !upd_length in IH. specialize (IH Hlen). cbn zeta in *. destruct IH as (L1 & L2 & IH).
      split; [assumption|]. split; [assumption|]. intros j. destruct (IH j) as [Ha Hb].
      unfold sel in *. cbn [existsb]. destruct (Nat.eqb_spec j i) as [->|Hne].
      * assert (existsb (Nat.eqb i) sched = false) as Hf.
        { destruct (existsb (Nat.eqb i) sched) eqn:E; [|reflexivity]. exfalso. apply Hni.
          apply existsb_exists in E as (x & Hx & Hxe). apply Nat.eqb_eq in Hxe. now subst. }
        rewrite Hf in Ha, Hb. cbn [orb]. rewrite Ha, Hb, Ei.
        rewrite !nth_error_upd_same by lia. auto.
      * cbn [orb]. rewrite Ha, Hb. rewrite !nth_error_upd_other by auto. auto.
    + replace (run_slot size (a, b) i) with (a, b)
        by (unfold run_slot; cbn [fst snd]; rewrite Ei; reflexivity).
      specialize (IH a b Hnd' Hlen). cbn zeta in *. destruct IH as (L1 & L2 & IH).
      split; [assumption|]. split; [assumption|]. intros j. destruct (IH j) as [Ha Hb].
      unfold sel in *. cbn [existsb]. destruct (Nat.eqb_spec j i) as [->|Hne]; cbn [orb]; [|auto].
      rewrite Ha, Hb, Ei. cbn [option_map].
      assert (nth_error b i = None) as Hbi by (apply nth_error_None; apply nth_error_None in Ei; lia).
      rewrite Hbi. destruct (existsb (Nat.eqb i) sched); auto.
Qed.

(* whatever order the tasks of a round run in (any permutation of the slots),
   the chunks and the successor tasks are the same, slot by slot *)
Theorem round_order_irrelevant_l size sched ts :
  Permutation sched (seq 0 (length ts)) ->
  round_sched size sched ts = (map (advance size) ts, map (task_run size) ts).
Proof.
  intros Hp. unfold round_sched.
  assert (NoDup sched) as Hnd by (eapply Permutation_NoDup; [apply Permutation_sym; exact Hp|apply seq_NoDup]).
  assert (forall j, existsb (Nat.eqb j) sched = (j <? length ts)) as Hin.
  { intros j. destruct (Nat.ltb_spec j (length ts)) as [Hj|Hj].
    - apply existsb_exists. exists j. split; [|apply Nat.eqb_refl].
      eapply Permutation_in; [apply Permutation_sym; exact Hp|]. apply in_seq. lia.
    - destruct (existsb (Nat.eqb j) sched) eqn:E; [|reflexivity].
      apply existsb_exists in E as (x & Hx & Hxe). apply Nat.eqb_eq in Hxe. subst x.
      eapply Permutation_in in Hx; [|exact Hp]. apply in_seq in Hx. lia. }
  destruct (round_sched_pointwise size sched ts (map (fun _ => []) ts) Hnd) as (L1 & L2 & Hpt);
    [now rewrite map_length|].
  destruct (fold_left (run_slot size) sched (ts, map (fun _ => []) ts)) as [a' b'].
  cbn [fst snd] in *. f_equal; apply nth_error_ext; intros j; destruct (Hpt j) as [Ha Hb];
    unfold sel in *; rewrite Hin in *; rewrite nth_error_map.
  - rewrite Ha. destruct (Nat.ltb_spec j (length ts)); [reflexivity|].
    assert (nth_error ts j = None) as -> by (now apply nth_error_None). reflexivity.
  - rewrite Hb. destruct (Nat.ltb_spec j (length ts)); [reflexivity|].
    assert (nth_error ts j = None) as -> by (now apply nth_error_None).
    rewrite nth_error_map. assert (nth_error ts j = None) as -> by (now apply nth_error_None). reflexivity.
Qed.
