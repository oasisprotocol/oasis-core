(* Port of the node part of the registry genesis sanity check
   (go/registry/api/sanity_check.go: SanityCheckNodes 195-256 with its
   sanityCheckNodeLookup 397-418) and what acceptance implies (property C17).

   The check walks the exported node descriptors in order.  Each one must name
   an exported entity (218), pass VerifyRegisterNodeArgs against the lookup
   built SO FAR (223-239; isGenesis = true, so membership in the entity's node
   list is demanded), and is then entered into the lookup under its consensus,
   P2P and TLS keys -- not under its VRF key (245-247).  The lookup is modelled
   by the key map and node table of a scratch state, so that the ported
   verify_register_node_args is used verbatim. *)
From Verif Require Import Lib.Base Registry.Model Registry.Lemmas Registry.Proofs.

Definition cpt (n : node) : list N := [n_cons n; n_p2p n; n_tls n].

Definition sanity_enter (st : state) (n : node) : state :=
  with_keymap (with_nodes st (aset (n_id n) n (s_nodes st)))
              (aset (n_tls n) (n_id n) (aset (n_p2p n) (n_id n) (aset (n_cons n) (n_id n) (s_keymap st)))).

Fixpoint sanity_nodes (maxexp : N) (st : state) (l : list (node * list N * bool)) : option state :=
  match l with
  | [] => Some st
  | (n, signers, ok) :: r =>
      match aget (n_ent n) (s_ents st) with
      | None => None                                                     (* 218 *)
      | Some ent =>
          match verify_register_node_args maxexp st ent n signers ok with  (* 223 *)
          | COk => sanity_nodes maxexp (sanity_enter st n) r             (* 245-248 *)
          | _ => None
          end
      end
  end.

Definition node_of (x : node * list N * bool) : node := fst (fst x).

(* every node avoids the consensus/P2P/TLS keys of all EARLIER nodes with its
   consensus, P2P, VRF and TLS keys *)
Fixpoint pairwise_ok (pre : list node) (l : list node) : Prop :=
  match l with
  | [] => True
  | n :: r => (forall m, In m pre -> forall k, In k (cpt m) -> ~ In k (keys n)) /\ pairwise_ok (n :: pre) r
  end.

Definition entered (st : state) (pre : list node) : Prop :=
  forall m, In m pre -> forall k, In k (cpt m) ->
    aget k (s_keymap st) = Some (n_id m) /\ aget (n_id m) (s_nodes st) = Some m.

Lemma sanity_enter_keymap st n k :
  aget k (s_keymap (sanity_enter st n)) = if nmem k (cpt n) then Some (n_id n) else aget k (s_keymap st).
Proof.
  unfold sanity_enter, cpt. fields. rewrite !aget_aset. cbn [nmem].
  destruct (n_tls n =? k), (n_p2p n =? k), (n_cons n =? k); reflexivity.
Qed.

Lemma cpt_keys n k : In k (cpt n) -> In k (keys n).
Proof. cbn [cpt keys In]. tauto. Qed.

Lemma sanity_pairwise maxexp l : forall st st' pre,
  entered st pre -> NoDup (map n_id (pre ++ map node_of l)) ->
  sanity_nodes maxexp st l = Some st' -> pairwise_ok pre (map node_of l).
Proof.
  induction l as [|[[n signers] ok] r IH]; intros st st' pre Hent Hnd H; [exact I|].
  cbn [sanity_nodes] in H. destruct (aget (n_ent n) (s_ents st)) as [ent|]; [|discriminate].
  destruct (verify_register_node_args maxexp st ent n signers ok) eqn:EV; try discriminate.
  apply verify_args_ok in EV as (_ & _ & _ & Hd & _).
  cbn [map node_of fst pairwise_ok]. rewrite map_app in Hnd. cbn [map node_of fst] in Hnd.
  assert (Hfresh : forall m, In m pre -> n_id m <> n_id n).
  { intros m Hm E. apply NoDup_remove_2 in Hnd. apply Hnd, in_or_app. left. rewrite <- E. apply in_map, Hm. }
  assert (Hdis : forall m, In m pre -> forall k, In k (cpt m) -> ~ In k (keys n)).
  { intros m Hm k Hk Hkn. destruct (Hent m Hm k Hk) as [A B].
    specialize (Hd k Hkn). unfold dup_subkey, node_by_subkey in Hd. rewrite A, B in Hd.
    apply negb_false_iff, N.eqb_eq in Hd. exact (Hfresh m Hm Hd). }
  split; [exact Hdis|].
  apply (IH (sanity_enter st n) st'); [| |exact H].
  - intros m Hm k Hk. rewrite sanity_enter_keymap. unfold sanity_enter at 1. fields. rewrite aget_aset.
    destruct Hm as [<-|Hm].
    + rewrite (proj2 (nmem_In _ _) Hk), N.eqb_refl. auto.
    + destruct (Hent m Hm k Hk) as [A B]. destruct (nmem k (cpt n)) eqn:E.
      * destruct (Hdis m Hm k Hk). apply cpt_keys, nmem_In, E.
      * destruct (N.eqb_spec (n_id n) (n_id m)) as [E'|_]; [destruct (Hfresh m Hm); congruence|auto].
  - rewrite map_app. cbn [map app]. constructor; [apply NoDup_remove_2 in Hnd|apply NoDup_remove_1 in Hnd]; exact Hnd.
Qed.

Lemma sanity_each maxexp l : forall st st',
  sanity_nodes maxexp st l = Some st' ->
  s_ents st' = s_ents st /\
  Forall (fun x => let n := node_of x in
                   exists ent, aget (n_ent n) (s_ents st) = Some ent /\ In (n_id n) (e_nodes ent) /\
                               snd x = true /\
                               forall k, In k (n_id n :: keys n) -> In k (snd (fst x))) l.
Proof.
  induction l as [|[[n signers] ok] r IH]; intros st st' H; [injection H as <-; split; [reflexivity|constructor]|].
  cbn [sanity_nodes] in H. destruct (aget (n_ent n) (s_ents st)) as [ent|] eqn:Ee; [|discriminate].
  destruct (verify_register_node_args maxexp st ent n signers ok) eqn:EV; try discriminate.
  apply verify_args_ok in EV as (Hok & Hmem & Hs & _).
  destruct (IH _ _ H) as [A B]. split; [exact A|]. constructor; [|exact B].
  cbn [node_of fst snd]. exists ent. repeat split; auto. apply nmem_In. exact Hmem.
Qed.

(* the sanity check does not look at VRF keys of earlier nodes: two exported
   nodes sharing a VRF key pass *)
Example sanity_misses_shared_vrf_key :
  exists st', sanity_nodes 5 (with_ents st0 [(1, mkEnt 1 [4; 5])])
                [(mkNode 4 1 8 9 20 11 2 8 [], [4; 8; 9; 20; 11], true);
                 (mkNode 5 1 12 13 20 15 2 8 [], [5; 12; 13; 20; 15], true)] = Some st'.
Proof. eexists. vm_compute. reflexivity. Qed.
