(* NodeDB/MultipartProofs.v — a checkpoint restore is invisible until its Finalize. *)
From Verif Require Import Lib.Base NodeDB.Spec NodeDB.SpecProofs NodeDB.Badger NodeDB.StoreProofs NodeDB.Crash NodeDB.Multipart.

Definition chunk_at (v : N) (o : mop) : Prop :=
  match o with MChunk ver _ _ _ _ _ _ => ver = v | _ => False end.

(* the state during a restore at version v, relative to the node key space st0 and the last
   finalized version l0 at the moment the restore started: a node was visible then iff it is
   visible in the current store and the restore log does not name it *)
Definition rinv (st0 : store) (l0 : option N) (v : N) (m : mdb) : Prop :=
  m_mp m = v /\ d_last (m_meta m) = l0 /\
  forall n, visible n v st0 = visible n v (m_store m) && negb (nmem n (log_nodes (m_log m))).

Lemma log_nodes_chunk rid l lg :
  log_nodes (((true, rid) :: map (fun n => (false, n)) l) ++ lg) = l ++ log_nodes lg.
Proof.
  unfold log_nodes. cbn [app flat_map fst]. induction l as [|x t IH]; [reflexivity|].
  cbn [map app flat_map fst snd]. rewrite IH. reflexivity.
Qed.

(* a chunk commit interrupted after any number of its steps keeps the restore invariant: the
   log is flushed BEFORE the nodes, and names every put node that is not visible yet *)
Lemma chunk_prefix st0 l0 v m o k :
  rinv st0 l0 v m -> chunk_at v o -> rinv st0 l0 v (m_run_until k m o).
Proof.
  intros [MP [DL R]] CA. destruct o as [| |ver typ rid cont puts reach inl0| |]; cbn in CA; try contradiction. subst ver.
  unfold m_run_until, mplan.
  destruct ((m_mp m =? 0) || negb (m_mp m =? v)); [destruct k; repeat split; assumption|].
  destruct (last_geb (b_meta (c_b (m_c m))) v); [destruct k; repeat split; assumption|].
  cbn [snd]. unfold m_store in R.
  set (es := (true, rid) :: map (fun n => (false, n)) (filter (fun n => negb (visible n v (b_store (c_b (m_c m))))) puts)).
  assert (L : forall n, nmem n (log_nodes (es ++ m_log m)) =
                        nmem n puts && negb (visible n v (b_store (c_b (m_c m)))) || nmem n (log_nodes (m_log m)))
    by (intros n; unfold es; rewrite log_nodes_chunk, nmem_app, nmem_filter; reflexivity).
  assert (R1 : forall n, visible n v st0 =
                         visible n v (b_store (c_b (m_c m))) && negb (nmem n (log_nodes (es ++ m_log m)))).
  { intros n. rewrite L, (R n).
    destruct (visible n v (b_store (c_b (m_c m)))), (nmem n puts), (nmem n (log_nodes (m_log m))); reflexivity. }
  assert (R2 : forall n, visible n v st0 =
                         visible n v (write_all puts v true (b_store (c_b (m_c m)))) &&
                         negb (nmem n (log_nodes (es ++ m_log m)))).
  { intros n. rewrite visible_puts_at, L, (R n).
    destruct (visible n v (b_store (c_b (m_c m)))), (nmem n puts), (nmem n (log_nodes (m_log m))); reflexivity. }
  unfold apply_msteps. destruct k as [|[|[|k]]]; cbn [firstn]; try rewrite firstn_nil; cbn [fold_left apply_mstep].
  - split; [exact MP|]. split; [exact DL|exact R].
  - split; [exact MP|]. split; [exact DL|exact R1].
  - split; [exact MP|]. split; [exact DL|exact R2].
  - split; [exact MP|]. split; [|exact R2].
    unfold m_meta. cbn [apply_step m_c c_b b_meta]. destruct (has_rid rid (roots_at (b_meta (c_b (m_c m))) v)); exact DL.
Qed.

Lemma chunks_run st0 l0 v l : forall m, rinv st0 l0 v m -> Forall (chunk_at v) l -> rinv st0 l0 v (m_run m l).
Proof.
  induction l as [|o t IH]; intros m R F; [exact R|]. inversion F as [|? ? F1 F2]; subst.
  unfold m_run. cbn [fold_left]. apply IH; [|exact F2].
  pose proof (chunk_prefix st0 l0 v m o (length (snd (mplan m o))) R F1) as H.
  unfold m_run_until in H. rewrite firstn_all in H. exact H.
Qed.

(* reopening during a restore: log and multipart version cleared, and the node key space at the
   restore timestamp is EXACTLY what it was before the restore started - nodes that existed
   before are untouched, nodes inserted only by the restore are gone *)
Lemma reopen_restores st0 l0 v m :
  v <> 0 -> rinv st0 l0 v m ->
  m_mp (m_reopen m) = 0 /\ m_log (m_reopen m) = [] /\ d_last (m_meta (m_reopen m)) = l0 /\
  forall n, visible n v (m_store (m_reopen m)) = visible n v st0.
Proof.
  intros NZ [MP [DL R]]. unfold m_reopen, clean_steps. rewrite MP.
  replace (v =? 0) with false by lia.
  cbn [apply_msteps fold_left apply_mstep m_mp m_log]. split; [reflexivity|]. split; [reflexivity|].
  split; [exact DL|]. intros n. unfold m_store. cbn [apply_step m_c c_b b_store].
  rewrite visible_dels_at. symmetry. apply R.
Qed.

Lemma multipart_invisible_l m0 v chunks o k :
  m_mp m0 = 0 -> m_log m0 = [] -> v <> 0 -> Forall (chunk_at v) chunks -> chunk_at v o ->
  let m1 := m_run m0 (MStart v :: chunks) in
  (* no root written by chunk commits is finalized: last finalized is unchanged at every point *)
  d_last (m_meta m1) = d_last (m_meta m0) /\
  (forall j, d_last (m_meta (m_run_until j m1 o)) = d_last (m_meta m0)) /\
  (* a crash anywhere inside a further chunk commit (or none: k = 0), then reopen *)
  let m2 := m_reopen (m_run_until k m1 o) in
  m_mp m2 = 0 /\ m_log m2 = [] /\ d_last (m_meta m2) = d_last (m_meta m0) /\
  forall n, visible n v (m_store m2) = visible n v (m_store m0).
Proof.
  intros MP ML NZ F CA.
  assert (R0 : rinv (m_store m0) (d_last (m_meta m0)) v (snd (m_run_all m0 (MStart v)))).
  { unfold m_run_all, mplan. rewrite MP. replace (v =? 0) with false by lia.
    rewrite N.eqb_refl. cbn [snd apply_msteps fold_left apply_mstep]. split; [reflexivity|]. split; [reflexivity|].
    intros n. cbn [m_log]. rewrite ML. symmetry. apply andb_true_r. }
  assert (R1 : rinv (m_store m0) (d_last (m_meta m0)) v (m_run m0 (MStart v :: chunks))).
  { unfold m_run. cbn [fold_left]. apply (chunks_run _ _ _ chunks _ R0 F). }
  cbv zeta. split; [exact (proj1 (proj2 R1))|].
  split; [intros j; exact (proj1 (proj2 (chunk_prefix _ _ _ _ o j R1 CA)))|].
  apply reopen_restores; [exact NZ|apply chunk_prefix; assumption].
Qed.

Definition h_restore : list mop :=
  [MStart 3; MChunk 3 1 2 [(1, 1); (2, 1)] [1; 2] [3; 1; 2] []; MChunk 3 1 2 [(1, 1); (2, 1)] [3] [3; 1; 2] []].

(* the restored root is complete and readable before Finalize; an uninterrupted Finalize keeps
   it; a crash after Finalize committed "last finalized = 3" but before the restore log was
   cleared makes the reopen cleanup delete the nodes of the now FINALIZED version *)
Lemma badger_restore_finalize_crash_refuted_l :
  let m := m_run mdb0 h_restore in
  m_status m 3 2 = 1 /\ d_last (m_meta m) = None /\
  m_status (m_reopen (snd (m_run_all m (MFinalize 3 [2])))) 3 2 = 1 /\
  let m2 := m_reopen (m_run_until 2 m (MFinalize 3 [2])) in
  d_last (m_meta m2) = Some 3 /\ m_status m2 3 2 = 3 /\ b_status (c_b (m_c m2)) 3 2 = 2.
Proof. vm_compute. repeat split; reflexivity. Qed.

(* abort: the root stays listed in the roots metadata although its nodes are gone *)
Lemma abort_leaves_root_listed :
  let m := snd (m_run_all (m_run mdb0 h_restore) MAbort) in
  has_rid 2 (roots_at (m_meta m) 3) = true /\ d_last (m_meta m) = None /\ m_status m 3 2 = 3.
Proof. vm_compute. repeat split; reflexivity. Qed.

(* finalized local versions 1 and 2; a chunk of a checkpoint for version 3 whose nodes 1, 2
   already exist locally and whose node 6 is new; the process dies, reopens, and then commits and
   finalizes its OWN root for version 3.  The abandoned checkpoint root is still listed for
   version 3 (the abort does not clean the roots metadata) with an EMPTY updated-nodes index
   (badger.go:1073-1079), so discarding it at Finalize deletes nothing: every finalized root
   stays readable.  (An index naming the chunk's nodes would delete the shared nodes 1 and 2.) *)
Definition h_local : list mop :=
  [MBase (OCommit 1 1 2 None [(1, 1); (2, 1)] [1; 2; 3] [] [3; 1; 2] []); MBase (OFinalize 1 [2]);
   MBase (OCommit 2 1 3 (Some (1, 2)) [(3, 1)] [4; 5] [3] [5; 1; 2; 4] []); MBase (OFinalize 2 [3]);
   MStart 3; MChunk 3 1 4 [(1, 1)] [1; 2; 6] [7; 6; 1; 2; 4; 8] []].

Definition h_continue : list mop :=
  [MBase (OCommit 3 1 5 (Some (2, 3)) [(4, 1)] [9; 10] [5] [10; 1; 2; 4; 9] []); MBase (OFinalize 3 [5])].

Lemma restore_then_normal_operation_l :
  let m1 := m_reopen (m_run mdb0 h_local) in
  has_rid 4 (roots_at (m_meta m1) 3) = true /\ d_last (m_meta m1) = Some 2 /\
  a_puts (aux_get 3 4 (b_aux (c_b (m_c m1)))) = [] /\
  let m2 := m_run m1 h_continue in
  d_last (m_meta m2) = Some 3 /\ has_rid 4 (roots_at (m_meta m2) 3) = false /\
  m_status m2 3 5 = 1 /\ m_status m2 2 3 = 1 /\ m_status m2 1 2 = 1.
Proof. vm_compute. repeat split; reflexivity. Qed.
