From Verif Require Import Lib.Base Mkvs.Trie Mkvs.BitsProofs Mkvs.AlistProofs Mkvs.TrieProofs Mkvs.Overlay Mkvs.OverlayProofs Mkvs.Key Mkvs.Iter Mkvs.IterProofs Mkvs.Lazy Mkvs.LazyProofs Mkvs.IterLift Mkvs.Step Mkvs.StepProofs Mkvs.Fork Mkvs.ForkProofs.

(* C03 - MKVS tree and overlays behave as an ordered map.
   [s_run] = the model of the tree object (pending write log, Insert, Remove,
   RemoveExisting, Get, Commit, Close+NewWithRoot) under a stack of overlays
   (overlay.go) with the merged iterator; [a_run] = the abstract machine: a
   stack of sorted association lists (top view, views below, committed map);
   [abs_of] = the abstraction function; [st_inv] = the representation
   invariant (well-formed trie, sound pending write log, overlay keys are
   dirty); [sop_valid] = inserted keys consist of bytes < 256. *)

Theorem tree_refines_map :
  forall (use_log : bool) (ops : list sop), Forall sop_valid ops ->
    snd (s_run (t_init use_log, []) ops) = snd (a_run a_init ops) /\
    abs_of (fst (s_run (t_init use_log, []) ops)) = fst (a_run a_init ops).
Proof. exact OverlayProofs.tree_refines_map. Qed.
Print Assumptions tree_refines_map.

Theorem overlay_stack_refines_map :
  forall (ops : list sop) (st : store), Forall sop_valid ops -> st_inv st ->
    st_inv (fst (s_run st ops)) /\
    abs_of (fst (s_run st ops)) = fst (a_run (abs_of st) ops) /\
    snd (s_run st ops) = snd (a_run (abs_of st) ops).
Proof. exact OverlayProofs.run_refines. Qed.
Print Assumptions overlay_stack_refines_map.

Theorem tree_get_refines_map :
  forall s k, t_inv s -> t_get k s = al_get k (contents (tr s)).
Proof. exact OverlayProofs.t_get_spec. Qed.
Print Assumptions tree_get_refines_map.

Theorem tree_insert_refines_map :
  forall s k v, valid_bytes k -> t_inv s ->
    t_inv (t_insert k v s) /\
    contents (tr (t_insert k v s)) = al_set k v (contents (tr s)) /\
    committed (t_insert k v s) = committed s.
Proof. exact OverlayProofs.t_insert_spec. Qed.
Print Assumptions tree_insert_refines_map.

Theorem tree_remove_existing_refines_map :
  forall s k, t_inv s ->
    t_inv (fst (t_remove_existing k s)) /\
    contents (tr (fst (t_remove_existing k s))) = al_del k (contents (tr s)) /\
    snd (t_remove_existing k s) = al_get k (contents (tr s)) /\
    committed (fst (t_remove_existing k s)) = committed s.
Proof. exact OverlayProofs.t_remove_existing_spec. Qed.
Print Assumptions tree_remove_existing_refines_map.

Theorem iterator_refines_map :
  forall s os k, t_inv s -> Forall o_inv os ->
    s_iter k s os = al_seek k (s_abs s os) /\
    sorted (s_iter k s os) /\
    forall e, In e (s_iter k s os) <-> In e (s_abs s os) /\ bytes_cmp (fst e) k <> Lt.
Proof. exact OverlayProofs.iterator_refines_map. Qed.
Print Assumptions iterator_refines_map.

Theorem overlay_refines_map :
  forall s o rest k v, valid_bytes k -> st_inv (s, o :: rest) ->
    let m := s_abs s (o :: rest) in
    s_get k s (o :: rest) = al_get k m /\
    s_abs (fst (s_insert k v (s, o :: rest))) (snd (s_insert k v (s, o :: rest))) = al_set k v m /\
    s_abs (fst (s_remove k (s, o :: rest))) (snd (s_remove k (s, o :: rest))) = al_del k m /\
    s_abs (fst (fst (s_remove_existing k (s, o :: rest)))) (snd (fst (s_remove_existing k (s, o :: rest)))) = al_del k m /\
    snd (s_remove_existing k (s, o :: rest)) = al_get k m /\
    fst (s_insert k v (s, o :: rest)) = s /\ tl (snd (s_insert k v (s, o :: rest))) = rest /\
    fst (s_remove k (s, o :: rest)) = s /\ tl (snd (s_remove k (s, o :: rest))) = rest.
Proof. exact OverlayProofs.overlay_refines_map. Qed.
Print Assumptions overlay_refines_map.

Theorem overlay_commit_refines_map :
  forall s o rest, st_inv (s, o :: rest) ->
    let st' := s_commit_top (s, o :: rest) in
    st_inv st' /\
    s_abs (fst st') (snd st') = s_abs s (o :: rest) /\
    views (fst st') (snd st') = s_abs s (o :: rest) :: views s rest /\
    committed (fst st') = committed s.
Proof. exact OverlayProofs.overlay_commit_refines_map. Qed.
Print Assumptions overlay_commit_refines_map.

Theorem merged_iterator_sorted_complete :
  forall o m k, o_inv o -> sorted m ->
    merge_iter (dirty o) (al_seek k m) (al_seek k (ov o)) = al_seek k (apply_overlay o m).
Proof. exact OverlayProofs.merge_iter_spec. Qed.
Print Assumptions merged_iterator_sorted_complete.

(* ---- the byte-level port of treeIterator.doNext (Mkvs/Iter.v; this is what the
   correspondence runs evaluate).  The general theorem doNext_refines_seek is at
   the end of this file; the two statements below are its instance on a finite
   domain of trees and seek keys and the conditional bridge. ---- *)
Theorem doNext_refines_seek_partial :
  forall ks k, In ks (sublists iter_universe) -> In k iter_seeks ->
    port_iter k (build_keys ks) = al_seek k (contents (build_keys ks)).
Proof. exact IterProofs.doNext_refines_seek_partial. Qed.
Print Assumptions doNext_refines_seek_partial.

Theorem port_run_eq_spec_run :
  forall ops st, port_agrees_along st ops -> s_run_p st ops = s_run st ops.
Proof. exact IterProofs.port_run_eq_spec_run. Qed.
Print Assumptions port_run_eq_spec_run.

(* ---- the node cache (Mkvs/Lazy.v): partial trees, eviction, derefNodePtr ---- *)
Theorem eviction_invisible :
  forall (H : bytes -> bytes) ops p, trace_ok H p ops ->
    snd (lazy_run H p ops) = snd (eager_run H (view p) ops) /\
    view (fst (lazy_run H p ops)) = fst (eager_run H (view p) ops).
Proof. exact LazyProofs.eviction_invisible. Qed.
Print Assumptions eviction_invisible.

Theorem eviction_f1_refuted :
  evict f1_before f1_after /\ ~ safe f1_after /\
  lazy_get [97] f1_before = Some [1] /\ lazy_get [97] f1_after = None /\
  lazy_get [97; 98] f1_before = Some [3] /\ lazy_get [97; 98] f1_after = None /\
  lazy_get [98] f1_after = Some [2] /\
  contents (view (fst (lazy_commit (fun x => x) (lazy_insert [122] [9] f1_after)))) = [([98], [2]); ([122], [9])].
Proof. exact LazyProofs.eviction_f1_refuted. Qed.
Print Assumptions eviction_f1_refuted.

(* ---- CLOSED: the byte-level port of treeIterator (Seek, then Next until
   invalid) yields exactly the specification iterator's sequence on every
   well-formed tree and every seek key; hence the runner evaluated by the
   correspondence check ([s_run_p]) refines the abstract ordered map. ---- *)
Theorem doNext_refines_seek :
  forall t k, wf t -> valid_bytes k -> port_iter k t = al_seek k (contents t).
Proof. exact IterLift.doNext_refines_seek. Qed.
Print Assumptions doNext_refines_seek.

Theorem port_run_refines :
  forall ops st, Forall sop_valid_p ops -> st_inv st -> s_run_p st ops = s_run st ops.
Proof. exact IterLift.port_run_refines. Qed.
Print Assumptions port_run_refines.

Theorem tree_refines_map_port :
  forall (use_log : bool) ops, Forall sop_valid_p ops ->
    snd (s_run_p (t_init use_log, []) ops) = snd (a_run a_init ops).
Proof. exact IterLift.tree_refines_map_port. Qed.
Print Assumptions tree_refines_map_port.

(* ---- evictions BETWEEN the steps of one doInsert descent (Mkvs/Step.v): the
   frames are the internal nodes on the Go call stack.  Evictions that do not
   touch the call stack are invisible; evicting a (still clean) node that is on
   the stack is a legal cache event and loses the subtree (finding F2). ---- *)
Theorem insert_eviction_off_path_invisible :
  forall k v es s, frames_ok (frames_of s) -> legal_run k v s es -> Forall off_path es ->
    whole k v (irun k v s es) = whole k v s.
Proof. exact StepProofs.insert_eviction_off_path_invisible. Qed.
Print Assumptions insert_eviction_off_path_invisible.

Theorem insert_descent_correct :
  forall k v p es res, legal_run k v (IDown [] 0 p) es -> Forall off_path es ->
    irun k v (IDown [] 0 p) es = IDone res -> view res = tinsert k v (view p).
Proof. exact StepProofs.insert_descent_correct. Qed.
Print Assumptions insert_descent_correct.

Theorem eviction_f2_refuted :
  (exists res, irun [32] [9] (IDown [] 0 f2_tree) f2_events_ok = IDone res /\
               contents (view res) = [([0], [1]); ([32], [9]); ([64], [2]); ([128], [3])]) /\
  legal_run [32] [9] (IDown [] 0 f2_tree) f2_events_bad /\
  (exists res, irun [32] [9] (IDown [] 0 f2_tree) f2_events_bad = IDone res /\ contents (view res) = []).
Proof. exact StepProofs.eviction_f2_refuted. Qed.
Print Assumptions eviction_f2_refuted.

(* ---- the doRemove descent as repaired in 8b362ab: pre-dereference of both
   children before the descent (remove.go:88-95), store on success (:99-116),
   and the two sibling dereferences on the way up (:118-131): off-path evictions that never hit the embedded leaf of a
   dirty node are invisible; an eviction of such a leaf BETWEEN the dereference
   of n.Left and of n.Right makes the parent collapse the branch away even for
   an absent key (the transient variant of finding F1). ---- *)
Theorem remove_eviction_off_path_invisible :
  forall k es s, inv_r k s -> rlegal_run k evicts s es -> whole_r k (rrun k s es) = whole_r k s.
Proof. exact StepProofs.remove_eviction_off_path_invisible. Qed.
Print Assumptions remove_eviction_off_path_invisible.

Theorem remove_descent_correct :
  forall k p es res, rlegal_run k evicts (RDown [] 0 p) es -> rrun k (RDown [] 0 p) es = RDone res ->
    view res = fst (fst (tremove k (view p))).
Proof. exact StepProofs.remove_descent_correct. Qed.
Print Assumptions remove_descent_correct.

Theorem eviction_f1_transient_refuted :
  (exists res, rrun [128; 1] (RDown [] 0 f1t_tree) (f1t_steps 14) = RDone res /\
               contents (view res) = [([0; 1; 0], [2]); ([128], [1]); ([128; 255; 1; 128], [3])]) /\
  (exists fs lbl lf l r lp, f1t_mid = RCol1 fs lbl lf l r lp /\ evict r f1t_evicted) /\
  (exists res, rrun [128; 1] f1t_mid [REvictR f1t_evicted; RStep; RStep] = RDone res /\
               contents (view res) = [([0; 1; 0], [2])]).
Proof. exact StepProofs.eviction_f1_transient_refuted. Qed.
Print Assumptions eviction_f1_transient_refuted.

(* ---- treeOverlay.Copy (Mkvs/Fork.v): an overlay A and its copy B over the same
   inner stack.  Every answer on either side is the ordered map's answer for that
   side's view (its own writes and removals over the shared inner map); local
   operations (insert, remove, remove-existing, get, iterate) on one side leave
   every observation (Get and Seek results for every key) of the other side
   unchanged; right after Copy both sides observe the same map.  A commit of one
   side writes into the shared inner tree and is seen by the other side through
   its own delta (that is the specified behaviour, covered by fork_refines_map). ---- *)
Theorem fork_refines_map :
  forall ops fs, f_inv fs -> f_ok_run fs ops ->
    snd (f_run fs ops) = f_spec_run fs ops /\ f_inv (fst (f_run fs ops)).
Proof. exact ForkProofs.fork_refines_map. Qed.
Print Assumptions fork_refines_map.

Theorem fork_run_refines_init :
  forall (use_log : bool) ops, f_ok_run ((t_init use_log, []), None) ops ->
    snd (f_run ((t_init use_log, []), None) ops) = f_spec_run ((t_init use_log, []), None) ops.
Proof. exact ForkProofs.fork_run_refines_init. Qed.
Print Assumptions fork_run_refines_init.

Theorem copy_independent_a :
  forall fs o k, local_fb o -> obs_a (fst (f_step fs o)) k = obs_a fs k.
Proof. exact ForkProofs.copy_independent_a. Qed.
Print Assumptions copy_independent_a.

Theorem copy_independent_b :
  forall fs o k, local_fa o -> snd (fst fs) <> [] -> obs_b (fst (f_step fs o)) k = obs_b fs k.
Proof. exact ForkProofs.copy_independent_b. Qed.
Print Assumptions copy_independent_b.

Theorem copy_same_view :
  forall fs k, snd fs = None -> snd (fst fs) <> [] ->
    obs_b (fst (f_step fs FFork)) k = Some (obs_a fs k).
Proof. exact ForkProofs.copy_same_view. Qed.
Print Assumptions copy_same_view.

Theorem copy_independent_a_run :
  forall ops fs k, Forall local_fb ops -> obs_a (fst (f_run fs ops)) k = obs_a fs k.
Proof. exact ForkProofs.copy_independent_a_run. Qed.
Print Assumptions copy_independent_a_run.

Theorem copy_independent_b_run :
  forall ops fs k, Forall local_fa ops -> snd (fst fs) <> [] ->
    obs_b (fst (f_run fs ops)) k = obs_b fs k.
Proof. exact ForkProofs.copy_independent_b_run. Qed.
Print Assumptions copy_independent_b_run.
