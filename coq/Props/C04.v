(* C04 — Merkle proofs are complete and cannot be made to lie.
   Only statements; definitions are in MkvsProof/Model.v (verifier, builder,
   partial-tree lookups; ports of go/storage/mkvs/syncer/proof.go, lookup.go,
   cache.go) and Mkvs/Trie.v (the trie); proofs in the other files
   of MkvsProof/.

   [H] is an arbitrary hash function with 32-byte output; it is never assumed
   injective: conclusions are "... \/ collision H", the collision being built
   from the concrete pre-images.  Entry lists are arbitrary lists of decoded
   entries (so: altered, truncated, extended, reordered, spliced, fabricated
   proofs of either version); [entry_wire] only says that decoded length fields
   fit the fixed-width wire fields they were read from (uint16 label bit length,
   uint32 key/value lengths). *)
From Verif Require Import Lib.Base Mkvs.Trie Mkvs.HashProofs Gen.ProofConsts
  MkvsProof.Model MkvsProof.Sound MkvsProof.Complete MkvsProof.Examples MkvsProof.Final
  MkvsProof.Remote MkvsProof.Iter MkvsProof.IterProofs MkvsProof.IterSound MkvsProof.IterFinal MkvsProof.Evict
  Mkvs.Overlay Mkvs.Iter.

(* G: the constants read from syncer/proof.go are the ones the model was
   written for (the depth limit itself is USED by the model, so a changed value
   changes verify_depth_bounded / get_proof_complete as well) *)
Theorem gen_consts_expected :
  max_proof_depth = 128 /\ min_proof_version = 0 /\ latest_proof_version = 1 /\
  proof_entry_full = 1 /\ proof_entry_hash = 2 /\ MAX_PROOF_DEPTH = max_proof_depth.
Proof. exact gen_consts_expected_l. Qed.
Print Assumptions gen_consts_expected.

(* An accepted proof is the real tree with some subtrees / leaf pointers replaced
   by their hashes — whatever the entries were. *)
Theorem verify_sound : forall (H : bytes -> bytes), (forall x, length (H x) = HASH_SIZE) ->
  forall ver untrusted es p t,
  verify H ver (root_hash H t) untrusted es = ROk p ->
  Forall entry_wire es -> bounded t ->
  prunes H p t \/ collision H.
Proof. exact verify_sound_l. Qed.
Print Assumptions verify_sound.

(* Any partial tree whose recomputed hash is the root prunes the real tree
   (the core of soundness, independent of the entry format). *)
Theorem hash_prunes : forall (H : bytes -> bytes), (forall x, length (H x) = HASH_SIZE) ->
  forall p t, pwf p -> bounded t -> phash H p = root_hash H t -> prunes H p t \/ collision H.
Proof. exact Sound.hash_prunes. Qed.
Print Assumptions hash_prunes.

(* What a pruned tree says about a key is true: found values are the stored
   values, absence is real absence; the only other answer is Unknown. *)
Theorem plookup_sound : forall (H : bytes -> bytes), (forall x, length (H x) = HASH_SIZE) ->
  forall p t d k,
  prunes H p t ->
  (forall v, plookup (N.of_nat d) k p = Found v -> lookup d k t = Some v) /\
  (plookup (N.of_nat d) k p = Absent -> lookup d k t = None).
Proof. exact (fun H _ => plookup_sound_l H). Qed.
Print Assumptions plookup_sound.

(* The same for the walk the Go tree performs over a merged subtree
   (doGet + derefNodePtr, with its empty-hash and hash-only-leaf rules). *)
Theorem plookup_go_sound : forall (H : bytes -> bytes), (forall x, length (H x) = HASH_SIZE) ->
  forall p t fresh d k,
  prunes H p t ->
  ((forall v, plookup_go H fresh (N.of_nat d) k p = Found v -> lookup d k t = Some v) /\
   (plookup_go H fresh (N.of_nat d) k p = Absent -> lookup d k t = None)) \/ collision H.
Proof. exact (fun H _ => plookup_go_sound_l H). Qed.
Print Assumptions plookup_go_sound.

(* Combined: no accepted entry list makes any key appear with a value, or appear
   absent, contrary to the contents under the trusted root. *)
Theorem proof_cannot_lie : forall (H : bytes -> bytes), (forall x, length (H x) = HASH_SIZE) ->
  forall ver untrusted es p t,
  verify H ver (root_hash H t) untrusted es = ROk p ->
  Forall entry_wire es -> wf t -> bounded t ->
  (forall k, agrees t k (plookup 0 k p) /\ agrees t k (plookup_go H true 0 k p)) \/ collision H.
Proof. exact proof_cannot_lie_l. Qed.
Print Assumptions proof_cannot_lie.

(* VerifyProofToWriteLog: every pair of the write log is a real entry. *)
Theorem verify_to_writelog_sound : forall (H : bytes -> bytes), (forall x, length (H x) = HASH_SIZE) ->
  forall ver untrusted es wl t,
  verify_to_writelog H ver (root_hash H t) untrusted es = Some wl ->
  Forall entry_wire es -> bounded t ->
  incl wl (contents t) \/ collision H.
Proof. exact writelog_sound_l. Qed.
Print Assumptions verify_to_writelog_sound.

(* Acceptance means: the pre-order reconstruction consumed every entry (nothing
   left over, nothing missing), and the rebuilt hash is the trusted root. *)
Theorem verify_consumes_all : forall (H : bytes -> bytes), (forall x, length (H x) = HASH_SIZE) ->
  forall ver root untrusted es p,
  verify H ver root untrusted es = ROk p ->
  exists p0, vp VP_FUEL ver 0 es = VOk p0 [] /\ phash H p0 = root.
Proof. exact verify_consumes_all_l. Qed.
Print Assumptions verify_consumes_all.

(* each recursive call consumes a non-empty prefix of what it was given *)
Theorem verify_step_consumes : forall fuel ver depth es p rest,
  vp fuel ver depth es = VOk p rest -> exists used, es = used ++ rest /\ used <> [].
Proof. exact vp_suffix. Qed.
Print Assumptions verify_step_consumes.

(* The recursion depth is bounded by maxProofDepth + 2 frames on every input:
   the model's fuel is never the reason for a rejection. *)
Theorem verify_depth_bounded : forall (H : bytes -> bytes), (forall x, length (H x) = HASH_SIZE) ->
  forall ver root untrusted es, verify H ver root untrusted es <> RErr EFuel.
Proof. exact verify_never_out_of_fuel. Qed.
Print Assumptions verify_depth_bounded.

(* Completeness of key-lookup proofs: for every tree of at most 129 entry
   levels, every key (present, absent, prefix or extension of a present key),
   both versions, siblings on or off, the proof SyncGet builds is accepted for
   the tree's root and determines the key — with the true answer. *)
Theorem get_proof_complete : forall (H : bytes -> bytes), (forall x, length (H x) = HASH_SIZE) ->
  forall ver sib k t,
  ver <= 1 -> (height t <= 129)%nat ->
  exists p, verify H ver (root_hash H t) (root_hash H t) (build_get_proof H ver sib k t) = ROk p /\
            plookup 0 k p <> Unknown /\
            (plookup 0 k p = of_opt (tlookup k t) \/ collision H).
Proof. exact get_proof_complete_l. Qed.
Print Assumptions get_proof_complete.

(* ... and for version 0 (the version the Go tree requests) the Go walk itself
   resolves the key without a further fetch. *)
Theorem get_proof_complete_go_v0 : forall (H : bytes -> bytes), (forall x, length (H x) = HASH_SIZE) ->
  forall sib k t,
  (height t <= 129)%nat ->
  exists p, verify H 0 (root_hash H t) (root_hash H t) (build_get_proof H 0 sib k t) = ROk p /\
            plookup_go H true 0 k p <> Unknown /\
            (plookup_go H true 0 k p = of_opt (tlookup k t) \/ collision H).
Proof. exact get_proof_complete_go_v0_l. Qed.
Print Assumptions get_proof_complete_go_v0.

(* Without the height bound completeness is FALSE for the code as written:
   130 keys each a prefix of the next give a well-formed tree whose honest
   proof for the longest (present) key is rejected with "max proof depth
   exceeded" (proof.go:20, :354), in both versions, siblings on or off. *)
Theorem get_proof_complete_unbounded_refuted :
  exists H t k v, (forall x, length (H x) = HASH_SIZE) /\ wf t /\ tlookup k t = Some v /\
    forall ver sib, ver <= 1 ->
      verify H ver (root_hash H t) (root_hash H t) (build_get_proof H ver sib k t) = RErr EDepth.
Proof. exact get_proof_complete_unbounded_refuted_l. Qed.
Print Assumptions get_proof_complete_unbounded_refuted.

(* ---------------- iterate / prefix proofs ---------------- *)
(* ProofBuilder.build over ANY set of included pointer positions gives a proof
   that is accepted for the tree's root and describes a pruning of the tree. *)
Theorem included_set_proof_verifies : forall (H : bytes -> bytes), (forall x, length (H x) = HASH_SIZE) ->
  forall ver inc t,
  ver <= 1 -> (height t <= 129)%nat ->
  exists p, verify H ver (root_hash H t) (root_hash H t) (gbuild H ver inc [] t) = ROk p /\
            (prunes H p t \/ collision H) /\
            (p = gprune H ver inc [] t \/ (p = PNil /\ root_hash H t = H [])).
Proof. exact gbuild_verifies. Qed.
Print Assumptions included_set_proof_verifies.

(* The builders are ports of treeIterator.doNext / Next (the machine of
   Mkvs/Iter.v, which Mkvs/IterLift.v proves equal to al_seek on the contents)
   re-stated over partial trees ([pdo], [pit_next]: a hash-only pointer stops
   the walk; every dereferenced pointer is recorded) and compared
   entry-for-entry with the real proofs by the harness.

   iterate_proof_complete: for every well-formed tree of at most 129 entry
   levels, every key, prefetch n and both versions, the proof SyncIterate builds
   is accepted for the tree's root, and a reader walking the verified partial
   tree with the ported iterator (Seek + n Next) meets no hash and obtains
   exactly the first n+1 entries >= key of the contents. *)
Theorem iterate_proof_complete : forall (H : bytes -> bytes), (forall x, length (H x) = HASH_SIZE) ->
  forall ver t key n,
  ver <= 1 -> (height t <= 129)%nat -> wf t -> valid_bytes key ->
  exists p, verify H ver (root_hash H t) (root_hash H t) (build_iter_proof H ver t key n) = ROk p /\
            (piter p key n = Some (firstn (S n) (al_seek key (contents t))) \/ collision H).
Proof. exact iterate_proof_complete_l. Qed.
Print Assumptions iterate_proof_complete.

(* On ANY pruning of the tree the partial iterator either stops at a hash
   (None) or yields exactly the first n+1 entries >= key. *)
Theorem piter_sound : forall (H : bytes -> bytes) p t key n,
  prunes H p t -> wf t -> valid_bytes key ->
  piter p key n = None \/ piter p key n = Some (firstn (S n) (al_seek key (contents t))).
Proof. exact piter_sound_l. Qed.
Print Assumptions piter_sound.

(* prefix_proof_complete: the proof SyncGetPrefixes builds is accepted, and the
   prefix loop of prefetch.go:93-113 run over the verified partial tree meets no
   hash and obtains exactly what the same loop obtains on the full replica
   (each prefix's stream there being al_seek of the contents by piter_sound /
   doNext_refines_seek; the result is stated relative to that loop, not expanded
   into a closed-form list). *)
Theorem prefix_proof_complete : forall (H : bytes -> bytes), (forall x, length (H x) = HASH_SIZE) ->
  forall ver t prefixes limit,
  ver <= 1 -> (height t <= 129)%nat ->
  exists p, verify H ver (root_hash H t) (root_hash H t) (build_prefixes_proof H ver t prefixes limit) = ROk p /\
            ((pprefixes p prefixes limit = pprefixes (full t) prefixes limit /\
              pprefixes (full t) prefixes limit <> None) \/ collision H).
Proof. exact prefix_proof_complete_l. Qed.
Print Assumptions prefix_proof_complete.

(* ---------------- the remote-backed reader ---------------- *)
(* A reader that starts from the trusted root only and applies ANY sequence of
   responses -- each handled as cache.remoteSync does: accepted only if it
   verifies for the hash of the pointer being dereferenced or for the root,
   then merged by hash equality -- and evictions of whole subtrees (unbounded
   cache: no partial removal, [step_ok]) answers every Get with the full
   replica's answer or with no answer (Unknown = error), or a collision of H
   is exhibited. *)
Theorem remote_tree_safe : forall (H : bytes -> bytes), (forall x, length (H x) = HASH_SIZE) ->
  forall t steps,
  wf t -> bounded t -> Forall step_ok steps ->
  (forall fresh k, agrees t k (plookup_go H fresh 0 k (run_steps H (root_hash H t) steps)) /\
                   agrees t k (plookup 0 k (run_steps H (root_hash H t) steps))) \/ collision H.
Proof. exact remote_tree_safe_l. Qed.
Print Assumptions remote_tree_safe.

(* the executable Get loop (answer from the cache, else one fetch for the pointer
   the walk stopped at, any list of responses): safe answer and the invariant is kept *)
Theorem remote_get_safe : forall (H : bytes -> bytes), (forall x, length (H x) = HASH_SIZE) ->
  forall t rs p k,
  wf t -> bounded t -> Forall resp_ok rs -> prunes H p t ->
  (agrees t k (fst (rget H (root_hash H t) p k rs)) /\ prunes H (snd (rget H (root_hash H t) p k rs)) t)
  \/ collision H.
Proof. exact rget_safe_l. Qed.
Print Assumptions remote_get_safe.

(* Iteration, in order: over the reader's cache after ANY sequence of responses
   and evictions (unbounded cache) Seek + n Next yields exactly the full
   replica's first n+1 entries >= key, or stops at a hash (= the Go tree
   fetches again or returns an error), or a collision of H is exhibited. *)
Theorem remote_tree_iteration_safe : forall (H : bytes -> bytes), (forall x, length (H x) = HASH_SIZE) ->
  forall t steps key n,
  wf t -> bounded t -> valid_bytes key -> Forall (step_ok) steps ->
  piter (run_steps H (root_hash H t) steps) key n = None \/
  piter (run_steps H (root_hash H t) steps) key n = Some (firstn (S n) (al_seek key (contents t))) \/
  collision H.
Proof. exact remote_tree_iteration_safe_l. Qed.
Print Assumptions remote_tree_iteration_safe.

(* every pair visible in the reader's cache is a real pair *)
Theorem remote_tree_leaves_safe : forall (H : bytes -> bytes), (forall x, length (H x) = HASH_SIZE) ->
  forall t steps,
  bounded t -> Forall step_ok steps ->
  incl (pleaves (run_steps H (root_hash H t) steps)) (contents t) \/ collision H.
Proof. exact remote_tree_leaves_safe_l. Qed.
Print Assumptions remote_tree_leaves_safe.

(* The excluded case is real: with the partial removal cache.tryRemoveNode
   performs when it meets the locked pointer (bounded cache; finding
   C04:bounded-cache-remote-tree-wrong-answer) a present key resolves absent. *)
Theorem remote_tree_safe_bounded_cache_refuted :
  exists H t steps k v,
    (forall x, length (H x) = HASH_SIZE) /\ wf t /\ bounded t /\
    tlookup k t = Some v /\
    plookup_go H true 0 k (run_steps H (root_hash H t) steps) = Absent.
Proof. exact remote_tree_safe_bounded_cache_refuted_l. Qed.
Print Assumptions remote_tree_safe_bounded_cache_refuted.

(* ---------------- bounded cache: what the lock guarantees ---------------- *)
(* cache.tryRemoveNode with the check order of the code (lock test before the
   "not yet in the LRU" test), for ANY victim, any set of committed nodes (any
   capacity >= 1) with the path from the victim down to the locked pointer
   committed (they were dereferenced by the running query) and the locked
   pointer itself possibly not yet committed: the attempt aborts, and the locked
   subtree as well as every sibling to the right of the path -- all that the
   running Get / in-order iteration still has to read -- is untouched.  What IS
   cleared (LeafNode / Left links of path nodes) lies behind the running query;
   it is the known bounded-cache finding and only affects later operations of
   the same reader (remote_tree_safe_bounded_cache_refuted).  Not mechanised:
   the induction over a whole fresh query that composes this step with
   remote_get_safe / piter_sound; the harness checks it on the implementation
   (fresh reader per query, node capacities 2..6). *)
Theorem lock_protects_remainder : forall committed locked rel p pid cur,
  locked = pid ++ rel ->
  sub_at p rel = Some cur -> has_node cur = true ->
  (forall pre suf, rel = pre ++ suf -> suf <> [] -> committed (pid ++ pre) = true) ->
  snd (try_remove committed locked false p pid) = false /\
  sub_at (fst (try_remove committed locked false p pid)) rel = Some cur /\
  remainder (fst (try_remove committed locked false p pid)) rel = remainder p rel.
Proof. exact lock_protects_remainder_l. Qed.
Print Assumptions lock_protects_remainder.

(* With the two tests swapped the guarantee is false: the attempt succeeds on the
   not-yet-committed locked pointer, the right sibling is cleared, and an
   iterator frame resuming at the victim reports the end of the tree although a
   present entry remains (with the code's order the same frame finds it). *)
Theorem swapped_lock_order_refuted :
  snd (try_remove ev_committed ev_locked false ev_p []) = false /\
  remainder (fst (try_remove ev_committed ev_locked false ev_p [])) ev_locked = remainder ev_p ev_locked /\
  snd (try_remove ev_committed ev_locked true ev_p []) = true /\
  remainder (fst (try_remove ev_committed ev_locked true ev_p [])) ev_locked <> remainder ev_p ev_locked /\
  fst (pit_next [1; 2; 4] [mkP VAtLeft [] ev_p 0 []]) = F3 ([128], [13]) [mkP VAfter [] ev_p 0 []] /\
  fst (pit_next [1; 2; 4] [mkP VAtLeft [] (fst (try_remove ev_committed ev_locked false ev_p [])) 0 []])
    = F3 ([128], [13]) [mkP VAfter [] (fst (try_remove ev_committed ev_locked false ev_p [])) 0 []] /\
  fst (pit_next [1; 2; 4] [mkP VAtLeft [] (fst (try_remove ev_committed ev_locked true ev_p [])) 0 []]) = N3 /\
  tlookup [128] Examples.ex_t = Some [13].
Proof. exact swapped_lock_order_refuted_l. Qed.
Print Assumptions swapped_lock_order_refuted.
