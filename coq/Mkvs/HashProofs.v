(* The root hash determines the tree (up to a collision of the hash function):
   injectivity of the two hash pre-image encodings under the stated length
   bounds. *)
From Verif Require Import Lib.Base Mkvs.Trie Mkvs.BitsProofs Mkvs.TrieProofs.

Lemma le_bytes_len n x : length (le_bytes n x) = n.
Proof. revert x; induction n as [|n IH]; intros x; cbn [le_bytes length]; auto. Qed.

Lemma le_bytes_inj n : forall x y,
  x < 256 ^ N.of_nat n -> y < 256 ^ N.of_nat n -> le_bytes n x = le_bytes n y -> x = y.
Proof.
  induction n as [|n IH]; intros x y Hx Hy E.
  - change (256 ^ N.of_nat 0) with 1 in *. lia.
  - cbn [le_bytes] in E. injection E as E0 E1.
    rewrite Nat2N.inj_succ, N.pow_succ_r' in Hx, Hy.
    assert (x / 256 = y / 256) as Ed.
    { apply IH; auto; apply N.div_lt_upper_bound; lia. }
    rewrite (N.div_mod x 256), (N.div_mod y 256) by lia. rewrite E0, Ed. reflexivity.
Qed.

Section Hash.
  Variable H : bytes -> bytes.
  Variable hlen : nat.
  Hypothesis Hlen : forall x, length (H x) = hlen.

  Definition collision : Prop := exists x y : bytes, x <> y /\ H x = H y.

  Lemma H_inj_or x y : H x = H y -> x = y \/ collision.
  Proof. intros E. destruct (bytes_eq_dec x y); [auto|right; exists x, y; auto]. Qed.

  Definition leaf_pre (k v : bytes) : bytes :=
    [PREFIX_LEAF] ++ le_bytes 4 (N.of_nat (length k)) ++ k ++ le_bytes 4 (N.of_nat (length v)) ++ v.

  Lemma leaf_hexpr_eval k v : eval_hexpr H (leaf_hexpr k v) = H (leaf_pre k v).
  Proof. reflexivity. Qed.

  Lemma leaf_pre_inj k v k' v' :
    N.of_nat (length k) < 2 ^ 32 -> N.of_nat (length v) < 2 ^ 32 ->
    N.of_nat (length k') < 2 ^ 32 -> N.of_nat (length v') < 2 ^ 32 ->
    leaf_pre k v = leaf_pre k' v' -> k = k' /\ v = v'.
  Proof.
    intros Bk Bv Bk' Bv' E. unfold leaf_pre in E. apply app_inv_len in E as [_ E]; [|reflexivity].
    apply app_inv_len in E as [E1 E]; [|now rewrite !le_bytes_len].
    apply (le_bytes_inj 4) in E1; [|exact Bk|exact Bk']. apply Nat2N.inj in E1.
    apply app_inv_len in E as [-> E]; [|exact E1].
    apply app_inv_len in E as [_ ->]; [|now rewrite !le_bytes_len]. auto.
  Qed.

  Lemma root_hash_len t : length (root_hash H t) = hlen.
  Proof. destruct t; cbn; apply Hlen. Qed.
  Lemma opt_leaf_len lf : length (eval_hexpr H (opt_leaf_hexpr lf)) = hlen.
  Proof. destruct lf as [[? ?]|]; cbn; apply Hlen. Qed.

  Definition node_pre (lbl : path) (hlf hl hr : bytes) : bytes :=
    [PREFIX_INTERNAL] ++ le_bytes 2 (N.of_nat (length lbl)) ++ pack lbl ++ hlf ++ hl ++ hr.

  Lemma node_hexpr_eval lbl lf l r :
    root_hash H (Node lbl lf l r) =
    H (node_pre lbl (eval_hexpr H (opt_leaf_hexpr lf)) (root_hash H l) (root_hash H r)).
  Proof. reflexivity. Qed.

  Lemma node_pre_inj lbl a b c lbl' a' b' c' :
    N.of_nat (length lbl) < 2 ^ 16 -> N.of_nat (length lbl') < 2 ^ 16 ->
    length a = hlen -> length a' = hlen -> length b = hlen -> length b' = hlen ->
    node_pre lbl a b c = node_pre lbl' a' b' c' -> lbl = lbl' /\ a = a' /\ b = b' /\ c = c'.
  Proof.
    intros Bl Bl' La La' Lb Lb' E. unfold node_pre in E. apply app_inv_len in E as [_ E]; [|reflexivity].
    apply app_inv_len in E as [E1 E]; [|now rewrite !le_bytes_len].
    apply (le_bytes_inj 2) in E1; [|exact Bl|exact Bl']. apply Nat2N.inj in E1.
    apply app_inv_len in E as [E2 E]; [|now rewrite !pack_len, E1].
    apply pack_inj in E2; [|exact E1]. subst lbl'.
    apply app_inv_len in E as [-> E]; [|congruence].
    apply app_inv_len in E as [-> ->]; [|congruence]. auto.
  Qed.

  (* every hash is the hash of a pre-image, and the pre-images of nil, a leaf
     and an internal node differ in their first byte *)
  Definition tree_pre (t : tree) : bytes :=
    match t with
    | Nil => []
    | Leaf k v => leaf_pre k v
    | Node lbl lf l r => node_pre lbl (eval_hexpr H (opt_leaf_hexpr lf)) (root_hash H l) (root_hash H r)
    end.
  Lemma root_hash_pre t : root_hash H t = H (tree_pre t).
  Proof. destruct t; reflexivity. Qed.
  Lemma opt_leaf_inj lf lf' :
    match lf with None => True | Some (k, v) => N.of_nat (length k) < 2 ^ 32 /\ N.of_nat (length v) < 2 ^ 32 end ->
    match lf' with None => True | Some (k, v) => N.of_nat (length k) < 2 ^ 32 /\ N.of_nat (length v) < 2 ^ 32 end ->
    eval_hexpr H (opt_leaf_hexpr lf) = eval_hexpr H (opt_leaf_hexpr lf') -> lf = lf' \/ collision.
  Proof.
    intros B B' E. destruct lf as [[k v]|], lf' as [[k' v']|]; auto;
      apply H_inj_or in E as [E|C]; auto; try discriminate E.
    destruct B, B'. apply leaf_pre_inj in E as [-> ->]; auto.
  Qed.

  Theorem hash_injective t1 : forall t2,
    bounded t1 -> bounded t2 -> root_hash H t1 = root_hash H t2 -> t1 = t2 \/ collision.
  Proof.
    induction t1 as [|k1 v1|lbl1 lf1 l1 IHl r1 IHr]; intros t2 B1 B2 E;
      rewrite !root_hash_pre in E; apply H_inj_or in E as [E|C]; auto;
      destruct t2 as [|k2 v2|lbl2 lf2 l2 r2]; try discriminate E; [auto| |]; cbn in B1, B2.
    - destruct B1, B2. apply leaf_pre_inj in E as [-> ->]; auto.
    - destruct B1 as (Bl1 & Bf1 & Bb1 & Bc1), B2 as (Bl2 & Bf2 & Bb2 & Bc2).
      apply node_pre_inj in E as (-> & Ef & El & Er);
        auto using opt_leaf_len, root_hash_len.
      apply opt_leaf_inj in Ef as [->|C]; auto.
      destruct (IHl _ Bb1 Bb2 El) as [->|C]; auto.
      destruct (IHr _ Bc1 Bc2 Er) as [->|C]; auto.
  Qed.

  (* the bounds follow from bounds on the stored keys and values *)
  Definition entries_bounded (c : list (bytes * bytes)) : Prop :=
    forall k v, In (k, v) c -> N.of_nat (8 * length k) < 2 ^ 16 /\ N.of_nat (length v) < 2 ^ 32.

  Lemma wf_bounded t : forall p, wf_at p t -> entries_bounded (contents t) -> bounded t.
  Proof.
    induction t as [|k v|lbl lf l IHl r IHr]; intros p W EB.
    - exact I.
    - cbn. destruct (EB k v (or_introl eq_refl)) as [Bk Bv]. split; [lia|exact Bv].
    - pose proof W as W0. cbn [wf_at] in W. destruct W as (Hlf & Hl & Hr & Hsl & Hsr & Hc).
      cbn [bounded]. repeat split.
      + destruct (present_in _ _ W0 eq_refl) as (k & v & Hin).
        pose proof (wf_node_keys _ _ _ _ _ _ _ W0 Hin) as Hp. apply is_prefix_len in Hp.
        rewrite app_length, bits_of_len in Hp. destruct (EB k v Hin) as [Bk _]. lia.
      + destruct lf as [[k v]|]; [|exact I].
        destruct (EB k v) as [Bk Bv]; [cbn; auto|]. split; [lia|exact Bv].
      + eapply IHl; eauto. intros k v Hin. apply EB. cbn [contents]. rewrite !in_app_iff. auto.
      + eapply IHr; eauto. intros k v Hin. apply EB. cbn [contents]. rewrite !in_app_iff. auto.
  Qed.

  Theorem root_sensitive t1 t2 :
    wf t1 -> wf t2 -> entries_bounded (contents t1) -> entries_bounded (contents t2) ->
    root_hash H t1 = root_hash H t2 -> contents t1 = contents t2 \/ collision.
  Proof.
    intros W1 W2 B1 B2 E.
    destruct (hash_injective t1 t2) as [->|C]; eauto using wf_bounded.
  Qed.

  (* one key added, removed, or one value changed: the root changes *)
  Corollary root_changes_with_any_key t1 t2 k :
    wf t1 -> wf t2 -> entries_bounded (contents t1) -> entries_bounded (contents t2) ->
    tlookup k t1 <> tlookup k t2 ->
    root_hash H t1 <> root_hash H t2 \/ collision.
  Proof.
    intros W1 W2 B1 B2 Hne.
    destruct (bytes_eq_dec (root_hash H t1) (root_hash H t2)) as [E|NE]; [|auto].
    destruct (root_sensitive t1 t2 W1 W2 B1 B2 E) as [Ec|C]; [|auto].
    exfalso. apply Hne. rewrite !lookup_contents by assumption. now rewrite Ec.
  Qed.
End Hash.

(* non-vacuity of the hypotheses of [root_sensitive] *)
Example ex_bounded : wf (run ex_ops1) /\ entries_bounded (contents (run ex_ops1)).
Proof.
  split; [apply run_wf, ex_ops_valid|].
  intros k v Hin. vm_compute in Hin.
  repeat (destruct Hin as [[= <- <-]|Hin]; [vm_compute; auto|]). destruct Hin.
Qed.
