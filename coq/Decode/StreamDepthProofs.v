From Verif Require Import Lib.Base Decode.StreamDepth Gen.MiscConsts.

Lemma decode_frames_trickle : forall n need have,
  need <= have + N.of_nat n -> have <= need ->
  decode_frames (repeat 1 n) need have = need - have + 1.
Proof.
  induction n as [|n IH]; intros need have Hn Hh.
  - cbn [repeat decode_frames]. destruct (need <=? have) eqn:E; lia.
  - cbn [repeat decode_frames].
    destruct (need <=? have) eqn:E; [lia|].
    change (1 =? 0) with false. cbn iota.
    rewrite IH by lia. lia.
Qed.

(* the depth is not bounded by anything but the item length the peer declares *)
Lemma stream_depth_unbounded_l : forall need,
  decode_frames (repeat 1 (N.to_nat need)) need 0 = trickle_frames need.
Proof.
  intros need. unfold trickle_frames. rewrite decode_frames_trickle by lia. lia.
Qed.

Lemma decode_frames_le_chunks : forall chunks need have,
  decode_frames chunks need have <= N.of_nat (length chunks) + 1.
Proof.
  induction chunks as [|c rest IH]; intros need have; cbn [decode_frames length].
  - destruct (need <=? have); lia.
  - destruct (need <=? have); [lia|]. destruct (c =? 0); [lia|]. specialize (IH need (have + c)). lia.
Qed.

Lemma usable_default : usable_stack defaultMaxStack = 536870912.
Proof. vm_compute. reflexivity. Qed.

(* KNOWN FINDING, derived: with the default 1 GB stack limit, for every frame
   size of at least 9 bytes (an activation holds at least a return address and
   a frame pointer), a single frame that respects maxMessageSize (64 MiB) and
   is delivered one byte per read makes the decoder overflow the stack. *)
Lemma rhp_stack_overflow_reachable_l : forall frame base, 9 <= frame ->
  exists need, need <= maxMessageSize /\
    overflows defaultMaxStack frame base (decode_frames (repeat 1 (N.to_nat need)) need 0) = true.
Proof.
  intros frame base Hf. exists (maxMessageSize - 5). split; [lia|].
  rewrite stream_depth_unbounded_l. unfold overflows, stack_needed, trickle_frames.
  rewrite usable_default. unfold maxMessageSize.
  apply N.ltb_lt. nia.
Qed.

Lemma death_depth_spec_l : forall maxstack frame base frames, 0 < frame -> base <= usable_stack maxstack ->
  (overflows maxstack frame base frames = true <-> death_depth maxstack frame base < frames).
Proof.
  intros maxstack frame base frames Hf Hb. unfold overflows, death_depth, stack_needed.
  rewrite N.ltb_lt. split.
  - intros H. apply N.div_lt_upper_bound; lia.
  - intros H. assert ((usable_stack maxstack - base) / frame + 1 <= frames) as H1 by lia.
    pose proof (N.div_mod (usable_stack maxstack - base) frame ltac:(lia)) as Hdm.
    pose proof (N.mod_lt (usable_stack maxstack - base) frame ltac:(lia)) as Hm.
    nia.
Qed.

Example death_depth_default : death_depth defaultMaxStack 56 4096 = 9586907.
Proof. vm_compute. reflexivity. Qed.
