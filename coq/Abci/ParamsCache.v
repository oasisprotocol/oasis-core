(* The cached consensus parameters (applicationState.blockParams, state.go:126-176, 484-497).

   decodeTx / processTx / BeginBlock read the consensus parameters (MaxTxSize, MaxBlockGas, gas
   costs, MinGasPrice) not from the working tree but from a cache that is refreshed by
   doCommitOrInitChainLocked(): at InitChain, at the end of doCommit (state.go:423-481) and when
   a node boots on an existing database (newApplicationState, state.go:760-766).  A running
   node therefore relies on the refresh happening AFTER the new state became the committed one;
   a restarted node always loads from the committed state.  Whether doCommit refreshes after
   advancing the state root is read from the source (Gen/MuxOrder.v).

   NOTE: in Abci/Mux.v the decoder reads its parameters from the state it is given; this file
   makes the cache explicit on its own small model (definitions first, then proofs). *)
From Verif Require Import Lib.Base Gen.MuxOrder.

Section ParamsCache.
  Variables state params : Type.
  Variable params_of : state -> params.            (* consensusState.ConsensusParameters(tree) *)

  Record pnode := mkP { p_committed : state; p_params : params }.

  (* doCommit with the new state s'; [after] = the refresh comes after the state root advanced *)
  Definition commit_with (after : bool) (n : pnode) (s' : state) : pnode :=
    if after then mkP s' (params_of s') else mkP s' (params_of (p_committed n)).
  Definition commit := commit_with commit_refreshes_params_after_commit.
  (* boot on the existing database *)
  Definition reboot (n : pnode) : pnode := mkP (p_committed n) (params_of (p_committed n)).
  Definition init (s : state) : pnode := mkP s (params_of s).

  Inductive pop := PCommit (s' : state) | PRestart.
  Definition pstep_with (after : bool) (n : pnode) (o : pop) : pnode :=
    match o with PCommit s' => commit_with after n s' | PRestart => reboot n end.
  Definition pstep := pstep_with commit_refreshes_params_after_commit.

  Definition cache_fresh (n : pnode) : Prop := p_params n = params_of (p_committed n).

  Lemma commit_order_read_from_source : commit_refreshes_params_after_commit = true.
  Proof. reflexivity. Qed.

  Lemma pstep_fresh n o : cache_fresh (pstep n o).
  Proof. unfold pstep. rewrite commit_order_read_from_source. destruct o; reflexivity. Qed.

  (* After ANY history of commits and restarts the cache equals the parameters of the committed
     state. *)
  Theorem params_cache_is_function_of_committed_state s0 ops :
    cache_fresh (fold_left pstep ops (init s0)).
  Proof. apply fold_left_invariant; [intros n o _; apply pstep_fresh|reflexivity]. Qed.

  (* Two replicas with the same committed state -- one kept running, one restarted at arbitrary
     points -- hold the same parameters. *)
  Corollary replicas_hold_same_params s0 ops1 ops2 :
    p_committed (fold_left pstep ops1 (init s0)) = p_committed (fold_left pstep ops2 (init s0)) ->
    p_params (fold_left pstep ops1 (init s0)) = p_params (fold_left pstep ops2 (init s0)).
  Proof.
    intros H. rewrite (params_cache_is_function_of_committed_state s0 ops1), (params_cache_is_function_of_committed_state s0 ops2), H.
    reflexivity.
  Qed.
End ParamsCache.

(* With the refresh BEFORE the new state is committed (seeded C01-7) the running node lags one
   block behind: after the block whose migration raised MaxTxSize it still holds the old value,
   while a node restarted at that point holds the new one. *)
Theorem lagging_params_cache_refuted :
  exists (s0 s1 : N),
    let params_of := fun s : N => 32768 + 1000 * s in
    let running := fold_left (pstep_with N N params_of false) [PCommit N s1] (init N N params_of s0) in
    let restarted := fold_left (pstep_with N N params_of false) [PCommit N s1; PRestart N] (init N N params_of s0) in
    p_committed N N running = p_committed N N restarted /\ p_params N N running <> p_params N N restarted.
Proof. exists 0, 7. vm_compute. split; [reflexivity|discriminate]. Qed.
