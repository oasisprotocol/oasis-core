(* NodeDB/GcProofs.v — garbage collection at the discard timestamp "earliest retained version"
   changes no answer; one version higher it does. *)
From Verif Require Import Lib.Base NodeDB.Spec NodeDB.SpecProofs NodeDB.PathBadger NodeDB.Badger
  NodeDB.StoreProofs NodeDB.BadgerProofs NodeDB.Gc NodeDB.PathBadgerProofs.

Theorem gc_best D st st' : gc_rel D st st' -> forall n t, D <= t -> best n t st' = best n t st.
Proof.
  induction 1 as [st|l1 n0 ts b l2 ts' b' st' HI Hlt Hle _ IH]; intros n t Ht; [reflexivity|].
  rewrite (IH n t Ht), !best_newest. symmetry.
  apply (newest_drop N.eqb N.eqb_eq n t l1 n0 ts b l2 ts' b' HI Hlt). lia.
Qed.

Lemma forallb_eq {A} (f g : A -> bool) l : (forall x, f x = g x) -> forallb f l = forallb g l.
Proof. intros H. induction l as [|x t IH]; [reflexivity|]. cbn [forallb]. rewrite H, IH. reflexivity. Qed.

(* the status of a root depends on the node key space only through what is visible at or above
   the earliest retained version *)
Lemma b_status_store d st' :
  (forall n t, d_earliest (b_meta d) <= t -> visible n t st' = visible n t (b_store d)) ->
  forall v rid, b_status (mkb (b_meta d) (b_aux d) st') v rid = b_status d v rid.
Proof.
  intros V v rid. unfold b_status. cbn [b_meta]. destruct (s_has (b_meta d) v rid) eqn:SH; [|reflexivity].
  destruct (is_empty_rid rid) eqn:EM; [reflexivity|]. cbn [orb].
  unfold s_has in SH. rewrite EM in SH. cbn [orb] in SH. apply andb_true_iff in SH as [SH _].
  unfold b_readable, all_visible. cbn [b_aux b_store].
  rewrite (forallb_eq _ (fun n => visible n v (b_store d))); [reflexivity|].
  intros n. apply V. lia.
Qed.

(* with the discard timestamp at the earliest retained version no garbage collection changes
   the status of any root, and the invariant of BadgerProofs survives it: compactions can be
   interleaved anywhere in a history *)
Theorem gc_keeps_retained_roots_l d st' :
  gc_rel (d_earliest (b_meta d)) (b_store d) st' ->
  let d' := mkb (b_meta d) (b_aux d) st' in
  (forall v rid, b_status d' v rid = b_status d v rid) /\ (inv d -> inv d').
Proof.
  intros G. cbv zeta.
  assert (V : forall n t, d_earliest (b_meta d) <= t -> visible n t st' = visible n t (b_store d)).
  { intros n t Ht. unfold visible. rewrite (gc_best _ _ _ G n t Ht). reflexivity. }
  split; [exact (b_status_store d st' V)|].
  apply inv_store. intros n t Ht Hv. rewrite V by exact Ht. exact Hv.
Qed.

(* the same theorem for pathbadger's finalized key space *)
Definition fstore := list ((N * pos) * N * option N).

Lemma fbest_in k t (st : fstore) ts v : fbest k t st = Some (ts, v) -> In (k, ts, v) st /\ ts <= t.
Proof. rewrite fbest_newest. apply newest_in, fkey_eqb_eq. Qed.

Inductive pgc_rel (D : N) : fstore -> fstore -> Prop :=
| pgc_refl st : pgc_rel D st st
| pgc_drop l1 k ts v l2 ts' v' st' :
    In (k, ts', v') (l1 ++ l2) -> ts < ts' -> ts' <= D ->
    pgc_rel D (l1 ++ l2) st' -> pgc_rel D (l1 ++ (k, ts, v) :: l2) st'.

Theorem pgc_fbest D st st' : pgc_rel D st st' -> forall k t, D <= t -> fbest k t st' = fbest k t st.
Proof.
  induction 1 as [st|l1 k0 ts v l2 ts' v' st' HI Hlt Hle _ IH]; intros k t Ht; [reflexivity|].
  rewrite (IH k t Ht), !fbest_newest. symmetry.
  apply (newest_drop fkey_eqb fkey_eqb_eq k t l1 k0 ts v l2 ts' v' HI Hlt). lia.
Qed.

Theorem pathbadger_gc_keeps_retained_roots_l d st' :
  pgc_rel (p_earliest d) (p_fin d) st' ->
  let d' := mkp (p_earliest d) (p_last d) (p_rootkeys d) st' (p_pend d) (p_next d) (p_pseq d) (p_upd d) (p_ghost d) in
  forall v rid, p_status d' v rid = p_status d v rid.
Proof.
  intros G d' v rid. unfold p_status, p_has.
  change (has_rootkey d' v rid) with (has_rootkey d v rid). change (ghost_of d' v rid) with (ghost_of d v rid).
  change (p_earliest d') with (p_earliest d).
  destruct (is_empty_rid rid); cbn [orb]; [reflexivity|].
  destruct ((p_earliest d <=? v) && has_rootkey d v rid) eqn:H; [|reflexivity].
  erewrite forallb_eq; [reflexivity|]. intros e. cbn beta.
  unfold resolve. change (seq_of d' v rid) with (seq_of d v rid). change (p_pend d') with (p_pend d).
  unfold fget. cbn [d' p_fin]. rewrite (pgc_fbest _ _ _ G _ v ltac:(lia)). reflexivity.
Qed.

(* one version too high (the seeded change of pathbadger.go Prune): a node removed by version 2
   is dropped although version 1, the earliest retained version, still needs it *)
Definition h_gc : list op :=
  [OCommit 0 1 2 None [(1, 1); (2, 1)] [1; 2; 3] [] [3; 1; 2] []; OFinalize 0 [2];
   OCommit 1 1 3 (Some (0, 2)) [(3, 1)] [4; 5] [3] [5; 1; 2; 4] []; OFinalize 1 [3];
   OCommit 2 1 4 (Some (1, 3)) [(2, 0)] [6] [2; 5] [6; 1; 4] []; OFinalize 2 [4];
   OPrune 0].

Lemma gc_discard_too_high_refuted_l :
  let d := b_run bdb0 h_gc in
  ok_run bdb0 h_gc = true /\ d_earliest (b_meta d) = 1 /\
  b_status d 1 3 = 1 /\ b_status d 2 4 = 1 /\
  (* discard timestamp = earliest: the most aggressive compaction changes nothing *)
  b_status (b_gc 1 d) 1 3 = 1 /\ b_status (b_gc 1 d) 2 4 = 1 /\
  (* discard timestamp = earliest + 1: the earliest retained version loses nodes *)
  b_status (b_gc 2 d) 1 3 = 2 /\ b_status (b_gc 2 d) 2 4 = 1.
Proof. vm_compute. repeat split; reflexivity. Qed.

(* the same on the pathbadger model *)
Definition h_pgc : list pop :=
  [PCommit 0 1 2 None [(1, 1); (2, 1)] [((0, 1), 1); ((0, 2), 2)] []; PFinalize 0 [2];
   PCommit 1 1 3 (Some (0, 2)) [(3, 1)] [((1, 1), 4); ((0, 1), 1); ((1, 2), 5); ((0, 2), 2)] []; PFinalize 1 [3];
   PCommit 2 1 4 (Some (1, 3)) [(2, 0)] [((2, 1), 6); ((0, 1), 1)] [(1, 1); (1, 2); (0, 2)]; PFinalize 2 [4];
   PPrune 0].

Lemma pathbadger_gc_discard_too_high_refuted_l :
  let d := p_run pdb0 h_pgc in
  p_accepted pdb0 h_pgc = true /\ p_earliest d = 1 /\
  p_status d 1 3 = 1 /\ p_status d 2 4 = 1 /\
  p_status (p_gc 1 d) 1 3 = 1 /\ p_status (p_gc 1 d) 2 4 = 1 /\
  p_status (p_gc 2 d) 1 3 = 2 /\ p_status (p_gc 2 d) 2 4 = 1.
Proof. vm_compute. repeat split; reflexivity. Qed.
