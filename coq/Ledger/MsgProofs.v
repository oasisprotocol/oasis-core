(* Proofs about the write-order model of the escrow handlers (Ledger/Msg.v):
   a handler whose checks all precede its writes leaves the store untouched
   when it fails, even without a rollback; addEscrow and reclaimEscrow have
   that shape, and the generated step orders of the current source
   (Gen/AtomicConsts.v) agree with the model on the write part. *)
From Verif Require Import Lib.Base Ledger.SharePool Ledger.SharePoolProofs Ledger.Debond Ledger.Msg.
From Verif Require Import Gen.AtomicConsts.

(* after the first write (4) the only fallible returns (8) are the storage
   errors of the writes themselves (the 8 right after a 4) *)
Fixpoint tail_ok (prev_write : bool) (l : list N) : bool :=
  match l with
  | [] => true
  | x :: r =>
      if x =? 8 then prev_write && tail_ok false r
      else if x =? 4 then tail_ok true r
      else tail_ok false r
  end.

Fixpoint no_check_after_write (l : list N) : bool :=
  match l with
  | [] => true
  | x :: r => if x =? 4 then tail_ok true r else no_check_after_write r
  end.

Fixpoint from_first_write (l : list N) : list N :=
  match l with
  | [] => []
  | x :: r => if x =? 4 then x :: r else from_first_write r
  end.

(* In both lemmas the hypothesis about the events of [st :: r] reduces, by
   evaluating the tests on the literals 4 and 8, to the one about [r]. *)
Lemma only_writes_ok steps : tail_ok false (events_of steps) = true ->
  forall s w, snd (run_steps s w steps) = MOk.
Proof.
  induction steps as [|[f|k] r IH]; intros H s w; [reflexivity|discriminate H|exact (IH H _ _)].
Qed.

Lemma checks_before_writes_atomic steps : no_check_after_write (events_of steps) = true ->
  forall s w s' c, run_steps s w steps = (s', c) -> c <> MOk -> s' = s.
Proof.
  induction steps as [|[f|k] r IH]; intros H s w s' c E Hc; cbn [run_steps] in E.
  - injection E as <- <-. contradiction.
  - destruct (f w) as [c1 w1]. destruct c1; try (injection E as <- <-; reflexivity).
    exact (IH H s w1 s' c E Hc).
  - (* after a write only writes follow, and they cannot fail *)
    pose proof (only_writes_ok r H (apply_write k s w) w) as Ok. rewrite E in Ok. contradiction.
Qed.

Lemma add_escrow_events_model pr m d a :
  events_of (add_escrow_steps pr m d a) = [8; 8; 8; 8; 4; 8; 4; 8; 4; 8].
Proof. reflexivity. Qed.

Lemma reclaim_events_model pr m d s iv :
  events_of (reclaim_steps pr m d s iv) = [8; 8; 8; 4; 8; 4; 8; 4; 8; 4; 8].
Proof. reflexivity. Qed.

Lemma run_handler_atomic m s steps s' c : no_check_after_write (events_of steps) = true ->
  run_handler m s steps = (s', c) -> c <> MOk -> s' = s.
Proof.
  intros H E Hc. unfold run_handler in E. destruct (run_steps s s steps) as [s1 c1] eqn:R.
  pose proof (checks_before_writes_atomic steps H s s s1 c1 R) as A.
  destruct c1; [injection E as <- <-; contradiction|..];
    destruct m; injection E as <- <-; try reflexivity; apply A; discriminate.
Qed.

Lemma failed_message_changes_nothing_l pr s o s' c :
  lstep pr s o = (s', c) -> c <> MOk -> s' = s.
Proof.
  intros E Hc. destruct o as [m d a|m d sh iv|e|a|a]; cbn [lstep] in E.
  - refine (run_handler_atomic m s _ s' c _ E Hc). reflexivity.
  - refine (run_handler_atomic m s _ s' c _ E Hc). reflexivity.
  - destruct (pay_due e (lq s) (ldeb s) (lgen s)) as [[q deb] gen]. injection E as <- <-. contradiction.
  - injection E as <- <-. contradiction.
  - destruct (slash_pools (bal (lact s)) (bal (ldeb s)) a) as [ta td]. injection E as <- <-. contradiction.
Qed.

(* AddEscrow sent as a message is refused (AllowEscrowMessages off) or is the
   transaction, step for step *)
Lemma message_equals_transaction_l pr s d a :
  lstep pr s (LAdd true d a) = lstep (mkMP (p_min_transact pr) (p_min_deleg pr) true) s (LAdd false d a) \/
  snd (lstep pr s (LAdd true d a)) = MForbidden.
Proof.
  destruct (p_allow_msgs pr) eqn:A.
  - left. destruct pr as [mt md al]. cbn [p_allow_msgs] in A. subst al. cbn [p_min_transact p_min_deleg lstep].
    unfold run_handler, add_escrow_steps. cbn [run_steps]. unfold chk_allow at 1 2. cbn [p_allow_msgs negb andb].
    destruct (chk_min_deleg _ a s) as [c1 w1]. destruct c1; try reflexivity.
    destruct (chk_deposit d a w1) as [c2 w2]. destruct c2; try reflexivity.
    destruct (chk_min_transact _ d w2) as [c3 w3]. destruct c3; reflexivity.
  - right. cbn [lstep]. unfold run_handler, add_escrow_steps. cbn [run_steps]. unfold chk_allow. rewrite A. reflexivity.
Qed.

Lemma sget_aset_same d v (l : list (N * N)) : sget d (aset d v l) = v.
Proof. unfold sget. rewrite aget_aset_same. reflexivity. Qed.

Lemma add_escrow_debit_credit_l pr s m d a s' :
  lstep pr s (LAdd m d a) = (s', MOk) ->
  sget d (lgen s') + a = sget d (lgen s) /\
  bal (lact s') = bal (lact s) + a /\
  p_min_transact pr <= sget d (lgen s') /\ p_min_deleg pr <= a /\
  exists minted, tsh (lact s') = tsh (lact s) + minted /\
                 sget d (ldels s') = sget d (ldels s) + minted /\
                 ldeb s' = ldeb s /\ lq s' = lq s.
Proof.
  cbn [lstep]. unfold run_handler, add_escrow_steps. cbn [run_steps].
  unfold chk_allow. destruct (m && negb (p_allow_msgs pr)); [destruct m; discriminate|].
  unfold chk_min_deleg. destruct (N.ltb_spec a (p_min_deleg pr)) as [L1|L1]; [destruct m; discriminate|].
  unfold chk_deposit.
  destruct (rcode (deposit (lact s) (sget d (ldels s)) (sget d (lgen s)) a)) eqn:Ed;
    try (destruct m; discriminate).
  pose proof (deposit_mints_at_most_prorata_l (lact s) (sget d (ldels s)) (sget d (lgen s)) a Ed)
    as [D1 [D2 [D3 _]]].
  set (r := deposit (lact s) (sget d (ldels s)) (sget d (lgen s)) a) in *.
  unfold chk_min_transact. cbn [lgen]. rewrite sget_aset_same.
  destruct (N.ltb_spec (rsrc r) (p_min_transact pr)) as [L2|L2]; [destruct m; discriminate|].
  intros E. injection E as <-. cbn [apply_write lgen lact ldeb ldels lq].
  rewrite !sget_aset_same.
  rewrite D1. cbn [bal tsh]. repeat split; try lia. exists (rret r). repeat split; lia.
Qed.

Lemma escrow_handlers_write_after_last_check_l :
  no_check_after_write add_escrow_events = true /\
  no_check_after_write reclaim_escrow_events = true /\
  (forall pr m d a, from_first_write add_escrow_events
                    = from_first_write (events_of (add_escrow_steps pr m d a))) /\
  (forall pr m d s iv, from_first_write reclaim_escrow_events
                       = from_first_write (events_of (reclaim_steps pr m d s iv))).
Proof. repeat split. Qed.

(* non-vacuity / why the order matters: with the escrow account and the
   delegation written before the MinTransactBalance check, a rejected message
   leaves minted shares and pool balance behind while the sender keeps its
   stake *)
Definition bad_add_steps (pr : mparams) (m : bool) (d a : N) : list step :=
  [SCheck (chk_allow pr m); SCheck (chk_min_deleg pr a); SCheck (chk_deposit d a);
   SWrite WEscrow; SWrite (WDeleg d); SCheck (chk_min_transact pr d); SWrite (WGeneral d)].

Definition ex_led : led := mkL [(1, 10000)] (mkPool 5000 5000) (mkPool 0 0) [] [] 1.

Example ex_write_before_check_leaks :
  no_check_after_write (events_of (bad_add_steps (mkMP 1000 0 true) true 1 9500)) = false /\
  run_steps ex_led ex_led (bad_add_steps (mkMP 1000 0 true) true 1 9500)
  = (mkL [(1, 10000)] (mkPool 14500 14500) (mkPool 0 0) [(1, 9500)] [] 1, MBalanceTooLow) /\
  run_steps ex_led ex_led (add_escrow_steps (mkMP 1000 0 true) true 1 9500) = (ex_led, MBalanceTooLow) /\
  lstep (mkMP 1000 0 true) ex_led (LAdd true 1 9000)
  = (mkL [(1, 1000)] (mkPool 14000 14000) (mkPool 0 0) [(1, 9000)] [] 1, MOk).
Proof. vm_compute. repeat split; reflexivity. Qed.
