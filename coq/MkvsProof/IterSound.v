(* The partial-tree iterator (MkvsProof/Iter.v) against the iterator port of
   Mkvs/Iter.v: on a pruning of [t] it either stops at a hash or does exactly
   what do_next / it_next do on [t] (soundness); on the partial tree described
   by a proof whose included set contains every pointer the full walk
   dereferences it does exactly what it does on the full tree (no hash is met). *)
From Verif Require Import Lib.Base Mkvs.Trie Mkvs.TrieProofs Mkvs.Key Mkvs.Overlay
  Mkvs.OverlayProofs Mkvs.Iter Mkvs.IterLift MkvsProof.Model MkvsProof.Sound MkvsProof.Complete
  MkvsProof.Remote MkvsProof.Iter MkvsProof.IterProofs.

Section Snd.
  Variable H : bytes -> bytes.

  Definition arel (a : patom) (b : atom) : Prop :=
    p_state a = a_state b /\ p_depth a = a_depth b /\ p_path a = a_path b /\
    prunes H (p_node a) (a_node b).

  Definition Rel (r3 : res3) (r : found) : Prop :=
    match fst r3 with
    | U3 => True
    | N3 => r = None
    | F3 e stk => exists tstk, r = Some (e, tstk) /\ Forall2 arel stk tstk
    end.

  Lemma rel_push r3 r a b : Rel r3 r -> arel a b -> Rel (push3 r3 a) (push r b).
  Proof.
    destruct r3 as [[e stk| |] R]; unfold Rel; cbn; intros HR Ha; auto.
    - destruct HR as (tstk & -> & F). exists (tstk ++ [b]). split; [reflexivity|].
      apply Forall2_app; auto.
    - subst. reflexivity.
  Qed.

  Lemma rel_orelse r3 r k3 k : Rel r3 r -> Rel (k3 tt) (k tt) -> Rel (orelse3 r3 k3) (orelse r k).
  Proof.
    destruct r3 as [[e stk| |] R]; unfold Rel; cbn; intros HR Hk; auto.
    - destruct HR as (tstk & -> & F). cbn. eauto.
    - subst r. cbn. destruct (k3 tt) as [f R']. exact Hk.
  Qed.

  Lemma rel_node_step tlf3 tl3 tr3 tlf tl tr nd npath key st :
    (forall k, Rel (tlf3 k) (tlf k)) -> (forall k, Rel (tl3 k) (tl k)) -> (forall k, Rel (tr3 k) (tr k)) ->
    Rel (node_step3 tlf3 tl3 tr3 nd npath key st) (node_step tlf tl tr nd npath key st).
  Proof.
    intros Hlf Hl Hr. unfold node_step3, node_step. cbv zeta.
    destruct st; [destruct (_ || _); [apply rel_orelse; [apply Hlf|]|]| | |reflexivity];
      try (destruct (negb _ || _); [apply rel_orelse|]); auto.
  Qed.

  Lemma pdo_sound p : forall t pid d path key st,
    prunes H p t -> Rel (pdo p pid d path key st) (do_next t d path key st).
  Proof.
    induction p as [|h|k v|bl lb lf IHlf l IHl r IHr]; intros t pid d path key st P; cbn [prunes] in P.
    - subst t. reflexivity.
    - exact I.
    - subst t. cbn [pdo do_next]. unfold Rel. destruct (cmp_lt k key); cbn; eauto.
    - destruct t as [|k' v'|lbl olf tl tr]; try contradiction.
      destruct P as (-> & -> & Plf & Pl & Pr). cbn [pdo do_next].
      match goal with |- Rel (let '(f, R) := ?X in _) ?Y => assert (Rel X Y) as HR end.
      { apply rel_node_step.
        - intros k0. destruct lf as [|h|k1 v1|]; cbn [prunes_lf] in Plf; try contradiction.
          + subst olf. reflexivity.
          + exact I.
          + subst olf. unfold Rel. destruct (cmp_lt k1 k0); cbn; [reflexivity|].
            eexists. split; [reflexivity|]. constructor; [|constructor].
            unfold arel. cbn. repeat split; auto.
        - intros k0. apply rel_push; [apply IHl, Pl|]. unfold arel. cbn. repeat split; auto.
        - intros k0. apply rel_push; [apply IHr, Pr|]. unfold arel. cbn. repeat split; auto. }
      destruct (node_step3 _ _ _ _ _ _ _) as [f R]. exact HR.
  Qed.

  Lemma pit_next_sound key pos : forall tpos,
    Forall2 arel pos tpos -> Rel (pit_next key pos) (it_next key tpos).
  Proof.
    induction pos as [|a rem IH]; intros tpos F; inversion F as [|a0 b rem0 trem Hab Frem]; subst.
    - reflexivity.
    - cbn [pit_next it_next]. destruct Hab as (Es & Ed & Ep & Pn).
      pose proof (pdo_sound (p_node a) (a_node b) (p_pid a) (p_depth a) (p_path a) key (p_state a) Pn) as HR.
      rewrite Ed, Ep, Es in HR at 2. unfold Rel in HR.
      destruct (pdo (p_node a) (p_pid a) (p_depth a) (p_path a) key (p_state a)) as [[e stk| |] R]; cbn [fst] in HR.
      + destruct HR as (tstk & -> & F2). unfold Rel. cbn. eexists. split; [reflexivity|].
        apply Forall2_app; auto.
      + rewrite HR. specialize (IH trem Frem). destruct (pit_next key rem) as [f R']. exact IH.
      + exact I.
  Qed.

  Lemma pcollect_sound n : forall cur tcur F,
    Rel cur tcur -> (S n <= F)%nat ->
    fst (pcollect n cur) = None \/ fst (pcollect n cur) = Some (firstn (S n) (it_collect F tcur)).
  Proof.
    induction n as [|m IH]; intros cur tcur F HR HF; destruct F as [|F']; try lia;
      destruct cur as [[e pos| |] R]; unfold Rel in HR; cbn [fst] in HR; cbn [pcollect fst]; auto.
    - destruct HR as (tstk & -> & F2). right. reflexivity.
    - subst tcur. right. reflexivity.
    - destruct HR as (tstk & -> & F2). cbn [it_collect firstn].
      pose proof (pit_next_sound (fst e) pos tstk F2) as HN.
      destruct (IH (pit_next (fst e) pos) (it_next (fst e) tstk) F' HN ltac:(lia)) as [E|E];
        destruct (pcollect m (pit_next (fst e) pos)) as [items R']; cbn [fst] in *; subst items; cbn; auto.
    - subst tcur. right. reflexivity.
  Qed.

  Theorem piter_sound_l p t key n :
    prunes H p t -> wf t -> valid_bytes key ->
    piter p key n = None \/ piter p key n = Some (firstn (S n) (al_seek key (contents t))).
  Proof.
    intros P W V. unfold piter, pseek.
    pose proof (pdo_sound p t [] 0 [] key VBefore P) as HR.
    set (F := (S n + S (length (contents t)))%nat).
    destruct (pcollect_sound n _ _ F HR ltac:(unfold F; lia)) as [E|E]; [auto|].
    right. rewrite E. fold (it_seek t key). rewrite it_collect_seek; auto. unfold F. lia.
  Qed.
End Snd.

Section Cov.
  Variable H : bytes -> bytes.
  Variable ver : N.
  Variable inc : list dir -> bool.

  Definition all_inc (R : list (list dir)) : Prop := forall x, In x R -> inc x = true.

  (* an atom of the walk over the full tree and the same atom over the proof's tree *)
  Definition grel (a a' : patom) : Prop :=
    p_state a = p_state a' /\ p_pid a = p_pid a' /\ p_depth a = p_depth a' /\ p_path a = p_path a' /\
    exists t', p_node a = full t' /\ p_node a' = gprune H ver inc (p_pid a) t'.

  Definition frel (f f' : f3) : Prop :=
    match f, f' with
    | F3 e stk, F3 e' stk' => e = e' /\ Forall2 grel stk stk'
    | N3, N3 => True
    | _, _ => False
    end.

  (* if everything the full-tree walk dereferenced is included, the walk over
     the proof's tree gives the same result *)
  Definition Crel (rf rp : res3) : Prop :=
    all_inc (snd rf) -> snd rp = snd rf /\ frel (fst rf) (fst rp).

  Lemma all_inc_app R R' : all_inc (R ++ R') <-> all_inc R /\ all_inc R'.
  Proof.
    unfold all_inc. split.
    - intros A. split; intros x Hx; apply A, in_or_app; auto.
    - intros [A B] x Hx. apply in_app_or in Hx as [Hx|Hx]; auto.
  Qed.

  (* what a covered result looks like from the side of the proof's tree *)
  Lemma crel_inv rf rp :
    Crel rf rp -> all_inc (snd rf) ->
    match fst rf with
    | F3 e stk => exists stk', rp = (F3 e stk', snd rf) /\ Forall2 grel stk stk'
    | N3 => rp = (N3, snd rf)
    | U3 => False
    end.
  Proof.
    intros C A. destruct (C A) as [ES FR]. destruct rf as [ff Rf], rp as [fp Rp]. cbn [fst snd] in *. subst Rp.
    destruct ff as [e stk| |], fp as [e' stk'| |]; cbn [frel] in FR; try contradiction; [|reflexivity].
    destruct FR as [<- F2]. eauto.
  Qed.

  Lemma crel_push rf rp a a' : Crel rf rp -> grel a a' -> Crel (push3 rf a) (push3 rp a').
  Proof.
    intros C G. destruct rf as [[e stk| |] R]; intros A; pose proof (crel_inv _ _ C A) as I; cbn [fst snd push3] in *.
    - destruct I as (stk' & -> & F2). cbn. auto using Forall2_app.
    - subst rp. cbn. auto.
    - contradiction.
  Qed.

  Lemma crel_orelse rf rp kf kp : Crel rf rp -> Crel (kf tt) (kp tt) -> Crel (orelse3 rf kf) (orelse3 rp kp).
  Proof.
    intros C Ck. destruct rf as [[e stk| |] R]; cbn [orelse3].
    - intros A. destruct (crel_inv _ _ C A) as (stk' & -> & F2). cbn. auto.
    - destruct (kf tt) as [ff Rf] eqn:Ef. intros A. cbn [fst snd] in *.
      apply all_inc_app in A as [A1 A2]. rewrite (crel_inv _ _ C A1). cbn [orelse3 fst snd].
      destruct (Ck A2) as [ES FR]. destruct (kp tt) as [fp Rp]. cbn [fst snd] in *. subst Rp. auto.
    - intros A. destruct (crel_inv _ _ C A).
  Qed.

  Lemma crel_node_step f_lf f_l f_r p_lf p_l p_r nd npath key st :
    (forall k, Crel (f_lf k) (p_lf k)) -> (forall k, Crel (f_l k) (p_l k)) -> (forall k, Crel (f_r k) (p_r k)) ->
    Crel (node_step3 f_lf f_l f_r nd npath key st) (node_step3 p_lf p_l p_r nd npath key st).
  Proof.
    intros Hlf Hl Hr. unfold node_step3. cbv zeta.
    destruct st; [destruct (_ || _); [apply crel_orelse; [apply Hlf|]|]| | |intros _; cbn; auto];
      try (destruct (negb _ || _); [apply crel_orelse|]); auto.
  Qed.

  Lemma gprune_nil pid : gprune H ver inc pid Nil = PNil.
  Proof. cbn. destruct (inc pid); reflexivity. Qed.

  Lemma lfslot_included lf b :
    (match lf with Some _ => b = true | None => True end) -> lfslot H ver b lf = olf_ptree lf.
  Proof.
    unfold lfslot. destruct (ver =? 0); [reflexivity|]. destruct lf as [[k v]|]; intros E.
    - subst b. reflexivity.
    - destruct b; reflexivity.
  Qed.

  Lemma grel_me s pid t d path p' :
    p' = gprune H ver inc pid t -> grel (mkP s pid (full t) d path) (mkP s pid p' d path).
  Proof. intros ->. unfold grel. cbn. eauto 10. Qed.

  Lemma pdo_cov t : forall pid d path key st,
    Crel (pdo (full t) pid d path key st) (pdo (gprune H ver inc pid t) pid d path key st).
  Proof.
    induction t as [|k v|lbl lf l IHl r IHr]; intros pid d path key st.
    - rewrite gprune_nil. intros _. cbn. auto.
    - cbn [full pdo]. intros A. cbn [snd] in A.
      assert (inc pid = true) as Ei by (apply A; left; reflexivity).
      cbn [gprune]. rewrite Ei. cbn [negb pdo fst snd]. split; [reflexivity|].
      destruct (cmp_lt k key); cbn; auto.
    - cbn [full pdo].
      set (nd := d + N.of_nat (length lbl)). set (npath := k_merge path d (pack lbl) (N.of_nat (length lbl))).
      match goal with |- Crel (let '(f, R) := ?X in _) _ => set (XF := X) end.
      (* the walk records the node itself first, so it is included *)
      intros A. assert (inc pid = true) as Ei by (apply A; destruct XF; left; reflexivity).
      assert (gprune H ver inc pid (Node lbl lf l r) =
              PNode (N.of_nat (length lbl)) (pack lbl) (lfslot H ver (inc (pid ++ [DF])) lf)
                    (gprune H ver inc (pid ++ [DL]) l) (gprune H ver inc (pid ++ [DR]) r)) as Eg.
      { cbn [gprune]. now rewrite Ei. }
      rewrite Eg. cbn [pdo]. fold nd npath.
      match goal with |- snd (let '(f, R) := ?Y in _) = _ /\ _ => set (XP := Y) end.
      assert (Crel XF XP) as HC.
      { apply crel_node_step; intros k0.
        - destruct lf as [[k1 v1]|].
          + intros A'. pose proof (lfslot_included (Some (k1, v1)) _ (A' _ (or_introl eq_refl))) as El.
            rewrite El. cbn [olf_ptree fst snd]. split; [reflexivity|].
            destruct (cmp_lt k1 k0); cbn [frel]; auto. split; [reflexivity|]. constructor; [|constructor].
            apply (grel_me _ _ (Node lbl (Some (k1, v1)) l r)). now rewrite Eg, El.
          + rewrite (lfslot_included None _ I). intros _. cbn. auto.
        - apply crel_push; [apply IHl|apply (grel_me _ _ (Node lbl lf l r)); now rewrite Eg].
        - apply crel_push; [apply IHr|apply (grel_me _ _ (Node lbl lf l r)); now rewrite Eg]. }
      destruct XF as [ff Rf], XP as [fp Rp]. cbn [fst snd] in *.
      destruct (HC (fun x Hx => A x (or_intror Hx))) as [ES FR]. cbn [fst snd] in ES. subst Rp. auto.
  Qed.

  Lemma pit_next_cov key pos : forall pos',
    Forall2 grel pos pos' -> Crel (pit_next key pos) (pit_next key pos').
  Proof.
    induction pos as [|a rem IH]; intros pos' F; inversion F as [|a0 a' rem0 rem' G Frem]; subst.
    - intros _. cbn. auto.
    - destruct a as [s1 pid1 n1 d1 pa1], a' as [s2 pid2 n2 d2 pa2]. unfold grel in G. cbn in G.
      destruct G as (<- & <- & <- & <- & t' & -> & ->).
      cbn [pit_next p_node p_pid p_depth p_path p_state].
      pose proof (pdo_cov t' pid1 d1 pa1 key s1) as C.
      destruct (pdo (full t') pid1 d1 pa1 key s1) as [[e stk| |] R]; intros A; cbn [fst snd] in *.
      + destruct (crel_inv _ _ C A) as (stk' & -> & F2). cbn. auto using Forall2_app.
      + specialize (IH rem' Frem). destruct (pit_next key rem) as [ff Rf]. cbn [fst snd] in *.
        apply all_inc_app in A as [A1 A2]. rewrite (crel_inv _ _ C A1).
        destruct (IH A2) as [ES FR]. destruct (pit_next key rem') as [fp Rp]. cbn [fst snd] in *. subst Rp. auto.
      + destruct (crel_inv _ _ C A).
  Qed.

  (* a covered collection is the same on both sides, and meets no hash *)
  Lemma pcollect_cov n : forall cur cur',
    Crel cur cur' -> all_inc (snd (pcollect n cur)) ->
    pcollect n cur' = pcollect n cur /\ fst (pcollect n cur) <> None.
  Proof.
    induction n as [|m IH]; intros cur cur' C A; destruct cur as [[e pos| |] R]; cbn [pcollect] in *.
    - destruct (crel_inv _ _ C A) as (pos' & -> & _). split; [reflexivity|discriminate].
    - rewrite (crel_inv _ _ C A). split; [reflexivity|discriminate].
    - destruct (crel_inv _ _ C A).
    - destruct (pcollect m (pit_next (fst e) pos)) as [items Rn] eqn:En. cbn [snd] in A.
      apply all_inc_app in A as [A1 A2]. destruct (crel_inv _ _ C A1) as (pos' & -> & F2). cbn [pcollect fst snd].
      destruct (IH _ _ (pit_next_cov (fst e) pos pos' F2)) as [Eq NN]; rewrite En in *; [exact A2|].
      rewrite Eq. split; [reflexivity|]. destruct items; [discriminate|contradiction].
    - rewrite (crel_inv _ _ C A). split; [reflexivity|discriminate].
    - destruct (crel_inv _ _ C A).
  Qed.
End Cov.
