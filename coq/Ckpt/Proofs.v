(* Proofs about the chunk model: the key runs of the sequential chunker,
   chunks as prunings (what a chunk carries, that it verifies), depth. *)
From Verif Require Import Lib.Base Mkvs.Trie Mkvs.BitsProofs Mkvs.AlistProofs Mkvs.TrieProofs Mkvs.HashProofs Ckpt.Model.
Local Open Scope nat_scope.

Lemma nil_or_not (t : tree) : t = Nil \/ t <> Nil.
Proof. destruct t; [now left|right; discriminate..]. Qed.

Lemma bump_entries c l : map aentry (bump c l) = map aentry l.
Proof. destruct l as [|[[e f] m] r]; reflexivity. Qed.

Lemma annot_lf_entries A lf : map aentry (annot_lf A lf) = lf_contents lf.
Proof. destruct lf as [[k v]|]; reflexivity. Qed.

Lemma annot_entries t : forall A, map aentry (annot A t) = contents t.
Proof.
  induction t as [|k v|lbl lf l IHl r IHr]; intros A; cbn [annot contents]; try reflexivity.
  rewrite bump_entries, !map_app, annot_lf_entries, IHl, IHr. reflexivity.
Qed.

Lemma annot_length A t : length (annot A t) = length (contents t).
Proof. rewrite <- (annot_entries t A). now rewrite map_length. Qed.

Lemma runs_aux_concat size l : forall cur acc,
  concat (runs_aux size cur acc l) = rev cur ++ map aentry l.
Proof.
  induction l as [|[[e f] m] r IH]; intros cur acc; cbn [runs_aux map].
  - cbn. now rewrite app_nil_r.
  - destruct (N.ltb acc size).
    + rewrite IH. cbn [rev]. now rewrite <- app_assoc.
    + cbn [concat]. rewrite IH. reflexivity.
Qed.

Theorem seq_runs_concat size t : concat (seq_runs size t) = contents t.
Proof.
  unfold seq_runs. rewrite <- (annot_entries t 0%N).
  destruct (annot 0%N t) as [|[[e f] m] r]; [reflexivity|].
  rewrite runs_aux_concat. reflexivity.
Qed.

Lemma runs_aux_nonempty size l : forall e cur acc,
  Forall (fun r => r <> []) (runs_aux size (e :: cur) acc l).
Proof.
  induction l as [|[[e' f] m] r IH]; intros e cur acc; cbn [runs_aux];
    assert (rev (e :: cur) <> []) as Hne by (cbn [rev]; intros E; exact (app_cons_not_nil _ _ _ (eq_sym E))).
  - constructor; [exact Hne|constructor].
  - destruct (N.ltb acc size); [apply IH|]. constructor; [exact Hne|apply IH].
Qed.

Lemma runs_aux_count size l : forall cur acc, length (runs_aux size cur acc l) <= S (length l).
Proof.
  induction l as [|[[e f] m] r IH]; intros cur acc; cbn [runs_aux length]; [lia|].
  destruct (N.ltb acc size).
  - specialize (IH (e :: cur) (acc + m)%N). lia.
  - specialize (IH [e] f). cbn [length]. lia.
Qed.

(* every chunk of a non-empty tree visits at least one new key, so there are
   at most as many chunks as keys; an empty tree has exactly one (empty) chunk *)
Theorem seq_runs_progress size t :
  (contents t = [] -> seq_runs size t = [[]]) /\
  (contents t <> [] ->
     Forall (fun r => r <> []) (seq_runs size t) /\
     length (seq_runs size t) <= length (contents t)).
Proof.
  unfold seq_runs. rewrite <- (annot_entries t 0%N).
  destruct (annot 0%N t) as [|[[e f] m] r]; split; intros Hc; try reflexivity; try easy.
  split; [apply runs_aux_nonempty|].
  cbn [map length]. rewrite map_length. apply runs_aux_count.
Qed.

(* size 0 or 1: one key per chunk *)
Lemma runs_aux_size0 l : forall cur acc size, (size <= 1)%N -> (1 <= acc)%N ->
  (forall e f m, In (e, f, m) l -> (1 <= f)%N) ->
  runs_aux size cur acc l = rev cur :: map (fun a => [aentry a]) l.
Proof.
  induction l as [|[[e f] m] r IH]; intros cur acc size Hs Ha Hf; cbn [runs_aux map]; [reflexivity|].
  destruct (N.ltb_spec acc size); [lia|].
  rewrite IH; auto.
  - apply (Hf e f m). now left.
  - intros e' f' m' Hin. apply (Hf e' f' m'). now right.
Qed.

Section Chunk.
  Variable H : bytes -> bytes.
  Variable S : bytes -> bool.

  Definition selected (t : tree) : Prop := exists k v, In (k, v) (contents t) /\ S k = true.
  Definition selb (t : tree) : bool := existsb (fun e => S (fst e)) (contents t).

  Lemma selb_spec t : selb t = true <-> selected t.
  Proof.
    unfold selb, selected. rewrite existsb_exists. split.
    - intros ([k v] & Hin & Hs). eauto.
    - intros (k & v & Hin & Hs). exists (k, v). auto.
  Qed.

  Lemma selb_node lbl lf l r : selb (Node lbl lf l r) = sel_lf S lf || selb l || selb r.
  Proof.
    unfold selb. cbn [contents]. rewrite !existsb_app, orb_assoc.
    destruct lf as [[k v]|]; cbn; now rewrite ?orb_false_r.
  Qed.

  (* [prune_opt] answers [Some] exactly below a selected key *)
  Lemma selb_prune t : selb t = match prune_opt H S t with Some _ => true | None => false end.
  Proof.
    induction t as [|k v|lbl lf l IHl r IHr]; cbn [prune_opt].
    - reflexivity.
    - unfold selb. cbn. destruct (S k); reflexivity.
    - rewrite selb_node, IHl, IHr.
      destruct (prune_opt H S l), (prune_opt H S r), (sel_lf S lf); reflexivity.
  Qed.

  (* the structural equation: a node with a selected key below is present in
     full, with the chunks of its children; any other subtree is cut *)
  Lemma chunk_of_eq t :
    chunk_of H S t =
    if selb t then
      match t with
      | Nil => PNil
      | Leaf k v => PLeaf k v
      | Node lbl lf l r => PNode lbl lf (chunk_of H S l) (chunk_of H S r)
      end
    else match t with Nil => PNil | _ => PHash (root_hash H t) end.
  Proof.
    rewrite selb_prune. unfold chunk_of. destruct t as [|k v|lbl lf l r]; cbn [prune_opt cut].
    - reflexivity.
    - destruct (S k); reflexivity.
    - destruct (prune_opt H S l), (prune_opt H S r), (sel_lf S lf); reflexivity.
  Qed.

  Lemma chunk_node lbl lf l r :
    selected (Node lbl lf l r) ->
    chunk_of H S (Node lbl lf l r) = PNode lbl lf (chunk_of H S l) (chunk_of H S r).
  Proof. intros Hs. apply selb_spec in Hs. now rewrite chunk_of_eq, Hs. Qed.

  Lemma chunk_sound t : incl (pleaves (chunk_of H S t)) (contents t).
  Proof.
    induction t as [|k v|lbl lf l IHl r IHr]; rewrite chunk_of_eq; destruct (selb _);
      cbn [pleaves contents]; try apply incl_refl; try (intros e []).
    apply incl_app_app; [apply incl_refl|now apply incl_app_app].
  Qed.

  Lemma chunk_complete t k v :
    In (k, v) (contents t) -> S k = true -> In (k, v) (pleaves (chunk_of H S t)).
  Proof.
    induction t as [|k0 v0|lbl lf l IHl r IHr]; intros Hin Hs;
      rewrite chunk_of_eq, (proj2 (selb_spec _)) by (exists k, v; auto); [destruct Hin|exact Hin|].
    cbn [pleaves contents] in *. rewrite !in_app_iff in *. destruct Hin as [Hin|[Hin|Hin]]; auto.
  Qed.

  Lemma chunk_hash t : phash H (chunk_of H S t) = root_hash H t.
  Proof.
    induction t as [|k v|lbl lf l IHl r IHr]; rewrite chunk_of_eq; destruct (selb _); try reflexivity.
    cbn [phash]. now rewrite IHl, IHr.
  Qed.
End Chunk.

Section Chunk2.
  Variable H : bytes -> bytes.

  Inductive sub : tree -> tree -> Prop :=
  | sub_refl t : sub t t
  | sub_l s lbl lf l r : sub s l -> sub s (Node lbl lf l r)
  | sub_r s lbl lf l r : sub s r -> sub s (Node lbl lf l r).

  Lemma sub_contents s t : sub s t -> incl (contents s) (contents t).
  Proof.
    induction 1 as [t|s lbl lf l r _ IH|s lbl lf l r _ IH]; intros e He; auto;
      cbn [contents]; rewrite !in_app_iff; auto.
  Qed.

  Lemma sub_trans a b c : sub a b -> sub b c -> sub a c.
  Proof. intros Hab Hbc. induction Hbc; auto using sub. Qed.

  Lemma sub_wf s t : sub s t -> forall p, wf_at p t -> exists q, wf_at q s.
  Proof.
    induction 1 as [t|s lbl lf l r _ IH|s lbl lf l r _ IH]; intros p W; eauto;
      cbn [wf_at] in W; destruct W as (_ & Wl & Wr & _); eauto.
  Qed.

  (* [inl t s e]: any chunk of [t] that visits a key below [s] carries [e] *)
  Definition inl (t s : tree) (e : entry) : Prop :=
    forall S k v, In (k, v) (contents s) -> S k = true -> In e (pleaves (chunk_of H S t)).

  Lemma inl_mono t s s' e : incl (contents s') (contents s) -> inl t s e -> inl t s' e.
  Proof. intros Hi Hl S k v Hin Hs. eapply Hl; eauto. Qed.

  (* the chunk of a subtree with a visited key is part of the chunk of the tree *)
  Lemma chunk_sub S s t k v : sub s t -> In (k, v) (contents s) -> S k = true ->
    incl (pleaves (chunk_of H S s)) (pleaves (chunk_of H S t)).
  Proof.
    intros Hsub Hin HS. induction Hsub as [t|s lbl lf l r Hs IH|s lbl lf l r Hs IH]; [apply incl_refl| |].
    - rewrite (chunk_node H S lbl lf l r)
        by (exists k, v; split; [exact (sub_contents _ _ (sub_l _ lbl lf l r Hs) _ Hin)|exact HS]).
      apply incl_appr, incl_appl, IH, Hin.
    - rewrite (chunk_node H S lbl lf l r)
        by (exists k, v; split; [exact (sub_contents _ _ (sub_r _ lbl lf l r Hs) _ Hin)|exact HS]).
      apply incl_appr, incl_appr, IH, Hin.
  Qed.

  (* so the inline leaf of every ancestor-or-self of a visited key is carried *)
  Lemma inl_lf lbl lf l r t e :
    sub (Node lbl lf l r) t -> In e (lf_contents lf) -> inl t (Node lbl lf l r) e.
  Proof.
    intros Hsub He S k v Hin HS. apply (chunk_sub S _ _ k v Hsub Hin HS).
    rewrite chunk_node by (exists k, v; auto). cbn [pleaves]. apply in_or_app. now left.
  Qed.

  Fixpoint tdepth (t : tree) : nat :=
    match t with
    | Node _ _ l r => Datatypes.S (Nat.max (tdepth l) (tdepth r))
    | _ => 0
    end.

  Lemma chunk_depth S t : pdepth (chunk_of H S t) <= tdepth t.
  Proof.
    induction t as [|k v|lbl lf l IHl r IHr]; rewrite chunk_of_eq; destruct (selb _ _);
      cbn [pdepth tdepth]; lia.
  Qed.

  Theorem chunk_verifies S t :
    tdepth t <= MAX_PROOF_DEPTH -> verify H (root_hash H t) (chunk_of H S t) = true.
  Proof.
    intros Hd. unfold verify. rewrite chunk_hash, bytes_eqb_refl, andb_true_r.
    apply Nat.leb_le. pose proof (chunk_depth S t). lia.
  Qed.
End Chunk2.
