(* C13: pathbadger's path-keyed internal write log (model in PathLog.v), from
   the batch to what is served.  [resolve] is [resolve_with] of
   PathStoreProofs.v over a store list.  The annotated log of a batch resolves
   against standalone copies of the end root's leaves when every logged key has
   pointer class 0 ([ptr_class]) and fails when an inserted leaf has class 1 or
   2; the two refuted lemmas are batches with such a leaf.  [chain_log_correct_lem] joins the storage model
   (what is served) with Proofs.v (what the served log does). *)
From Verif Require Import Lib.Base WriteLog.Model WriteLog.MapFacts WriteLog.Proofs WriteLog.PathLog
  WriteLog.PathStore WriteLog.PathStoreProofs.

(* the node GetWriteLog reads for an insertion entry: [view_at] over a store list *)
Definition node_at (st : nstore) (rootnode : option snode) (endv : N) (p : dbkey) : option snode :=
  if dbkey_eqb p (endv, INDEX_ROOT) then rootnode else nget p st.

Lemma pathbadger_log_roundtrip_lem st rootnode endv (al : list aentry) :
  (forall k v p, In (k, Some (v, p)) al ->
     exists n, node_at st rootnode endv p = Some n /\ leaf_from_db n = (k, Some v)) ->
  resolve st rootnode endv (make_internal al) = Some (strip al).
Proof. rewrite resolve_with_nget. apply resolve_with_roundtrip. Qed.

Lemma nget_end_store pos_of (new : kvmap) k v :
  NoDup (map pos_of (map fst new)) -> get k new = Some v ->
  nget (pos_of k) (end_store pos_of new) = Some (SLeaf k v).
Proof.
  induction new as [|[k0 v0] r IH]; intros Hnd Hg; cbn [get] in Hg; [discriminate|].
  cbn [map fst] in Hnd. inversion Hnd as [|? ? Hnotin Hnd']; subst.
  cbn [end_store map fst snd nget].
  destruct (bytes_eqb_spec k0 k) as [->|_].
  - injection Hg as ->. rewrite dbkey_eqb_refl. reflexivity.
  - destruct (dbkey_eqb_spec (pos_of k0) (pos_of k)) as [Heq|_]; [|apply IH; assumption].
    exfalso. apply Hnotin. rewrite Heq.
    apply in_map. apply lookup_in in Hg. apply (in_map fst) in Hg. exact Hg.
Qed.

Lemma nget_none p (st : nstore) : Forall (fun e => fst e <> p) st -> nget p st = None.
Proof.
  induction 1 as [|[q n] r Hq _ IH]; cbn [nget]; [reflexivity|].
  destruct (dbkey_eqb_spec q p); [contradiction|exact IH].
Qed.

Lemma strip_annotate startv pos_of old ops :
  strip (annotate startv pos_of old ops) = commit_writelog (run_batch old ops).
Proof.
  unfold strip, annotate. rewrite map_map.
  induction (commit_writelog (run_batch old ops)) as [|[k [v|]] r IH]; cbn [map fst snd];
    [reflexivity| |]; rewrite IH; reflexivity.
Qed.

Lemma in_annotate startv pos_of old ops k v p :
  In (k, Some (v, p)) (annotate startv pos_of old ops) ->
  In (k, Some v) (commit_writelog (run_batch old ops)) /\
  p = (if ptr_invalid old ops k then invalid_ptr
       else if ptr_old_root old ops k then (startv, INDEX_ROOT) else pos_of k).
Proof.
  unfold annotate. intros H. apply in_map_iff in H as [[k0 [v0|]] [Heq Hin]]; cbn [fst snd] in Heq.
  - injection Heq as -> -> <-. split; [exact Hin|reflexivity].
  - discriminate.
Qed.

Lemma pathbadger_served_lem startv pos_of rootnode endv old ops :
  let new := contents (run_batch old ops) in
  NoDup (map pos_of (map fst new)) ->
  Forall (fun k => pos_of k <> (endv, INDEX_ROOT)) (map fst new) ->
  (forall k, In k (map fst (commit_writelog (run_batch old ops))) -> ptr_class old ops k = 0) ->
  pb_served startv pos_of rootnode endv old ops = Some (commit_writelog (run_batch old ops)).
Proof.
  cbv zeta. intros Hnd Hroot Hvalid. unfold pb_served.
  rewrite <- (strip_annotate startv pos_of old ops). apply pathbadger_log_roundtrip_lem.
  intros k v p Hin. apply in_annotate in Hin as [Hin ->].
  assert (Hc : ptr_class old ops k = 0) by (apply Hvalid; apply (in_map fst) in Hin; exact Hin).
  unfold ptr_class in Hc.
  destruct (ptr_invalid old ops k); [discriminate|]. destruct (ptr_old_root old ops k); [discriminate|].
  destruct (writelog_entries_sound_lem old ops k (Some v) Hin) as [Hg _].
  exists (SLeaf k v). split; [|reflexivity]. unfold node_at.
  assert (Hk : In k (map fst (contents (run_batch old ops)))).
  { apply lookup_in in Hg. apply (in_map fst) in Hg. exact Hg. }
  rewrite Forall_forall in Hroot. specialize (Hroot k Hk).
  destruct (dbkey_eqb_spec (pos_of k) (endv, INDEX_ROOT)); [contradiction|].
  apply nget_end_store; assumption.
Qed.

Lemma pathbadger_unservable_lem startv pos_of rootnode endv old ops k v :
  let new := contents (run_batch old ops) in
  Forall (fun k => pos_of k <> invalid_ptr /\ pos_of k <> (startv, INDEX_ROOT)) (map fst new) ->
  endv <> VERSION_INVALID -> startv <> endv ->
  In (k, Some v) (commit_writelog (run_batch old ops)) -> ptr_class old ops k <> 0 ->
  pb_served startv pos_of rootnode endv old ops = None.
Proof.
  cbv zeta. intros Hinv Hendv Hse Hin Hp. unfold pb_served.
  set (p := if ptr_invalid old ops k then invalid_ptr else (startv, INDEX_ROOT)).
  rewrite resolve_with_nget. apply (resolve_with_unresolvable _ _ _ _ p).
  - unfold make_internal, annotate. rewrite map_map. apply in_map_iff.
    exists (k, Some v). cbn [fst snd]. split; [|exact Hin]. unfold p, ptr_class in *.
    destruct (ptr_invalid old ops k); [reflexivity|].
    destruct (ptr_old_root old ops k); [reflexivity|congruence].
  - unfold view_at.
    destruct (dbkey_eqb_spec p (endv, INDEX_ROOT)) as [E|_].
    { unfold p, invalid_ptr in E. destruct (ptr_invalid old ops k); injection E; congruence. }
    apply nget_none. unfold end_store. apply Forall_map. apply Forall_map in Hinv.
    eapply Forall_impl; [|exact Hinv]. intros e [H1 H2]. cbn [fst].
    unfold p. destruct (ptr_invalid old ops k); assumption.
Qed.

(* The known finding as a refuted lemma of the port:
   "pathbadger can serve the write log of every committed batch" is false:
   contents {"c", "ca"} (the leaf of "c" is embedded in the internal node
   above "ca"), batch = Insert("c", "") with the value it already has. *)
Definition rf_old : kvmap := [([99], []); ([99; 97], [])].
Definition rf_ops : list op := [OInsert [99] []].
Definition rf_pos (k : bytes) : dbkey := (2, N.of_nat (length k)).
Definition rf_root : option snode := Some (SInternal (Some ([99], []))).

Lemma pathbadger_log_unservable_refuted_lem :
  exists (pos_of : bytes -> dbkey) (rootnode : option snode) (endv : N) (old : kvmap) (ops : list op),
    sorted old /\
    NoDup (map pos_of (map fst (contents (run_batch old ops)))) /\
    Forall (fun k => pos_of k <> invalid_ptr /\ pos_of k <> (endv, INDEX_ROOT))
           (map fst (contents (run_batch old ops))) /\
    commit_writelog (run_batch old ops) = [([99], Some [])] /\
    apply_writelog old (commit_writelog (run_batch old ops)) = contents (run_batch old ops) /\
    pb_served 2 pos_of rootnode endv old ops = None.
Proof.
  exists rf_pos, rf_root, 3, rf_old, rf_ops.
  split; [cbn; repeat split; repeat constructor|].
  split; [vm_compute; repeat constructor; cbn; intuition discriminate|].
  split; [vm_compute; repeat constructor; discriminate|].
  split; [vm_compute; reflexivity|].
  split; vm_compute; reflexivity.
Qed.

(* the same batch is servable as soon as the leaf is not embedded *)
Example rf_standalone_served :
  pb_served 2 rf_pos (Some (SInternal None)) 3 [([99], []); ([100], [])] rf_ops = Some [([99], Some [])].
Proof. vm_compute. reflexivity. Qed.

(* second shape of the same defect: the tree is the single leaf "c" (it is the
   root node); Insert("c","") with the value it has: the log keeps the root
   slot of the start version (2, 0), GetWriteLog at version 3 looks it up among
   the ordinary node slots *)
Lemma pathbadger_log_old_root_slot_refuted_lem :
  ptr_class [([99], [])] rf_ops [99] = 2 /\
  commit_writelog (run_batch [([99], [])] rf_ops) = [([99], Some [])] /\
  make_internal (annotate 2 rf_pos [([99], [])] rf_ops) = [IInsert (2, 0)] /\
  pb_served 2 rf_pos (Some (SLeaf [99] [])) 3 [([99], [])] rf_ops = None /\
  (* the twin without the re-insertion has nothing to serve and nothing to fail on *)
  commit_writelog (run_batch [([99], [])] []) = [].
Proof. repeat split; vm_compute; reflexivity. Qed.

Lemma chain_log_correct_lem db b t old ops startv pos_of :
  sorted old ->
  is_finalized (d_fin db) (fst (b_end b)) = false ->
  has_rid db (b_end b) = false ->
  follows_v (b_start b) (b_end b) = true ->
  b_log b = make_internal (annotate startv pos_of old ops) ->
  commit_writelog (run_batch old ops) <> [] ->
  (forall k v p, In (k, Some (v, p)) (annotate startv pos_of old ops) ->
     exists n, view_at (view_seq0 db b) (b_root b) (fst (b_end b)) p = Some n /\
               leaf_from_db n = (k, Some v)) ->
  Forall (later_call (fst (b_end b))) t ->
  exists wl, get_writelog (run_calls (fst (commit db 0 b)) t) (b_start b) (b_end b) = GServed wl /\
             apply_writelog old wl = contents (run_batch old ops).
Proof.
  intros Hs Hfin Hhas Hfol Hlog Hne Hok Ht.
  exists (strip (annotate startv pos_of old ops)). split.
  - apply chain_log_served_lem; try assumption.
    intros E. apply Hne. rewrite <- (strip_annotate startv pos_of old ops), E. reflexivity.
  - rewrite strip_annotate. apply writelog_correct_lem. exact Hs.
Qed.
