(* What the model's queries and primitive state updates do: the facts through which
   the proofs use Model.v without unfolding it. *)
From Verif Require Import Lib.Base Txpool.Model.

Lemma nmem_In i l : nmem i l = true <-> In i l.
Proof.
  unfold nmem. rewrite existsb_exists. split.
  - intros [x [Hx He]]. apply N.eqb_eq in He. subst. exact Hx.
  - intros H. exists i. split; [exact H|apply N.eqb_refl].
Qed.

Lemma In_nremove j i l : In j (nremove i l) <-> In j l /\ j <> i.
Proof. unfold nremove. rewrite filter_In, negb_true_iff, N.eqb_neq. reflexivity. Qed.

Lemma In_del_id u i l : In u (del_id i l) <-> In u l /\ tid u <> i.
Proof. unfold del_id. rewrite filter_In, negb_true_iff, N.eqb_neq. reflexivity. Qed.

Lemma find_id_some i l t : find_id i l = Some t -> In t l /\ tid t = i.
Proof. intros H. apply find_some in H. rewrite N.eqb_eq in H. exact H. Qed.

Lemma find_id_none i l : find_id i l = None -> forall t, In t l -> tid t <> i.
Proof. intros H t Ht. apply N.eqb_neq. exact (find_none _ l H t Ht). Qed.

Lemma NoDup_map_inj {A B} (f : A -> B) l x y :
  NoDup (map f l) -> In x l -> In y l -> f x = f y -> x = y.
Proof.
  induction l as [|z r IH]; cbn [map]; intros Hnd Hx Hy He; [contradiction|].
  inversion Hnd as [|? ? Hnot Hnd']; subst.
  destruct Hx as [->|Hx], Hy as [->|Hy]; [reflexivity| | |apply IH; assumption]; exfalso; apply Hnot.
  - rewrite He. apply in_map. exact Hy.
  - rewrite <- He. apply in_map. exact Hx.
Qed.

Lemma find_id_unique i l t :
  NoDup (map tid l) -> In t l -> tid t = i -> find_id i l = Some t.
Proof.
  intros Hnd Ht He. destruct (find_id i l) as [u|] eqn:E.
  - apply find_id_some in E as [Hu Hi]. f_equal. apply (NoDup_map_inj tid l); congruence.
  - destruct (find_id_none i l E t Ht He).
Qed.

Lemma get_seq_some a q l t :
  get_seq a q l = Some t -> In t l /\ tsender t = a /\ tseq t = q.
Proof.
  intros H. apply find_some in H. rewrite andb_true_iff, !N.eqb_eq in H. exact H.
Qed.

Lemma get_seq_none a q l :
  get_seq a q l = None -> forall t, In t l -> tsender t = a -> tseq t = q -> False.
Proof.
  intros H t Ht Ha Hq. apply (find_none _ l H) in Ht.
  cbn in Ht. rewrite Ha, Hq, !N.eqb_refl in Ht. discriminate.
Qed.

Lemma has_sender_true a l : has_sender a l = true <-> exists t, In t l /\ tsender t = a.
Proof.
  unfold has_sender. rewrite existsb_exists. split; intros [t [H1 H2]]; exists t; split; auto.
  - apply N.eqb_eq. exact H2.
  - apply N.eqb_eq in H2. exact H2.
Qed.

Lemma min_seq_none l : min_seq l = None -> l = [].
Proof.
  destruct l as [|u r]; [reflexivity|]. cbn [min_seq].
  destruct (min_seq r); [destruct (tseq u <=? tseq t)|]; discriminate.
Qed.

Lemma min_seq_some l m : min_seq l = Some m -> In m l /\ forall t, In t l -> tseq m <= tseq t.
Proof.
  revert m. induction l as [|u r IH]; cbn [min_seq]; intros m H; [discriminate|].
  destruct (min_seq r) as [m'|] eqn:E.
  - destruct (IH m' eq_refl) as [Hin Hle].
    destruct (tseq u <=? tseq m') eqn:E2; injection H as <-.
    + split; [left; reflexivity|]. intros t [->|Ht]; [lia|]. specialize (Hle t Ht). lia.
    + split; [right; exact Hin|]. intros t [->|Ht]; [lia|]. apply Hle. exact Ht.
  - injection H as <-. rewrite (min_seq_none r E).
    split; [left; reflexivity|]. intros t [->|[]]. lia.
Qed.

Lemma head_some a l h :
  head a l = Some h -> In h l /\ tsender h = a /\ forall t, In t l -> tsender t = a -> tseq h <= tseq t.
Proof.
  unfold head, sender_txs. intros H. apply min_seq_some in H as [H1 H2].
  rewrite filter_In, N.eqb_eq in H1. split; [apply H1|split; [apply H1|]].
  intros t Ht Ha. apply H2. rewrite filter_In, N.eqb_eq. auto.
Qed.

Lemma head_none a l : head a l = None -> forall t, In t l -> tsender t <> a.
Proof.
  unfold head, sender_txs. intros H t Ht Ha. apply min_seq_none in H.
  assert (In t (filter (fun t0 => tsender t0 =? a) l)) as Hin by (rewrite filter_In, N.eqb_eq; auto).
  rewrite H in Hin. exact Hin.
Qed.

Lemma set_maxh_same s : set_maxh s (maxh s) = s.
Proof. destruct s. reflexivity. Qed.

Lemma ready_iff s t :
  is_ready s t = true <->
  match aget (tsender t) (sched s) with
  | Some last => last <> U64MAX /\ tseq t = last + 1
  | None => aget (tsender t) (senders s) = Some (tseq t)
  end.
Proof.
  unfold is_ready. destruct (aget (tsender t) (sched s)) as [last|].
  - destruct (last =? U64MAX) eqn:E; [|lia]. split; [discriminate|]. intros [H _]. lia.
  - destruct (aget (tsender t) (senders s)) as [c|]; [|split; discriminate].
    rewrite N.eqb_eq. split; [intros ->; reflexivity|intros [= ->]; reflexivity].
Qed.

Lemma is_ready_ext s1 s2 t :
  aget (tsender t) (sched s1) = aget (tsender t) (sched s2) ->
  aget (tsender t) (senders s1) = aget (tsender t) (senders s2) -> is_ready s1 t = is_ready s2 t.
Proof. intros H1 H2. unfold is_ready. rewrite H1, H2. reflexivity. Qed.

Section Drop.
  Variables (P : tx -> bool) (a : N) (s : st).
  Let s' := drop P a s.
  Let gonep := fun t => (tsender t =? a) && P t.

  Lemma drop_txs : txs s' = filter (fun t => negb (gonep t)) (txs s).
  Proof. unfold s', drop. destruct (_ && _); reflexivity. Qed.

  Lemma drop_sched : sched s' = sched s.
  Proof. unfold s', drop. destruct (_ && _); reflexivity. Qed.

  Lemma drop_cap : cap s' = cap s.
  Proof. unfold s', drop. destruct (_ && _); reflexivity. Qed.

  Lemma drop_maxh : maxh s' = filter (fun j => negb (nmem j (map tid (filter gonep (txs s))))) (maxh s).
  Proof. unfold s', drop. destruct (_ && _); reflexivity. Qed.

  Lemma drop_In_txs t : In t (txs s') <-> In t (txs s) /\ gonep t = false.
  Proof. rewrite drop_txs, filter_In, negb_true_iff. reflexivity. Qed.

  (* the entry of a sender is deleted only with its last transaction *)
  Lemma drop_senders t : In t (txs s') -> aget (tsender t) (senders s') = aget (tsender t) (senders s).
  Proof.
    intros Ht. rewrite drop_txs in Ht. unfold s', drop. cbv zeta.
    destruct (has_sender a (txs s) && negb (has_sender a _)) eqn:E; [|reflexivity].
    apply andb_true_iff in E as [_ E]. apply negb_true_iff in E.
    apply aget_adel_other. intros Ha. rewrite (proj2 (has_sender_true a _)) in E by eauto. discriminate.
  Qed.

  Lemma drop_ready t : In t (txs s') -> is_ready s' t = is_ready s t.
  Proof. intros Ht. apply is_ready_ext; [rewrite drop_sched; reflexivity|apply drop_senders; exact Ht]. Qed.

  Lemma drop_In_maxh j : In j (maxh s') <->
    In j (maxh s) /\ forall u, In u (txs s) -> tid u = j -> gonep u = false.
  Proof.
    rewrite drop_maxh, filter_In, negb_true_iff, <- not_true_iff_false, nmem_In, in_map_iff.
    split; intros [H1 H2]; (split; [exact H1|]).
    - intros u Hu He. apply not_true_iff_false. intros Hg. apply H2. exists u. rewrite filter_In. auto.
    - intros [u [He Hu]]. apply filter_In in Hu as [Hu Hg]. rewrite (H2 u Hu He) in Hg. discriminate.
  Qed.

  Lemma drop_mem t : NoDup (map tid (txs s)) -> In t (txs s') ->
    nmem (tid t) (maxh s') = nmem (tid t) (maxh s).
  Proof.
    intros Hnd Ht. apply drop_In_txs in Ht as [Ht Hg].
    apply eq_iff_eq_true. rewrite !nmem_In, drop_In_maxh. split; [tauto|]. intros H. split; [exact H|].
    intros u Hu He. rewrite (NoDup_map_inj tid _ u t Hnd Hu Ht He). exact Hg.
  Qed.
End Drop.

(* first step of [b_add]: the entry of a sender that has none is created *)
Definition entry_seq (a q : N) (s : st) : N :=
  match aget a (senders s) with Some c => c | None => q end.
Definition with_entry (a q : N) (s : st) : st :=
  match aget a (senders s) with Some _ => s | None => set_senders s (aset a q (senders s)) end.

Lemma with_entry_txs a q s : txs (with_entry a q s) = txs s.
Proof. unfold with_entry. destruct (aget a (senders s)); reflexivity. Qed.
Lemma with_entry_sched a q s : sched (with_entry a q s) = sched s.
Proof. unfold with_entry. destruct (aget a (senders s)); reflexivity. Qed.
Lemma with_entry_cap a q s : cap (with_entry a q s) = cap s.
Proof. unfold with_entry. destruct (aget a (senders s)); reflexivity. Qed.

Lemma with_entry_seq a q s : aget a (senders (with_entry a q s)) = Some (entry_seq a q s).
Proof.
  unfold with_entry, entry_seq. destruct (aget a (senders s)) eqn:E; [exact E|apply aget_aset_same].
Qed.

Lemma insert_txs t s : txs (b_insert t s) = t :: txs s.
Proof. unfold b_insert. destruct (is_ready s t); reflexivity. Qed.
Lemma insert_sched t s : sched (b_insert t s) = sched s.
Proof. unfold b_insert. destruct (is_ready s t); reflexivity. Qed.
Lemma insert_cap t s : cap (b_insert t s) = cap s.
Proof. unfold b_insert. destruct (is_ready s t); reflexivity. Qed.

Lemma replace_txs t old s : txs (b_replace t old s) = t :: del_id (tid old) (txs s).
Proof. unfold b_replace. destruct (nmem _ _); reflexivity. Qed.
Lemma replace_sched t old s : sched (b_replace t old s) = sched s.
Proof. unfold b_replace. destruct (nmem _ _); reflexivity. Qed.
Lemma replace_cap t old s : cap (b_replace t old s) = cap s.
Proof. unfold b_replace. destruct (nmem _ _); reflexivity. Qed.

Section AddSpec.
  Variables (t : tx) (q e : N) (s : st).
  Let c := entry_seq (tsender t) q s.
  Let s1 := with_entry (tsender t) q s.
  Let full := cap s < N.of_nat (length (t :: txs s)).

  Inductive add_spec : code * st -> Prop :=
  | AddDup : find_id (tid t) (txs s) <> None -> add_spec (CDupId, s)
  | AddExpired : tseq t < c -> add_spec (CExpired, s1)
  | AddReplUnder old :
      get_seq (tsender t) (tseq t) (txs s) = Some old -> tprio t <= tprio old ->
      add_spec (CReplUnderpriced, s1)
  | AddReplace old :
      find_id (tid t) (txs s) = None -> get_seq (tsender t) (tseq t) (txs s) = Some old ->
      tprio old < tprio t -> add_spec (COk, b_replace t old s1)
  | AddInsert :
      find_id (tid t) (txs s) = None -> c <= tseq t -> get_seq (tsender t) (tseq t) (txs s) = None ->
      ~ full -> add_spec (COk, b_insert t s1)
  | AddBad : get_seq (tsender t) (tseq t) (txs s) = None -> add_spec (CBadChoice, s)
  | AddEvict low :
      find_id (tid t) (txs s) = None -> c <= tseq t -> get_seq (tsender t) (tseq t) (txs s) = None ->
      full -> find_id e (t :: txs s) = Some low -> (forall u, In u (t :: txs s) -> tprio low <= tprio u) ->
      add_spec (if tid low =? tid t then CUnderpriced else COk, b_remove low (b_insert t s1)).

  Lemma b_add_spec : add_spec (b_add t q e s).
  Proof.
    unfold b_add. destruct (find_id (tid t) (txs s)) eqn:Hid; [apply AddDup; rewrite Hid; discriminate|].
    replace (match aget (tsender t) (senders s) with
             | Some c0 => (c0, s)
             | None => (q, set_senders s (aset (tsender t) q (senders s)))
             end) with (c, s1) by (unfold c, s1, entry_seq, with_entry; destruct (aget _ _); reflexivity).
    destruct (tseq t <? c) eqn:Hexp; [apply AddExpired; lia|].
    rewrite (with_entry_txs _ _ _ : txs s1 = txs s).
    destruct (get_seq (tsender t) (tseq t) (txs s)) as [old|] eqn:Hslot.
    - destruct (tprio t <=? tprio old) eqn:Hp; [apply (AddReplUnder old)|apply AddReplace]; auto; lia.
    - rewrite insert_txs, insert_cap, (with_entry_txs _ _ _ : txs s1 = txs s), (with_entry_cap _ _ _ : cap s1 = cap s).
      destruct (N.of_nat (length (t :: txs s)) <=? cap s) eqn:Hcap.
      { apply AddInsert; auto; unfold full; lia. }
      destruct (find_id e (t :: txs s)) as [low|] eqn:Hlow; [|apply AddBad; exact Hslot].
      destruct (forallb _ _) eqn:Hmin; [|apply AddBad; exact Hslot].
      apply AddEvict; auto; [lia|unfold full; lia|].
      intros u Hu. rewrite forallb_forall in Hmin. specialize (Hmin u Hu). lia.
  Qed.
End AddSpec.

Lemma add_sched t q e s : sched (snd (b_add t q e s)) = sched s.
Proof.
  destruct (b_add_spec t q e s); cbn [snd]; unfold b_remove;
    rewrite ?drop_sched, ?insert_sched, ?replace_sched, ?with_entry_sched; reflexivity.
Qed.

Lemma add_cap t q e s : cap (snd (b_add t q e s)) = cap s.
Proof.
  destruct (b_add_spec t q e s); cbn [snd]; unfold b_remove;
    rewrite ?drop_cap, ?insert_cap, ?replace_cap, ?with_entry_cap; reflexivity.
Qed.

Lemma schedule_one_some STOP i s s1 : b_schedule_one STOP i s = Some s1 ->
  exists t, nmem i (maxh s) = true /\ find_id i (txs s) = Some t /\
    s1 = set_sched (set_maxh s (match b_next STOP t s with
                                | Some n => tid n :: nremove i (maxh s)
                                | None => nremove i (maxh s)
                                end)) (aset (tsender t) (tseq t) (sched s)).
Proof.
  unfold b_schedule_one. destruct (nmem i (maxh s)); [|discriminate]. cbn [negb].
  destruct (find_id i (txs s)) as [t|]; [|discriminate].
  destruct (max_prio_in _ _); [|discriminate]. cbn [negb]. intros [= <-]. exists t. auto.
Qed.

Lemma schedule_preserves STOP (P : st -> Prop) :
  (forall i s s1, P s -> b_schedule_one STOP i s = Some s1 -> P s1) ->
  forall lim picks s, P s -> P (snd (b_schedule STOP lim picks s)).
Proof.
  intros Hone lim picks s HP. unfold b_schedule. destruct (_ <? _); [exact HP|].
  destruct (b_schedule_picks STOP picks s) as [s1|] eqn:E; [|exact HP].
  destruct (_ || _); [|exact HP]. cbn [snd].
  revert s HP E. induction picks as [|i r IH]; cbn [b_schedule_picks]; intros s HP E.
  - injection E as <-. exact HP.
  - destruct (b_schedule_one STOP i s) as [s2|] eqn:E1; [|discriminate].
    exact (IH s2 (Hone i s s2 HP E1) E).
Qed.

Lemma restore_fields a q s :
  txs (b_restore a q s) = txs s /\ senders (b_restore a q s) = senders s /\
  sched (b_restore a q s) = sched s /\ cap (b_restore a q s) = cap s.
Proof.
  unfold b_restore. destruct (aget a (senders s)); [|auto].
  destruct (head a (txs s)); [|auto]. destruct (_ && _); [auto|].
  destruct (if q <? U64MAX then _ else _); destruct (if tseq t =? n then _ else _); auto.
Qed.

Lemma forward_sched a q s : sched (b_forward a q s) = sched s.
Proof.
  unfold b_forward. destruct (aget a (senders s)); [|reflexivity]. destruct (q <=? n); [reflexivity|].
  destruct (head a _) as [f|]; [destruct (negb _ && _)|]; cbn [sched set_maxh]; rewrite drop_sched; reflexivity.
Qed.

Lemma used_sched i s : sched (b_used i s) = sched s.
Proof.
  unfold b_used, b_remove. destruct (find_id i (txs s)); [|reflexivity].
  destruct (_ <? _); rewrite ?forward_sched, drop_sched; reflexivity.
Qed.

Lemma b_step_sched STOP s o :
  match o with OSchedule _ _ | OReset => True | _ => sched (snd (b_step STOP s o)) = sched s end.
Proof.
  destruct o; cbn [b_step snd]; auto using add_sched, used_sched, forward_sched.
Qed.
