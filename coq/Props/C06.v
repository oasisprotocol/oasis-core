From Verif Require Import Lib.Base NodeDB.Spec NodeDB.Badger NodeDB.BadgerProofs NodeDB.SpecProofs NodeDB.Examples NodeDB.PathBadger NodeDB.PathBadgerProofs NodeDB.StructProofs NodeDB.Gc NodeDB.GcProofs.

Theorem finalized_readable :
  forall h s v rid c,
    last_geb s v = true -> s_read s v rid = Some c ->
    d_earliest (s_run s h) <= v -> s_read (s_run s h) v rid = Some c.
Proof. exact s_finalized_stable. Qed.
Print Assumptions finalized_readable.

Theorem non_finalized_absent_or_exact :
  forall h s v rid,
    last_geb s v = true ->
    s_read (s_run s h) v rid = None \/ s_read (s_run s h) v rid = s_read s v rid.
Proof. exact s_absent_or_exact. Qed.
Print Assumptions non_finalized_absent_or_exact.

Theorem prune_only_earliest_finalized_not_last :
  forall s v s',
    s_prune s v = (EOk, s') ->
    exists l, d_last s = Some l /\ v = d_earliest s /\ v < l /\
              d_earliest s' = v + 1 /\ d_last s' = Some l /\
              (forall u, u <> v -> roots_at s' u = roots_at s u) /\ roots_at s' v = [].
Proof. exact s_prune_ok. Qed.
Print Assumptions prune_only_earliest_finalized_not_last.

Theorem badger_refines_spec :
  forall h d, inv d -> ok_run d h = true ->
    b_meta (b_run d h) = s_run (b_meta d) h /\ inv (b_run d h).
Proof. exact b_run_refines. Qed.
Print Assumptions badger_refines_spec.

Theorem badger_step_refines_spec :
  forall d o, inv d -> safe_step d o = true ->
    fst (b_step d o) = fst (s_step (b_meta d) o) /\
    b_meta (snd (b_step d o)) = snd (s_step (b_meta d) o).
Proof. exact b_step_refines. Qed.
Print Assumptions badger_step_refines_spec.

Theorem badger_finalized_readable :
  forall h, ok_run bdb0 h = true ->
    forall v rid, s_has (b_meta (b_run bdb0 h)) v rid = true ->
      b_status (b_run bdb0 h) v rid = 1 /\
      b_read (b_run bdb0 h) v rid = s_read (s_run sdb0 h) v rid.
Proof. exact (fun h => b_run_readable h bdb0 inv0). Qed.
Print Assumptions badger_finalized_readable.

Theorem badger_never_node_missing :
  forall h d k, inv d -> ok_run d h = true ->
    forall i o, nth_error (b_observe d k h) i = Some o ->
      exists e c ea la rs, o = ((e, c), (ea, la), rs) /\
        forall p hs st, In (p, (hs, st)) rs -> st = (if hs then 1 else 0).
Proof. exact b_observe_exact. Qed.
Print Assumptions badger_never_node_missing.

Theorem finalized_readable_refuted :
  exists h, accepted bdb0 h = true /\
    exists v rid, unreadable_finalized (b_run bdb0 h) v rid = true.
Proof. exact (unreadable_witness h_prune_shared 2 4 (proj1 prune_shared_refutes) (proj1 (proj2 prune_shared_refutes))). Qed.
Print Assumptions finalized_readable_refuted.

Theorem finalized_readable_refuted_at_finalize :
  exists h, accepted bdb0 h = true /\
    exists v rid, unreadable_finalized (b_run bdb0 h) v rid = true.
Proof. exact (unreadable_witness h_finalize_reput 3 2 (proj1 finalize_reput_refutes) (proj1 (proj2 finalize_reput_refutes))). Qed.
Print Assumptions finalized_readable_refuted_at_finalize.

Theorem finalized_readable_refuted_same_version_chain :
  exists h, accepted bdb0 h = true /\
    exists v rid, unreadable_finalized (b_run bdb0 h) v rid = true.
Proof. exact (unreadable_witness h_finalize_removed 4 2 (proj1 finalize_removed_refutes) (proj2 finalize_removed_refutes)). Qed.
Print Assumptions finalized_readable_refuted_same_version_chain.

Theorem prune_refines_spec_refuted :
  exists h, accepted bdb0 h = true /\
    fst (b_prune (b_run bdb0 h) 0) = ENodeNotFound /\ fst (s_prune (s_run sdb0 h) 0) = EOk.
Proof. exact (ex_intro _ h_prune_empty prune_empty_refutes). Qed.
Print Assumptions prune_refines_spec_refuted.

Theorem side_conditions_satisfiable :
  ok_run bdb0 h_good = true /\ accepted bdb0 h_good = true /\
  b_status (b_run bdb0 h_good) 3 7 = 1 /\ b_status (b_run bdb0 h_good) 2 5 = 0 /\
  d_earliest (b_meta (b_run bdb0 h_good)) = 3.
Proof. exact good_history_ok. Qed.
Print Assumptions side_conditions_satisfiable.

Theorem alternative_prune_rule_keeps_readable :
  let d := b_run bdb0 (firstn 5 h_prune_shared) in
  fst (b_prune_alt d 1) = EOk /\ b_status (snd (b_prune_alt d 1)) 2 4 = 1.
Proof. exact prune_alt_keeps_readable. Qed.
Print Assumptions alternative_prune_rule_keeps_readable.

Theorem pathbadger_pipelined_nonzero_seqno_refuted :
  p_accepted pdb0 h_pipe = true /\
  p_has (p_run pdb0 h_pipe) 3 3 = true /\ p_status (p_run pdb0 h_pipe) 3 3 = 2 /\
  s_read (s_run sdb0 h_pipe_spec) 3 3 = Some [(3, 1); (6, 1)] /\
  p_status (p_run pdb0 h_pipe) 2 3 = 1 /\
  p_status (p_run pdb0 (h_pipe ++ [PFinalize 2 [3]])) 3 3 = 1 /\
  p_status (p_run pdb0 [PCommit 2 1 3 None [(3, 1); (6, 1)] [((2, 1), 2); ((2, 2), 3)] [];
                        PCommit 2 1 2 None [(2, 1)] [] [];
                        PCommit 3 1 3 (Some (2, 3)) [] [((2, 1), 2); ((2, 2), 3)] []]) 3 3 = 1.
Proof. exact pathbadger_pipelined_nonzero_seqno_refuted_l. Qed.
Print Assumptions pathbadger_pipelined_nonzero_seqno_refuted.

Theorem pathbadger_prune_rule :
  forall d v d', p_prune d v = (EOk, d') ->
  exists l, p_last d = Some l /\ v = p_earliest d /\ v < l /\ p_earliest d' = v + 1 /\ p_last d' = Some l.
Proof. exact p_prune_rule. Qed.
Print Assumptions pathbadger_prune_rule.

Theorem pathbadger_finalize_lists_only_requested_roots :
  forall d v rids d' r, p_finalize d v rids = (EOk, d') ->
  has_rootkey d' v r = true -> nmem r rids = true /\ has_rootkey d v r = true.
Proof. exact p_finalize_rootkeys. Qed.
Print Assumptions pathbadger_finalize_lists_only_requested_roots.

Theorem no_lone_sharing_implies_prune_safe :
  forall d ver, inv d -> lin d -> s_prune_check (b_meta d) ver = EOk -> no_lone_sharing d ver = true ->
  prune_safe d ver = true.
Proof. exact structural_prune_safe. Qed.
Print Assumptions no_lone_sharing_implies_prune_safe.

Theorem badger_refines_spec_structural :
  forall h, ok_run_struct bdb0 h = true ->
  inv (b_run bdb0 h) /\ b_meta (b_run bdb0 h) = s_run sdb0 h /\
  forall v rid, s_has (b_meta (b_run bdb0 h)) v rid = true ->
    b_status (b_run bdb0 h) v rid = 1 /\ b_read (b_run bdb0 h) v rid = s_read (s_run sdb0 h) v rid.
Proof. exact badger_refines_spec_structural_l. Qed.
Print Assumptions badger_refines_spec_structural.

Theorem structural_side_conditions_satisfiable :
  ok_run_struct bdb0 h_good = true /\
  no_lone_sharing (b_run bdb0 (firstn 5 h_prune_shared)) 1 = false.
Proof. exact structural_conditions_satisfiable. Qed.
Print Assumptions structural_side_conditions_satisfiable.

Theorem gc_at_earliest_changes_no_read :
  forall D st st', gc_rel D st st' -> forall n t, D <= t -> best n t st' = best n t st.
Proof. exact gc_best. Qed.
Print Assumptions gc_at_earliest_changes_no_read.

Theorem gc_keeps_retained_roots :
  forall d st', gc_rel (d_earliest (b_meta d)) (b_store d) st' ->
  let d' := mkb (b_meta d) (b_aux d) st' in
  (forall v rid, b_status d' v rid = b_status d v rid) /\ (inv d -> inv d').
Proof. exact gc_keeps_retained_roots_l. Qed.
Print Assumptions gc_keeps_retained_roots.

Theorem gc_discard_too_high_refuted :
  let d := b_run bdb0 h_gc in
  ok_run bdb0 h_gc = true /\ d_earliest (b_meta d) = 1 /\
  b_status d 1 3 = 1 /\ b_status d 2 4 = 1 /\
  b_status (b_gc 1 d) 1 3 = 1 /\ b_status (b_gc 1 d) 2 4 = 1 /\
  b_status (b_gc 2 d) 1 3 = 2 /\ b_status (b_gc 2 d) 2 4 = 1.
Proof. exact gc_discard_too_high_refuted_l. Qed.
Print Assumptions gc_discard_too_high_refuted.

Theorem pathbadger_gc_keeps_retained_roots :
  forall d st', pgc_rel (p_earliest d) (p_fin d) st' ->
  let d' := mkp (p_earliest d) (p_last d) (p_rootkeys d) st' (p_pend d) (p_next d) (p_pseq d) (p_upd d) (p_ghost d) in
  forall v rid, p_status d' v rid = p_status d v rid.
Proof. exact pathbadger_gc_keeps_retained_roots_l. Qed.
Print Assumptions pathbadger_gc_keeps_retained_roots.

Theorem pathbadger_gc_discard_too_high_refuted :
  let d := p_run pdb0 h_pgc in
  p_accepted pdb0 h_pgc = true /\ p_earliest d = 1 /\
  p_status d 1 3 = 1 /\ p_status d 2 4 = 1 /\
  p_status (p_gc 1 d) 1 3 = 1 /\ p_status (p_gc 1 d) 2 4 = 1 /\
  p_status (p_gc 2 d) 1 3 = 2 /\ p_status (p_gc 2 d) 2 4 = 1.
Proof. exact pathbadger_gc_discard_too_high_refuted_l. Qed.
Print Assumptions pathbadger_gc_discard_too_high_refuted.
