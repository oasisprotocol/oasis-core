(* Restore: importing chunks in any order with duplicates gives exactly the
   contents; a proof that verifies against the root carries only pairs of the
   tree (or exhibits a hash collision); a chunk with a wrong digest, an
   undecodable chunk or a chunk that does not verify changes nothing. *)
From Verif Require Import Lib.Base Mkvs.Trie Mkvs.BitsProofs Mkvs.AlistProofs Mkvs.TrieProofs Mkvs.HashProofs
  Ckpt.Model Ckpt.Proofs Ckpt.ParProofs.
Local Open Scope nat_scope.

Definition put (s : store) (e : entry) : store := al_set (fst e) (snd e) s.

Lemma al_set_in_weak k v l e : In e (al_set k v l) -> e = (k, v) \/ In e l.
Proof.
  induction l as [|[k0 v0] l IH]; cbn [al_set].
  - intros [<-|[]]. now left.
  - destruct (bytes_cmp k k0).
    + intros [<-|Hin]; [now left|right; now right].
    + intros [<-|Hin]; [now left|now right].
    + intros [<-|Hin]; [right; now left|]. destruct (IH Hin); [now left|right; now right].
Qed.

Lemma import_weak es : forall st e, In e (fold_left put es st) -> In e st \/ In e es.
Proof.
  induction es as [|x es IH]; intros st e Hin; cbn [fold_left] in Hin; [now left|].
  destruct (IH _ _ Hin) as [H1|H1]; [|right; now right].
  unfold put in H1. apply al_set_in_weak in H1 as [->|H1]; [right; left; now destruct x|now left].
Qed.

Section Import.
  Variable C : list entry.
  Hypothesis SC : sorted C.

  Lemma import_in es : forall st,
    sorted st -> incl st C -> incl es C ->
    sorted (fold_left put es st) /\
    (forall e, In e (fold_left put es st) <-> In e st \/ In e es).
  Proof.
    induction es as [|[k v] es IH]; intros st Ss Is Ie; cbn [fold_left].
    - split; [assumption|]. intros e. cbn. tauto.
    - destruct (IH (put st (k, v))) as [S1 I1].
      + apply al_set_sorted. assumption.
      + intros e He. unfold put in He. cbn [fst snd] in He. apply al_set_in in He; [|assumption].
        destruct He as [->|[_ He]]; [apply Ie; now left|now apply Is].
      + intros e He. apply Ie. now right.
      + split; [assumption|]. intros e. rewrite I1. unfold put. cbn [fst snd].
        rewrite al_set_in by assumption. split.
        * intros [[->|[_ Hin]]|Hin]; [right; now left|now left|right; now right].
        * intros [Hin|[<-|Hin]]; [|left; now left|now right].
          destruct e as [k' v']. destruct (bytes_eq_dec k' k) as [->|Hne].
          { left. left. f_equal. eapply sorted_key_unique; [exact SC|apply Is; exact Hin|apply Ie; now left]. }
          { left. right. split; [exact Hne|exact Hin]. }
  Qed.

  Lemma restore_fold l : forall st,
    sorted st -> incl st C -> (forall c, In c l -> incl (pleaves c) C) ->
    sorted (fold_left (fun s c => import c s) l st) /\
    (forall e, In e (fold_left (fun s c => import c s) l st) <->
               In e st \/ exists c, In c l /\ In e (pleaves c)).
  Proof.
    induction l as [|c l IH]; intros st Ss Is Hl; cbn [fold_left].
    - split; [assumption|]. intros e. split; [now left|]. intros [?|(c & [] & _)]. assumption.
    - destruct (import_in (pleaves c) st Ss Is) as [S1 I1]; [apply Hl; now left|].
      destruct (IH (import c st)) as [S2 I2].
      + exact S1.
      + intros e He. apply I1 in He as [He|He]; [now apply Is|]. eapply Hl; [now left|exact He].
      + intros c' Hc'. apply Hl. now right.
      + split; [exact S2|]. intros e. rewrite I2. unfold import at 1. fold put. rewrite I1. split.
        * intros [[Hin|Hin]|(c' & Hc' & Hin)]; [now left|right; exists c; split; [now left|assumption]|].
          right. exists c'. split; [now right|assumption].
        * intros [Hin|(c' & [<-|Hc'] & Hin)]; [left; now left|left; now right|].
          right. exists c'. auto.
  Qed.

  Theorem restore_exact l :
    (forall c, In c l -> incl (pleaves c) C) ->
    (forall e, In e C -> exists c, In c l /\ In e (pleaves c)) ->
    fold_left (fun s c => import c s) l [] = C.
  Proof.
    intros Hs Hc. destruct (restore_fold l []) as [S1 I1]; [exact I|intros e []|exact Hs|].
    apply sorted_ext; [exact S1|exact SC|]. intros e. rewrite I1. split.
    - intros [[]|(c & Hin & He)]. eapply Hs; eauto.
    - intros He. right. auto.
  Qed.
End Import.

Section Chunks.
  Variable H : bytes -> bytes.

  Theorem chunks_sound size threads t c :
    In c (chunks H size threads t) -> incl (pleaves c) (contents t).
  Proof.
    unfold chunks. rewrite in_map_iff. intros (run & <- & _). apply chunk_sound.
  Qed.

  Theorem chunks_cover_all size threads t e :
    wf t -> In e (contents t) -> exists c, In c (chunks H size threads t) /\ In e (pleaves c).
  Proof.
    intros W Hin. unfold chunks, chunk_runs. destruct threads as [|n].
    - pose proof (seq_runs_concat size t) as Ec. rewrite <- Ec in Hin.
      apply in_concat in Hin as (run & Hr & He).
      exists (chunk_of H (inrun run) t). split; [exact (in_map (fun run0 => chunk_of H (inrun run0) t) _ _ Hr)|].
      destruct e as [k v]. apply chunk_complete.
      + rewrite <- Ec. apply in_concat. eauto.
      + eapply inrun_self. exact He.
    - destruct (par_cover H size (S n) t e W Hin) as (run & Hr & He).
      exists (chunk_of H (inrun run) t). split; [exact (in_map (fun run0 => chunk_of H (inrun run0) t) _ _ Hr)|exact He].
  Qed.

  Theorem chunks_hash size threads t c :
    In c (chunks H size threads t) -> phash H c = root_hash H t.
  Proof. unfold chunks. rewrite in_map_iff. intros (run & <- & _). apply chunk_hash. Qed.

  Theorem chunks_verify size threads t c :
    tdepth t <= MAX_PROOF_DEPTH -> In c (chunks H size threads t) -> verify H (root_hash H t) c = true.
  Proof. unfold chunks. rewrite in_map_iff. intros Hd (run & <- & _). now apply chunk_verifies. Qed.

  (* restoring the chunks in any order, any number of times each *)
  Theorem restore_any_order_l size threads t l :
    wf t ->
    (forall c, In c l -> In c (chunks H size threads t)) ->
    (forall c, In c (chunks H size threads t) -> In c l) ->
    fold_left (fun s c => import c s) l [] = contents t.
  Proof.
    intros W Hsub Hall. apply restore_exact.
    - now apply contents_sorted.
    - intros c Hc. eapply chunks_sound. eauto.
    - intros e He. destruct (chunks_cover_all size threads t e W He) as (c & Hc & Hin). eauto.
  Qed.

  (* ... hence the restored database holds a tree with the same root *)
  Corollary restored_root_l size threads t l t' :
    wf t -> wf t' ->
    (forall c, In c l -> In c (chunks H size threads t)) ->
    (forall c, In c (chunks H size threads t) -> In c l) ->
    contents t' = fold_left (fun s c => import c s) l [] ->
    t' = t /\ root_hash H t' = root_hash H t.
  Proof.
    intros W W' Hs Ha Ec. rewrite (restore_any_order_l size threads t l W Hs Ha) in Ec.
    assert (t' = t) as -> by (now apply canonical). auto.
  Qed.

  (* the chunk list depends only on the contents and the parameters *)
  Theorem metadata_deterministic_l size threads t1 t2 :
    wf t1 -> wf t2 -> contents t1 = contents t2 ->
    chunks H size threads t1 = chunks H size threads t2.
  Proof. intros W1 W2 E. now rewrite (canonical t1 t2 W1 W2 E). Qed.
End Chunks.

Fixpoint pbounded (hlen : nat) (p : ptree) : Prop :=
  match p with
  | PHash h => length h = hlen
  | PNil => True
  | PLeaf k v => (N.of_nat (length k) < 2 ^ 32 /\ N.of_nat (length v) < 2 ^ 32)%N
  | PNode lbl lf l r =>
      (N.of_nat (length lbl) < 2 ^ 16)%N /\
      match lf with
      | None => True
      | Some (k, v) => (N.of_nat (length k) < 2 ^ 32 /\ N.of_nat (length v) < 2 ^ 32)%N
      end /\ pbounded hlen l /\ pbounded hlen r
  end.

Section Verify.
  Variable H : bytes -> bytes.
  Variable hlen : nat.
  Hypothesis Hlen : forall x, length (H x) = hlen.

  Lemma phash_len p : pbounded hlen p -> length (phash H p) = hlen.
  Proof. destruct p; cbn [phash pbounded]; intros B; auto; apply Hlen. Qed.

  Lemma phash_node lbl lf l r :
    phash H (PNode lbl lf l r) =
    H (node_pre lbl (eval_hexpr H (opt_leaf_hexpr lf)) (phash H l) (phash H r)).
  Proof. reflexivity. Qed.

  Lemma coll x y : x <> y -> H x = H y -> collision H.
  Proof. intros Hne E. exists x, y. auto. Qed.

  Theorem verify_sound p : forall t,
    pbounded hlen p -> bounded t -> phash H p = root_hash H t ->
    incl (pleaves p) (contents t) \/ collision H.
  Proof.
    induction p as [h| |k v|lbl lf pl IHl pr IHr]; intros t Bp Bt E.
    - left. intros e [].
    - left. intros e [].
    - destruct t as [|k' v'|lbl' lf' l' r'].
      + right. cbn [phash] in E. rewrite leaf_hexpr_eval in E. eapply coll; [|exact E]. discriminate.
      + cbn [phash] in E. change (root_hash H (Leaf k' v')) with (eval_hexpr H (leaf_hexpr k' v')) in E.
        rewrite !leaf_hexpr_eval in E. apply H_inj_or in E as [E|Cn]; [|now right].
        cbn in Bp, Bt. destruct Bp, Bt. apply leaf_pre_inj in E as [-> ->]; auto. left. intros e He. exact He.
      + right. cbn [phash] in E. rewrite leaf_hexpr_eval, node_hexpr_eval in E.
        eapply coll; [|exact E]. discriminate.
    - destruct t as [|k' v'|lbl' lf' l' r'].
      + right. rewrite phash_node in E. eapply coll; [|exact E]. discriminate.
      + right. rewrite phash_node in E.
        change (root_hash H (Leaf k' v')) with (eval_hexpr H (leaf_hexpr k' v')) in E.
        rewrite leaf_hexpr_eval in E. eapply coll; [|exact E]. discriminate.
      + rewrite phash_node, node_hexpr_eval in E. apply H_inj_or in E as [E|Cn]; [|now right].
        cbn [pbounded] in Bp. destruct Bp as (Bl & Bf & Bpl & Bpr).
        cbn [bounded] in Bt. destruct Bt as (Bl' & Bf' & Bl2 & Br2).
        apply (node_pre_inj hlen) in E as (-> & Ef & El & Er);
          auto using opt_leaf_len, root_hash_len, phash_len.
        apply opt_leaf_inj in Ef as [->|Cn]; [|now right|assumption|assumption].
        destruct (IHl _ Bpl Bl2 El) as [Il|Cn]; [|now right].
        destruct (IHr _ Bpr Br2 Er) as [Ir|Cn]; [|now right].
        left. cbn [pleaves contents]. intros e. rewrite !in_app_iff. intros [He|[He|He]]; auto.
  Qed.
End Verify.

Section RestoreChunk.
  Variable H Hd : bytes -> bytes.
  Variable decode : bytes -> option ptree.
  Variable hlen : nat.
  Hypothesis Hlen : forall x, length (H x) = hlen.
  (* the format's length fields: what the decoder can produce at all *)
  Hypothesis decode_bounded : forall b p, decode b = Some p -> pbounded hlen p.

  (* wrong digest: ErrChunkCorrupted, nothing imported *)
  Theorem wrong_digest_rejected root digest b st :
    Hd b <> digest -> restore_chunk H Hd decode root digest b st = (RCorrupted, st).
  Proof.
    intros Hne. unfold restore_chunk. apply bytes_eqb_neq in Hne. now rewrite Hne.
  Qed.

  Theorem failed_chunk_invisible root digest b st :
    fst (restore_chunk H Hd decode root digest b st) <> ROk ->
    snd (restore_chunk H Hd decode root digest b st) = st.
  Proof.
    unfold restore_chunk. destruct (negb _); [reflexivity|].
    destruct (decode b) as [p|]; [|reflexivity]. destruct (verify H root p); [|reflexivity].
    cbn. congruence.
  Qed.

  (* an accepted chunk has the digest of the metadata, hence IS the genuine
     chunk file (or the digest collides), and everything it makes visible is a
     pair of the checkpointed tree (or the node hash collides) *)
  Theorem accepted_chunk_genuine t digest good b st :
    bounded t -> digest = Hd good ->
    fst (restore_chunk H Hd decode (root_hash H t) digest b st) = ROk ->
    (b = good \/ collision Hd) /\
    ((forall e, In e (snd (restore_chunk H Hd decode (root_hash H t) digest b st)) ->
                In e st \/ In e (contents t)) \/ collision H).
  Proof.
    intros Bt -> Hok. unfold restore_chunk in *.
    destruct (bytes_eqb (Hd b) (Hd good)) eqn:Ed; cbn [negb] in *; [|cbn in Hok; discriminate].
    apply bytes_eqb_eq in Ed. split; [now apply H_inj_or|].
    destruct (decode b) as [p|] eqn:Edec; [|cbn in Hok; discriminate].
    destruct (verify H (root_hash H t) p) eqn:Ev; [|cbn in Hok; discriminate].
    unfold verify in Ev. apply andb_true_iff in Ev as [_ Ev]. apply bytes_eqb_eq in Ev.
    destruct (verify_sound H hlen Hlen p t (decode_bounded _ _ Edec) Bt Ev) as [Hi|Cn]; [|now right].
    left. cbn [snd]. intros e He. unfold import in He. fold put in He.
    apply import_weak in He as [He|He]; auto.
  Qed.
End RestoreChunk.

Definition rejected (r : rres) : Prop :=
  r = RCorrupted \/ r = RNotPending \/ r = RNoRestore \/ r = RInProgress.

Section Step.
  Variable H Hd : bytes -> bytes.
  Variable decode : bytes -> option ptree.
  Variable root : bytes.
  Variable digests : list bytes.

  Lemma rstep_chunk s i b :
    (exists d p, active s = true /\ nth_error digests i = Some d /\ Hd b = d /\ decode b = Some p /\
       verify H root p = true /\
       rstep H Hd decode root digests s (EChunk i b) =
       (mkr (negb (Nat.eqb (length (rm i (pend s))) 0)) (rm i (pend s)) (import p (db s)), ROk)) \/
    (exists r, rejected r /\ rstep H Hd decode root digests s (EChunk i b) = (s, r)) \/
    rstep H Hd decode root digests s (EChunk i b) = (mkr false [] (db s), RProofFail).
  Proof.
    unfold rejected. cbn [rstep]. destruct (active s); cbn [negb]; [|right; left; eauto 6].
    destruct (existsb (Nat.eqb i) (pend s)); cbn [negb]; [|right; left; eauto 6].
    destruct (nth_error digests i) as [d|]; [|right; left; eauto 6].
    unfold restore_chunk. destruct (bytes_eqb (Hd b) d) eqn:Eb; cbn [negb]; [|right; left; eauto 6].
    apply bytes_eqb_eq in Eb. destruct (decode b) as [p|]; [|now right; right].
    destruct (verify H root p) eqn:Ev; [left; eauto 10|now right; right].
  Qed.

  Lemma rm_in i j l : In j l -> j = i \/ In j (rm i l).
  Proof.
    intros Hin. destruct (Nat.eq_dec j i) as [->|Hne]; [now left|right].
    unfold rm. apply filter_In. split; [assumption|]. apply negb_true_iff. now apply Nat.eqb_neq.
  Qed.

  (* a delivery answered with ErrChunkCorrupted, ErrChunkAlreadyRestored,
     ErrNoRestoreInProgress (or a StartRestore answered with
     ErrRestoreAlreadyInProgress) leaves restorer and database exactly as they were *)
  Theorem rejected_is_noop_l s e :
    rejected (snd (rstep H Hd decode root digests s e)) -> fst (rstep H Hd decode root digests s e) = s.
  Proof.
    destruct e as [i b| | |].
    - destruct (rstep_chunk s i b) as [(d & p & _ & _ & _ & _ & _ & ->)|[(r & _ & ->)| ->]]; [|reflexivity|];
        intros [?|[?|[?|?]]]; discriminate.
    - intros [?|[?|[?|?]]]; discriminate.
    - intros [?|[?|[?|?]]]; discriminate.
    - cbn [rstep]. destruct (active s); [reflexivity|]. intros [?|[?|[?|?]]]; discriminate.
  Qed.

  (* a failed proof verification aborts the restorer and imports nothing *)
  Theorem proof_failure_aborts_l s i b :
    snd (rstep H Hd decode root digests s (EChunk i b)) = RProofFail ->
    fst (rstep H Hd decode root digests s (EChunk i b)) = mkr false [] (db s).
  Proof.
    destruct (rstep_chunk s i b) as [(d & p & _ & _ & _ & _ & _ & ->)|[(r & Hr & ->)| ->]]; [discriminate| |reflexivity].
    cbn [snd]. intros ->. destruct Hr as [?|[?|[?|?]]]; discriminate.
  Qed.

  Lemma rrun_app s e1 e2 :
    rrun H Hd decode root digests s (e1 ++ e2) = rrun H Hd decode root digests (rrun H Hd decode root digests s e1) e2.
  Proof. unfold rrun. apply fold_left_app. Qed.

  (* ... so a history with a rejected delivery removed ends in the same state *)
  Theorem history_without_rejected_l s e1 e e2 :
    rejected (snd (rstep H Hd decode root digests (rrun H Hd decode root digests s e1) e)) ->
    rrun H Hd decode root digests s (e1 ++ e :: e2) = rrun H Hd decode root digests s (e1 ++ e2).
  Proof.
    intros Hr. rewrite !rrun_app. unfold rrun at 1. cbn [fold_left]. fold (rrun H Hd decode root digests).
    now rewrite (rejected_is_noop_l _ _ Hr).
  Qed.

  (* Finalize with another root than the checkpoint's fails *)
  Theorem finalize_root_mismatch_l r s : r <> root -> rfinalize root r s = None.
  Proof. intros Hn. unfold rfinalize. apply bytes_eqb_neq in Hn. now rewrite Hn. Qed.

  (* ghost: the indices whose import succeeded since the restore was started *)
  Definition gstep (g : rstate * list nat) (e : event) : rstate * list nat :=
    let s' := fst (rstep H Hd decode root digests (fst g) e) in
    match e, snd (rstep H Hd decode root digests (fst g) e) with
    | EChunk i _, ROk => (s', i :: snd g)
    | EChunk _ _, RProofFail => (s', [])
    | EChunk _ _, _ => (s', snd g)
    | EStart, ROk => (s', [])
    | EStart, _ => (s', snd g)
    | EAbort, _ => (s', [])
    | EAbortR, _ => (s', [])
    end.
  Definition grun (st0 : store) (evs : list event) : rstate * list nat :=
    fold_left gstep evs (mkr false [] st0, []).

  Definition all_accounted (g : rstate * list nat) : Prop :=
    active (fst g) = true -> forall j, j < length digests -> In j (pend (fst g)) \/ In j (snd g).

  Lemma gstep_inv g e : all_accounted g -> all_accounted (gstep g e).
  Proof.
    destruct g as [s imp]. unfold all_accounted, gstep. cbn [fst snd]. intros Inv.
    destruct e as [i b| | |]; try (cbn; discriminate).
    - destruct (rstep_chunk s i b) as [(d & p & Ea & _ & _ & _ & _ & ->)|[(r & Hr & ->)| ->]]; cbn [fst snd].
      + intros _ j Hj. destruct (Inv Ea j Hj) as [Hp|Hi]; [|right; now right].
        destruct (rm_in i j _ Hp) as [->|Hr]; [right; now left|now left].
      + destruct Hr as [-> | [-> | [-> | ->]]]; exact Inv.
      + discriminate.
    - cbn [rstep]. destruct (active s) eqn:Ea; cbn [fst snd active pend]; [rewrite Ea; exact Inv|].
      intros _ j Hj. left. apply in_seq. lia.
  Qed.

  Lemma grun_inv st0 evs : all_accounted (grun st0 evs).
  Proof.
    unfold grun. assert (all_accounted (mkr false [] st0, [])) as I0 by (intros E; discriminate).
    revert I0. generalize (mkr false [] st0, @nil nat). induction evs as [|e evs IH]; intros g Ig; cbn [fold_left];
      [assumption|]. apply IH. now apply gstep_inv.
  Qed.

  Lemma rstep_done s i b s' :
    rstep H Hd decode root digests s (EChunk i b) = (s', ROk) -> active s' = false ->
    exists d p, active s = true /\ nth_error digests i = Some d /\ Hd b = d /\ decode b = Some p /\
      db s' = import p (db s) /\ forall j, In j (pend s) -> j = i.
  Proof.
    intros Hstep Hdone.
    destruct (rstep_chunk s i b) as [(d & p & Ea & Ed & Eb & Edec & _ & E)|[(r & Hr & E)|E]];
      rewrite E in Hstep; [|destruct Hr as [?|[?|[?|?]]]; congruence|discriminate].
    injection Hstep as <-. cbn [active db] in *. apply negb_false_iff, Nat.eqb_eq in Hdone.
    exists d, p. repeat split; auto. intros j Hj. destruct (rm_in i j _ Hj) as [?|Hr]; [assumption|].
    destruct (rm i (pend s)); [destruct Hr|discriminate].
  Qed.

  (* after ANY sequence of starts, aborts, good, bad and duplicate deliveries:
     a RestoreChunk call that ends the restore (done = true) is the call that
     imports the last outstanding chunk; every other chunk was imported before *)
  Theorem done_only_after_every_import_l st0 evs i b s' :
    let g := grun st0 evs in
    rstep H Hd decode root digests (fst g) (EChunk i b) = (s', ROk) ->
    active (fst g) = true -> active s' = false ->
    forall j, j < length digests -> j = i \/ In j (snd g).
  Proof.
    intros g Hstep Ea Ed j Hj. destruct (rstep_done _ _ _ _ Hstep Ed) as (_ & _ & _ & _ & _ & _ & _ & Hlast).
    destruct (grun_inv st0 evs Ea j Hj) as [Hp|Hi]; [left; now apply Hlast|now right].
  Qed.
End Step.

Section History.
  Variable H Hd : bytes -> bytes.
  Variable decode : bytes -> option ptree.
  Variable enc : ptree -> bytes.                     (* the chunk file of a proof *)
  Hypothesis dec_enc : forall c, decode (enc c) = Some c.
  Variables (size : N) (threads : nat) (t : tree).
  Hypothesis Wt : wf t.

  Let cs := chunks H size threads t.
  Let digests := map (fun c => Hd (enc c)) cs.
  Let root := root_hash H t.

  Definition hist_inv (s : rstate) : Prop :=
    sorted (db s) /\ incl (db s) (contents t) /\
    (active s = true -> forall j c, nth_error cs j = Some c -> In j (pend s) \/ incl (pleaves c) (db s)).

  Lemma digest_chunk i b p :
    nth_error digests i = Some (Hd b) -> decode b = Some p -> nth_error cs i = Some p \/ collision Hd.
  Proof.
    unfold digests. rewrite nth_error_map. destruct (nth_error cs i) as [ci|]; [|discriminate].
    intros [= Eb] Edec. destruct (H_inj_or Hd _ _ Eb) as [<-|Cn]; [|now right].
    rewrite dec_enc in Edec. left. congruence.
  Qed.

  Lemma import_chunk s i ci : hist_inv s -> nth_error cs i = Some ci ->
    sorted (import ci (db s)) /\
    forall e, In e (import ci (db s)) <-> In e (db s) \/ In e (pleaves ci).
  Proof.
    intros (Ss & Is & _) Eci. apply (import_in (contents t) (contents_sorted t Wt)); auto.
    eapply chunks_sound, nth_error_In, Eci.
  Qed.

  Lemma hist_step s e : hist_inv s -> hist_inv (fst (rstep H Hd decode root digests s e)) \/ collision Hd.
  Proof.
    intros Hi. pose proof Hi as (Ss & Is & Ip). destruct e as [i b| | |].
    - destruct (rstep_chunk H Hd decode root digests s i b)
        as [(d & p & Ea & Ed & <- & Edec & _ & ->)|[(r & _ & ->)| ->]]; cbn [fst]; [|now left|].
      + destruct (digest_chunk i b p Ed Edec) as [Eci|Cn]; [left|now right].
        destruct (import_chunk s i p Hi Eci) as [S1 I1].
        assert (incl (pleaves p) (contents t)) as Hs by (eapply chunks_sound, nth_error_In, Eci).
        split; [exact S1|]. split.
        * intros e He. apply I1 in He as [He|He]; auto.
        * intros _ j c Hj. destruct (Ip Ea j c Hj) as [Hp|Hin].
          -- destruct (rm_in i j _ Hp) as [->|Hr]; [|now left].
             right. rewrite Eci in Hj. injection Hj as <-. intros e He. apply I1. now right.
          -- right. intros e He. apply I1. left. auto.
      + left. repeat split; auto. discriminate.
    - left. cbn. split; [exact I|]. split; [intros e []|discriminate].
    - left. cbn. split; [exact Ss|]. split; [exact Is|discriminate].
    - cbn [rstep]. destruct (active s) eqn:Ea; cbn [fst]; left; [exact Hi|].
      repeat split; auto. intros _ j c Hj. left. apply in_seq.
      unfold digests. rewrite map_length. split; [lia|]. cbn. apply nth_error_Some. congruence.
  Qed.

  Lemma hist_run evs : forall s, hist_inv s -> hist_inv (rrun H Hd decode root digests s evs) \/ collision Hd.
  Proof.
    induction evs as [|e evs IH]; intros s Hi; cbn [rrun fold_left]; [now left|].
    destruct (hist_step s e Hi) as [Hi'|Cn]; [|now right]. apply IH. exact Hi'.
  Qed.

  Lemma hist_done s i b s' :
    hist_inv s -> rstep H Hd decode root digests s (EChunk i b) = (s', ROk) -> active s' = false ->
    db s' = contents t \/ collision Hd.
  Proof.
    intros Hi Hstep Hdone. pose proof Hi as (Ss & Is & Ip).
    destruct (rstep_done _ _ _ _ _ _ _ _ _ Hstep Hdone) as (d & p & Ea & Ed & <- & Edec & -> & Hlast).
    destruct (digest_chunk i b p Ed Edec) as [Eci|Cn]; [left|now right].
    destruct (import_chunk s i p Hi Eci) as [S1 I1].
    apply sorted_ext; [exact S1|now apply contents_sorted|]. intros e. rewrite I1. split.
    - intros [He|He]; [auto|]. eapply chunks_sound; [eapply nth_error_In, Eci|exact He].
    - intros He. destruct (chunks_cover_all H size threads t e Wt He) as (c & Hc & Hin).
      apply In_nth_error in Hc as [j Hj]. destruct (Ip Ea j c Hj) as [Hp|Hin']; [|left; auto].
      apply Hlast in Hp as ->. assert (c = p) as <- by (unfold cs in Eci; congruence). now right.
  Qed.

  (* For ANY sequence of starts, aborts and deliveries (genuine, corrupt,
     duplicate, out of order) into an empty database: what is visible is always
     part of the checkpointed contents, and the delivery that ends the restore
     (done) leaves exactly the checkpointed contents -- unless the digest
     function collides. *)
  Theorem restore_history_exact_l evs :
    let s := rrun H Hd decode root digests (mkr false [] []) evs in
    (incl (db s) (contents t) /\
     forall i b s', rstep H Hd decode root digests s (EChunk i b) = (s', ROk) ->
                    active s' = false -> db s' = contents t \/ collision Hd)
    \/ collision Hd.
  Proof.
    intros s. assert (hist_inv (mkr false [] [])) as H0i.
    { split; [exact I|]. split; [intros e []|discriminate]. }
    destruct (hist_run evs _ H0i) as [Hi|Cn]; [|now right].
    left. split; [apply Hi|]. intros i b s' Hstep Hdone. eapply hist_done; eauto.
  Qed.
End History.

(* done, then Finalize with the checkpoint's root: exactly the checkpointed contents *)
Lemma finalize_after_done_exact_l : forall H Hd decode enc,
  (forall c, decode (enc c) = Some c) ->
  forall size threads t, wf t -> forall evs,
  let cs := chunks H size threads t in
  let digests := map (fun c => Hd (enc c)) cs in
  let s := rrun H Hd decode (root_hash H t) digests (mkr false [] []) evs in
  forall i b s', rstep H Hd decode (root_hash H t) digests s (EChunk i b) = (s', ROk) ->
                 active s' = false ->
                 rfinalize (root_hash H t) (root_hash H t) s' = Some (contents t) \/ collision Hd.
Proof.
  intros H Hd decode enc De size threads t W evs cs digests s i b s' Hstep Hdone.
  destruct (restore_history_exact_l H Hd decode enc De size threads t W evs) as [[_ Hx]|Cn]; [|now right].
  destruct (Hx i b s' Hstep Hdone) as [E|Cn]; [|now right].
  left. unfold rfinalize. now rewrite bytes_eqb_refl, E.
Qed.

Section Layers.
  Variable H Hd : bytes -> bytes.
  Variable decode : bytes -> option ptree.

  (* a chunk file whose bytes differ from the created ones is refused by the
     digest check, before anything is decoded, verified or written -- unless
     the digest function collides on the two files *)
  Theorem altered_chunk_rejected_l root good b st :
    b <> good ->
    restore_chunk H Hd decode root (Hd good) b st = (RCorrupted, st) \/ collision Hd.
  Proof.
    intros Hne. destruct (bytes_eq_dec (Hd b) (Hd good)) as [E|E].
    - right. exists b, good. auto.
    - left. now apply wrong_digest_rejected.
  Qed.
  (* the second failure layer: a chunk whose bytes MATCH the manifest digest is
     never answered with the retryable ErrChunkCorrupted *)
  Theorem digest_match_never_corrupted_l root digest b st :
    Hd b = digest -> fst (restore_chunk H Hd decode root digest b st) <> RCorrupted.
  Proof.
    intros E. unfold restore_chunk. rewrite E, bytes_eqb_refl. cbn [negb].
    destruct (decode b) as [p|]; [destruct (verify H root p)|]; cbn; discriminate.
  Qed.

  (* ... if it does not decode, or decodes to something that does not verify,
     the answer is the proof failure, nothing is written *)
  Theorem matching_undecodable_is_proof_failure_l root digest b st :
    Hd b = digest ->
    (decode b = None \/ exists p, decode b = Some p /\ verify H root p = false) ->
    restore_chunk H Hd decode root digest b st = (RProofFail, st).
  Proof.
    intros E Hbad. unfold restore_chunk. rewrite E, bytes_eqb_refl. cbn [negb].
    destruct Hbad as [->|(p & -> & ->)]; reflexivity.
  Qed.

  (* ... and the restorer abandons the checkpoint (so that the caller does not
     fetch the same bytes again) *)
  Theorem matching_undecodable_aborts_l root digests s i b :
    active s = true -> existsb (Nat.eqb i) (pend s) = true -> nth_error digests i = Some (Hd b) ->
    (decode b = None \/ exists p, decode b = Some p /\ verify H root p = false) ->
    rstep H Hd decode root digests s (EChunk i b) = (mkr false [] (db s), RProofFail).
  Proof.
    intros Ea Ep Ed Hbad. cbn [rstep]. rewrite Ea, Ep, Ed. cbn [negb].
    now rewrite (matching_undecodable_is_proof_failure_l root (Hd b) b (db s) eq_refl Hbad).
  Qed.
End Layers.
