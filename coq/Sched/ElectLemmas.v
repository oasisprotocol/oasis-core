(* Generic list lemmas used by the C14 proofs: lengths, NoDup, insertion
   sorts, sorted sets, index shuffles, association lists. *)
From Verif Require Import Lib.Base Sched.Elect Sched.ElectSpec.
From Coq Require Import Permutation Sorting.Sorted.

Lemma len_nil {A} : len (@nil A) = 0. Proof. reflexivity. Qed.
Lemma len_cons {A} (x : A) l : len (x :: l) = len l + 1.
Proof. unfold len. cbn [length]. lia. Qed.
Lemma len_app {A} (a b : list A) : len (a ++ b) = len a + len b.
Proof. unfold len. rewrite app_length. lia. Qed.
Lemma len_perm {A} (l l' : list A) : Permutation l l' -> len l = len l'.
Proof. intros H. unfold len. rewrite (Permutation_length H). reflexivity. Qed.
Lemma len_firstn {A} k (l : list A) : len (firstn k l) = N.min (N.of_nat k) (len l).
Proof. unfold len. rewrite firstn_length. lia. Qed.
Lemma len_filter_le {A} (f : A -> bool) l : len (filter f l) <= len l.
Proof.
  induction l as [|x r IH]; cbn [filter]; [lia|].
  destruct (f x); rewrite ?len_cons; lia.
Qed.
Lemma len_filter_zero_or_in {A} (f : A -> bool) l :
  len (filter f l) = 0 \/ exists x, In x l /\ f x = true.
Proof.
  destruct (filter f l) as [|x r] eqn:E; [left; reflexivity|right].
  exists x. apply filter_In. rewrite E. left. reflexivity.
Qed.

Lemma In_firstn {A} (x : A) k l : In x (firstn k l) -> In x l.
Proof. intros H. rewrite <- (firstn_skipn k l). apply in_or_app. left. exact H. Qed.
Lemma filter_perm {A} (f : A -> bool) l l' : Permutation l l' -> Permutation (filter f l) (filter f l').
Proof.
  induction 1 as [|x l l' H IH|x y l|l l' l'' H1 IH1 H2 IH2]; cbn [filter].
  - reflexivity.
  - destruct (f x); [constructor|]; exact IH.
  - destruct (f x), (f y); try reflexivity. apply perm_swap.
  - etransitivity; eassumption.
Qed.

Lemma nodup_app {A} (a b : list A) :
  NoDup a -> NoDup b -> (forall x, In x a -> ~ In x b) -> NoDup (a ++ b).
Proof.
  induction a as [|x r IH]; cbn [app]; intros Ha Hb Hd; [exact Hb|].
  inversion Ha as [|? ? Hx Hr]; subst. constructor.
  - intros Hin. apply in_app_or in Hin. destruct Hin as [Hin|Hin]; [tauto|].
    apply (Hd x); [left; reflexivity|exact Hin].
  - apply IH; [exact Hr|exact Hb|]. intros y Hy. apply Hd. right. exact Hy.
Qed.
Lemma nodup_app_l {A} (a b : list A) : NoDup (a ++ b) -> NoDup a.
Proof.
  induction a as [|x r IH]; cbn [app]; intros H; [constructor|].
  inversion H as [|? ? Hx Hr]; subst. constructor; [|apply IH; exact Hr].
  intros Hin. apply Hx, in_or_app. left. exact Hin.
Qed.
Lemma nodup_map_firstn {A B} (f : A -> B) k l :
  NoDup (map f l) -> NoDup (map f (firstn k l)).
Proof.
  intros H. rewrite <- (firstn_skipn k l), map_app in H. eapply nodup_app_l. exact H.
Qed.
Lemma key_inj_of_nodup {A B} (key : A -> B) l a b :
  NoDup (map key l) -> In a l -> In b l -> key a = key b -> a = b.
Proof.
  induction l as [|x r IH]; cbn [map]; intros Hnd Ha Hb Hk; [contradiction|].
  inversion Hnd as [|? ? Hx Hr]; subst.
  destruct Ha as [->|Ha], Hb as [->|Hb].
  - reflexivity.
  - exfalso. apply Hx. rewrite Hk. apply in_map. exact Hb.
  - exfalso. apply Hx. rewrite <- Hk. apply in_map. exact Ha.
  - apply IH; assumption.
Qed.

Lemma sorted_app {A} (R : A -> A -> Prop) l1 l2 :
  (forall x y, In x l1 -> In y (l1 ++ l2) -> R x y) ->
  StronglySorted R l2 -> StronglySorted R (l1 ++ l2).
Proof.
  induction l1 as [|a r IH]; cbn [app]; intros H Hs; [exact Hs|]. constructor.
  - apply IH; [|exact Hs]. intros x y Hx Hy. apply H; right; assumption.
  - rewrite Forall_forall. intros y Hy. apply H; [left; reflexivity|right; exact Hy].
Qed.
Lemma sorted_app_inv {A} (R : A -> A -> Prop) l1 l2 x y :
  StronglySorted R (l1 ++ l2) -> In x l1 -> In y l2 -> R x y.
Proof.
  induction l1 as [|a r IH]; cbn [app]; intros Hs Hx Hy; [contradiction|].
  inversion Hs as [|? ? Hr Hall]; subst. destruct Hx as [->|Hx]; [|apply IH; assumption].
  rewrite Forall_forall in Hall. apply Hall, in_or_app. right. exact Hy.
Qed.

(* Stable insertion sort by a boolean order.  [sort_by key] and [sort_desc key]
   are convertible to [isort] with [key a <=? key b] and [key b <=? key a]. *)
Section Insertion.
  Context {A : Type} (leb : A -> A -> bool).
  Fixpoint ins (x : A) (l : list A) : list A :=
    match l with
    | [] => [x]
    | y :: r => if leb x y then x :: l else y :: ins x r
    end.
  Definition isort (l : list A) : list A := fold_right ins [] l.

  Lemma ins_perm x l : Permutation (ins x l) (x :: l).
  Proof.
    induction l as [|y r IH]; cbn [ins]; [reflexivity|].
    destruct (leb x y); [reflexivity|].
    rewrite IH. apply perm_swap.
  Qed.
  Lemma isort_perm l : Permutation (isort l) l.
  Proof.
    induction l as [|x r IH]; cbn [isort fold_right]; [reflexivity|].
    fold (isort r). rewrite ins_perm. constructor. exact IH.
  Qed.

  Context (R : A -> A -> Prop).
  Hypothesis R_trans : forall a b c, R a b -> R b c -> R a c.
  Hypothesis leb_R : forall a b, if leb a b then R a b else R b a.
  Lemma ins_sorted x l : StronglySorted R l -> StronglySorted R (ins x l).
  Proof.
    induction l as [|y r IH]; intros Hs; cbn [ins].
    - constructor; constructor.
    - inversion Hs as [|? ? Hr Hall]; subst.
      pose proof (leb_R x y) as Hxy. destruct (leb x y).
      + constructor; [exact Hs|]. constructor; [exact Hxy|].
        eapply Forall_impl; [|exact Hall]. intros z. apply R_trans. exact Hxy.
      + constructor; [apply IH; exact Hr|].
        eapply Permutation_Forall; [symmetry; apply ins_perm|].
        constructor; [exact Hxy|exact Hall].
  Qed.
  Lemma isort_sorted l : StronglySorted R (isort l).
  Proof.
    induction l as [|x r IH]; cbn [isort fold_right]; [constructor|].
    apply ins_sorted. exact IH.
  Qed.
End Insertion.

Section SortLemmas.
  Context {A : Type} (key : A -> N).
  Definition le_key (a b : A) : Prop := key a <= key b.
  Definition ge_key (a b : A) : Prop := key b <= key a.

  Lemma sort_by_perm l : Permutation (sort_by key l) l.
  Proof. exact (isort_perm (fun a b => key a <=? key b) l). Qed.
  Lemma sort_desc_perm l : Permutation (sort_desc key l) l.
  Proof. exact (isort_perm (fun a b => key b <=? key a) l). Qed.
  Lemma sort_by_sorted l : StronglySorted le_key (sort_by key l).
  Proof.
    refine (isort_sorted (fun a b => key a <=? key b) le_key _ _ l); unfold le_key; intros a b.
    - lia.
    - destruct (key a <=? key b) eqn:E; lia.
  Qed.
  Lemma sort_desc_sorted l : StronglySorted ge_key (sort_desc key l).
  Proof.
    refine (isort_sorted (fun a b => key b <=? key a) ge_key _ _ l); unfold ge_key; intros a b.
    - lia.
    - destruct (key b <=? key a) eqn:E; lia.
  Qed.

  Lemma In_sort_by x l : In x (sort_by key l) <-> In x l.
  Proof. split; apply Permutation_in; [|symmetry]; apply sort_by_perm. Qed.
  Lemma nodup_map_sort_by {B} (f : A -> B) l : NoDup (map f l) -> NoDup (map f (sort_by key l)).
  Proof. apply Permutation_NoDup, Permutation_map. symmetry. apply sort_by_perm. Qed.

  Lemma sorted_perm_eq l l' :
    StronglySorted le_key l -> StronglySorted le_key l' -> Permutation l l' ->
    NoDup (map key l) -> l = l'.
  Proof.
    revert l'. induction l as [|a r IH]; intros l' Hs Hs' Hp Hnd.
    - apply Permutation_nil in Hp. subst. reflexivity.
    - destruct l' as [|b r']; [apply Permutation_sym, Permutation_nil in Hp; discriminate|].
      inversion Hs as [|? ? Hsr Ha]; subst. inversion Hs' as [|? ? Hsr' Hb]; subst.
      assert (Hab : a = b).
      { assert (Hina : In a (b :: r')) by (eapply Permutation_in; [exact Hp|left; reflexivity]).
        assert (Hinb : In b (a :: r)) by (eapply Permutation_in; [symmetry; exact Hp|left; reflexivity]).
        destruct Hina as [->|Hina]; [reflexivity|].
        destruct Hinb as [->|Hinb]; [reflexivity|].
        rewrite Forall_forall in Ha, Hb.
        specialize (Ha _ Hinb). specialize (Hb _ Hina). unfold le_key in Ha, Hb.
        apply (key_inj_of_nodup key (a :: r)); [exact Hnd|left; reflexivity|right; exact Hinb|lia]. }
      subst b. f_equal. apply IH; [exact Hsr|exact Hsr'| |].
      + eapply Permutation_cons_inv. exact Hp.
      + cbn [map] in Hnd. inversion Hnd; assumption.
  Qed.

  Lemma sort_by_unique l l' :
    Permutation l l' -> NoDup (map key l) -> sort_by key l = sort_by key l'.
  Proof.
    intros Hp Hnd. apply sorted_perm_eq.
    - apply sort_by_sorted.
    - apply sort_by_sorted.
    - rewrite sort_by_perm, sort_by_perm. exact Hp.
    - apply nodup_map_sort_by. exact Hnd.
  Qed.

  (* blocks [f x] whose elements all point back to [x], laid out along a
     descending list, form a list that is descending in the key of the block *)
  Lemma flat_map_sorted {B} (f : A -> list B) (g : B -> A) L :
    (forall x n, In n (f x) -> g n = x) ->
    StronglySorted ge_key L -> StronglySorted (fun n m => ge_key (g n) (g m)) (flat_map f L).
  Proof.
    intros Hg. induction 1 as [|x r Hr IH Hall]; cbn [flat_map]; [constructor|].
    apply sorted_app; [|exact IH]. intros n m Hn Hm. rewrite (Hg _ _ Hn).
    apply in_app_or in Hm. destruct Hm as [Hm|Hm].
    - rewrite (Hg _ _ Hm). unfold ge_key. lia.
    - apply in_flat_map in Hm. destruct Hm as [y [Hy Hm]]. rewrite (Hg _ _ Hm).
      rewrite Forall_forall in Hall. apply Hall. exact Hy.
  Qed.
End SortLemmas.

Lemma In_uinsert x y l : In y (uinsert x l) <-> y = x \/ In y l.
Proof.
  induction l as [|z r IH]; cbn [uinsert].
  - cbn. intuition.
  - destruct (x <? z) eqn:E1; [cbn; intuition|].
    destruct (x =? z) eqn:E2.
    + apply N.eqb_eq in E2. subst. cbn. intuition.
    + cbn [In]. rewrite IH. intuition.
Qed.
Lemma In_usort y l : In y (usort l) <-> In y l.
Proof.
  induction l as [|x r IH]; cbn [usort fold_right]; [reflexivity|].
  fold (usort r). rewrite In_uinsert, IH. cbn. intuition.
Qed.
Lemma uinsert_sorted x l :
  StronglySorted N.lt l -> StronglySorted N.lt (uinsert x l).
Proof.
  induction l as [|z r IH]; intros Hs; cbn [uinsert].
  - constructor; constructor.
  - inversion Hs as [|? ? Hr Hall]; subst.
    destruct (x <? z) eqn:E1.
    + constructor; [exact Hs|]. constructor; [lia|].
      eapply Forall_impl; [|exact Hall]. intros; lia.
    + destruct (x =? z) eqn:E2; [exact Hs|].
      constructor; [apply IH; exact Hr|].
      rewrite Forall_forall in *. intros y Hy. apply In_uinsert in Hy.
      destruct Hy as [->|Hy]; [lia|apply Hall; exact Hy].
Qed.
Lemma usort_sorted l : StronglySorted N.lt (usort l).
Proof.
  induction l as [|x r IH]; cbn [usort fold_right]; [constructor|].
  apply uinsert_sorted. exact IH.
Qed.
Lemma sorted_lt_nodup l : StronglySorted N.lt l -> NoDup l.
Proof.
  induction 1 as [|x r Hr IH Hall]; constructor; [|exact IH].
  intros Hin. rewrite Forall_forall in Hall. specialize (Hall _ Hin). lia.
Qed.
Lemma usort_nodup l : NoDup (usort l).
Proof. apply sorted_lt_nodup, usort_sorted. Qed.

Lemma In_apply_perm {A} (p : list N) (l : list A) x : In x (apply_perm p l) -> In x l.
Proof.
  unfold apply_perm. rewrite in_flat_map. intros [i [_ Hx]].
  destruct (nth_error l (N.to_nat i)) eqn:E; [|contradiction].
  destruct Hx as [->|[]]. eapply nth_error_In. exact E.
Qed.

Definition pick_at {A} (l : list A) (i : nat) : list A :=
  match nth_error l i with Some x => [x] | None => [] end.
Lemma apply_perm_alt {A} (p : list N) (l : list A) :
  apply_perm p l = flat_map (pick_at l) (map N.to_nat p).
Proof.
  unfold apply_perm. induction p as [|i r IH]; cbn [flat_map map]; [reflexivity|].
  rewrite IH. reflexivity.
Qed.
Lemma pick_seq {A} (pre l : list A) :
  flat_map (pick_at (pre ++ l)) (seq (length pre) (length l)) = l.
Proof.
  revert pre. induction l as [|x r IH]; intros pre; cbn [length seq flat_map]; [reflexivity|].
  unfold pick_at at 1. rewrite nth_error_app2 by lia. rewrite Nat.sub_diag. cbn [nth_error app].
  f_equal. specialize (IH (pre ++ [x])). rewrite <- app_assoc in IH. cbn [app] in IH.
  rewrite app_length in IH. cbn [length] in IH. rewrite Nat.add_1_r in IH. exact IH.
Qed.
Lemma apply_perm_perm {A} (p : list N) (l : list A) :
  is_perm p (length l) -> Permutation (apply_perm p l) l.
Proof.
  intros Hp. rewrite apply_perm_alt.
  transitivity (flat_map (pick_at l) (seq 0 (length l))).
  - apply Permutation_flat_map. exact Hp.
  - pose proof (pick_seq [] l) as H. cbn [app length] in H. rewrite H. reflexivity.
Qed.

Lemma len_adel {V} k (l : list (N * V)) : len (adel k l) <= len l.
Proof.
  induction l as [|[k' v] r IH]; cbn [adel]; [lia|].
  destruct (k' =? k); rewrite ?len_cons; lia.
Qed.
Lemma len_aset {V} k (v : V) l : len (aset k v l) <= len l + 1.
Proof. unfold aset. rewrite len_cons. apply N.add_le_mono_r, len_adel. Qed.

Lemma aget_app {V} k (a b : list (N * V)) :
  aget k (a ++ b) = match aget k a with Some v => Some v | None => aget k b end.
Proof.
  induction a as [|[k' v] r IH]; cbn [app aget]; [reflexivity|].
  destruct (k' =? k); [reflexivity|exact IH].
Qed.
Lemma aget_filter {V} k (f : N * V -> bool) (l : list (N * V)) :
  NoDup (map fst l) ->
  aget k (filter f l) = match aget k l with
                        | Some v => if f (k, v) then Some v else None
                        | None => None
                        end.
Proof.
  induction l as [|[k' v] r IH]; cbn [filter aget map fst]; intros Hnd; [reflexivity|].
  inversion Hnd as [|? ? Hk Hr]; subst. specialize (IH Hr).
  destruct (k' =? k) eqn:E.
  - apply N.eqb_eq in E. subst k'.
    assert (Hnone : aget k r = None) by (apply aget_none_notin; exact Hk).
    rewrite Hnone in IH. destruct (f (k, v)); cbn [aget]; [rewrite N.eqb_refl; reflexivity|exact IH].
  - destruct (f (k', v)); cbn [aget]; [rewrite E|]; exact IH.
Qed.
Lemma aget_perm {V} k (l l' : list (N * V)) :
  Permutation l l' -> NoDup (map fst l) -> aget k l = aget k l'.
Proof.
  intros Hp Hnd.
  assert (Hnd' : NoDup (map fst l')) by (eapply Permutation_NoDup; [apply Permutation_map; exact Hp|exact Hnd]).
  destruct (aget k l) as [v|] eqn:E.
  - symmetry. apply In_aget; [exact Hnd'|]. eapply Permutation_in; [exact Hp|]. apply aget_In. exact E.
  - symmetry. apply aget_none_notin. apply aget_none_notin in E. intros Hin. apply E.
    eapply Permutation_in; [apply Permutation_map; symmetry; exact Hp|exact Hin].
Qed.
