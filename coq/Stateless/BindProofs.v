(* Proofs about the field-binding checks (Stateless/Bind.v): what acceptance
   by each verify function and by each public Core method implies, which
   fields are NOT bound, that an altered height is always rejected, and that
   the state root handed out does not depend on the provider's transactions.
   Closed examples over a toy hash at the end show that the premises can be met. *)
From Verif Require Import Lib.Base Stateless.Merkle Stateless.Proofs Stateless.Bind.

Local Open Scope nat_scope.

(* the unbound fields of a block, as an update *)
Definition set_commit_unbound (c : commit) (h r : Z) (bid : bytes) : commit :=
  mkCommit (c_sigs c) h r bid.
Definition set_block_unbound (b : block) (size : N) (h r : Z) (bid : bytes) : block :=
  mkBlock (b_height b) (b_hash b) (b_time_s b) (b_time_ns b) (b_sr_ns b) (b_sr_version b)
    (b_sr_type b) (b_sr_hash b) size
    (match b_meta b with
     | None => None
     | Some m => Some (mkMeta (m_header m)
                   (match m_last_commit m with None => None | Some c => Some (set_commit_unbound c h r bid) end))
     end).
Definition set_block_height (b : block) (h : Z) : block :=
  mkBlock h (b_hash b) (b_time_s b) (b_time_ns b) (b_sr_ns b) (b_sr_version b)
    (b_sr_type b) (b_sr_hash b) (b_size b) (b_meta b).

(* everything verifyBlock compares, as one value *)
Definition block_bound (b : block) :=
  (b_height b, b_hash b, (b_time_s b, b_time_ns b), (b_sr_ns b, b_sr_version b, b_sr_type b, b_sr_hash b),
   match b_meta b with
   | None => None
   | Some m => Some (m_header m, match m_last_commit m with None => None | Some c => Some (c_sigs c) end)
   end).

Lemma guard_ok (b : bool) (e k : bverdict) : e <> BOk -> (if negb b then e else k) = BOk -> b = true /\ k = BOk.
Proof. intros N V. destruct b; [split; [reflexivity|exact V]|contradiction (N V)]. Qed.

Lemma height_guard (x y : Z) (k : bverdict) : x <> y -> (if negb (x =? y)%Z then BHeight else k) = BHeight.
Proof. intros N. destruct (Z.eqb_spec x y); [contradiction|reflexivity]. Qed.

(* Every public Core method first asks the light client for the light block;
   without one nothing of the provider's is looked at. *)
Lemma with_light_block_ok (f : light_block -> bverdict) (lbo : option light_block) :
  match lbo with None => BOther | Some lb => f lb end = BOk -> exists lb, lbo = Some lb /\ f lb = BOk.
Proof. destruct lbo as [lb|]; [eauto|discriminate]. Qed.

(* bytes.Equal(x, nil) holds of the empty slice only. *)
Lemma opt_bytes_eqb_eq a o : opt_bytes_eqb a o = true -> a = match o with Some b => b | None => [] end.
Proof. destruct o as [b|]; cbn; [apply bytes_eqb_eq|]. destruct a; [reflexivity|discriminate]. Qed.

Lemma map_fst_combine {A B} (l : list A) : forall l' : list B, length l' = length l -> map fst (combine l l') = l.
Proof.
  induction l as [|x l IH]; intros [|y l'] L; cbn in *; try lia; [reflexivity|].
  f_equal. apply IH. lia.
Qed.

Lemma proof_eqb_eq (a b : proof) : proof_eqb a b = true -> a = b.
Proof.
  destruct a as [t1 i1 h1 a1], b as [t2 i2 h2 a2]. unfold proof_eqb. cbn. intros E.
  apply andb_true_iff in E as [E Ea]. apply andb_true_iff in E as [E Eh]. apply andb_true_iff in E as [Et Ei].
  apply bytes_eqb_eq in Eh. apply (list_eqb_eq bytes_eqb) in Ea; [|apply bytes_eqb_eq].
  f_equal; try lia; assumption.
Qed.

Section BindProofs.
  Variable H : bytes -> bytes.
  Variable hlen : nat.
  Hypothesis H_len : forall x, length (H x) = hlen.
  Notation collision := (collision H).

  (* Block results and validator sets have this shape: a height, and a list
     of entries of which [proj] is the part under the Merkle root. *)
  Lemma list_response_binds {X E} {hgt : X -> Z} {body : X -> option (list E * bytes)} {proj : E -> bytes}
        {ok : X -> Prop} {h : Z} {c : bytes} :
    (forall x, ok x -> hgt x = h /\ exists l s, body x = Some (l, s) /\ root H (map proj l) = c) ->
    forall x1 x2, ok x1 -> ok x2 ->
    hgt x1 = h /\ hgt x2 = h /\
    exists l1 s1 l2 s2, body x1 = Some (l1, s1) /\ body x2 = Some (l2, s2) /\
      (map proj l1 = map proj l2 \/ collision).
  Proof.
    intros Inv x1 x2 V1 V2. apply Inv in V1 as (E1 & l1 & s1 & B1 & R1), V2 as (E2 & l2 & s2 & B2 & R2).
    split; [exact E1|]. split; [exact E2|]. exists l1, s1, l2, s2. split; [exact B1|]. split; [exact B2|].
    apply (merkle_root_injective_l H hlen H_len). rewrite R1, R2. reflexivity.
  Qed.

  Theorem verify_block_binds_l (b : block) (lb : light_block) :
    verify_block H b lb = BOk ->
    b_height b = lb_height lb /\
    b_hash b = lb_hash lb /\
    (b_time_s b = lb_time_s lb /\ b_time_ns b = 0%Z) /\
    (b_sr_ns b = zero_namespace /\
     b_sr_version b = ((wrap64 (lb_height lb) + 2 ^ 64 - 1) mod 2 ^ 64)%N /\
     b_sr_type b = root_type_state /\
     b_sr_hash b = lb_app_hash lb) /\
    exists m c, b_meta b = Some m /\ m_header m = lb_header_bytes lb /\
                m_last_commit m = Some c /\ root H (c_sigs c) = lb_last_commit_hash lb.
  Proof.
    unfold verify_block. intros V.
    apply guard_ok in V as [E1 V]; [|discriminate].
    apply guard_ok in V as [E2 V]; [|discriminate].
    apply guard_ok in V as [E3 V]; [|discriminate].
    apply guard_ok in V as [E4 V]; [|discriminate].
    apply guard_ok in V as [E5 V]; [|discriminate].
    apply guard_ok in V as [E6 V]; [|discriminate].
    apply guard_ok in V as [E7 V]; [|discriminate].
    destruct (b_meta b) as [m|]; [|discriminate].
    apply guard_ok in V as [E8 V]; [|discriminate].
    destruct (m_last_commit m) as [c|] eqn:E9; [|discriminate].
    apply guard_ok in V as [E10 _]; [|discriminate].
    apply andb_true_iff in E3 as [E3 E3'].
    apply Z.eqb_eq in E1, E3, E3'. apply N.eqb_eq in E5, E6. apply bytes_eqb_eq in E2, E4, E7, E8, E10.
    repeat split; try assumption. exists m, c. repeat split; assumption.
  Qed.

  Theorem verify_block_agree_l (b1 b2 : block) (lb : light_block) :
    verify_block H b1 lb = BOk -> verify_block H b2 lb = BOk ->
    block_bound b1 = block_bound b2 \/ collision.
  Proof.
    intros V1 V2.
    apply verify_block_binds_l in V1 as (A1 & A2 & [A3 A3'] & (A4 & A5 & A6 & A7) & (m1 & c1 & M1 & Hd1 & C1 & R1)).
    apply verify_block_binds_l in V2 as (B1 & B2 & [B3 B3'] & (B4 & B5 & B6 & B7) & (m2 & c2 & M2 & Hd2 & C2 & R2)).
    rewrite <- R2 in R1.
    apply (or_collision H (merkle_root_injective_l H hlen H_len _ _ R1)); intros S.
    left. unfold block_bound. rewrite M1, M2, C1, C2. congruence.
  Qed.

  (* The fields that are NOT bound: Block.Size ("Block size cannot be
     verified", core.go:569) and the last commit's own Height, Round and
     BlockID (Commit.Hash() covers the signatures only). Changing them never
     changes the verdict. *)
  Theorem block_unbound_fields_l (b : block) (lb : light_block) (size : N) (h r : Z) (bid : bytes) :
    verify_block H (set_block_unbound b size h r bid) lb = verify_block H b lb.
  Proof.
    destruct b as [? ? ? ? ? ? ? ? ? [[? [?|]]|]]; reflexivity.
  Qed.

  Theorem altered_height_rejected_l (lb : light_block) :
    (forall b, b_height b <> lb_height lb -> verify_block H b lb = BHeight) /\
    (forall rs rh, rs_height rs <> lb_height lb -> verify_block_results H rs rh lb = BHeight) /\
    (forall lt rs nrh, rs_height rs <> lb_height lb ->
       core_verify_block_results H lt rs nrh lb = BHeight \/ core_verify_block_results H lt rs nrh lb = BOther) /\
    (forall pm sp, pm_height pm <> lb_height lb -> verify_parameters H pm sp lb = BHeight) /\
    (forall vs, vs_height vs <> wrap_i64 (lb_height lb + 1) -> verify_next_validators H vs lb = BHeight).
  Proof.
    repeat split; try (intros; apply height_guard; assumption).
    intros lt rs nrh N. unfold core_verify_block_results.
    destruct (lt <=? lb_height lb)%Z; [left; apply height_guard; exact N|].
    destruct nrh; [left; apply height_guard; exact N|right; reflexivity].
  Qed.

  Lemma verify_results_ok (rh : option bytes) (lb : light_block) (rs : results) :
    verify_block_results H rs rh lb = BOk ->
    rs_height rs = lb_height lb /\
    exists t e, rs_meta rs = Some (t, e) /\ root H (map r_det t) = match rh with Some b => b | None => [] end.
  Proof.
    unfold verify_block_results. intros V.
    apply guard_ok in V as [E V]; [|discriminate].
    destruct (rs_meta rs) as [[t e]|]; [|discriminate].
    apply guard_ok in V as [R _]; [|discriminate].
    split; [apply Z.eqb_eq; exact E|]. exists t, e. split; [reflexivity|apply opt_bytes_eqb_eq; exact R].
  Qed.

  (* NOT bound in results: Log, Info, Events, Codespace of every result and the
     begin/end block events (core.go:638 TODO, #6210). *)
  Theorem results_unbound_fields_l (h : Z) (txr : list tx_result) (ev ev' : bytes) (rest' : list bytes)
          (rh : option bytes) (lb : light_block) :
    length rest' = length txr ->
    verify_block_results H (mkResults h (Some (map (fun p => mkTxResult (r_det (fst p)) (snd p)) (combine txr rest'), ev'))) rh lb
    = verify_block_results H (mkResults h (Some (txr, ev))) rh lb.
  Proof.
    intros L. unfold verify_block_results. cbn [rs_height rs_meta].
    rewrite map_map. cbn [r_det]. rewrite <- (map_map fst r_det), map_fst_combine by exact L. reflexivity.
  Qed.

  (* The Core method: below the latest trusted height acceptance is acceptance
     by verifyBlockResults against the next verified header's LastResultsHash;
     AT the latest trusted height (or above) nothing but the height and the
     decodability is checked (core.go:600-613: "skipping verification"). *)
  Theorem core_results_below_latest_l (lt : Z) (rs : results) (nrh : option (option bytes)) (lb : light_block) :
    (lb_height lb < lt)%Z -> core_verify_block_results H lt rs nrh lb = BOk ->
    exists rh, nrh = Some rh /\ verify_block_results H rs rh lb = BOk.
  Proof.
    unfold core_verify_block_results. intros L V.
    destruct (Z.leb_spec lt (lb_height lb)); [lia|].
    destruct nrh as [rh|]; [|discriminate]. exists rh. split; [reflexivity|exact V].
  Qed.
  Theorem core_results_latest_not_verified_l (lt : Z) (rs : results) (nrh : option (option bytes)) (lb : light_block) m :
    (lt <= lb_height lb)%Z -> rs_height rs = lb_height lb -> rs_meta rs = Some m ->
    core_verify_block_results H lt rs nrh lb = BOk.
  Proof.
    unfold core_verify_block_results. intros L E M.
    destruct (Z.leb_spec lt (lb_height lb)); [|lia].
    rewrite E, Z.eqb_refl, M. reflexivity.
  Qed.

  Theorem core_tx_results_binds_l (lt : Z) (txs : list bytes) (rs : results)
          (nrh : option (option bytes)) (ok : bool) (lb : light_block) :
    core_get_transactions_with_results H (verify_transactions H txs lb) lt rs nrh ok lb = BOk ->
    verify_transactions H txs lb = BOk /\ core_verify_block_results H lt rs nrh lb = BOk.
  Proof.
    unfold core_get_transactions_with_results.
    destruct (verify_transactions H txs lb); try discriminate.
    destruct (core_verify_block_results H lt rs nrh lb); try discriminate.
    intros _. split; reflexivity.
  Qed.

  Lemma verify_transactions_ok (txs : list bytes) (lb : light_block) :
    verify_transactions H txs lb = BOk ->
    tx_root H txs = match lb_data_hash lb with Some b => b | None => [] end.
  Proof.
    unfold verify_transactions. intros V. apply opt_bytes_eqb_eq.
    destruct (opt_bytes_eqb _ _); [reflexivity|discriminate].
  Qed.

  Theorem verify_transactions_binds_l (txs1 txs2 : list bytes) (lb : light_block) :
    verify_transactions H txs1 lb = BOk -> verify_transactions H txs2 lb = BOk ->
    txs1 = txs2 \/ collision.
  Proof.
    intros V1 V2. apply verify_transactions_ok in V1, V2.
    apply (tx_root_injective_l H hlen H_len). rewrite V1, V2. reflexivity.
  Qed.

  Theorem verify_transaction_proof_binds_l (p : option proof) (tx : bytes) (txs : list bytes) (lb : light_block) :
    verify_transaction_proof H p tx lb = BOk -> verify_transactions H txs lb = BOk ->
    In tx txs \/ collision.
  Proof.
    unfold verify_transaction_proof. intros V T. apply verify_transactions_ok in T.
    destruct (verify_tx H p (lb_data_hash lb) tx) eqn:E; try discriminate.
    destruct (lb_data_hash lb) as [rh|]; [|destruct p; discriminate].
    subst rh. exact (proof_sound_member_l H hlen H_len _ _ _ E).
  Qed.

  (* The binding rule is on the RETURNED answer itself: the Merkle root over
     its entries, in the order they have in the returned bytes, is the hash the
     verified header commits to. *)
  Lemma verify_next_validators_ok (lb : light_block) (vs : validators) :
    verify_next_validators H vs lb = BOk ->
    vs_height vs = wrap_i64 (lb_height lb + 1) /\
    exists l s, vs_set vs = Some (l, s) /\ root H (map v_bytes l) = lb_next_validators_hash lb.
  Proof.
    unfold verify_next_validators. intros V.
    apply guard_ok in V as [E V]; [|discriminate].
    destruct (vs_set vs) as [[l s]|]; [|discriminate].
    apply guard_ok in V as [R _]; [|discriminate]. apply bytes_eqb_eq in R.
    split; [apply Z.eqb_eq; exact E|]. exists l, s. split; [reflexivity|exact R].
  Qed.

  Lemma verify_parameters_ok (pm : parameters) (sp : option bytes) (lb : light_block) :
    verify_parameters H pm sp lb = BOk ->
    pm_height pm = lb_height lb /\ sp = Some (pm_params_cbor pm) /\
    exists c, pm_meta pm = Some c /\ H (cp_hashed c) = lb_consensus_hash lb.
  Proof.
    unfold verify_parameters. intros V.
    apply guard_ok in V as [E V]; [|discriminate].
    destruct (pm_meta pm) as [c|]; [|discriminate].
    apply guard_ok in V as [_ V]; [|discriminate].
    apply guard_ok in V as [R V]; [|discriminate]. apply bytes_eqb_eq in R.
    destruct sp as [s|]; [|discriminate].
    destruct (bytes_eqb s (pm_params_cbor pm)) eqn:S; [|discriminate]. apply bytes_eqb_eq in S. subst s.
    split; [apply Z.eqb_eq; exact E|]. split; [reflexivity|]. exists c. split; [reflexivity|exact R].
  Qed.

  Theorem verify_parameters_binds_l (p1 p2 : parameters) (sp : option bytes) (lb : light_block) :
    verify_parameters H p1 sp lb = BOk -> verify_parameters H p2 sp lb = BOk ->
    pm_height p1 = lb_height lb /\ pm_height p2 = lb_height lb /\
    pm_params_cbor p1 = pm_params_cbor p2 /\ sp = Some (pm_params_cbor p1) /\
    exists c1 c2, pm_meta p1 = Some c1 /\ pm_meta p2 = Some c2 /\
      (cp_hashed c1 = cp_hashed c2 \/ collision).
  Proof.
    intros V1 V2.
    apply verify_parameters_ok in V1 as (E1 & S1 & c1 & M1 & R1), V2 as (E2 & S2 & c2 & M2 & R2).
    rewrite S1 in S2. injection S2 as S2.
    split; [exact E1|]. split; [exact E2|]. split; [exact S2|]. split; [exact S1|].
    exists c1, c2. split; [exact M1|]. split; [exact M2|]. apply (hash_inj H). rewrite R1, R2. reflexivity.
  Qed.

  (* The public Core API.  GetBlock, GetTransactions and GetParameters are
     [with_light_block_ok] at the method's verification function. *)

  Theorem core_get_transactions_with_proofs_binds_l (lbo : option light_block) (txs : list bytes) (ret : list proof) :
    core_get_transactions_with_proofs H lbo txs ret = BOk ->
    exists lb, lbo = Some lb /\ verify_transactions H txs lb = BOk /\ length ret = length txs /\
      forall d, lb_data_hash lb = Some d ->
      forall i p, nth_error ret i = Some p -> verify_transaction_proof H (Some p) (nth i txs []) lb = BOk.
  Proof.
    unfold core_get_transactions_with_proofs, core_get_transactions. intros V.
    destruct lbo as [lb|]; [|discriminate].
    destruct (verify_transactions H txs lb) eqn:T; try discriminate.
    destruct (list_eqb proof_eqb ret _) eqn:E; [|discriminate].
    apply (list_eqb_eq _ proof_eqb_eq) in E. subst ret.
    exists lb. split; [reflexivity|]. split; [exact T|].
    split; [apply proofs_for_txs_length|].
    intros d D i p N. unfold verify_transaction_proof.
    apply verify_transactions_ok in T. rewrite D in *. subst d.
    rewrite (proofs_for_txs_verify H hlen H_len _ _ _ N). reflexivity.
  Qed.

  Theorem core_get_validators_binds_l (lbo : option light_block) (height : Z) (lbp : option light_block) (vs : validators) :
    core_get_validators H lbo height lbp vs = BOk ->
    (exists lb, lbo = Some lb) \/
    (lbo = None /\ (2 <= height)%Z /\ exists p, lbp = Some p /\ verify_next_validators H vs p = BOk).
  Proof.
    unfold core_get_validators. destruct lbo as [lb|]; [left; eauto|]. intros V. right.
    destruct (Z.ltb_spec height 2); [discriminate|]. destruct lbp as [p|]; [|discriminate].
    repeat split; try lia. eauto.
  Qed.

  (* The fallback branch (the height is one above what the light client can
     verify): the accepted answer -- the very value GetValidators returns --
     hashes, entry by entry in its own order, to NextValidatorsHash of the
     verified light block below. *)
  Theorem core_validators_binds_l (height : Z) (lbp : option light_block) (vs : validators) :
    core_get_validators H None height lbp vs = BOk ->
    (2 <= height)%Z /\
    exists p l s, lbp = Some p /\ vs_set vs = Some (l, s) /\ vs_height vs = wrap_i64 (lb_height p + 1) /\
      root H (map v_bytes l) = lb_next_validators_hash p.
  Proof.
    intros V. apply core_get_validators_binds_l in V as [[lb E]|(_ & Hh & p & -> & V)]; [discriminate|].
    apply verify_next_validators_ok in V as (E & l & s & S & R).
    split; [exact Hh|]. exists p, l, s. repeat split; assumption.
  Qed.

  Theorem core_submit_tx_with_proof_binds_l (lbo : option light_block) (p : option proof) (tx : bytes) (txs : list bytes) :
    core_submit_tx_with_proof H lbo p tx = BOk ->
    exists lb, lbo = Some lb /\ verify_transaction_proof H p tx lb = BOk /\
      (verify_transactions H txs lb = BOk -> In tx txs \/ collision).
  Proof.
    destruct lbo as [lb|]; cbn; [|discriminate]. intros V. exists lb. repeat split; [exact V|].
    intros T. eapply verify_transaction_proof_binds_l; eassumption.
  Qed.

  Variable decode_meta_tx : bytes -> meta_tx.

  (* Whatever transactions the provider returns, a state root that
     fetchStateRoot hands out is a function of the verified light blocks only. *)
  Theorem state_root_bound_l (lb_next : option light_block) (lb : light_block) (txs1 txs2 : list bytes) h1 h2 :
    fetch_state_root H decode_meta_tx lb_next lb txs1 = SrOk h1 ->
    fetch_state_root H decode_meta_tx lb_next lb txs2 = SrOk h2 ->
    h1 = h2 \/ collision.
  Proof.
    unfold fetch_state_root. intros F1 F2.
    destruct (match lb_next with Some n => state_root_from_light_block n | None => SrErr BOther end) as [h|e].
    - left. congruence.
    - destruct (verify_transactions H txs1 lb) eqn:V1; try discriminate.
      destruct (verify_transactions H txs2 lb) eqn:V2; try discriminate.
      apply (or_collision H (verify_transactions_binds_l _ _ _ V1 V2)); intros ->.
      left. congruence.
  Qed.
End BindProofs.

(* Non-vacuity: a toy hash with a fixed output length. *)
Definition toyH (x : bytes) : bytes := [fold_left (fun a b => (a * 31 + b + 7) mod 251)%N x 3%N].
Lemma toyH_len x : length (toyH x) = 1.
Proof. reflexivity. Qed.

Definition ex_txs : list bytes := [[1]; [2; 2]; [3]; [4; 4; 4]; [5]]%N.
Example ex_five_tx_block_proofs :
  let '(r, ps) := proofs_for_txs toyH ex_txs in
  verify_tx toyH (nth_error ps 0) (Some r) [1]%N = MOk /\
  verify_tx toyH (nth_error ps 3) (Some r) [4; 4; 4]%N = MOk /\
  verify_tx toyH (nth_error ps 4) (Some r) [5]%N = MOk /\
  verify_tx toyH (nth_error ps 3) (Some r) [5]%N = MLeafHash /\
  length ps = 5.
Proof. vm_compute. repeat split. Qed.

Definition ex_commit := mkCommit [[9; 9]; [8]]%N 6 0 [1; 2]%N.
Definition ex_lb : light_block :=
  mkLB 7 [7; 7]%N 1000 5 [4; 4]%N [1; 2; 3]%N (root toyH (c_sigs ex_commit)) (Some (tx_root toyH ex_txs))
       (root toyH [[5]; [6]]%N) (toyH [3; 3]%N).
Definition ex_block : block :=
  mkBlock 7 [7; 7]%N 1000 0 zero_namespace 6 1 [4; 4]%N 1234 (Some (mkMeta [1; 2; 3]%N (Some ex_commit))).
Example ex_block_accepted : verify_block toyH ex_block ex_lb = BOk.
Proof. vm_compute. reflexivity. Qed.
Example ex_block_height_rejected : verify_block toyH (set_block_height ex_block 8) ex_lb = BHeight.
Proof. vm_compute. reflexivity. Qed.
Example ex_txs_accepted : verify_transactions toyH ex_txs ex_lb = BOk.
Proof. vm_compute. reflexivity. Qed.
Example ex_results_accepted :
  verify_block_results toyH (mkResults 7 (Some ([mkTxResult [1]%N [2]%N], [3]%N))) (Some (root toyH [[1]%N])) ex_lb = BOk.
Proof. vm_compute. reflexivity. Qed.
Example ex_validators_accepted :
  verify_next_validators toyH (mkValidators 8 (Some ([mkValidator [5]%N [0]%N; mkValidator [6]%N [1]%N], []))) ex_lb = BOk.
Proof. vm_compute. reflexivity. Qed.
Example ex_params_accepted :
  verify_parameters toyH (mkParams 7 (Some (mkCmtParams [3; 3]%N true [9]%N)) [8]%N) (Some [8]%N) ex_lb = BOk.
Proof. vm_compute. reflexivity. Qed.
Example ex_state_root :
  fetch_state_root toyH (fun _ => MtTx true (Some [4; 2]%N)) None ex_lb ex_txs = SrOk [4; 2]%N.
Proof. vm_compute. reflexivity. Qed.
