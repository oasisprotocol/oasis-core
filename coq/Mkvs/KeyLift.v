(* Split, Merge, AppendBit and CommonPrefixLen of Mkvs/Key.v on packed bit
   lists of every length.  Each output byte is an OR/AND of shifted input
   bytes, so its bits are read off with the lemmas of Mkvs/KeyProofs.v and
   compared with the bits of the expected [pack]; positions are 8 j + u with
   j the byte and u < 8 the bit counted from the most significant one. *)
From Verif Require Import Lib.Base Mkvs.Trie Mkvs.BitsProofs Mkvs.Key Mkvs.KeyProofs.

Lemma nrange_0 : nrange 0 = [].
Proof. reflexivity. Qed.

Lemma blen_take_pad n k : blen (take_pad n k) = n.
Proof. unfold blen, take_pad. rewrite firstn_length, app_length, repeat_length. lia. Qed.
Lemma nthb_take_pad n k j : nthb (take_pad n k) j = if j <? n then nthb k j else 0.
Proof.
  unfold nthb, take_pad. rewrite nth_firstn.
  replace (N.to_nat j <? N.to_nat n)%nat with (j <? n) by lia. destruct (j <? n); [|reflexivity].
  destruct (Nat.lt_ge_cases (N.to_nat j) (length k)) as [H|H].
  - now apply app_nth1.
  - rewrite app_nth2, nth_repeat by exact H. symmetry. now apply nth_overflow.
Qed.
Lemma blen_upd k i f : blen (upd k i f) = blen k.
Proof.
  unfold blen, upd. f_equal. generalize (N.to_nat i) as n. induction k as [|x k IH]; intros [|n]; cbn; auto.
Qed.
Lemma nthb_upd k i f j : nthb (upd k i f) j = if (j =? i) && (j <? blen k) then f (nthb k j) else nthb k j.
Proof.
  unfold nthb, upd, blen.
  replace (j =? i) with (N.to_nat j =? N.to_nat i)%nat by lia.
  replace (j <? N.of_nat (length k)) with (N.to_nat j <? length k)%nat by lia.
  generalize (N.to_nat i) as n, (N.to_nat j) as m.
  induction k as [|x k IH]; intros [|n] [|m]; cbn [upd_nat nth length]; try reflexivity.
  - now rewrite andb_false_r.
  - exact (IH n m).
Qed.

Lemma shl8_0 x : x < 256 -> shl8 x 0 = x.
Proof. intros H. unfold shl8. rewrite N.mul_1_r. now apply N.mod_small. Qed.
Lemma shr8_8 x : x < 256 -> shr8 x 8 = 0.
Proof. apply N.div_small. Qed.
Lemma shr8_0_l s : shr8 0 s = 0.
Proof. apply N.div_0_l, N.pow_nonzero. lia. Qed.

(* eight bits of k starting r bits into byte j *)
Lemma kbit_window k j r u : valid_bytes k -> r < 8 -> u < 8 ->
  N.testbit (N.lor (shl8 (nthb k j) r) (shr8 (nthb k (j + 1)) (8 - r))) (7 - u) = kbit k (8 * j + r + u).
Proof.
  intros Hv Hr Hu. rewrite window_byte by (try apply nthb_valid; assumption).
  destruct (N.ltb_spec (u + r) 8) as [H|H]; rewrite <- kbit_at by lia; f_equal; lia.
Qed.

(* key.go:119, 0xff << (8 - splitPoint%8) *)
Lemma keep_mask r u : u < 8 -> N.testbit (shl8 255 (8 - r)) (7 - u) = (u <? r).
Proof.
  intros Hu. rewrite testbit_shl8 by lia. change 255 with (N.ones 8).
  destruct (N.ltb_spec u r) as [H|H].
  - rewrite N.ones_spec_low by lia. lia.
  - lia.
Qed.

Lemma split_prefix_len k sp kl : blen (fst (k_split k sp kl)) = to_bytes sp.
Proof. unfold k_split. cbn [fst]. destruct (_ =? 0); now rewrite ?blen_upd, blen_take_pad. Qed.
Lemma split_prefix_byte k sp kl j : j < to_bytes sp ->
  nthb (fst (k_split k sp kl)) j =
  if negb (sp mod 8 =? 0) && (j =? to_bytes sp - 1)
  then N.land (nthb k j) (shl8 255 (8 - sp mod 8)) else nthb k j.
Proof.
  intros Hj. unfold k_split. cbn [fst].
  destruct (sp mod 8 =? 0); cbn [negb andb]; rewrite ?nthb_upd, ?blen_take_pad, !nthb_take_pad;
    replace (j <? to_bytes sp) with true by lia; [reflexivity|now rewrite andb_true_r].
Qed.

(* the suffix bytes without the guards: beyond the end and for r = 0 the second byte contributes 0 *)
Lemma split_suffix k sp kl : valid_bytes k ->
  snd (k_split k sp kl) =
  map (fun i => N.lor (shl8 (nthb k (i + sp / 8)) (sp mod 8)) (shr8 (nthb k (i + sp / 8 + 1)) (8 - sp mod 8)))
      (nrange (to_bytes (kl - sp))).
Proof.
  intros Hv. unfold k_split. cbn [snd]. apply map_ext. intros i.
  destruct (N.eqb_spec (sp mod 8) 0) as [E|E]; cbn [negb andb].
  - rewrite E, N.sub_0_r, shr8_8 by now apply nthb_valid. now rewrite N.lor_0_r.
  - destruct (N.eqb_spec (i + sp / 8 + 1) (blen k)) as [E1|E1]; cbn [negb]; [|reflexivity].
    rewrite (nthb_oob k (i + sp / 8 + 1)) by lia. now rewrite shr8_0_l, N.lor_0_r.
Qed.

Lemma key_split_prefix (p : path) sp : (sp <= length p)%nat ->
  fst (k_split (pack p) (N.of_nat sp) (N.of_nat (length p))) = pack (firstn sp p).
Proof.
  intros Hsp. destruct (divmod8 (N.of_nat sp)) as [Esp Hr]. pose proof (to_bytes_spec (N.of_nat sp)) as Hpl.
  apply bytes_ext; [apply valid_pack| | |]; rewrite split_prefix_len.
  - now rewrite blen_pack, firstn_length, Nat.min_l.
  - intros j Hj. rewrite split_prefix_byte by exact Hj.
    destruct (_ && _); [apply land_byte|]; apply nthb_valid, valid_pack.
  - intros j u Hj Hu. rewrite split_prefix_byte, !pack_bit_at, bit_firstn by assumption.
    (* body cleared, here and below: lia's preprocessing goes through the mod and div of local definitions *)
    set (r := N.of_nat sp mod 8) in *. clearbody r.
    destruct (N.eqb_spec r 0) as [E|E]; cbn [negb andb]; [|destruct (N.eqb_spec j (to_bytes (N.of_nat sp) - 1))].
    + replace (_ <? sp)%nat with true by lia. now rewrite pack_bit_at.
    + rewrite N.land_spec, keep_mask, pack_bit_at, andb_comm by lia. f_equal. lia.
    + replace (_ <? sp)%nat with true by lia. now rewrite pack_bit_at.
Qed.

Lemma key_split_suffix (p : path) sp : (sp <= length p)%nat ->
  snd (k_split (pack p) (N.of_nat sp) (N.of_nat (length p))) = pack (skipn sp p).
Proof.
  intros Hsp. destruct (divmod8 (N.of_nat sp)) as [Esp Hr]. rewrite split_suffix by apply valid_pack.
  apply bytes_ext; [apply valid_pack| | |]; rewrite blen_map_nrange.
  - rewrite blen_pack, skipn_length. f_equal. lia.
  - intros j Hj. rewrite nthb_map_nrange by exact Hj.
    apply lor_byte; [apply shl8_byte|apply shr8_byte, nthb_valid, valid_pack].
  - intros j u Hj Hu. rewrite nthb_map_nrange by exact Hj.
    rewrite kbit_window, pack_bit, pack_bit_at, bit_skipn by (apply valid_pack || assumption). f_equal. lia.
Qed.

Theorem key_split_general (p : path) : forall sp, (sp <= length p)%nat ->
  k_split (pack p) (N.of_nat sp) (N.of_nat (length p)) = (pack (firstn sp p), pack (skipn sp p)).
Proof.
  intros sp Hsp. now rewrite (surjective_pairing (k_split _ _ _)), key_split_prefix, key_split_suffix.
Qed.

Lemma guard_nthb (c : bool) k j (f : N -> N) : f 0 = 0 ->
  (if c && (j <? blen k) then f (nthb k j) else 0) = if c then f (nthb k j) else 0.
Proof.
  intros H0. destruct c; [|reflexivity]. cbn [andb]. destruct (N.ltb_spec j (blen k)); [reflexivity|].
  now rewrite nthb_oob.
Qed.

(* the two contributions of k2 to output byte j make up k2 moved right by kl bits *)
Lemma merge_shifted k2 kl j u : valid_bytes k2 -> u < 8 ->
  let klb := to_bytes kl in
  N.testbit (N.lor (if negb (kl mod 8 =? 0) && (0 <? klb) && (klb <=? j + 1) && (j + 1 - klb <? blen k2)
                    then shr8 (nthb k2 (j + 1 - klb)) (kl mod 8) else 0)
                   (if (klb <=? j) && (j - klb <? blen k2)
                    then shl8 (nthb k2 (j - klb)) ((8 - kl mod 8) mod 8) else 0)) (7 - u)
  = (kl <=? 8 * j + u) && kbit k2 (8 * j + u - kl).
Proof.
  intros Hv Hu klb. pose proof (to_bytes_spec kl) as Hklb. fold klb in Hklb.
  destruct (divmod8 kl) as [Ekl Hr]. set (q := kl / 8) in *. set (r := kl mod 8) in *. clearbody q r klb.
  rewrite (guard_nthb _ k2 (j + 1 - klb) (fun x => shr8 x r)) by apply shr8_0_l.
  rewrite (guard_nthb _ k2 (j - klb) (fun x => shl8 x ((8 - r) mod 8))) by reflexivity.
  destruct (N.eqb_spec r 0) as [E|E]; cbn [negb andb].
  - (* byte aligned: klb = q, byte j of the output is byte j - q of k2 *)
    rewrite N.lor_0_l, E. change ((8 - 0) mod 8) with 0.
    destruct (N.leb_spec klb j).
    + replace (kl <=? 8 * j + u) with true by lia.
      rewrite shl8_0, <- kbit_at by (try apply nthb_valid; assumption). cbn [andb]. f_equal. lia.
    + replace (kl <=? 8 * j + u) with false by lia. apply N.bits_0.
  - (* klb = q + 1 *)
    rewrite (N.mod_small (8 - r) 8) by lia. replace (0 <? klb) with true by lia.
    cbn [andb]. destruct (N.leb_spec klb j) as [Hj|Hj].
    + (* j > q: a window starting 8 - r bits into byte j - q - 1 of k2 *)
      replace (klb <=? j + 1) with true by lia. replace (kl <=? 8 * j + u) with true by lia.
      replace (j + 1 - klb) with (j - klb + 1) by lia. rewrite N.lor_comm.
      replace r with (8 - (8 - r)) at 2 by lia. rewrite kbit_window by (assumption || lia). cbn [andb]. f_equal. lia.
    + rewrite N.lor_0_r. destruct (N.leb_spec klb (j + 1)) as [Hj1|Hj1].
      * (* j = q: the first byte of k2 moved right by r *)
        rewrite testbit_shr8. destruct (N.leb_spec kl (8 * j + u)); cbn [andb].
        -- replace (8 * j + u - kl) with (8 * (j + 1 - klb) + (u - r)) by lia. rewrite kbit_at by lia. f_equal. lia.
        -- apply byte_high; [now apply nthb_valid|lia].
      * replace (kl <=? 8 * j + u) with false by lia. apply N.bits_0.
Qed.

Theorem key_merge_general (a b : path) :
  k_merge (pack a) (N.of_nat (length a)) (pack b) (N.of_nat (length b)) = pack (a ++ b).
Proof.
  unfold k_merge. set (la := N.of_nat (length a)).
  apply bytes_ext; [apply valid_pack| | |]; rewrite blen_map_nrange.
  - rewrite blen_pack, app_length. f_equal. lia.
  - intros j Hj. rewrite nthb_map_nrange by exact Hj. repeat apply lor_byte.
    + destruct (j <? _); [apply nthb_valid, valid_pack|lia].
    + destruct (_ && _); [apply shr8_byte, nthb_valid, valid_pack|lia].
    + destruct (_ && _); [apply shl8_byte|lia].
  - intros j u Hj Hu. rewrite nthb_map_nrange by exact Hj.
    rewrite <- N.lor_assoc, N.lor_spec. rewrite (merge_shifted (pack b) la j u (valid_pack b) Hu).
    assert ((if j <? to_bytes la then nthb (pack a) j else 0) = nthb (pack a) j) as ->.
    { destruct (N.ltb_spec j (to_bytes la)); [reflexivity|]. symmetry. apply nthb_oob. now rewrite blen_pack. }
    rewrite !pack_bit_at, pack_bit, bit_app by exact Hu.
    destruct (Nat.ltb_spec (N.to_nat (8 * j + u)) (length a)).
    + replace (la <=? 8 * j + u) with false by lia. apply orb_false_r.
    + replace (la <=? 8 * j + u) with true by lia. rewrite bit_oob by lia. cbn [orb andb]. f_equal. lia.
Qed.

Lemma set_mask r : r < 8 -> shr8 128 r = 2 ^ (7 - r).
Proof. intros H. unfold shr8. change 128 with (2 ^ 7). symmetry. apply N.pow_sub_r; lia. Qed.
Lemma clear_mask s t : s < 8 -> t < 8 -> N.testbit (255 - 2 ^ s) t = negb (s =? t).
Proof.
  intros Hs Ht. change 255 with (N.ones 8). rewrite N.sub_nocarry_ldiff.
  - now rewrite N.ldiff_spec, N.pow2_bits_eqb, N.ones_spec_low.
  - apply N.bits_inj. intros m. rewrite N.ldiff_spec, N.pow2_bits_eqb, N.bits_0.
    destruct (N.eqb_spec s m) as [<-|]; [|reflexivity]. now rewrite N.ones_spec_low.
Qed.

(* key.go:171-175: |= mask and &^= mask write bit r (from the left) and leave the others *)
Lemma put_bit x r u (v : bool) : r < 8 -> u < 8 ->
  N.testbit (if v then N.lor x (2 ^ (7 - r)) else N.land x (255 - 2 ^ (7 - r))) (7 - u) =
  if u =? r then v else N.testbit x (7 - u).
Proof.
  intros Hr Hu. replace (u =? r) with (7 - r =? 7 - u) by lia.
  destruct v; [rewrite N.lor_spec, N.pow2_bits_eqb|rewrite N.land_spec, clear_mask by lia];
    destruct (7 - r =? 7 - u); cbn [negb]; auto using orb_true_r, orb_false_r, andb_false_r, andb_true_r.
Qed.

(* k holds the bits P followed by zeros *)
Theorem appendbit_path k (P : path) v : valid_bytes k -> (forall i, kbit k i = bit P (N.to_nat i)) ->
  k_appendbit k (N.of_nat (length P)) v = pack (P ++ [v]).
Proof.
  intros Hv HP. unfold k_appendbit. set (n := N.of_nat (length P)).
  destruct (divmod8 n) as [En Hr]. pose proof (to_bytes_spec (n + 1)) as Hnb.
  set (q := n / 8) in *. set (r := n mod 8) in *. clearbody q r.
  rewrite set_mask by exact Hr.
  apply bytes_ext; [apply valid_pack| | |]; rewrite blen_upd, blen_take_pad.
  - now rewrite blen_pack, app_length, Nat2N.inj_add.
  - intros j Hj. rewrite nthb_upd, nthb_take_pad. replace (j <? to_bytes (n + 1)) with true by lia.
    pose proof (nthb_valid k j Hv) as Hx. destruct (_ && _); [|exact Hx].
    destruct v; [apply lor_byte; [exact Hx|]|now apply land_byte]. apply (N.pow_lt_mono_r 2 _ 8); lia.
  - intros j u Hj Hu. rewrite nthb_upd, blen_take_pad, nthb_take_pad. replace (j <? to_bytes (n + 1)) with true by lia.
    rewrite andb_true_r, pack_bit_at, bit_snoc by exact Hu.
    assert (N.testbit (nthb k j) (7 - u) = bit P (N.to_nat (8 * j + u))) as Ek by now rewrite <- kbit_at, HP.
    destruct (N.eqb_spec j q) as [->|Ej].
    + rewrite put_bit, Ek by assumption. now replace (_ =? length P)%nat with (u =? r) by lia.
    + rewrite Ek. now replace (_ =? length P)%nat with false by lia.
Qed.

Theorem key_appendbit_general p v :
  k_appendbit (pack p) (N.of_nat (length p)) v = pack (p ++ [v]).
Proof. apply appendbit_path; [apply valid_pack|apply pack_bit]. Qed.

Theorem appendbit_bytes x : valid_bytes x -> forall n v, (8 * length x <= n)%nat ->
  k_appendbit x (N.of_nat n) v = pack (bits_of x ++ repeat false (n - 8 * length x) ++ [v]).
Proof.
  intros Hv n v Hn. rewrite app_assoc. set (P := bits_of x ++ repeat false (n - 8 * length x)).
  replace n with (length P) by (unfold P; rewrite app_length, repeat_length, bits_of_len; lia).
  apply appendbit_path; [exact Hv|]. intros i. unfold P. rewrite bit_app, bit_zeros, bit_bits_of, N2Nat.id.
  destruct (Nat.ltb_spec (N.to_nat i) (length (bits_of x))) as [H|H]; [reflexivity|].
  apply kbit_oob. rewrite bits_of_len in H. unfold blen. lia.
Qed.

(* as CommonPrefixLen computes it: where the first difference is, cut at both lengths *)
Lemma lcp_min (a : path) : forall b n,
  (forall m, (m < n)%nat -> bit a m = bit b m) ->
  ((n < length a)%nat -> (n < length b)%nat -> bit a n <> bit b n) ->
  lcp a b = Nat.min (Nat.min n (length a)) (length b).
Proof.
  induction a as [|x a IH]; intros [|y b] n Hagree Hstop; cbn [length lcp] in *; [lia..|].
  destruct n as [|n].
  - specialize (Hstop ltac:(lia) ltac:(lia)). unfold bit in Hstop. cbn [nth] in Hstop. now destruct x, y.
  - replace (Bool.eqb x y) with true by (symmetry; apply Bool.eqb_true_iff; exact (Hagree 0%nat ltac:(lia))).
    rewrite (IH b n); [reflexivity| |].
    + intros m Hm. exact (Hagree (S m) ltac:(lia)).
    + intros Ha Hb. apply Hstop; lia.
Qed.

Lemma eq_prefix_spec k : forall k2, let i := N.of_nat (eq_prefix_bytes k k2) in
  i <= blen k /\ i <= blen k2 /\ (forall j, j < i -> nthb k j = nthb k2 j) /\
  (i < blen k -> i < blen k2 -> nthb k i <> nthb k2 i).
Proof.
  induction k as [|x k IH]; intros [|y k2]; cbn [eq_prefix_bytes]; try (cbn; repeat split; intros; lia).
  destruct (N.eqb_spec x y) as [->|Hne].
  - destruct (IH k2) as (H1 & H2 & H3 & H4). set (i := N.of_nat (eq_prefix_bytes k k2)) in *.
    replace (N.of_nat (S _)) with (1 + i) by lia. rewrite !blen_cons, !nthb_succ.
    split; [lia|]. split; [lia|]. split.
    + intros j Hj. destruct (N.eq_dec j 0) as [->|Hj0]; [reflexivity|].
      replace j with (1 + (j - 1)) by lia. rewrite !nthb_succ. apply H3. lia.
    + intros Hk Hk2. apply H4; lia.
  - cbn [N.of_nat]. rewrite !blen_cons. split; [lia|]. split; [lia|]. split; [intros j Hj; lia|]. intros _ _. exact Hne.
Qed.

(* bits.LeadingZeros8 of x xor y: the number of leading bits on which x and y agree *)
Lemma lz8_le z : lz8 z <= 8.
Proof. unfold lz8. destruct (z =? 0); lia. Qed.
Lemma lz8_agree x y u : u < lz8 (N.lxor x y) -> N.testbit x (7 - u) = N.testbit y (7 - u).
Proof.
  unfold lz8. intros Hu. apply xorb_eq. rewrite <- N.lxor_spec.
  destruct (N.eqb_spec (N.lxor x y) 0) as [E|E]; [rewrite E; apply N.bits_0|apply N.bits_above_log2; lia].
Qed.
Lemma lz8_differ x y : x < 256 -> y < 256 -> x <> y -> let n := lz8 (N.lxor x y) in
  n < 8 /\ N.testbit x (7 - n) <> N.testbit y (7 - n).
Proof.
  intros Hx Hy Hne. unfold lz8. set (z := N.lxor x y).
  destruct (N.eqb_spec z 0) as [E|E]; [apply N.lxor_eq in E; contradiction|]. cbv zeta.
  assert (N.log2 z < 8) as Hl.
  { apply N.log2_lt_pow2; [lia|]. apply byte_bound. intros t Ht. unfold z. now rewrite N.lxor_spec, !byte_high. }
  split; [lia|]. replace (7 - (7 - N.log2 z)) with (N.log2 z) by lia. pose proof (N.bit_log2 z E) as Hb.
  unfold z in Hb at 1. rewrite N.lxor_spec in Hb. intros Z. rewrite Z, xorb_nilpotent in Hb. discriminate.
Qed.

Theorem key_cpl_general (a b : path) :
  k_cpl (pack a) (N.of_nat (length a)) (pack b) (N.of_nat (length b)) = N.of_nat (lcp a b).
Proof.
  unfold k_cpl. set (k := pack a). set (k2 := pack b).
  destruct (eq_prefix_spec k k2) as (Hik & Hik2 & Hsame & Hdiff). cbv zeta in *.
  set (i := N.of_nat (eq_prefix_bytes k k2)) in *. clearbody i.
  assert (forall m, kbit k m = bit a (N.to_nat m)) as Ka by apply pack_bit.
  assert (forall m, kbit k2 m = bit b (N.to_nat m)) as Kb by apply pack_bit.
  set (c := negb _ && negb _). set (bl := i * 8 + _).
  rewrite (lcp_min a b (N.to_nat bl)); [lia| |].
  - (* agreement below bl: whole equal bytes, then the leading zeros of the xor *)
    intros m Hm. rewrite <- (Nat2N.id m), <- Ka, <- Kb. destruct (divmod8 (N.of_nat m)) as [Em Hu].
    set (j := N.of_nat m / 8) in *. set (u := N.of_nat m mod 8) in *. clearbody j u. rewrite Em, !kbit_at by exact Hu.
    destruct (N.lt_ge_cases j i) as [Hj|Hj]; [now rewrite (Hsame j Hj)|].
    unfold bl in Hm. pose proof (lz8_le (N.lxor (nthb k i) (nthb k2 i))) as Hlz. destruct c; [|lia]. assert (j = i) as -> by lia. apply lz8_agree. lia.
  - (* bits bl exist only if bytes i do, and then bl is the first bit on which they differ *)
    pose proof (to_bytes_spec (N.of_nat (length a))) as Hla. pose proof (to_bytes_spec (N.of_nat (length b))) as Hlb.
    rewrite <- blen_pack in Hla, Hlb. fold k k2 in Hla, Hlb. unfold bl, c.
    destruct (N.eqb_spec i (blen k)), (N.eqb_spec i (blen k2)); cbn [negb andb]; intros Ha Hb; [exfalso; lia..|].
    destruct (lz8_differ (nthb k i) (nthb k2 i)) as [Hlt Hbit]; [apply nthb_valid, valid_pack..|apply Hdiff; lia|].
    now rewrite <- Ka, <- Kb, N.mul_comm, !kbit_at by exact Hlt.
Qed.
