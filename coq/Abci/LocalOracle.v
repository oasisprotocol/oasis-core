(* Node-local mutable stores consulted from inside block execution (C01).

   Real code: governance executeProposal tells the node-local upgrade manager about a passed
   upgrade (upgrader.SubmitDescriptor, governance.go:257-264) and about a cancelled one
   (CancelUpgrade, :283-290); completeStateSync re-submits pending upgrades (messages.go:23-35).
   The manager's store is persistent, survives restarts and is written even by executions that
   never commit, so its answers differ between replicas (ErrAlreadyPending on a node that
   executed the closing block before).  On the unchanged tree the answer is only logged.

   Model: the multiplexer's EndBlock loop instrumented with an ARBITRARY local store [L] and
   oracle; every application may put a query to it after its EndBlock; the answer goes to a
   log that is not part of the block's outputs.  Definitions first, proofs below. *)
From Verif Require Import Lib.Base Gen.MuxOrder Abci.Mux Abci.MuxProofs.

Section LocalOracle.
  Variable S : msig.
  Variables L Q Ans : Type.
  Variable oracle : L -> Q -> L * Ans.          (* arbitrary: may mutate the store, may answer anything *)

  Record oracle_app := mkOApp { oa_app : app S; oa_query : sg_state S -> option Q }.

  Fixpoint end_all_o (apps : list oracle_app) (s : sg_state S) (acc : list (sg_evt S)) (vu : list (sg_valupd S))
           (l : L) (log : list Ans) : option (sg_state S * list (sg_evt S) * list (sg_valupd S)) * L * list Ans :=
    match apps with
    | [] => (Some (s, acc, vu), l, log)
    | a :: r =>
      match a_end S (oa_app a) s with
      | None => (None, l, log)
      | Some (s', ev, vu') =>
        let '(l', log') :=
          match oa_query a s' with
          | None => (l, log)
          | Some q => let '(l1, ans) := oracle l q in (l1, log ++ [ans])   (* logged only *)
          end in
        end_all_o r s' (acc ++ ev) (if a_blessed S (oa_app a) then vu' else vu) l' log'
      end
    end.

  (* exec_block with the instrumented EndBlock loop: also returns the local store and the log *)
  Definition exec_block_o (cfg : localcfg) (apps : list oracle_app) (proposing : bool) (s : sg_state S) (b : block)
             (l : L) (log : list Ans) : option (sg_state S * outputs S) * L * list Ans :=
    let plain := map oa_app apps in
    match sg_upgrade_begin S (b_header b) s with
    | None => (None, l, log)
    | Some (s0, uev0) =>
    match begin_all S plain (binfo_of b) s0 uev0 with
    | None => (None, l, log)
    | Some (s1, bev) =>
      match deliver_all S cfg plain (h_proposer (b_header b)) proposing (b_txs b) s1 [] [] with
      | None => (None, l, log)
      | Some (s2, txr, sc) =>
        let '(r, l', log') := end_all_o apps s2 [] [] l log in
        (match r with
         | None => None
         | Some (s3, eev, vu) =>
           if endblock_upgrade_before_validate then
             match sg_upgrade_end S (b_header b) s3 with
             | None => None
             | Some (s4, uev) =>
               let eev' := eev ++ uev in
               let evr := sg_evroot S (all_events S (mkOut S bev txr eev' vu [])) in
               if validate_system S proposing sc s4 evr then Some (s4, mkOut S bev txr eev' vu evr) else None
             end
           else
             let evr := sg_evroot S (all_events S (mkOut S bev txr eev vu [])) in
             if validate_system S proposing sc s3 evr then
               match sg_upgrade_end S (b_header b) s3 with
               | None => None
               | Some (s4, _) => Some (s4, mkOut S bev txr eev vu evr)
               end
             else None
         end, l', log')
      end
    end
    end.

  (* the seeded C01-4 behaviour: the answer decides whether the application's EndBlock result
     is kept or replaced ([on_error]) *)
  Fixpoint end_all_leaky (is_err : Ans -> bool) (on_error : sg_state S -> sg_state S)
           (apps : list oracle_app) (s : sg_state S) (l : L) : sg_state S * L :=
    match apps with
    | [] => (s, l)
    | a :: r =>
      match a_end S (oa_app a) s with
      | None => (s, l)
      | Some (s', _, _) =>
        match oa_query a s' with
        | None => end_all_leaky is_err on_error r s' l
        | Some q => let '(l1, ans) := oracle l q in
                    end_all_leaky is_err on_error r (if is_err ans then on_error s' else s') l1
        end
      end
    end.

  Lemma end_all_o_ignores apps : forall s acc vu l log,
    fst (fst (end_all_o apps s acc vu l log)) = end_all S (map oa_app apps) s acc vu.
  Proof.
    induction apps as [|a r IH]; intros s acc vu l log; cbn [end_all_o end_all map]; [reflexivity|].
    destruct (a_end S (oa_app a) s) as [[[s' ev] vu']|]; [|reflexivity].
    destruct (oa_query a s') as [q|].
    - destruct (oracle l q) as [l1 ans]. apply IH.
    - apply IH.
  Qed.

  (* Execution with an arbitrary local store whose answers are only logged equals execution
     without it: same committed state, same outputs, for every oracle, store and log. *)
  Theorem exec_block_ignores_local_oracle cfg apps proposing s b l log :
    fst (fst (exec_block_o cfg apps proposing s b l log)) = exec_block S cfg (map oa_app apps) proposing s b.
  Proof.
    unfold exec_block_o, exec_block.
    destruct (sg_upgrade_begin S (b_header b) s) as [[s0 uev0]|]; [|reflexivity].
    destruct (begin_all S _ (binfo_of b) s0 uev0) as [[s1 bev]|]; [|reflexivity].
    destruct (deliver_all S cfg _ _ proposing (b_txs b) s1 [] []) as [[[s2 txr] sc]|]; [|reflexivity].
    pose proof (end_all_o_ignores apps s2 [] [] l log) as H.
    destruct (end_all_o apps s2 [] [] l log) as [[r l'] log']. cbn [fst] in *. subst r. reflexivity.
  Qed.

  (* two replicas with DIFFERENT local stores (one executed the block before, the operator of
     another pre-submitted the descriptor, ...) compute the same block *)
  Corollary replicas_with_different_local_stores_agree cfg1 cfg2 apps proposing s b l1 l2 log1 log2 :
    fst (fst (exec_block_o cfg1 apps proposing s b l1 log1)) = fst (fst (exec_block_o cfg2 apps proposing s b l2 log2)).
  Proof. rewrite !exec_block_ignores_local_oracle. apply exec_block_local. Qed.
End LocalOracle.

(* What the seeded C01-4 change does, in the model: when the answer of the local store decides
   the application's result, two replicas that differ ONLY in their local store (here: whether
   the descriptor is already pending) end the block in different states. *)
Definition submit_descriptor (pending : bool) (_ : N) : bool * bool := (true, pending). (* answer = ErrAlreadyPending? *)
Definition toy_gov : oracle_app toy N := mkOApp toy N toy_sched (fun s => Some s).

Theorem local_answer_used_refuted :
  exists (l1 l2 : bool) (s : sg_state toy),
    fst (end_all_leaky toy bool N bool submit_descriptor (fun e => e) (fun s => s + 1000) [toy_gov] s l1)
    <> fst (end_all_leaky toy bool N bool submit_descriptor (fun e => e) (fun s => s + 1000) [toy_gov] s l2).
Proof. exists false, true, 5. discriminate. Qed.

(* ... while with the logged-only instrumentation the same two replicas agree (instance of the
   theorem above, by computation, as a non-vacuity check) *)
Example logged_only_example :
  fst (fst (exec_block_o toy bool N bool submit_descriptor toy_cfg1 [mkOApp toy N toy_staking (fun _ => None); toy_gov] false 0 toy_block false []))
  = fst (fst (exec_block_o toy bool N bool submit_descriptor toy_cfg2 [mkOApp toy N toy_staking (fun _ => None); toy_gov] false 0 toy_block true [true]))
  /\ snd (exec_block_o toy bool N bool submit_descriptor toy_cfg1 [mkOApp toy N toy_staking (fun _ => None); toy_gov] false 0 toy_block false []) = [false]
  /\ fst (fst (exec_block_o toy bool N bool submit_descriptor toy_cfg1 [mkOApp toy N toy_staking (fun _ => None); toy_gov] false 0 toy_block false [])) <> None.
Proof.
  (* no reduction tactic on the goal: see MuxProofs.toy_hypotheses *)
  split; [reflexivity|]. split; [reflexivity|discriminate].
Qed.
