From Verif Require Import Lib.Base Pcs.Model Pcs.Proofs Pcs.Node Pcs.NodeProofs Gen.PcsVectors Pcs.Vectors Gen.PcsClock.
From Coq Require Import ZArith.

Theorem accept_implies_all_checks :
  forall (P : Prims) (env : Env) (pol : Policy) (ts : Z) (raw : bytes) (c : Collateral) (out : Output),
    verify P env pol ts raw c = Ok out ->
    exists q, parse_quote P raw = inl q /\ AllChecks P env pol ts q c out.
Proof. exact accept_implies_all_checks_l. Qed.
Print Assumptions accept_implies_all_checks.

Theorem signed_regions_of_raw_quote :
  forall (P : Prims) (raw : bytes) (q : Quote),
    parse_quote P raw = inl q ->
    q_header q = slice 0 48 raw /\
    q_body q = slice 48 (if q_tee q =? TEE_TDX then 584 else 384) raw /\
    (q_tee q = TEE_SGX \/ q_tee q = TEE_TDX).
Proof. exact (fun P raw q H => proj1 (parse_quote_inl P raw q H)). Qed.
Print Assumptions signed_regions_of_raw_quote.

Theorem output_is_function_of_signed_body :
  forall (P : Prims) (env : Env) (pol : Policy) (ts : Z) (q : Quote) (c : Collateral) (out : Output),
    verify_parsed P env pol ts q c = Ok out ->
    out = output_of P (q_tee q) (q_body q) /\
    ecdsa_ok P (q_attkey q) (sha256 P (signed_region q)) (q_sig q) = true.
Proof. exact Proofs.output_is_function_of_signed_body. Qed.
Print Assumptions output_is_function_of_signed_body.

Theorem output_covered_by_signature :
  forall (P : Prims) (env : Env) (pol1 pol2 : Policy) (ts1 ts2 : Z) (raw1 raw2 : bytes)
         (c1 c2 : Collateral) (o1 o2 : Output),
    verify P env pol1 ts1 raw1 c1 = Ok o1 ->
    verify P env pol2 ts2 raw2 c2 = Ok o2 ->
    (forall q1 q2, parse_quote P raw1 = inl q1 -> parse_quote P raw2 = inl q2 ->
                   signed_region q1 = signed_region q2) ->
    o1 = o2.
Proof. exact output_covered_by_signature_l. Qed.
Print Assumptions output_covered_by_signature.

Theorem unsigned_unread_components_irrelevant :
  forall (P : Prims) (env : Env) (pol : Policy) (ts : Z) (q q' : Quote) (c : Collateral) (s : bytes),
    (verify_parsed P env pol ts (set_slack q s) c = verify_parsed P env pol ts q c) /\
    (q_tee q = q_tee q' -> q_body q = q_body q' -> q_header q = q_header q' -> q_sig q = q_sig q' ->
     q_attkey q = q_attkey q' -> q_qe_report q = q_qe_report q' -> q_qe_sig q = q_qe_sig q' ->
     q_auth q = q_auth q' -> q_cert_type q = q_cert_type q' -> q_cert_data q = q_cert_data q' ->
     verify_parsed P env pol ts q c = verify_parsed P env pol ts q' c).
Proof. exact (fun P env pol ts q q' c s => conj (unread_components_irrelevant P env pol ts q c s) (verdict_frame P env pol ts q q' c)). Qed.
Print Assumptions unsigned_unread_components_irrelevant.

Theorem expired_never_accepted :
  forall (P : Prims) (env : Env) (pol : Policy) (ts : Z) (raw : bytes) (c : Collateral),
    (forall qi issue, parse_qeid P (c_qeid c) = Some qi -> qi_issue qi = Some issue ->
                      ~ in_window (p_period pol) issue ts)
    \/ (forall ti issue, parse_tcbinfo P (c_tcbinfo c) = Some ti -> ti_issue ti = Some issue ->
                      ~ in_window (p_period pol) issue ts)
    \/ pck_chain_ok P ts (match parse_quote P raw with inl q => q_cert_data q | inr _ => [] end) = false
    \/ tcb_chain_ok P ts (c_certs c) = false ->
    forall out, verify P env pol ts raw c <> Ok out.
Proof. exact expired_never_accepted_l. Qed.
Print Assumptions expired_never_accepted.

Theorem disallowed_status_never_accepted :
  forall (P : Prims) (env : Env) (pol : Policy) (ts : Z) (raw : bytes) (c : Collateral) (out : Output),
    verify P env pol ts raw c = Ok out ->
    exists q pck ti lv, parse_quote P raw = inl q /\ pck_info P (q_cert_data q) = PckOk pck /\
      parse_tcbinfo P (c_tcbinfo c) = Some ti /\
      get_tcb_level ti (pk_compsvn pck) (tdx_svn_of q) (pk_pcesvn pck) = Ok lv /\
      (tl_status lv = ST_UpToDate \/ tl_status lv = ST_SWHardeningNeeded \/
       e_lax env = true /\ (tl_status lv = ST_OutOfDate \/ tl_status lv = ST_ConfigurationNeeded \/
                            tl_status lv = ST_OutOfDateConfigurationNeeded)).
Proof. exact disallowed_status_never_accepted_l. Qed.
Print Assumptions disallowed_status_never_accepted.

Theorem foreign_fmspc_never_accepted :
  forall (P : Prims) (env : Env) (pol : Policy) (ts : Z) (raw : bytes) (c : Collateral),
    (forall q pck ti, parse_quote P raw = inl q -> pck_info P (q_cert_data q) = PckOk pck ->
                      parse_tcbinfo P (c_tcbinfo c) = Some ti ->
                      hexdecode (ti_fmspc ti) <> Some (pk_fmspc pck)
                      \/ mem_bytes (ti_fmspc ti) (p_blacklist pol) = true
                      \/ (p_whitelist pol <> [] /\ mem_bytes (ti_fmspc ti) (p_whitelist pol) = false)
                      \/ ti_id ti <> (if q_tee q =? TEE_TDX then s_TDX else s_SGX)) ->
    forall out, verify P env pol ts raw c <> Ok out.
Proof. exact foreign_fmspc_never_accepted_l. Qed.
Print Assumptions foreign_fmspc_never_accepted.

Theorem validity_window_interval :
  forall (P : Prims) (env : Env),
    interval_shaped (pck_chain_ok P) -> interval_shaped (tcb_chain_ok P) ->
    forall (pol : Policy) (t1 t2 t3 : Z) (raw : bytes) (c : Collateral) (o1 o3 : Output),
      (t1 <= t2 <= t3)%Z ->
      verify P env pol t1 raw c = Ok o1 -> verify P env pol t3 raw c = Ok o3 ->
      verify P env pol t2 raw c = Ok o1.
Proof. exact validity_window_interval_l. Qed.
Print Assumptions validity_window_interval.

Theorem accept_implies_before_next_update_refuted :
  exists P env pol ts raw c out ti next,
    verify P env pol ts raw c = Ok out /\ parse_tcbinfo P (c_tcbinfo c) = Some ti /\
    ti_next ti = Some next /\ (next <= ts)%Z.
Proof. exact accept_implies_before_next_update_refuted_l. Qed.
Print Assumptions accept_implies_before_next_update_refuted.

Theorem fmspc_blacklist_by_value_refuted :
  exists P env pol ts raw c out q pck entry,
    verify P env pol ts raw c = Ok out /\ parse_quote P raw = inl q /\
    pck_info P (q_cert_data q) = PckOk pck /\
    In entry (p_blacklist pol) /\ hexdecode entry = Some (pk_fmspc pck).
Proof. exact fmspc_blacklist_by_value_refuted_l. Qed.
Print Assumptions fmspc_blacklist_by_value_refuted.

Theorem non_vacuity_examples :
  verify sgxP toy_env default_policy 50 toy_sgx_raw toy_coll = Ok (repeat 0xEE 32, repeat 0x51 32, repeat 0xDA 64) /\
  verify tdxP toy_env tdx_policy 50 toy_tdx_raw toy_coll = Ok (zeros 32, zeros 32, zeros 64) /\
  (interval_shaped toy_window /\
   (exists o, verify sgxP toy_env default_policy 20 toy_sgx_raw toy_coll = Ok o) /\
   (exists o, verify sgxP toy_env default_policy 100000 toy_sgx_raw toy_coll = Ok o)).
Proof. exact (conj ex_sgx_accepted (conj ex_tdx_accepted ex_interval_hypotheses)). Qed.
Print Assumptions non_vacuity_examples.

(* ---------- third anchor: node registration (go/common/node) ---------- *)

Theorem registration_binds_rak :
  forall (NP : NPrims) (env : Env) (cfg0 : option TeeCfg) (ts : Z) (height : N)
         (constraints : option Constraints) (node_id : bytes) (is261 : bool) (cap : CapTee) (u : unit),
    cap_verify NP env cfg0 ts height constraints node_id is261 cap = NOk u ->
    exists a sc raw c mre mrs rd,
      ct_att cap = Some a /\ constraints = Some sc /\
      Binds NP env (cfg_of cfg0) ts height sc node_id cap a raw c mre mrs rd.
Proof. exact registration_binds_rak_l. Qed.
Print Assumptions registration_binds_rak.

Theorem foreign_quote_never_binds :
  forall (NP : NPrims) (env : Env) (cfg0 : option TeeCfg) (ts : Z) (height : N) (sc : Constraints)
         (node_id : bytes) (is261 : bool) (cap : CapTee) (a : Attestation) (raw : bytes) (c : Collateral),
    ct_att cap = Some a -> a_quote a = QKPcs raw c ->
    (forall mre mrs rd, verify (np_pcs NP) env (eff_pcs_policy (cfg_of cfg0) sc) ts raw c = Ok (mre, mrs, rd) ->
                        firstn 32 rd <> hash512_256 NP (tee_hash_context ++ ct_rak cap)) ->
    forall u, cap_verify NP env cfg0 ts height (Some sc) node_id is261 cap <> NOk u.
Proof. exact foreign_quote_never_binds_l. Qed.
Print Assumptions foreign_quote_never_binds.

Theorem unlisted_or_stale_never_registers :
  forall (NP : NPrims) (env : Env) (cfg0 : option TeeCfg) (ts : Z) (height : N) (sc : Constraints)
         (node_id : bytes) (is261 : bool) (cap : CapTee) (a : Attestation) (raw : bytes) (c : Collateral)
         (mre mrs rd : bytes),
    ct_att cap = Some a -> a_quote a = QKPcs raw c ->
    verify (np_pcs NP) env (eff_pcs_policy (cfg_of cfg0) sc) ts raw c = Ok (mre, mrs, rd) ->
    (forall e, In e (sc_enclaves sc) -> ~ (fst e = mre /\ snd e = mrs))
    \/ f_signed (cfg_of cfg0) = true /\
       (height < a_height a \/ eff_max_age (cfg_of cfg0) sc < height - a_height a \/
        rak_verify NP (ct_rak cap) (att_message NP rd node_id (a_height a) (ct_rek cap)) (a_sig a) = false) ->
    forall u, cap_verify NP env cfg0 ts height (Some sc) node_id is261 cap <> NOk u.
Proof. exact unlisted_or_stale_never_registers_l. Qed.
Print Assumptions unlisted_or_stale_never_registers.

Theorem unsigned_attestation_frame :
  forall (NP : NPrims) (env : Env) (cfg : TeeCfg) (ts : Z) (h1 h2 : N) (sc : Constraints) (nid1 nid2 : bytes)
         (is261 : bool) (hw : N) (rak : bytes) (rek1 rek2 : option bytes) (v : N) (k : QuoteKind)
         (ah1 ah2 : N) (s1 s2 : bytes),
    f_signed cfg = false ->
    cap_verify NP env (Some cfg) ts h1 (Some sc) nid1 is261 (mkCap hw rak rek1 (Some (mkAtt v k ah1 s1))) =
    cap_verify NP env (Some cfg) ts h2 (Some sc) nid2 is261 (mkCap hw rak rek2 (Some (mkAtt v k ah2 s2))).
Proof. exact (fun NP env cfg ts h1 h2 sc => unsigned_attestation_frame_l NP env (Some cfg) ts h1 h2 (Some sc)). Qed.
Print Assumptions unsigned_attestation_frame.

Theorem registration_examples :
  cap_verify toyNP toy_env (Some toy_cfg) 50 1000 (Some toy_sc) [7] true (toy_cap 990 toy_rak) = NOk tt /\
  cap_verify toyNP toy_env (Some toy_cfg) 50 1000 (Some toy_sc) [7] true (toy_cap 990 (repeat 0xDB 32)) = NRej NRakHashMismatch.
Proof. exact (conj (proj1 ex_registration) (proj1 (proj2 ex_registration))). Qed.
Print Assumptions registration_examples.

(* ---------- the real Intel vectors (coq/Gen/PcsVectors.v) ---------- *)

Theorem real_sgx_vector :
  let q := parsed sgxP b_q_sgx in
  parse_quote sgxP b_q_sgx = inl q /\
  q_version q = 3 /\ q_tee q = TEE_SGX /\ q_cert_type q = 5 /\ q_slack q = [] /\
  q_header q = firstn 48 b_q_sgx /\ q_body q = slice 48 384 b_q_sgx /\
  output_of sgxP (q_tee q) (q_body q) =
    (hx 32 0x68823bc62f409ee33a32ea270cfe45d4b19a6fb3c8570d7bc186cbe062398e8f,
     hx 32 0x9affcfae47b848ec2caf1c49b4b283531e1cc425f93582b36806e52a43d78d1a,
     slice 368 64 b_q_sgx) /\
  firstn 4 (sgx_report_data (q_body q)) = [2; 106; 105; 206] /\
  sgx_debug (q_body q) = false /\ sgx_flags (q_body q) = 5 /\ sgx_xfrm (q_body q) = 3 /\
  sgx_flags (q_qe_report q) = 0x15 /\ sgx_xfrm (q_qe_report q) = 231 /\
  qeid_verify real_qi_sgx (q_qe_report q) = Ok tt /\
  qeid_validate default_policy TEE_SGX 1671497404000000000 real_qi_sgx = Ok tt /\
  qeid_validate default_policy TEE_SGX 1673786737000000000 real_qi_sgx = Rej RQeIdExpired /\
  hex_of_len b_ti_sgx_sig 64 <> None /\ hex_of_len b_qi_sgx_sig 64 <> None.
Proof. exact real_sgx_vector_l. Qed.
Print Assumptions real_sgx_vector.

Theorem real_tdx_vector :
  let q := parsed sgxP b_q_tdx in
  parse_quote sgxP b_q_tdx = inl q /\
  q_version q = 4 /\ q_tee q = TEE_TDX /\ q_cert_type q = 5 /\ q_slack q = [] /\
  q_body q = slice 48 584 b_q_tdx /\ td_attributes (q_body q) = 2 ^ 28 /\ td_debug (q_body q) = false /\
  td_mrsignerseam (q_body q) = zeros 48 /\
  pre_checks (mkEnv false false []) default_policy q = Rej RTeeNotAllowed /\
  pre_checks (mkEnv false false []) (mkPolicy false 30 12 [] [] (Some [])) q = Ok tt /\
  q_cert_type (parsed sgxP b_q_eppid) = 3 /\
  pck_stage sgxP 0 (parsed sgxP b_q_eppid) = Rej RNoPckChain.
Proof. exact real_tdx_vector_l. Qed.
Print Assumptions real_tdx_vector.


(* the full pipeline (SGX and TDX) in one statement, clause by clause as the code enforces it *)
Theorem accept_chain_and_tcb :
  forall (P : Prims) (env : Env) (pol : Policy) (ts : Z) (raw : bytes) (c : Collateral) (out : Output),
    verify P env pol ts raw c = Ok out ->
    exists q, parse_quote P raw = inl q /\ ChainAndTcb P env pol ts q c out.
Proof. exact accept_chain_and_tcb_l. Qed.
Print Assumptions accept_chain_and_tcb.

Theorem selected_level_is_first_match :
  forall (ti : TcbInfo) (sgxsvn : list Z) (tdxsvn : option bytes) (pcesvn : N) (lv : TcbLevel),
    get_tcb_level ti sgxsvn tdxsvn pcesvn = Ok lv ->
    first_matching_level ti sgxsvn tdxsvn pcesvn lv /\ tl_status lv <> ST_MISSING /\ tdx_module_ok ti tdxsvn.
Proof. exact get_tcb_level_spec. Qed.
Print Assumptions selected_level_is_first_match.

Theorem tdx_seam_attributes_checked_refuted :
  exists P env pol ts raw c out q ti a m,
    verify P env pol ts raw c = Ok out /\ parse_quote P raw = inl q /\ q_tee q = TEE_TDX /\
    parse_tcbinfo P (c_tcbinfo c) = Some ti /\
    hexdecode (ti_seam_attrs ti) = Some a /\ hexdecode (ti_seam_mask ti) = Some m /\ m = repeat 255 8 /\
    td_seamattributes (q_body q) <> a.
Proof. exact tdx_seam_attributes_checked_refuted_l. Qed.
Print Assumptions tdx_seam_attributes_checked_refuted.

(* the registry's entry point *)
Theorem registry_accept_binds :
  forall (NP : NPrims) (env : Env) (cfg0 : option TeeCfg) (ts : Z) (height : N) (node_id : bytes) (is261 : bool)
         (rt : NodeRuntime) (reg : RegRuntime) (u : unit),
    verify_enclave_ids NP env cfg0 ts height node_id is261 rt reg = NOk u ->
    (nr_tee rt = None /\ rr_hw reg = 0) \/
    exists cap d pre post a sc raw c mre mrs rd,
      nr_tee rt = Some cap /\ ct_hardware cap = rr_hw reg /\
      rr_deployments reg = pre ++ d :: post /\ d_version d = nr_version rt /\
      (forall y, In y pre -> d_version y <> nr_version rt) /\
      ct_att cap = Some a /\ d_tee d = Some sc /\
      Binds NP env (cfg_of cfg0) ts height sc node_id cap a raw c mre mrs rd.
Proof. exact registry_accept_binds_l. Qed.
Print Assumptions registry_accept_binds.

Theorem registry_verdict_deterministic :
  forall (NP : NPrims) (env env2 : Env) (cfg1 cfg2 : option TeeCfg) (ts1 ts2 : Z) (h1 h2 : N) (nid1 nid2 : bytes)
         (f1 f2 : bool) (rt1 rt2 : NodeRuntime) (reg1 reg2 : RegRuntime),
    env = env2 -> cfg1 = cfg2 -> ts1 = ts2 -> h1 = h2 -> nid1 = nid2 -> f1 = f2 -> rt1 = rt2 -> reg1 = reg2 ->
    verify_enclave_ids NP env cfg1 ts1 h1 nid1 f1 rt1 reg1 = verify_enclave_ids NP env2 cfg2 ts2 h2 nid2 f2 rt2 reg2.
Proof. exact registry_verdict_deterministic_l. Qed.
Print Assumptions registry_verdict_deterministic.

(* regenerated from the source: no wall clock / randomness in the files on the verification path *)
Theorem no_wall_clock_on_verification_path : pcs_path_wall_clock_or_random_uses = 0.
Proof. reflexivity. Qed.
Print Assumptions no_wall_clock_on_verification_path.

Theorem verdict_depends_on_process_switches :
  exists NP cfg ts h nid rt reg,
    verify_enclave_ids NP (mkEnv true false []) cfg ts h nid true rt reg = NOk tt /\
    verify_enclave_ids NP (mkEnv false false []) cfg ts h nid true rt reg = NRej (NQuote RDebugMismatch).
Proof. exact verdict_depends_on_process_switches_l. Qed.
Print Assumptions verdict_depends_on_process_switches.

Theorem genesis_ignores_attestation :
  forall (NP : NPrims) (env : Env) (cfg0 : option TeeCfg) (ts : Z) (height : N) (node_id : bytes) (is261 : bool)
         (rt : NodeRuntime) (reg : RegRuntime) (g s : bool) (r : NReason),
    g || s = true -> register_tee_check NP env cfg0 ts height node_id is261 rt reg g s <> NRej r.
Proof. exact genesis_ignores_attestation_l. Qed.
Print Assumptions genesis_ignores_attestation.

Theorem register_tee_check_strict :
  forall (NP : NPrims) (env : Env) (cfg0 : option TeeCfg) (ts : Z) (height : N) (node_id : bytes) (is261 : bool)
         (rt : NodeRuntime) (reg : RegRuntime),
    register_tee_check NP env cfg0 ts height node_id is261 rt reg false false =
    verify_enclave_ids NP env cfg0 ts height node_id is261 rt reg.
Proof. exact register_tee_check_strict_l. Qed.
Print Assumptions register_tee_check_strict.

Theorem report_data_binds_rek_and_node_id_refuted :
  exists NP env cfg ts h sc rak q s1 s2 nid1 nid2 rek1 rek2,
    nid1 <> nid2 /\ rek1 <> rek2 /\
    cap_verify NP env cfg ts h sc nid1 true (mkCap 1 rak rek1 (Some (mkAtt 1 q 990 s1))) = NOk tt /\
    cap_verify NP env cfg ts h sc nid2 true (mkCap 1 rak rek2 (Some (mkAtt 1 q 990 s2))) = NOk tt.
Proof. exact report_data_binds_rek_and_node_id_refuted_l. Qed.
Print Assumptions report_data_binds_rek_and_node_id_refuted.

(* TDX module policy: an allowed entry must match on every field it sets *)
Theorem tdx_module_policy_is_conjunction :
  forall (mods : list TdxModulePolicy) (body : bytes),
    tdx_module_allowed mods body = true <-> tdx_policy_admits mods body.
Proof. exact tdx_module_allowed_spec. Qed.
Print Assumptions tdx_module_policy_is_conjunction.

(* which PCS policy a registration is verified under *)
Theorem pcs_policy_in_force :
  forall (cfg : TeeCfg) (sc : Constraints),
    eff_pcs_policy cfg sc = policy_in_force cfg sc /\
    (forall pp, runtime_pcs sc = Some pp -> policy_in_force cfg sc = pp) /\
    (forall d dp, runtime_pcs sc = None -> f_default_policy cfg = Some d -> f_pcs cfg = true -> qp_pcs d = Some dp ->
                  policy_in_force cfg sc = dp).
Proof. exact pcs_policy_in_force_l. Qed.
Print Assumptions pcs_policy_in_force.
