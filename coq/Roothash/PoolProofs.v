From Verif Require Import Lib.Base Roothash.Pool Roothash.PoolSpec.

Definition keys {V} (l : list (N * V)) : list N := map fst l.

Lemma aget_in_keys {V} k (l : list (N * V)) v : aget k l = Some v -> In k (keys l).
Proof.
  intros H. exact (in_map fst _ _ (aget_In _ _ _ H)).
Qed.

Definition vget (h : N) (l : list (N * N)) : N := match aget h l with Some n => n | None => 0 end.

Lemma vsum_adel h l : NoDup (keys l) -> vsum (adel h l) + vget h l = vsum l.
Proof.
  unfold vget. induction l as [|[a w] r IH]; cbn [adel vsum aget keys map fst]; [intros; lia|].
  intros Hnd. inversion Hnd as [|x xs Hni Hnd']; subst.
  destruct (a =? h) eqn:E.
  - apply N.eqb_eq in E. subst a.
    assert (Hn : aget h r = None) by (apply aget_none_notin; exact Hni).
    specialize (IH Hnd'). rewrite Hn in IH. lia.
  - cbn [vsum]. specialize (IH Hnd'). lia.
Qed.

Lemma vsum_vinc h l : NoDup (keys l) -> vsum (vinc h l) = vsum l + 1.
Proof.
  intros Hnd. unfold vinc, aset. cbn [vsum].
  pose proof (vsum_adel h l Hnd) as H. unfold vget in H.
  destruct (aget h l); lia.
Qed.

Lemma vget_vinc_same h l : vget h (vinc h l) = vget h l + 1.
Proof. unfold vget at 1, vinc. rewrite aget_aset_same. unfold vget. destruct (aget h l); lia. Qed.

Lemma vget_vinc_other h h' l : h <> h' -> vget h (vinc h' l) = vget h l.
Proof. intros Hne. unfold vget, vinc. rewrite aget_aset_other by exact Hne. reflexivity. Qed.

Lemma adel_length {V} k (l : list (N * V)) : NoDup (keys l) -> (length l <= S (length (adel k l)))%nat.
Proof.
  induction l as [|[a v] r IH]; cbn [adel keys map fst length]; [lia|].
  intros H. inversion H as [|x xs Hni Hnd]; subst. destruct (a =? k) eqn:E.
  - apply N.eqb_eq in E. subst a. rewrite adel_notin by exact Hni. lia.
  - cbn [length]. specialize (IH Hnd). lia.
Qed.

Lemma vlen_vinc h l : NoDup (keys l) -> vlen l <= vlen (vinc h l).
Proof.
  intros H. unfold vlen, vinc, aset. cbn [length]. pose proof (adel_length h l H). lia.
Qed.

Definition tallyv (hs : list N) (l : list (N * N)) : list (N * N) :=
  fold_left (fun l h => vinc h l) hs l.

Lemma tallyv_nodup hs l : NoDup (keys l) -> NoDup (keys (tallyv hs l)).
Proof. apply (fold_left_invariant (fun l => NoDup (keys l))). intros a h. apply aset_nodup. Qed.

Lemma tallyv_vsum hs : forall l, NoDup (keys l) -> vsum (tallyv hs l) = vsum l + N.of_nat (length hs).
Proof.
  induction hs as [|h hs IH]; intros l H; cbn [tallyv fold_left length]; [lia|].
  change (fold_left (fun l0 h0 => vinc h0 l0) hs (vinc h l)) with (tallyv hs (vinc h l)).
  rewrite IH by (apply aset_nodup; exact H). rewrite vsum_vinc by exact H. lia.
Qed.

Lemma tallyv_keys_mono hs l k : In k (keys l) -> In k (keys (tallyv hs l)).
Proof.
  apply (fold_left_invariant (fun l => In k (keys l))). intros a h H.
  unfold vinc, aset. cbn [keys map fst In].
  destruct (N.eq_dec h k) as [->|Hne]; [left; reflexivity|right].
  apply adel_keys_in. split; [exact H|congruence].
Qed.

Lemma tallyv_keys_in hs : forall l k, In k hs -> In k (keys (tallyv hs l)).
Proof.
  induction hs as [|h hs IH]; intros l k H; cbn [tallyv fold_left]; [destruct H|].
  destruct H as [->|H]; [|apply IH; exact H].
  apply tallyv_keys_mono. unfold vinc, aset. cbn [keys map fst In]. left. reflexivity.
Qed.

Definition occ (h : N) (hs : list N) : N := N.of_nat (length (filter (fun x => x =? h) hs)).

Lemma tallyv_vget hs h : forall l, vget h (tallyv hs l) = vget h l + occ h hs.
Proof.
  unfold occ. induction hs as [|x hs IH]; intros l; cbn [tallyv fold_left filter length]; [lia|].
  change (fold_left (fun l0 h0 => vinc h0 l0) hs (vinc x l)) with (tallyv hs (vinc x l)).
  rewrite IH. destruct (x =? h) eqn:E.
  - apply N.eqb_eq in E. subst x. rewrite vget_vinc_same. cbn [length]. lia.
  - rewrite vget_vinc_other; [lia|]. intros ->. rewrite N.eqb_refl in E. discriminate.
Qed.

Lemma vbest_max l : forall h0 b0 h b, vbest l h0 b0 = (h, b) ->
  b0 <= b /\ (forall k v, In (k, v) l -> v <= b) /\ ((h = h0 /\ b = b0) \/ In (h, b) l).
Proof.
  induction l as [|[k v] r IH]; intros h0 b0 h b; cbn [vbest].
  - intros H. injection H as <- <-. split; [lia|]. split; [intros k v []|left; split; reflexivity].
  - destruct (b0 <? v) eqn:E; intros H; apply IH in H as (A & B & C).
    + split; [lia|]. split.
      * intros k' v' [Hx|Hx]; [injection Hx as <- <-; exact A|apply (B k' v' Hx)].
      * destruct C as [[-> ->]|C]; [right; left; reflexivity|right; right; exact C].
    + split; [exact A|]. split.
      * intros k' v' [Hx|Hx]; [injection Hx as <- <-; lia|apply (B k' v' Hx)].
      * destruct C as [C|C]; [left; exact C|right; right; exact C].
Qed.

Definition sel (d : bool) (ms : committee) : list N :=
  map snd (filter (fun m => counts d (fst m)) ms).

Definition nonfail (votes : list (N * option N)) (nodes : list N) : list N :=
  flat_map (fun n => match aget n votes with Some (Some h) => [h] | _ => [] end) nodes.
Definition is_fail (votes : list (N * option N)) (n : N) : bool :=
  match aget n votes with Some None => true | _ => false end.
Definition has_vote (votes : list (N * option N)) (n : N) : bool :=
  match aget n votes with Some _ => true | None => false end.

(* one round of the loop body for a counted member *)
Definition tstep (votes : list (N * option N)) (k : N) (t : tally) : tally :=
  match aget k votes with
  | None => mkT (t_total t + 1) (t_commits t) (t_failures t) (t_votes t)
  | Some None => mkT (t_total t + 1) (t_commits t + 1) (t_failures t + 1) (t_votes t)
  | Some (Some h) => mkT (t_total t + 1) (t_commits t + 1) (t_failures t) (vinc h (t_votes t))
  end.

(* the complete tally in closed form: what the loop returns when it does not stop early *)
Definition tally_of (d : bool) (votes : list (N * option N)) (ms : committee) (t : tally) : tally :=
  mkT (t_total t + N.of_nat (length (sel d ms)))
      (t_commits t + count (has_vote votes) (sel d ms))
      (t_failures t + count (is_fail votes) (sel d ms))
      (tallyv (nonfail votes (sel d ms)) (t_votes t)).

Lemma tally_of_nil d votes t : tally_of d votes [] t = t.
Proof. destruct t. unfold tally_of, count. cbn. f_equal; lia. Qed.

Lemma tally_of_cons d votes ro k r t :
  tally_of d votes ((ro, k) :: r) t =
  if counts d ro then tally_of d votes r (tstep votes k t) else tally_of d votes r t.
Proof.
  unfold tally_of, sel, count, tstep. cbn [filter fst]. destruct (counts d ro); [|reflexivity].
  cbn [map snd length nonfail flat_map filter]. unfold is_fail at 1, has_vote at 1.
  destruct (aget k votes) as [[h|]|]; cbn [t_total t_commits t_failures t_votes length app tallyv fold_left];
    f_equal; lia.
Qed.

(* pool.go:365-388: the early exit after a counted vote *)
Definition stops (hr0 strag : N) (timeout : bool) (t2 : tally) : bool :=
  negb ((vlen (t_votes t2) <=? 1) && (t_failures t2 <=? strag)) && negb ((0 <? hr0) && negb timeout).

Lemma gather_cons d hr0 strag timeout votes ro k r t :
  gather d hr0 strag timeout votes ((ro, k) :: r) t =
  if counts d ro then
    if negb d && has_vote votes k && stops hr0 strag timeout (tstep votes k t) then None
    else gather d hr0 strag timeout votes r (tstep votes k t)
  else gather d hr0 strag timeout votes r t.
Proof.
  cbn [gather]. unfold tstep, has_vote, stops. destruct (counts d ro); cbn [negb]; [|reflexivity].
  destruct (aget k votes) as [[h|]|]; destruct d; cbn [negb andb]; try reflexivity;
    (destruct (_ && _); [reflexivity|]; cbn [negb andb]; destruct (_ && _); reflexivity).
Qed.

Lemma gather_some d hr0 strag timeout votes ms : forall t t',
  gather d hr0 strag timeout votes ms t = Some t' -> t' = tally_of d votes ms t.
Proof.
  induction ms as [|[ro k] r IH]; intros t t'.
  - rewrite tally_of_nil. intros H. injection H as <-. reflexivity.
  - rewrite gather_cons, tally_of_cons. destruct (counts d ro); [|apply IH].
    destruct (_ && _ && _); [discriminate|apply IH].
Qed.

Definition cond (strag : N) (t : tally) : Prop :=
  vlen (t_votes t) <= 1 /\ t_failures t <= strag.

(* where the early exit is enabled (primary scheduler, or expired timer) the loop only continues
   while no discrepancy is visible *)
Lemma gather_exit_cond hr0 strag timeout votes ms :
  (0 <? hr0) && negb timeout = false -> forall t t',
  gather false hr0 strag timeout votes ms t = Some t' -> cond strag t -> cond strag t'.
Proof.
  intros He. induction ms as [|[ro k] r IH]; intros t t'.
  - intros H. injection H as <-. exact (fun x => x).
  - rewrite gather_cons. destruct (counts false ro); [|apply IH].
    unfold stops. rewrite He, andb_true_r. cbn [negb andb].
    destruct (has_vote votes k) eqn:Ev; cbn [andb].
    + destruct ((vlen _ <=? 1) && (_ <=? strag)) eqn:E; cbn [negb]; [|discriminate].
      intros H _. apply (IH _ _ H). apply andb_true_iff in E as [E1 E2]. split; lia.
    + intros H Hc. apply (IH _ _ H). unfold tstep, has_vote in *.
      destruct (aget k votes); [discriminate Ev|exact Hc].
Qed.

Lemma gather_resolution_total hr0 strag timeout votes ms : forall t,
  exists t', gather true hr0 strag timeout votes ms t = Some t'.
Proof.
  induction ms as [|[ro k] r IH]; intros t; [eexists; reflexivity|].
  rewrite gather_cons. destruct (counts true ro); apply IH.
Qed.

Lemma gather_ext d hr0 strag timeout v1 v2 ms : forall t,
  (forall n, In n (map snd ms) -> aget n v1 = aget n v2) ->
  gather d hr0 strag timeout v1 ms t = gather d hr0 strag timeout v2 ms t.
Proof.
  induction ms as [|[ro k] r IH]; intros t Hext; [reflexivity|].
  rewrite !gather_cons. unfold tstep, has_vote. rewrite (Hext k (or_introl eq_refl)).
  rewrite !IH by (intros n Hn; apply Hext; right; exact Hn). reflexivity.
Qed.

(* pool.go:394-416: discrepancy detection on the tally of the primary workers *)
Definition detect (strag : N) (timeout : bool) (sc : sched_commitment) (t : tally) : outcome :=
  if (1 <? vlen (t_votes t)) || (strag <? t_failures t) then PStillWaiting
  else
    let required := (Z.of_N (t_total t) - Z.of_N strag - Z.of_N (vsum (t_votes t)))%Z in
    if (0 <? required)%Z then (if timeout then PDiscrepancy else PStillWaiting)
    else POk sc.

(* pool.go:418-448: discrepancy resolution on the tally of the backup workers *)
Definition resolve (timeout : bool) (sc : sched_commitment) (t : tally) : outcome :=
  let required := t_total t / 2 + 1 in
  let remaining := t_total t - t_commits t in
  let '(h, best) := vbest (t_votes t) 0 0 in
  if best + remaining <? required then PInsufficientVotes
  else if (best <? required) && timeout then PInsufficientVotes
  else if best <? required then PStillWaiting
  else match sc_commit sc with
       | None => PPanic
       | Some ec => if negb (h =? ec_vote ec) then PBadScheduler else POk sc
       end.

Lemma process_inner_eq c p strag timeout :
  process_inner c p strag timeout =
  match aget (hr p) (scs p) with
  | None => if timeout then PNoScheduler else PStillWaiting
  | Some sc =>
      match gather (disc p) (hr p) strag timeout (sc_votes sc) c tally0 with
      | None => PDiscrepancy
      | Some t => if disc p then resolve timeout sc t else detect strag timeout sc t
      end
  end.
Proof.
  unfold process_inner. destruct (aget _ _); [|reflexivity].
  destruct (gather _ _ _ _ _ _ _); [|reflexivity]. destruct (disc p); reflexivity.
Qed.

Lemma resolve_cases timeout sc t :
  match resolve timeout sc t with
  | POk sc' => sc' = sc
  | PStillWaiting => timeout = false
  | PPanic => sc_commit sc = None
  | PInsufficientVotes | PBadScheduler => True
  | PDiscrepancy | PNoScheduler => False
  end.
Proof.
  unfold resolve. destruct (vbest _ 0 0) as [h best]. destruct (_ <? _); [exact I|].
  destruct (best <? _); cbn [andb]; [destruct timeout; [exact I|reflexivity]|].
  destruct (sc_commit sc); [|reflexivity]. destruct (negb _); [exact I|reflexivity].
Qed.

Lemma detect_cases strag timeout sc t :
  match detect strag timeout sc t with
  | POk sc' => sc' = sc
  | PStillWaiting => True
  | PDiscrepancy => timeout = true
  | _ => False
  end.
Proof.
  unfold detect. destruct (_ || _); [exact I|]. destruct (0 <? _)%Z; [destruct timeout|]; reflexivity.
Qed.

Lemma verdict_commit strag timeout sc sc' t :
  sc_commit sc' = sc_commit sc ->
  outcome_code (resolve timeout sc' t) = outcome_code (resolve timeout sc t) /\
  outcome_code (detect strag timeout sc' t) = outcome_code (detect strag timeout sc t).
Proof.
  intros Hc. unfold resolve, detect. rewrite Hc. split.
  - destruct (vbest _ 0 0) as [h best]. repeat (destruct (_ <? _); try reflexivity); cbn [andb];
      try (destruct timeout; reflexivity). destruct (sc_commit sc); [destruct (negb _)|]; reflexivity.
  - destruct (_ || _); [reflexivity|]. destruct (0 <? _)%Z; reflexivity.
Qed.

Lemma no_wait_after_timeout_inner c p strag : process_inner c p strag true <> PStillWaiting.
Proof.
  rewrite process_inner_eq. destruct (aget (hr p) (scs p)) as [sc|]; [|discriminate].
  destruct (gather (disc p) (hr p) strag true (sc_votes sc) c tally0) as [t|] eqn:G; [|discriminate].
  destruct (disc p).
  - pose proof (resolve_cases true sc t) as R. intros E. rewrite E in R. discriminate R.
  - apply gather_exit_cond in G; [|apply andb_false_r|split; cbn; lia]. destruct G as [G1 G2].
    unfold detect. replace ((1 <? vlen (t_votes t)) || (strag <? t_failures t)) with false
      by (symmetry; apply orb_false_iff; split; lia).
    destruct (0 <? _)%Z; discriminate.
Qed.

Lemma no_wait_after_timeout c p strag : snd (process c p strag true) <> PStillWaiting.
Proof.
  unfold process. pose proof (no_wait_after_timeout_inner c p strag) as H.
  destruct (process_inner c p strag true); cbn [snd]; congruence.
Qed.

Lemma process_ok_inner c p strag timeout p' sc :
  process c p strag timeout = (p', POk sc) -> process_inner c p strag timeout = POk sc.
Proof.
  unfold process. destruct (process_inner c p strag timeout); intros H; inversion H; reflexivity.
Qed.

Lemma process_inner_cases c p strag timeout :
  match process_inner c p strag timeout with
  | POk sc => aget (hr p) (scs p) = Some sc
  | PStillWaiting => timeout = false
  | PDiscrepancy => disc p = false /\ exists sc, aget (hr p) (scs p) = Some sc
  | PInsufficientVotes | PBadScheduler => disc p = true
  | PNoScheduler => timeout = true /\ aget (hr p) (scs p) = None
  | PPanic => disc p = true /\ exists sc, aget (hr p) (scs p) = Some sc /\ sc_commit sc = None
  end.
Proof.
  assert (Hnw : timeout = true -> process_inner c p strag timeout <> PStillWaiting)
    by (intros ->; apply no_wait_after_timeout_inner).
  rewrite process_inner_eq in *. revert Hnw.
  destruct (aget (hr p) (scs p)) as [sc|]; [|intros _; destruct timeout; [split|]; reflexivity].
  destruct (disc p).
  - intros _. destruct (gather_resolution_total (hr p) strag timeout (sc_votes sc) c tally0) as [t ->].
    pose proof (resolve_cases timeout sc t) as R.
    destruct (resolve timeout sc t); try contradiction; try reflexivity; [congruence|exact R|eauto].
  - destruct (gather false (hr p) strag timeout (sc_votes sc) c tally0) as [t|]; [|eauto].
    pose proof (detect_cases strag timeout sc t) as R.
    destruct (detect strag timeout sc t); try contradiction; intros Hnw; [congruence| |eauto].
    destruct timeout; [destruct (Hnw eq_refl eq_refl)|reflexivity].
Qed.

Lemma process_ok_is_highest c p strag timeout p' sc :
  process c p strag timeout = (p', POk sc) -> aget (hr p) (scs p) = Some sc.
Proof.
  intros H. apply process_ok_inner in H. pose proof (process_inner_cases c p strag timeout) as S.
  rewrite H in S. exact S.
Qed.

(* the entry of the highest-ranked scheduler holds that scheduler's own, non-failure
   commitment, the scheduler is a primary worker and its vote is recorded *)
Definition hr_entry_ok (c : committee) (p : pool) : Prop :=
  forall sc, aget (hr p) (scs p) = Some sc ->
    exists ec, sc_commit sc = Some ec /\ ec_node ec = ec_sched ec /\ ec_fail ec = false /\
               In (ec_node ec) (primary_nodes c) /\
               aget (ec_node ec) (sc_votes sc) = Some (Some (ec_vote ec)).

Lemma count_le_length f l : count f l <= N.of_nat (length l).
Proof.
  unfold count. induction l as [|x l IH]; cbn [filter length]; [lia|].
  destruct (f x); cbn [length]; lia.
Qed.

Lemma count_ext f g l : (forall x, In x l -> f x = g x) -> count f l = count g l.
Proof.
  unfold count. induction l as [|x l IH]; intros H; cbn [filter]; [reflexivity|].
  rewrite (H x (or_introl eq_refl)). specialize (IH (fun y Hy => H y (or_intror Hy))).
  destruct (g x); cbn [length]; lia.
Qed.

Lemma nonfail_in votes nodes n h :
  In n nodes -> aget n votes = Some (Some h) -> In h (nonfail votes nodes).
Proof.
  intros Hin Hv. unfold nonfail. apply in_flat_map. exists n. split; [exact Hin|].
  rewrite Hv. left. reflexivity.
Qed.

Lemma nonfail_length votes nodes :
  N.of_nat (length (nonfail votes nodes)) =
  count (fun n => match aget n votes with Some (Some _) => true | _ => false end) nodes.
Proof.
  unfold count, nonfail. induction nodes as [|n r IH]; cbn [flat_map filter length]; [reflexivity|].
  destruct (aget n votes) as [[h|]|]; cbn [app length]; lia.
Qed.

Lemma nonfail_occ votes nodes h :
  occ h (nonfail votes nodes) =
  count (fun n => match aget n votes with Some (Some v) => v =? h | _ => false end) nodes.
Proof.
  unfold count, occ, nonfail. induction nodes as [|n r IH]; cbn [flat_map filter length]; [reflexivity|].
  destruct (aget n votes) as [[v|]|]; cbn [app filter]; try exact IH.
  destruct (v =? h); cbn [length]; lia.
Qed.

Lemma keys_len_le1 (l : list (N * N)) a b :
  vlen l <= 1 -> In a (keys l) -> In b (keys l) -> a = b.
Proof.
  unfold vlen. destruct l as [|[k v] [|y r]]; cbn [length keys map fst In].
  - intros _ [].
  - intros _ [<-|[]] [<-|[]]. reflexivity.
  - lia.
Qed.

(* reaching the quorum of pool.go:419 means more than half *)
Lemma majority_lt n b : n / 2 + 1 <= b -> n < 2 * b.
Proof. pose proof (N.div_mod n 2 ltac:(lia)). pose proof (N.mod_lt n 2 ltac:(lia)). lia. Qed.

Lemma finalize_only_if_rule c p strag timeout p' sc :
  hr_entry_ok c p ->
  process c p strag timeout = (p', POk sc) ->
  rule c strag (disc p) sc.
Proof.
  intros Hinv H. pose proof (process_ok_is_highest _ _ _ _ _ _ H) as Hsc.
  apply process_ok_inner in H. rewrite process_inner_eq, Hsc in H.
  destruct (Hinv sc Hsc) as (ec & Hc & Hns & Hnf & Hprim & Hvote).
  destruct (gather (disc p) (hr p) strag timeout (sc_votes sc) c tally0) as [t|] eqn:G; [|discriminate].
  apply gather_some in G. subst t.
  set (tv := tallyv (nonfail (sc_votes sc) (sel (disc p) c)) []) in *.
  assert (Hnd : NoDup (keys tv)) by (apply tallyv_nodup; constructor).
  unfold rule. destruct (disc p) eqn:D; [unfold resolve in H|unfold detect in H];
    cbn [tally_of tally0 t_total t_failures t_commits t_votes] in H; fold tv in H.
  - right. split; [reflexivity|].
    destruct (vbest tv 0 0) as [h best] eqn:Eb.
    destruct (best + _ <? _) eqn:E1; [discriminate|].
    destruct ((best <? _) && timeout) eqn:E2; [discriminate|].
    destruct (best <? _) eqn:E3; [discriminate|]. apply N.ltb_ge in E3.
    rewrite Hc in H. destruct (h =? ec_vote ec) eqn:E4; cbn [negb] in H; [|discriminate].
    apply N.eqb_eq in E4. subst h.
    exists ec. split; [exact Hc|]. apply majority_lt.
    apply vbest_max in Eb as (_ & _ & [[_ ->]|Hin]); [lia|].
    (* the best count is the number of backup workers that voted for the proposal *)
    apply In_aget in Hin; [|exact Hnd].
    assert (Hg : vget (ec_vote ec) tv = best) by (unfold vget; rewrite Hin; reflexivity).
    unfold tv in Hg. rewrite tallyv_vget, nonfail_occ in Hg. rewrite <- Hg in E3. exact E3.
  - left. split; [reflexivity|].
    destruct ((1 <? vlen tv) || _) eqn:E1; [discriminate|]. apply orb_false_iff in E1 as [E1 E1'].
    destruct (0 <? _)%Z eqn:E2; [destruct timeout; discriminate|].
    exists ec. split; [exact Hc|]. split; [exact Hns|]. split; [exact Hnf|].
    (* at most one hash was voted for, and the scheduler's own vote is among the votes *)
    assert (Hkey : forall n v, In n (primary_nodes c) -> vote_of sc n = Some (Some v) -> In v (keys tv)).
    { intros n v Hn Hv. apply tallyv_keys_in. eapply nonfail_in; eassumption. }
    assert (Hnodissent : forall n v, In n (primary_nodes c) -> vote_of sc n = Some (Some v) -> v = ec_vote ec).
    { intros n v Hn Hv. apply (keys_len_le1 tv); [lia|exact (Hkey n v Hn Hv)|exact (Hkey _ _ Hprim Hvote)]. }
    split; [exact Hnodissent|]. split.
    + change (count (voted_failure sc) (primary_nodes c)) with (count (is_fail (sc_votes sc)) (sel false c)). lia.
    + assert (Hs : vsum tv = count (voted_for sc (ec_vote ec)) (primary_nodes c)).
      { unfold tv. rewrite tallyv_vsum by constructor. cbn [vsum]. rewrite nonfail_length, N.add_0_l.
        apply count_ext. intros x Hx. unfold voted_for.
        destruct (vote_of sc x) as [[v|]|] eqn:Ev; unfold vote_of in Ev; rewrite Ev; try reflexivity.
        rewrite (Hnodissent x v Hx Ev). symmetry. apply N.eqb_refl. }
      rewrite <- Hs. change (length (primary_nodes c)) with (length (sel false c)). lia.
Qed.

Lemma scan_backup_in l id : scan_backup l id = true -> In id (map snd l).
Proof.
  induction l as [|[ro k] r IH]; cbn [scan_backup map snd In]; [discriminate|].
  destruct (is_rbackup ro); [|discriminate].
  destruct (k =? id) eqn:E; [apply N.eqb_eq in E; left; exact E|]. intros H. right. apply IH. exact H.
Qed.

Lemma is_member_in c id : is_member c id = true <-> In id (map snd c).
Proof.
  induction c as [|[ro k] r IH]; cbn [is_member map snd In]; [split; [discriminate|intros []]|].
  destruct (k =? id) eqn:E.
  - apply N.eqb_eq in E. split; [left; exact E|reflexivity].
  - rewrite IH. split; [right; assumption|]. intros [H|H]; [|exact H]. subst. rewrite N.eqb_refl in E. discriminate.
Qed.

Lemma backup_is_member c id : is_backup_worker c id = true -> is_member c id = true.
Proof.
  unfold is_backup_worker. intros H. apply scan_backup_in in H. apply is_member_in.
  rewrite map_rev in H. apply in_rev in H. exact H.
Qed.

(* the workers SchedulerRank loops over: the members up to the first non-worker *)
Fixpoint wprefix (l : committee) : list N :=
  match l with
  | (ro, k) :: r => if is_rworker ro then k :: wprefix r else []
  | [] => []
  end.

Lemma wprefix_length l : (length (wprefix l) <= length l)%nat.
Proof. induction l as [|[ro k] r IH]; cbn [wprefix length]; [lia|]. destruct (is_rworker ro); cbn [length]; lia. Qed.

Lemma wprefix_primary l id : In id (wprefix l) -> In id (primary_nodes l).
Proof.
  unfold primary_nodes. induction l as [|[ro k] r IH]; cbn [wprefix filter fst]; [intros []|].
  destruct (is_rworker ro); [|intros []]. cbn [map snd In]. intros [H|H]; [left; exact H|right; apply IH; exact H].
Qed.

Lemma rank_scan_idx l id : forall total idx isw t' i' w',
  rank_scan l id total idx isw = (t', i', w') ->
  t' = total + N.of_nat (length (wprefix l)) /\
  (w' = true -> (isw = true /\ i' = idx) \/
                exists j, i' = total + N.of_nat j /\ nth_error (wprefix l) j = Some id).
Proof.
  induction l as [|[ro k] r IH]; intros total idx isw t' i' w'; cbn [rank_scan wprefix].
  - intros H. injection H as <- <- <-. split; [cbn; lia|]. intros ->. left. split; reflexivity.
  - destruct (is_rworker ro).
    2:{ intros H. injection H as <- <- <-. split; [cbn; lia|]. intros ->. left. split; reflexivity. }
    cbn [length]. destruct (k =? id) eqn:E; intros H; apply IH in H as [H1 H2]; (split; [lia|]); intros Hw;
      destruct (H2 Hw) as [[Ha Hb]|(j & Hj & Hn)]; try (right; exists (S j); split; [lia|exact Hn]).
    + right. exists 0%nat. subst i'. split; [lia|]. apply N.eqb_eq in E. cbn. congruence.
    + left. split; assumption.
Qed.

Lemma scheduler_rank_spec c round id r :
  scheduler_rank c round id = Some r ->
  exists i, nth_error (wprefix c) i = Some id /\
            r = ((round + N.of_nat i) mod W64) mod N.of_nat (length (wprefix c)).
Proof.
  unfold scheduler_rank. destruct (rank_scan c id 0 0 false) as [[total idx] isw] eqn:E.
  apply rank_scan_idx in E as [-> Hi]. destruct isw; [|discriminate]. intros H. injection H as <-.
  destruct (Hi eq_refl) as [[Hf _]|(j & -> & Hn)]; [discriminate Hf|].
  exists j. split; [exact Hn|reflexivity].
Qed.

Lemma scheduler_rank_some c round id r :
  scheduler_rank c round id = Some r ->
  In id (primary_nodes c) /\ r < N.of_nat (length c).
Proof.
  intros H. apply scheduler_rank_spec in H as (i & Hi & ->).
  split; [apply wprefix_primary; eapply nth_error_In; exact Hi|].
  assert (i < length (wprefix c))%nat by (apply nth_error_Some; congruence).
  pose proof (wprefix_length c).
  apply N.lt_le_trans with (N.of_nat (length (wprefix c))); [apply N.mod_lt|]; lia.
Qed.

Lemma aget_filter_key {V} (f : N -> bool) k (l : list (N * V)) :
  aget k (filter (fun e => f (fst e)) l) = if f k then aget k l else None.
Proof.
  induction l as [|[a v] r IH]; cbn [filter aget fst]; [destruct (f k); reflexivity|].
  destruct (f a) eqn:Ea; cbn [aget].
  - destruct (a =? k) eqn:E; [apply N.eqb_eq in E; subst; rewrite Ea; reflexivity|exact IH].
  - destruct (a =? k) eqn:E; [apply N.eqb_eq in E; subst; rewrite Ea in *; exact IH|exact IH].
Qed.
Lemma aget_filter_le {V} rank k (l : list (N * V)) :
  aget k (filter (fun e => fst e <=? rank) l) = if k <=? rank then aget k l else None.
Proof. exact (aget_filter_key (fun x => x <=? rank) k l). Qed.
Lemma aget_filter_eq {V} h k (l : list (N * V)) :
  aget k (filter (fun e => fst e =? h) l) = if k =? h then aget k l else None.
Proof. exact (aget_filter_key (fun x => x =? h) k l). Qed.

(* pool.go:313-322: discrepancy detected *)
Definition restricted (p : pool) : pool :=
  mkPool (hr p) (filter (fun e => fst e =? hr p) (scs p)) true.
(* pool.go:286-293: a better-ranked scheduler committed *)
Definition lowered (r : N) (p : pool) : pool :=
  mkPool r (filter (fun e => fst e <=? r) (scs p)) (disc p).
(* pool.go:300-304 *)
Definition bucket (r : N) (p : pool) : sched_commitment :=
  match aget r (scs p) with Some sc => sc | None => empty_sc end.
(* votes.go:29-42 *)
Definition voted (ec : commitment) (sc : sched_commitment) : sched_commitment :=
  mkSC (if ec_node ec =? ec_sched ec then Some ec else sc_commit sc)
       (aset (ec_node ec) (if ec_fail ec then None else Some (ec_vote ec)) (sc_votes sc)).
Definition stored (r : N) (sc : sched_commitment) (p : pool) : pool :=
  mkPool (hr p) (aset r sc (scs p)) (disc p).

(* the checks of pool.go:227-279 passed, the scheduler's rank is [r] *)
Definition admitted (c : committee) (p : pool) (ec : commitment) (r : N) : Prop :=
  scheduler_rank c (ec_round ec) (ec_sched ec) = Some r /\ r <= hr p /\
  is_member c (ec_node ec) = true /\
  (disc p = true -> is_backup_worker c (ec_node ec) = true /\ r = hr p).

(* pool.go:280-306 *)
Definition add_at (p : pool) (ec : commitment) (r : N) : pool * add_res :=
  let p0 := if (r <? hr p) && (ec_node ec =? ec_sched ec) then lowered r p else p in
  match aget (ec_node ec) (sc_votes (bucket r p0)) with
  | Some _ => (p0, AAlreadyCommitted)
  | None => (stored r (voted ec (bucket r p0)) p0, AOk)
  end.

Lemma add_admitted c p ec r : admitted c p ec r -> add c p ec = add_at p ec r.
Proof.
  intros (Hr & Hle & Hm & Hd). unfold add. rewrite Hm, Hr, andb_false_r.
  assert (E1 : hr p <? r = false) by lia. rewrite E1.
  assert (E2 : disc p && negb (is_backup_worker c (ec_node ec)) = false /\ negb (r =? hr p) && disc p = false).
  { destruct (disc p); [|rewrite andb_false_r; split; reflexivity].
    destruct (Hd eq_refl) as [-> ->]. rewrite N.eqb_refl. split; reflexivity. }
  destruct E2 as [-> ->]. unfold add_at, sc_add. cbn zeta.
  change (mkPool r (filter (fun e => fst e <=? r) (scs p)) (disc p)) with (lowered r p).
  set (p0 := if (r <? hr p) && (ec_node ec =? ec_sched ec) then lowered r p else p).
  change (match aget r (scs p0) with Some sc => sc | None => empty_sc end) with (bucket r p0).
  destruct (aget (ec_node ec) (sc_votes (bucket r p0))); reflexivity.
Qed.

Lemma add_cases c p ec :
  (fst (add c p ec) = p /\ snd (add c p ec) <> AOk) \/ exists r, admitted c p ec r.
Proof.
  unfold add.
  destruct (negb (disc p) && negb (is_member c (ec_node ec))) eqn:C1; [left; split; [reflexivity|discriminate]|].
  destruct (disc p && negb (is_backup_worker c (ec_node ec))) eqn:C2; [left; split; [reflexivity|discriminate]|].
  destruct (scheduler_rank c (ec_round ec) (ec_sched ec)) as [r|] eqn:Er; [|left; split; [reflexivity|discriminate]].
  destruct (hr p <? r) eqn:E1; [left; split; [reflexivity|discriminate]|].
  destruct (negb (r =? hr p) && disc p) eqn:E2; [left; split; [reflexivity|discriminate]|].
  right. exists r. split; [exact Er|]. split; [lia|].
  destruct (disc p); cbn [negb andb] in C1, C2.
  - apply negb_false_iff in C2. rewrite andb_true_r in E2. apply negb_false_iff in E2.
    split; [apply backup_is_member; exact C2|]. intros _. split; [exact C2|lia].
  - apply negb_false_iff in C1. split; [exact C1|discriminate].
Qed.

Lemma add_ok_admitted c p ec p1 :
  add c p ec = (p1, AOk) -> exists r, admitted c p ec r /\ add_at p ec r = (p1, AOk).
Proof.
  intros H. destruct (add_cases c p ec) as [[_ Hx]|(r & A)]; [rewrite H in Hx; destruct Hx; reflexivity|].
  exists r. split; [exact A|]. rewrite <- (add_admitted _ _ _ _ A). exact H.
Qed.

Lemma hr_add_at p ec r : r <= hr p ->
  hr (fst (add_at p ec r)) = if ec_node ec =? ec_sched ec then r else hr p.
Proof.
  intros Hle. unfold add_at. destruct (ec_node ec =? ec_sched ec); rewrite ?andb_true_r, ?andb_false_r.
  - destruct (r <? hr p) eqn:E; destruct (aget _ _); cbn [fst stored lowered hr]; lia.
  - destruct (aget _ _); reflexivity.
Qed.

(* non-members never count: their commitments are rejected, the pool is unchanged *)
Lemma add_non_member c p ec :
  is_member c (ec_node ec) = false ->
  exists e, add c p ec = (p, e) /\ (e = ANotInCommittee \/ e = ANotBackup).
Proof.
  intros Hm. unfold add. rewrite Hm. destruct (disc p); cbn [negb andb].
  - destruct (is_backup_worker c (ec_node ec)) eqn:Eb.
    + apply backup_is_member in Eb. congruence.
    + cbn [negb]. exists ANotBackup. split; [reflexivity|right; reflexivity].
  - exists ANotInCommittee. split; [reflexivity|left; reflexivity].
Qed.

Lemma add_non_backup_in_resolution c p ec :
  disc p = true -> is_backup_worker c (ec_node ec) = false -> add c p ec = (p, ANotBackup).
Proof. intros Hd Hb. unfold add. rewrite Hd, Hb. reflexivity. Qed.

Lemma add_worse_rank c p ec r :
  scheduler_rank c (ec_round ec) (ec_sched ec) = Some r -> hr p < r ->
  exists e, add c p ec = (p, e) /\ e <> AOk.
Proof.
  intros Hr Hlt. destruct (add_cases c p ec) as [[E Hn]|(r' & Hr' & Hle & _)].
  - exists (snd (add c p ec)). split; [rewrite <- E at 2; apply surjective_pairing|exact Hn].
  - rewrite Hr in Hr'. injection Hr' as <-. lia.
Qed.

Lemma add_own_sets_rank c p ec p1 r :
  add c p ec = (p1, AOk) -> ec_node ec = ec_sched ec ->
  scheduler_rank c (ec_round ec) (ec_sched ec) = Some r -> hr p1 = r.
Proof.
  intros H Hown Hr. apply add_ok_admitted in H as (r' & (Hr' & Hle & _) & H).
  pose proof (hr_add_at p ec r') as Hh. rewrite H in Hh. rewrite Hr in Hr'. injection Hr' as <-.
  rewrite Hown, N.eqb_refl in Hh. apply Hh. exact Hle.
Qed.

Lemma add_hr_mono c p ec : hr (fst (add c p ec)) <= hr p.
Proof.
  destruct (add_cases c p ec) as [[-> _]|(r & A)]; [lia|].
  rewrite (add_admitted _ _ _ _ A). destruct A as (_ & Hle & _).
  rewrite (hr_add_at p ec r Hle). destruct (_ =? _); lia.
Qed.

Lemma process_hr c p strag timeout : hr (fst (process c p strag timeout)) = hr p.
Proof. unfold process. destruct (process_inner c p strag timeout); reflexivity. Qed.

Lemma run_hr_mono c ops p : hr (run c ops p) <= hr p.
Proof.
  apply (fold_left_invariant (fun q => hr q <= hr p) (step c)); [|lia].
  intros q o Hq. apply N.le_trans with (hr q); [|exact Hq].
  destruct o; cbn [step]; [apply add_hr_mono|rewrite process_hr; lia|lia].
Qed.

Lemma one_vote_per_member c p ec p1 ec' :
  add c p ec = (p1, AOk) ->
  ec_node ec' = ec_node ec -> ec_sched ec' = ec_sched ec -> ec_round ec' = ec_round ec ->
  add c p1 ec' = (p1, AAlreadyCommitted).
Proof.
  intros H Hn Hs Hr. apply add_ok_admitted in H as (r & (Er & Hle & Hm & Hd) & H). unfold add_at in H.
  set (p0 := if (r <? hr p) && (ec_node ec =? ec_sched ec) then lowered r p else p) in H.
  destruct (aget (ec_node ec) (sc_votes (bucket r p0))); [discriminate H|]. injection H as <-.
  (* the second commitment passes the same checks; the pool is not lowered again *)
  assert (Hp0 : disc p0 = disc p /\ r <= hr p0 /\ (disc p = true -> hr p0 = hr p) /\
                (r <? hr p0) && (ec_node ec =? ec_sched ec) = false).
  { unfold p0. destruct ((r <? hr p) && (ec_node ec =? ec_sched ec)) eqn:El; cbn [lowered hr disc].
    - rewrite N.ltb_irrefl. repeat split; [lia|intros D; apply (Hd D)].
    - repeat split; [exact Hle|exact El]. }
  destruct Hp0 as (D0 & Hle0 & Hd0 & El0).
  rewrite (add_admitted c _ ec' r).
  - unfold add_at. rewrite Hn, Hs. cbn [stored hr]. rewrite El0. unfold bucket at 1. cbn [stored scs].
    rewrite aget_aset_same. cbn [voted sc_votes]. rewrite aget_aset_same. reflexivity.
  - unfold admitted. rewrite Hn, Hs, Hr. cbn [stored hr disc]. rewrite D0.
    repeat split; try assumption; [apply (Hd H)|rewrite (Hd0 H); apply (Hd H)].
Qed.

Definition outcome_shape (c : committee) (p : pool) (timeout : bool) (p' : pool) (o : outcome) : Prop :=
  match o with
  | POk sc => p' = p /\ aget (hr p) (scs p) = Some sc
  | PStillWaiting => p' = p /\ timeout = false
  | PDiscrepancy =>
      disc p = false /\ (exists sc, aget (hr p) (scs p) = Some sc) /\
      p' = mkPool (hr p) (filter (fun e => fst e =? hr p) (scs p)) true
  | PInsufficientVotes => p' = p /\ disc p = true
  | PBadScheduler => p' = p /\ disc p = true
  | PNoScheduler => p' = p /\ timeout = true /\ aget (hr p) (scs p) = None
  | PPanic => p' = p /\ disc p = true /\ exists sc, aget (hr p) (scs p) = Some sc /\ sc_commit sc = None
  end.

Lemma otherwise_wait_resolve_or_fail c p strag timeout :
  outcome_shape c p timeout (fst (process c p strag timeout)) (snd (process c p strag timeout)).
Proof.
  pose proof (process_inner_cases c p strag timeout) as S. unfold process.
  destruct (process_inner c p strag timeout); cbn [fst snd outcome_shape]; tauto.
Qed.

Lemma second_process_never_detects c p strag timeout :
  disc p = true -> snd (process c p strag timeout) <> PDiscrepancy.
Proof.
  intros D H. pose proof (otherwise_wait_resolve_or_fail c p strag timeout) as S.
  rewrite H in S. cbn [outcome_shape] in S. destruct S as [S _]. congruence.
Qed.

Lemma no_panic c p strag timeout :
  hr_entry_ok c p -> snd (process c p strag timeout) <> PPanic.
Proof.
  intros Hinv H. pose proof (otherwise_wait_resolve_or_fail c p strag timeout) as S.
  rewrite H in S. cbn [outcome_shape] in S. destruct S as (_ & _ & sc & Ha & Hc).
  destruct (Hinv sc Ha) as (ec & Hec & _). congruence.
Qed.

Lemma process_cases c p s t :
  fst (process c p s t) = p \/
  (disc p = false /\ (exists sc, aget (hr p) (scs p) = Some sc) /\ fst (process c p s t) = restricted p).
Proof.
  pose proof (otherwise_wait_resolve_or_fail c p s t) as S.
  destruct (snd (process c p s t)); cbn [outcome_shape] in S; try (left; apply S).
  right. exact S.
Qed.

Lemma hr_entry_ok_process c p s t : hr_entry_ok c p -> hr_entry_ok c (fst (process c p s t)).
Proof.
  intros I. destruct (process_cases c p s t) as [->|(_ & _ & ->)]; [exact I|].
  intros sc H. cbn [restricted hr scs] in H. rewrite aget_filter_eq, N.eqb_refl in H. exact (I sc H).
Qed.

Lemma run_invariant c (V : commitment -> Prop) (P : pool -> Prop) :
  (forall p ec, V ec -> P p -> P (fst (add c p ec))) ->
  (forall p s t, P p -> P (fst (process c p s t))) ->
  forall ops p, Forall (fun o => match o with OAdd ec => V ec | _ => True end) ops -> P p -> P (run c ops p).
Proof.
  intros Hadd Hproc. induction ops as [|o ops IH]; intros p Hv I; cbn [run fold_left]; [exact I|].
  inversion Hv as [|x xs Hvo Hvr]; subst. apply (IH _ Hvr).
  destruct o; cbn [step]; [apply Hadd; assumption|apply Hproc; exact I|exact I].
Qed.

Definition buckets (Q : N -> sched_commitment -> Prop) (p : pool) : Prop :=
  forall r sc, aget r (scs p) = Some sc -> Q r sc.

Lemma buckets_filter Q (f : N -> bool) h d p :
  buckets Q p -> buckets Q (mkPool h (filter (fun e => f (fst e)) (scs p)) d).
Proof.
  intros I r sc H. cbn [scs] in H. rewrite aget_filter_key in H. destruct (f r); [exact (I r sc H)|discriminate H].
Qed.

Lemma buckets_process Q c p s t : buckets Q p -> buckets Q (fst (process c p s t)).
Proof.
  intros I. destruct (process_cases c p s t) as [->|(_ & _ & ->)]; [exact I|].
  apply (buckets_filter Q (fun x => x =? hr p)). exact I.
Qed.

(* only the bucket voted into needs an argument *)
Lemma buckets_add Q c p ec :
  buckets Q p ->
  (forall r sc, admitted c p ec r -> (sc = empty_sc \/ Q r sc) -> Q r (voted ec sc)) ->
  buckets Q (fst (add c p ec)).
Proof.
  intros I Hv. destruct (add_cases c p ec) as [[-> _]|(r & A)]; [exact I|].
  rewrite (add_admitted _ _ _ _ A). unfold add_at.
  set (p0 := if (r <? hr p) && (ec_node ec =? ec_sched ec) then lowered r p else p).
  assert (I0 : buckets Q p0).
  { unfold p0. destruct (_ && _); [|exact I]. apply (buckets_filter Q (fun x => x <=? r)). exact I. }
  destruct (aget (ec_node ec) (sc_votes (bucket r p0))); cbn [fst]; [exact I0|].
  intros r' sc H. cbn [stored scs] in H. destruct (N.eq_dec r' r) as [->|Hne].
  - rewrite aget_aset_same in H. injection H as <-. apply (Hv r _ A). unfold bucket.
    destruct (aget r (scs p0)) as [sc0|] eqn:E0; [right; exact (I0 r sc0 E0)|left; reflexivity].
  - rewrite aget_aset_other in H by exact Hne. exact (I0 r' sc H).
Qed.

Lemma process_ignores_non_member_votes c p sc sc' strag timeout :
  aget (hr p) (scs p) = Some sc ->
  sc_commit sc' = sc_commit sc ->
  (forall n, is_member c n = true -> aget n (sc_votes sc') = aget n (sc_votes sc)) ->
  outcome_code (process_inner c (mkPool (hr p) (aset (hr p) sc' (scs p)) (disc p)) strag timeout)
  = outcome_code (process_inner c p strag timeout).
Proof.
  intros Ha Hc Hv. rewrite !process_inner_eq. cbn [hr scs disc]. rewrite aget_aset_same, Ha.
  rewrite (gather_ext (disc p) (hr p) strag timeout (sc_votes sc') (sc_votes sc) c tally0).
  2:{ intros n Hn. apply Hv. apply is_member_in. exact Hn. }
  destruct (gather (disc p) (hr p) strag timeout (sc_votes sc) c tally0) as [t|]; [|reflexivity].
  destruct (disc p); apply (verdict_commit strag timeout sc sc' t Hc).
Qed.

(* non-vacuity: primary 3 / backup 3, node 2 in both roles, stragglers 1 *)

Definition ex_c : committee :=
  [(RWorker, 0); (RWorker, 1); (RWorker, 2); (RBackup, 2); (RBackup, 3); (RBackup, 4)].
(* round 0: the rank of worker i is i *)
Definition ex_unanimous : list op :=
  [OAdd (mkEC 0 0 0 false 7); OAdd (mkEC 1 0 0 false 7); OAdd (mkEC 2 0 0 true 9)].
Definition ex_discrepant : list op :=
  [OAdd (mkEC 0 0 0 false 7); OAdd (mkEC 1 0 0 false 8); OProc 1 false;
   OAdd (mkEC 2 0 0 false 7); OAdd (mkEC 3 0 0 false 7)].

Example ex_unanimous_ok :
  exists sc, process ex_c (run ex_c ex_unanimous new_pool) 1 false = (run ex_c ex_unanimous new_pool, POk sc)
             /\ disc (run ex_c ex_unanimous new_pool) = false.
Proof. eexists. split; vm_compute; reflexivity. Qed.

Example ex_unanimous_strag0_waits_then_detects :
  snd (process ex_c (run ex_c ex_unanimous new_pool) 0 false) = PDiscrepancy.
Proof. vm_compute. reflexivity. Qed.

Example ex_discrepant_ok :
  exists sc, snd (process ex_c (run ex_c ex_discrepant new_pool) 1 false) = POk sc
             /\ disc (run ex_c ex_discrepant new_pool) = true.
Proof. eexists. split; vm_compute; reflexivity. Qed.

Example ex_backup_minority_fails :
  snd (process ex_c (run ex_c [OAdd (mkEC 0 0 0 false 7); OAdd (mkEC 1 0 0 false 8); OProc 1 false;
                               OAdd (mkEC 2 0 0 false 7)] new_pool) 1 true) = PInsufficientVotes.
Proof. vm_compute. reflexivity. Qed.

Example ex_second_vote_rejected :
  snd (add ex_c (run ex_c ex_unanimous new_pool) (mkEC 1 0 0 false 8)) = AAlreadyCommitted.
Proof. vm_compute. reflexivity. Qed.

Example ex_worse_rank_rejected :
  snd (add ex_c (run ex_c ex_unanimous new_pool) (mkEC 1 1 0 false 8)) = AWorseRank.
Proof. vm_compute. reflexivity. Qed.

Example ex_better_rank_preferred :
  hr (run ex_c [OAdd (mkEC 1 1 0 false 8); OAdd (mkEC 2 1 0 false 8); OAdd (mkEC 0 0 0 false 7)] new_pool) = 0
  /\ snd (process ex_c (run ex_c [OAdd (mkEC 1 1 0 false 8); OAdd (mkEC 2 1 0 false 8); OAdd (mkEC 0 0 0 false 7)] new_pool) 1 false)
     = PStillWaiting.
Proof. split; vm_compute; reflexivity. Qed.
