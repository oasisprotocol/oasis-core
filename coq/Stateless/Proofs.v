(* Proofs about the simple Merkle tree model (Stateless/Merkle.v).
   The hash [H] is arbitrary; the only thing assumed about it is that its
   output has a fixed length [hlen] (true of SHA-256, hlen = 32).  This is
   needed because innerHash hashes the plain concatenation l ++ r: without a
   fixed digest length the split between l and r would be ambiguous.
   Injectivity is never assumed: conclusions are "... \/ collision". *)
From Verif Require Import Lib.Base Stateless.Merkle.

Local Open Scope nat_scope.

Lemma app_eq_len {A} (l1 l2 r1 r2 : list A) :
  length l1 = length l2 \/ length r1 = length r2 -> l1 ++ r1 = l2 ++ r2 -> l1 = l2 /\ r1 = r2.
Proof.
  intros L E. apply app_inv_len; [|exact E].
  apply (f_equal (@length A)) in E. rewrite !app_length in E. lia.
Qed.

Lemma split_point_bounds (n : N) : (2 <= n)%N -> (1 <= split_point n /\ split_point n < n)%N.
Proof.
  intros Hn. unfold split_point.
  destruct (N.log2_spec n) as [Hlo Hhi]; [lia|].
  set (k := (2 ^ N.log2 n)%N) in *.
  destruct (N.eqb_spec k n) as [E|E]; [|lia].
  assert (k / 2 < k)%N by (apply N.div_lt; lia).
  assert (1 <= k / 2)%N by (apply N.div_le_lower_bound; lia).
  lia.
Qed.

Lemma split_lengths {A} (items : list A) : 2 <= length items ->
  let k := split_nat (length items) in
  1 <= k < length items /\ length (firstn k items) = k /\ length (skipn k items) = length items - k.
Proof.
  intros L. unfold split_nat. rewrite firstn_length, skipn_length.
  destruct (split_point_bounds (N.of_nat (length items))); lia.
Qed.

Lemma split_Z_nat (n : nat) : Z.of_N (split_point (Z.to_N (Z.of_nat n))) = Z.of_nat (split_nat n).
Proof.
  unfold split_nat. replace (Z.to_N (Z.of_nat n)) with (N.of_nat n) by lia. lia.
Qed.

Section MerkleProofs.
  Variable H : bytes -> bytes.
  Variable hlen : nat.
  Hypothesis H_len : forall x, length (H x) = hlen.

  Definition collision : Prop := exists x y : bytes, x <> y /\ H x = H y.

  Notation root := (root H).
  Notation leaf_hash := (leaf_hash H).
  Notation inner_hash := (inner_hash H).
  Notation empty_hash := (empty_hash H).
  Notation cfr := (compute_from_raunts H).

  Lemma hash_inj (x y : bytes) : H x = H y -> x = y \/ collision.
  Proof.
    intros E. destruct (bytes_eq_dec x y) as [e|ne]; [left; exact e|right; exists x, y; split; assumption].
  Qed.

  Lemma or_collision {A B : Prop} : A \/ collision -> (A -> B \/ collision) -> B \/ collision.
  Proof. intros [a|c] F; [exact (F a)|right; exact c]. Qed.

  Lemma fuel_irrel f1 : forall f2 items,
    length items < f1 -> length items < f2 ->
    root_fuel H f1 items = root_fuel H f2 items /\
    forall i, aunts_fuel H f1 items i = aunts_fuel H f2 items i.
  Proof.
    induction f1 as [|f1 IH]; intros [|f2] items L1 L2; try lia.
    destruct items as [|x [|y r]]; [split; reflexivity|split; reflexivity|].
    cbn [root_fuel aunts_fuel].
    destruct (split_lengths (x :: y :: r)) as (K & Lf & Ls); [cbn; lia|].
    split; [f_equal; apply IH; lia|].
    intros i. destruct (Nat.ltb i _); f_equal; apply IH; lia.
  Qed.

  Lemma root_nil : root [] = empty_hash. Proof. reflexivity. Qed.
  Lemma root_one x : root [x] = leaf_hash x. Proof. reflexivity. Qed.
  Lemma root_eq items : 2 <= length items ->
    root items = inner_hash (root (firstn (split_nat (length items)) items))
                            (root (skipn (split_nat (length items)) items)).
  Proof.
    intros L. destruct (split_lengths items L) as (K & Lf & Ls).
    destruct items as [|x [|y r]]; [cbn in L; lia|cbn in L; lia|].
    unfold Merkle.root at 1. cbn [root_fuel].
    f_equal; apply fuel_irrel; lia.
  Qed.

  Lemma aunts_eq items i : 2 <= length items ->
    aunts H items i =
      let k := split_nat (length items) in
      if Nat.ltb i k then aunts H (firstn k items) i ++ [root (skipn k items)]
      else aunts H (skipn k items) (i - k) ++ [root (firstn k items)].
  Proof.
    intros L. destruct (split_lengths items L) as (K & Lf & Ls).
    destruct items as [|x [|y r]]; [cbn in L; lia|cbn in L; lia|].
    unfold aunts at 1. cbn [aunts_fuel]. cbv zeta.
    destruct (Nat.ltb i _); f_equal; apply fuel_irrel; lia.
  Qed.

  (* A root is the hash of a tagged preimage, and the tag tells the shape of the list. *)
  Definition preimage (items : list bytes) : bytes :=
    match items with
    | [] => []
    | [x] => 0%N :: x
    | _ => 1%N :: root (firstn (split_nat (length items)) items) ++ root (skipn (split_nat (length items)) items)
    end.
  Lemma root_preimage items : root items = H (preimage items).
  Proof. destruct items as [|x [|y r]]; [reflexivity|reflexivity|]. apply root_eq. cbn; lia. Qed.

  Lemma root_len items : length (root items) = hlen.
  Proof. rewrite root_preimage. apply H_len. Qed.

  Lemma root_is_empty items : root items = empty_hash -> items = [] \/ collision.
  Proof.
    rewrite root_preimage. intros R. apply (or_collision (hash_inj _ _ R)); intros e.
    destruct items as [|x [|y r]]; try discriminate e. left; reflexivity.
  Qed.
  Lemma root_is_leaf items y : root items = leaf_hash y -> items = [y] \/ collision.
  Proof.
    rewrite root_preimage. intros R. apply (or_collision (hash_inj _ _ R)); intros e.
    destruct items as [|x [|x' r]]; try discriminate e. injection e as ->. left; reflexivity.
  Qed.
  Lemma root_is_inner items l r :
    length l = hlen \/ length r = hlen -> root items = inner_hash l r ->
    (2 <= length items /\ root (firstn (split_nat (length items)) items) = l /\
     root (skipn (split_nat (length items)) items) = r) \/ collision.
  Proof.
    rewrite root_preimage. intros Ln R. apply (or_collision (hash_inj _ _ R)); intros e.
    destruct items as [|x [|y r0]]; try discriminate e.
    injection e as e. apply app_eq_len in e; [|rewrite !root_len; destruct Ln as [<-|<-]; auto].
    left. split; [cbn; lia|exact e].
  Qed.

  Lemma cfr_nil_inv i t lf l : cfr i t lf [] = Some l -> i = 0%Z /\ t = 1%Z /\ l = lf.
  Proof.
    cbn [compute_from_raunts]. intros E.
    destruct (_ || _ || _)%bool eqn:G; [discriminate|]. destruct (Z.eqb_spec t 1); [|discriminate].
    injection E as <-. repeat split; lia.
  Qed.

  Lemma cfr_cons_spec i t lf a rest l :
    let k := Z.of_N (split_point (Z.to_N t)) in
    cfr i t lf (a :: rest) = Some l <->
    (0 <= i < t)%Z /\ (2 <= t)%Z /\ exists l',
      ((i < k)%Z /\ cfr i k lf rest = Some l' /\ l = inner_hash l' a) \/
      ((k <= i)%Z /\ cfr (i - k) (t - k) lf rest = Some l' /\ l = inner_hash a l').
  Proof.
    intros k. cbn [compute_from_raunts]. fold k. split.
    - intros E. destruct (_ || _ || _)%bool eqn:G; [discriminate|]. destruct (Z.eqb_spec t 1); [discriminate|].
      split; [lia|]. split; [lia|].
      destruct (Z.ltb_spec i k); destruct (cfr _ _ lf rest) as [l'|]; try discriminate;
        injection E as <-; exists l'; [left|right]; repeat split; assumption.
    - intros (Rg & T & l' & [(K & E & ->)|(K & E & ->)]);
        (destruct (_ || _ || _)%bool eqn:G; [lia|]); (destruct (Z.eqb_spec t 1); [lia|]);
        (destruct (Z.ltb_spec i k); try lia); rewrite E; reflexivity.
  Qed.

  Lemma cfr_len raunts i t lh l : length lh = hlen -> cfr i t lh raunts = Some l -> length l = hlen.
  Proof.
    intros Ll E. destruct raunts as [|a rest].
    - apply cfr_nil_inv in E as (_ & _ & ->). exact Ll.
    - apply cfr_cons_spec in E as (_ & _ & l' & [(_ & _ & ->)|(_ & _ & ->)]); apply H_len.
  Qed.

  Lemma cfr_complete n : forall items i x,
    length items < n -> nth_error items i = Some x ->
    cfr (Z.of_nat i) (Z.of_nat (length items)) (leaf_hash x) (rev (aunts H items i)) = Some (root items).
  Proof.
    induction n as [|n IH]; intros items i x Ln Hx; [lia|].
    assert (Li : i < length items) by (apply nth_error_Some; congruence).
    destruct (le_lt_dec 2 (length items)) as [L2|L2].
    2:{ destruct items as [|y [|z r]]; cbn in Li, L2; try lia.
        destruct i; [|lia]. injection Hx as ->. reflexivity. }
    destruct (split_lengths items L2) as (K & Lf & Ls).
    rewrite aunts_eq, (root_eq items) by exact L2. cbv zeta.
    set (k := split_nat (length items)) in *.
    rewrite <- (firstn_skipn k items) in Hx.
    destruct (Nat.ltb_spec i k) as [Hik|Hik]; rewrite rev_unit; apply cfr_cons_spec; rewrite split_Z_nat; fold k;
      (split; [lia|]); (split; [lia|]).
    - exists (root (firstn k items)). left. split; [lia|]. split; [|reflexivity].
      rewrite nth_error_app1 in Hx by lia. apply IH in Hx; [|lia]. rewrite Lf in Hx. exact Hx.
    - exists (root (skipn k items)). right. split; [lia|]. split; [|reflexivity].
      rewrite nth_error_app2, Lf in Hx by lia. apply IH in Hx; [|lia]. rewrite Ls in Hx.
      replace (Z.of_nat i - Z.of_nat k)%Z with (Z.of_nat (i - k)) by lia.
      replace (Z.of_nat (length items) - Z.of_nat k)%Z with (Z.of_nat (length items - k)) by lia. exact Hx.
  Qed.

  Lemma proofs_for_nth items i :
    i < length items -> nth_error (proofs_for H items) i = Some (proof_for H items i).
  Proof.
    intros Li. unfold proofs_for.
    rewrite nth_error_map. rewrite (nth_error_nth' _ 0) by (rewrite seq_length; exact Li).
    rewrite seq_nth by exact Li. reflexivity.
  Qed.
  Lemma proofs_for_length items : length (proofs_for H items) = length items.
  Proof. unfold proofs_for. rewrite map_length, seq_length. reflexivity. Qed.

  Lemma verify_proof_for items i :
    i < length items ->
    verify H (Some (root items)) (proof_for H items i) (nth i items []) = MOk.
  Proof.
    intros Li. unfold verify, proof_for, compute_root_hash. cbn [p_total p_index p_leaf_hash p_aunts].
    replace ((Z.of_nat (length items) <? 0)%Z) with false by lia.
    replace ((Z.of_nat i <? 0)%Z) with false by lia.
    rewrite bytes_eqb_refl. cbn [negb].
    rewrite (cfr_complete (S (length items))); [|apply Nat.lt_succ_diag_r|apply nth_error_nth'; exact Li].
    rewrite bytes_eqb_refl. reflexivity.
  Qed.

  (* proof_complete: every proof that ProofsForTransactions produces verifies,
     with VerifyTransaction, for the transaction it was issued for. *)
  Lemma proofs_for_txs_length (txs : list bytes) : length (snd (proofs_for_txs H txs)) = length txs.
  Proof. unfold proofs_for_txs. cbn [snd]. rewrite proofs_for_length, map_length. reflexivity. Qed.

  Theorem proofs_for_txs_verify (txs : list bytes) (i : nat) (p : proof) :
    nth_error (snd (proofs_for_txs H txs)) i = Some p ->
    verify_tx H (Some p) (Some (tx_root H txs)) (nth i txs []) = MOk.
  Proof.
    unfold proofs_for_txs. cbn [snd]. intros E.
    assert (Li : i < length (map H txs)).
    { rewrite <- (proofs_for_length (map H txs)). apply nth_error_Some. congruence. }
    rewrite proofs_for_nth in E by exact Li. injection E as <-.
    unfold verify_tx, verify_item, tx_root.
    replace (H (nth i txs [])) with (nth i (map H txs) []); [apply verify_proof_for; exact Li|].
    rewrite (nth_indep _ [] (H [])) by exact Li. apply map_nth.
  Qed.

  (* Total, index and aunts are the prover's.  The induction follows the tree
     of [items] downwards: at each level the fixed digest length splits the
     hashed concatenation into the roots of the two halves. *)
  Lemma cfr_sound raunts : forall items i t y,
    cfr i t (leaf_hash y) raunts = Some (root items) ->
    ((0 <= i < t)%Z /\ In y items /\
     (t = Z.of_nat (length items) -> nth_error items (Z.to_nat i) = Some y)) \/ collision.
  Proof.
    induction raunts as [|a rest IH]; intros items i t y E.
    - apply cfr_nil_inv in E as (-> & -> & E).
      apply (or_collision (root_is_leaf _ _ E)); intros ->.
      left. split; [lia|]. split; [left; reflexivity|reflexivity].
    - apply cfr_cons_spec in E as (Rg & T & l' & [(K & E & R)|(K & E & R)]);
        pose proof (cfr_len _ _ _ _ _ (H_len _) E) as Ll.
      + apply (or_collision (root_is_inner _ _ _ (or_introl Ll) R)); intros (L & <- & _).
        apply (or_collision (IH _ _ _ _ E)); intros (_ & I & N).
        destruct (split_lengths items L) as (Kb & Lf & Ls). set (k := split_nat (length items)) in *.
        left. split; [exact Rg|].
        split; [rewrite <- (firstn_skipn k items); apply in_or_app; left; exact I|].
        intros ->. rewrite split_Z_nat in *.
        rewrite <- (firstn_skipn k items), nth_error_app1 by lia. apply N. lia.
      + apply (or_collision (root_is_inner _ _ _ (or_intror Ll) R)); intros (L & _ & <-).
        apply (or_collision (IH _ _ _ _ E)); intros (_ & I & N).
        destruct (split_lengths items L) as (Kb & Lf & Ls). set (k := split_nat (length items)) in *.
        left. split; [exact Rg|].
        split; [rewrite <- (firstn_skipn k items); apply in_or_app; right; exact I|].
        intros ->. rewrite split_Z_nat in *.
        rewrite <- (firstn_skipn k items), nth_error_app2, Lf by lia.
        replace (Z.to_nat i - k) with (Z.to_nat (i - Z.of_nat k)) by lia. apply N. lia.
  Qed.

  Lemma verify_ok_inv rh p leaf :
    verify H (Some rh) p leaf = MOk ->
    p_leaf_hash p = leaf_hash leaf /\
    cfr (p_index p) (p_total p) (leaf_hash leaf) (rev (p_aunts p)) = Some rh.
  Proof.
    unfold verify, compute_root_hash. intros V.
    destruct (p_total p <? 0)%Z; [discriminate|]. destruct (p_index p <? 0)%Z; [discriminate|].
    destruct (bytes_eqb (p_leaf_hash p) (leaf_hash leaf)) eqn:LE; [|discriminate].
    apply bytes_eqb_eq in LE. rewrite LE in V. cbn [negb] in V.
    destruct (cfr _ _ _ _) as [c|]; [|discriminate].
    destruct (bytes_eqb c rh) eqn:CE; [|discriminate]. apply bytes_eqb_eq in CE. subst c.
    split; [exact LE|reflexivity].
  Qed.

  (* An accepted proof against the root of [items] is for an item of [items],
     and for the one at its index when its total is the length of [items]. *)
  Lemma verify_sound items p leaf :
    verify H (Some (root items)) p leaf = MOk ->
    ((0 <= p_index p < p_total p)%Z /\ In leaf items /\
     (p_total p = Z.of_nat (length items) -> nth_error items (Z.to_nat (p_index p)) = Some leaf)) \/ collision.
  Proof. intros V. apply verify_ok_inv in V as [_ C]. exact (cfr_sound _ _ _ _ _ C). Qed.

  (* proof_sound (membership, nothing assumed about total/index): a proof that
     VerifyTransaction accepts against the transaction root of [txs] is for a
     transaction of [txs]. *)
  Theorem proof_sound_member_l (txs : list bytes) (p : option proof) (tx : bytes) :
    verify_tx H p (Some (tx_root H txs)) tx = MOk -> In tx txs \/ collision.
  Proof.
    unfold verify_tx, verify_item. destruct p as [p|]; [|discriminate]. intros V.
    apply (or_collision (verify_sound _ _ _ V)); intros (_ & I & _).
    apply in_map_iff in I as (x & E & I).
    apply (or_collision (hash_inj _ _ E)); intros ->. left; exact I.
  Qed.

  Theorem proof_sound_l (txs : list bytes) (p : proof) (tx : bytes) :
    verify_tx H (Some p) (Some (tx_root H txs)) tx = MOk ->
    p_total p = Z.of_nat (length txs) ->
    ((0 <= p_index p < Z.of_nat (length txs))%Z /\ nth_error txs (Z.to_nat (p_index p)) = Some tx)
    \/ collision.
  Proof.
    unfold verify_tx, verify_item. intros V T.
    apply (or_collision (verify_sound _ _ _ V)); intros (Rg & _ & I).
    rewrite map_length, nth_error_map in I. specialize (I T).
    destruct (nth_error txs (Z.to_nat (p_index p))) as [t|]; [|discriminate].
    injection I as I.
    apply (or_collision (hash_inj _ _ I)); intros ->. left. split; [lia|reflexivity].
  Qed.

  (* Without the premise on total the index is NOT bound (the Go comment says
     "Check sp.Index/sp.Total manually if needed"): in a 3-leaf tree the third
     leaf also verifies as index 1 of 2. Holds for every H. *)
  Theorem index_not_bound_without_total_l (a b c : bytes) :
    verify H (Some (root [a; b; c]))
      (mkProof 2 1 (leaf_hash c) [inner_hash (leaf_hash a) (leaf_hash b)]) c = MOk.
  Proof.
    unfold verify, compute_root_hash. cbn [p_total p_index p_leaf_hash p_aunts rev app].
    rewrite bytes_eqb_refl.
    change (cfr 1 2 _ _) with (Some (root [a; b; c])).
    cbv iota beta. rewrite bytes_eqb_refl. reflexivity.
  Qed.

  Lemma root_inj_n n : forall xs ys,
    length ys < n -> root xs = root ys -> xs = ys \/ collision.
  Proof.
    induction n as [|n IH]; intros xs ys Ln R; [lia|].
    destruct (le_lt_dec 2 (length ys)) as [L|L].
    2:{ destruct ys as [|y [|y' r]]; [exact (root_is_empty _ R)|exact (root_is_leaf _ _ R)|cbn in L; lia]. }
    rewrite (root_eq ys L) in R.
    apply (or_collision (root_is_inner _ _ _ (or_introl (root_len _)) R)); intros (_ & R1 & R2).
    destruct (split_lengths ys L) as (K & Lf & Ls).
    apply IH in R1; [|lia]. apply IH in R2; [|lia].
    apply (or_collision R1); intros E1. apply (or_collision R2); intros E2.
    left. rewrite <- (firstn_skipn (split_nat (length xs)) xs), E1, E2. apply firstn_skipn.
  Qed.

  (* merkle_root_injective: equal roots -> equal lists (the LENGTH is bound
     too, through the 0x00 / 0x01 / empty-string domain separation: no premise
     on the lengths is needed) or a collision of H is exhibited. *)
  Theorem merkle_root_injective_l (xs ys : list bytes) : root xs = root ys -> xs = ys \/ collision.
  Proof. apply (root_inj_n (S (length ys))). lia. Qed.

  Lemma map_H_inj (a : list bytes) : forall b, map H a = map H b -> a = b \/ collision.
  Proof.
    induction a as [|x a IH]; intros [|y b] E; cbn in E; try discriminate; [left; reflexivity|].
    injection E as E1 E2.
    apply (or_collision (hash_inj _ _ E1)); intros ->.
    apply (or_collision (IH _ E2)); intros ->. left; reflexivity.
  Qed.

  Theorem tx_root_injective_l (txs1 txs2 : list bytes) :
    tx_root H txs1 = tx_root H txs2 -> txs1 = txs2 \/ collision.
  Proof.
    unfold tx_root. intros R. apply (or_collision (merkle_root_injective_l _ _ R)). apply map_H_inj.
  Qed.
End MerkleProofs.
