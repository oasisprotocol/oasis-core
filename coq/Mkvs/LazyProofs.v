(* Cache eviction is invisible as long as no evicted leaf is the embedded leaf
   of a dirty internal node; the faithful derefNodePtr rule loses data when it
   is (finding F1). *)
From Verif Require Import Lib.Base Mkvs.Trie Mkvs.Lazy.

Lemma erase_full t : erase (full t) = t.
Proof.
  induction t as [|k v|lbl lf l IHl r IHr]; cbn; auto.
  rewrite IHl, IHr. destruct lf as [[k v]|]; reflexivity.
Qed.
Lemma preload_full t : preload (full t) = full t.
Proof.
  induction t as [|k v|lbl lf l IHl r IHr]; cbn; auto.
  rewrite IHl, IHr. destruct lf as [[k v]|]; reflexivity.
Qed.
Lemma view_full t : view (full t) = t.
Proof. unfold view. now rewrite preload_full, erase_full. Qed.
Lemma view_ref t : view (PRef t) = t.
Proof. unfold view. cbn. apply erase_full. Qed.

Lemma view_node c lbl lf l r :
  view (PNode c lbl lf l r) =
  match lf with
  | PRef tl =>
      if c then Node lbl (match tl with Leaf k v => Some (k, v) | _ => None end) (view l) (view r)
      else Nil
  | PLeaf _ k v => Node lbl (Some (k, v)) (view l) (view r)
  | _ => Node lbl None (view l) (view r)
  end.
Proof.
  unfold view. cbn [preload]. destruct lf as [|tl|c' k v|c' lbl' lf' l' r']; try reflexivity.
  destruct c; [|reflexivity]. cbn [erase]. f_equal. destruct tl as [|k v|? [[? ?]|] ? ?]; reflexivity.
Qed.

Lemma evict_view p q : evict p q -> safe q -> view q = view p.
Proof.
  induction 1 as [k v|lbl lf l r|c lbl lf lf' l r Hev IH|c lbl lf l l' r Hev IH|c lbl lf l r r' Hev IH];
    intros Hs.
  - now rewrite view_ref.
  - now rewrite view_ref.
  - cbn [safe] in Hs. destruct Hs as (Hc & Hlf & _). rewrite !view_node.
    inversion Hev; subst; try reflexivity.
    + (* the embedded leaf itself is evicted: only under a clean node *)
      destruct c; [reflexivity|contradiction].
    + (* an internal node in the leaf position (never in a real tree) *)
      destruct c; [|contradiction].
      assert (forall c0 lb f a b, match view (PNode c0 lb f a b) with Leaf k v => Some (k, v) | _ => @None (bytes * bytes) end = None) as NL.
      { intros. rewrite view_node. destruct f as [|tl|? ? ?|? ? ? ? ?]; try reflexivity. destruct c0; reflexivity. }
      now rewrite NL.
  - cbn [safe] in Hs. destruct Hs as (_ & _ & Hl & _). rewrite !view_node, (IH Hl). reflexivity.
  - cbn [safe] in Hs. destruct Hs as (_ & _ & _ & Hr). rewrite !view_node, (IH Hr). reflexivity.
Qed.

Lemma evicts_view p q : evicts p q -> view q = view p.
Proof. induction 1 as [|p q r E S _ IH]; [reflexivity|]. rewrite IH. now apply evict_view. Qed.

Lemma erase_annot cs t : erase (annot cs t) = t.
Proof.
  induction t as [|k v|lbl lf l IHl r IHr]; cbn; auto.
  rewrite IHl, IHr. destruct lf as [[k v]|]; reflexivity.
Qed.
Lemma preload_annot cs t : preload (annot cs t) = annot cs t.
Proof.
  induction t as [|k v|lbl lf l IHl r IHr]; cbn; auto.
  rewrite IHl, IHr. destruct lf as [[k v]|]; reflexivity.
Qed.
Lemma view_annot cs t : view (annot cs t) = t.
Proof. unfold view. now rewrite preload_annot, erase_annot. Qed.

Lemma lazy_step_view H p o :
  match o with LEvict p' => evicts p p' | _ => True end ->
  view (fst (lazy_step H p o)) = fst (eager_step H (view p) o) /\
  snd (lazy_step H p o) = snd (eager_step H (view p) o).
Proof.
  destruct o as [k|k v|k| |p']; cbn [lazy_step eager_step]; intros He.
  - auto.
  - unfold lazy_insert. cbn [fst snd]. now rewrite view_annot.
  - unfold lazy_remove. destruct (tremove k (view p)) as [[t' c] ex]. cbn [fst snd].
    now rewrite view_annot.
  - unfold lazy_commit. cbn [fst snd]. now rewrite view_full.
  - cbn [fst snd]. split; [now apply evicts_view|reflexivity].
Qed.

Theorem eviction_invisible H ops : forall p,
  trace_ok H p ops ->
  snd (lazy_run H p ops) = snd (eager_run H (view p) ops) /\
  view (fst (lazy_run H p ops)) = fst (eager_run H (view p) ops).
Proof.
  induction ops as [|o r IH]; intros p Hok; cbn [lazy_run eager_run]; [auto|].
  destruct Hok as [Ho Hr]. destruct (lazy_step_view H p o Ho) as [V R].
  destruct (lazy_step H p o) as [p1 res]. destruct (eager_step H (view p) o) as [t1 res'].
  cbn [fst snd] in *. subst t1 res'.
  destruct (IH p1 Hr) as [R2 V2].
  destruct (lazy_run H p1 r) as [p2 rs]. destruct (eager_run H (view p1) r) as [t2 rs'].
  cbn [fst snd] in *. subst. auto.
Qed.

(* Insert a, Insert b, Commit, Insert ab: the clean leaf "a" becomes the embedded
   leaf of a new dirty internal node; evicting it makes the node read as nil *)
Definition f1_before : ptree :=
  fst (lazy_run (fun x => x) PNil [LIns [97] [1]; LIns [98] [2]; LCommit; LIns [97; 98] [3]]).
Definition f1_after : ptree :=
  match f1_before with
  | PNode c lbl lf (PNode c2 lbl2 (PLeaf true k v) l2 r2) r =>
      PNode c lbl lf (PNode c2 lbl2 (PRef (Leaf k v)) l2 r2) r
  | _ => PNil
  end.

Theorem eviction_f1_refuted :
  evict f1_before f1_after /\ ~ safe f1_after /\
  lazy_get [97] f1_before = Some [1] /\ lazy_get [97] f1_after = None /\
  lazy_get [97; 98] f1_before = Some [3] /\ lazy_get [97; 98] f1_after = None /\
  lazy_get [98] f1_after = Some [2] /\
  (* a following insert and commit persist the loss *)
  contents (view (fst (lazy_commit (fun x => x) (lazy_insert [122] [9] f1_after)))) = [([98], [2]); ([122], [9])].
Proof.
  assert (exists c lbl lf c2 lbl2 k v l2 r2 r,
            f1_before = PNode c lbl lf (PNode c2 lbl2 (PLeaf true k v) l2 r2) r /\ c2 = false) as
      (c & lbl & lf & c2 & lbl2 & k & v & l2 & r2 & r & E & Ec2).
  { vm_compute. repeat eexists. }
  split.
  - unfold f1_after. rewrite E. apply ev_in_l. apply ev_in_lf. apply ev_leaf.
  - split.
    + unfold f1_after. rewrite E, Ec2. cbn. tauto.
    + vm_compute. repeat split; reflexivity.
Qed.
