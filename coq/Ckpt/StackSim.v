(* The port of the subtree{path,pending} stack machine (Ckpt/Stack.v) refines
   the count abstraction (Ckpt/Model.v).
   One pop of the loop is the view [pop] (five cases).  [good] is the invariant
   of a stack with its builder: no node is included twice ([todo] = the nodes
   still to be opened).  [fut] lists the keys the stack will still visit with
   the cost each adds, so what the loop visits is [visits], the run of
   [next_run] ([loop_run]).  [lrep s d stk]: [stk] is a stack of the walk of
   [s] with [d] keys visited; [crep]: the trimmed ones among them, the chain of
   partially visited ancestors of the next key.  [J] carries through the loop
   that the included nodes are those above a visited key ([run_from]: one
   nextChunk from a [ready] stack).  [Rrep] relates stack tasks to count tasks;
   [fin_agree], [next_agree], [split_agree] are the three premises of
   Ckpt/StackProofs.v; [par_stack_refines_count_l] and
   [stack_refines_count_all] are the results. *)
From Verif Require Import Lib.Base Mkvs.Trie Mkvs.BitsProofs Mkvs.AlistProofs Mkvs.TrieProofs
  Ckpt.Model Ckpt.Proofs Ckpt.ParProofs Ckpt.RestoreProofs Ckpt.Stack Ckpt.EstProofs Ckpt.StackProofs.
From Coq Require Import Permutation.
Local Open Scope nat_scope.

Definition lfnode (lf : option entry) : list tree :=
  match lf with Some (k, v) => [Leaf k v] | None => [] end.
Fixpoint nodes (t : tree) : list tree :=
  match t with
  | Nil => []
  | Leaf _ _ => [t]
  | Node _ lf l r => t :: lfnode lf ++ nodes l ++ nodes r
  end.

Lemma nodes_self t : t <> Nil -> In t (nodes t).
Proof. destruct t; [congruence| |]; intros _; cbn; auto. Qed.

Lemma lfnode_contents lf m : In m (lfnode lf) -> exists k v, m = Leaf k v /\ lf = Some (k, v).
Proof. destruct lf as [[k v]|]; cbn; [intros [<-|[]]; eauto|tauto]. Qed.

Lemma nodes_facts t : forall p, wf_at p t -> forall n, In n (nodes t) ->
  n <> Nil /\ contents n <> [] /\ incl (contents n) (contents t) /\ tnodes n <= tnodes t /\ exists q, wf_at q n.
Proof.
  induction t as [|k v|lbl lf l IHl r IHr]; intros p W n Hin; cbn [nodes] in Hin.
  - destruct Hin.
  - destruct Hin as [<-|[]]. repeat split; try discriminate; try (intros e He; exact He); try lia. eauto.
  - pose proof W as W0. cbn [wf_at] in W. destruct W as (Hlf & Wl & Wr & _).
    destruct Hin as [<-|Hin].
    + repeat split; try discriminate; try (intros e He; exact He); try lia; eauto.
      pose proof (wf_node_len _ _ _ _ _ W0) as L. intros E. rewrite E in L. cbn in L. lia.
    + rewrite !in_app_iff in Hin. destruct Hin as [Hin|[Hin|Hin]].
      * apply lfnode_contents in Hin as (k & v & -> & ->). destruct Hlf as [Hv Hb].
        repeat split; try discriminate; cbn [tnodes contents]; try lia.
        -- intros e [<-|[]]. cbn. auto.
        -- exists (p ++ lbl). cbn. split; [assumption|]. rewrite Hb. apply is_prefix_refl.
      * destruct (IHl _ Wl _ Hin) as (H1 & H2 & H3 & H4 & H5). repeat split; auto.
        -- intros e He. cbn [contents]. rewrite !in_app_iff. auto.
        -- cbn [tnodes]. lia.
      * destruct (IHr _ Wr _ Hin) as (H1 & H2 & H3 & H4 & H5). repeat split; auto.
        -- intros e He. cbn [contents]. rewrite !in_app_iff. auto.
        -- cbn [tnodes]. lia.
Qed.

Lemma sorted_distinct a b : sorted (a ++ b) -> forall x, In x a -> In x b -> False.
Proof.
  intros S x Ha Hb. apply sorted_app_inv in S as (_ & _ & Hab). specialize (Hab x x Ha Hb).
  unfold key_lt in Hab. rewrite bytes_cmp_refl in Hab. discriminate.
Qed.

Lemma NoDup_app_iff {A} (a b : list A) :
  NoDup (a ++ b) <-> NoDup a /\ NoDup b /\ (forall x, In x a -> In x b -> False).
Proof.
  induction a as [|x a IH]; cbn [app].
  - split; [intros Hb; repeat split; [constructor|assumption|intros ? []]|now intros (_ & ? & _)].
  - split.
    + intros Hn. inversion Hn as [|? ? Hx Hn']; subst. apply IH in Hn' as (Ha & Hb & Hd). rewrite in_app_iff in Hx.
      repeat split; [constructor; tauto|assumption|]. intros y [<-|Hy] Hyb; [tauto|eauto].
    + intros (Ha & Hb & Hd). inversion Ha; subst. constructor.
      * rewrite in_app_iff. intros [?|?]; [auto|]. eapply Hd; [now left|eassumption].
      * apply IH. repeat split; auto. intros y Hy. apply Hd. now right.
Qed.

(* in a well-formed tree different positions hold different subtrees *)
Lemma nodes_nodup t : forall p, wf_at p t -> NoDup (nodes t).
Proof.
  induction t as [|k v|lbl lf l IHl r IHr]; intros p W; cbn [nodes].
  - constructor.
  - constructor; [intros []|constructor].
  - pose proof W as W0. pose proof (contents_sorted_at _ _ W0) as Srt. cbn [contents] in Srt.
    cbn [wf_at] in W. destruct W as (Hlf & Wl & Wr & _).
    assert (forall n, In n (nodes l) -> contents n <> [] /\ incl (contents n) (contents l) /\ tnodes n <= tnodes l) as Fl
      by (intros n Hn; destruct (nodes_facts _ _ Wl _ Hn) as (? & ? & ? & ? & ?); auto).
    assert (forall n, In n (nodes r) -> contents n <> [] /\ incl (contents n) (contents r) /\ tnodes n <= tnodes r) as Fr
      by (intros n Hn; destruct (nodes_facts _ _ Wr _ Hn) as (? & ? & ? & ? & ?); auto).
    constructor.
    + rewrite !in_app_iff. intros [Hin|[Hin|Hin]].
      * apply lfnode_contents in Hin as (k & v & E & _). discriminate.
      * destruct (Fl _ Hin) as (_ & _ & L). cbn [tnodes] in L. lia.
      * destruct (Fr _ Hin) as (_ & _ & L). cbn [tnodes] in L. lia.
    + apply NoDup_app_iff; split; [destruct lf as [[k v]|]; cbn; repeat constructor; intros []|split].
      * apply NoDup_app_iff; repeat split; eauto. intros n Hl Hr.
        destruct (Fl _ Hl) as (Hne & Il & _). destruct (Fr _ Hr) as (_ & Ir & _).
        destruct (contents n) as [|e rest] eqn:Ec; [congruence|].
        apply sorted_app_inv in Srt as (_ & Srt & _).
        eapply (sorted_distinct _ _ Srt e); [apply Il|apply Ir]; now left.
      * intros n Hf Hlr. apply lfnode_contents in Hf as (k & v & -> & ->).
        rewrite in_app_iff in Hlr.
        assert (In (k, v) (contents l ++ contents r)) as Hin.
        { destruct Hlr as [Hn|Hn]; [destruct (Fl _ Hn) as (_ & Il & _)|destruct (Fr _ Hn) as (_ & Il & _)];
            apply in_or_app; [left|right]; apply Il; cbn; auto. }
        eapply (sorted_distinct _ _ Srt (k, v)); [cbn; auto|exact Hin].
Qed.

Definition lfatom (lf : option entry) : list atom :=
  match lf with Some (k, v) => [(Leaf k v, VB)] | None => [] end.
Inductive ev := EvLeaf (e : entry) | EvOpen | EvOther.
Definition mstep (a : atom) (rest : list atom) : list atom * ev :=
  match fst a with
  | Nil => (rest, EvOther)
  | Leaf k v => (rest, EvLeaf (k, v))
  | Node lbl lf l r =>
      match snd a with
      | VB => (lfatom lf ++ (fst a, VA) :: rest, EvOpen)
      | VA => (push_child l ((fst a, VL) :: rest), EvOther)
      | VL => (push_child r ((fst a, VR) :: rest), EvOther)
      | VR => (rest, EvOther)
      end
  end.

(* configurations of the loop: (pending, builder, lastIsLeaf, visited (reversed),
   "the last pop was a leaf") *)
Definition cfg := (list atom * pbuilder * bool * list entry * bool)%type.
Definition cstep (a : atom) (rest : list atom) (pb : pbuilder) (ll : bool) (vis : list entry) : cfg :=
  match mstep a rest with
  | (stk', EvLeaf e) => (stk', include (fst a) pb, true, e :: vis, true)
  | (stk', EvOpen) => (stk', include (fst a) pb, false, vis, false)
  | (stk', EvOther) => (stk', include (fst a) pb, ll, vis, false)
  end.

Lemma nc_loop_unfold f size a rest pb ll vis :
  nc_loop (S f) size (a :: rest) pb ll vis =
  if (size <=? psize pb)%N && ll then Some (a :: rest, pb, rev vis)
  else let '(stk', pb', ll', vis', _) := cstep a rest pb ll vis in nc_loop f size stk' pb' ll' vis'.
Proof.
  destruct a as [nd st]. cbn [nc_loop]. destruct ((size <=? psize pb)%N && ll); [reflexivity|].
  unfold cstep, mstep. cbn [fst snd]. destruct nd as [|k v|lbl lf l r]; try reflexivity.
  destruct st; try reflexivity. destruct lf as [[k v]|]; reflexivity.
Qed.

(* The five pops that occur: a leaf is visited; an internal node is opened
   (its own leaf goes on top); the walk turns to the left child, to the right
   child, or leaves the node.  Every fact about one step is a case analysis
   over these. *)
Inductive pop : atom -> list atom -> list atom -> ev -> Prop :=
| pop_leaf k v rest : pop (Leaf k v, VB) rest rest (EvLeaf (k, v))
| pop_open lbl lf l r rest :
    pop (Node lbl lf l r, VB) rest (lfatom lf ++ (Node lbl lf l r, VA) :: rest) EvOpen
| pop_left lbl lf l r rest :
    pop (Node lbl lf l r, VA) rest (push_child l ((Node lbl lf l r, VL) :: rest)) EvOther
| pop_right lbl lf l r rest :
    pop (Node lbl lf l r, VL) rest (push_child r ((Node lbl lf l r, VR) :: rest)) EvOther
| pop_up lbl lf l r rest : pop (Node lbl lf l r, VR) rest rest EvOther.

Definition is_leaf (n : tree) : Prop := exists k v, n = Leaf k v.

Lemma mstep_pop n st rest :
  n <> Nil -> (is_leaf n -> st = VB) -> pop (n, st) rest (fst (mstep (n, st) rest)) (snd (mstep (n, st) rest)).
Proof.
  intros Hn Hl. destruct n as [|k v|lbl lf l r]; [congruence| |].
  - rewrite Hl by (eexists; eexists; reflexivity). constructor.
  - destruct st; constructor.
Qed.

(* the nodes a pop includes for the first time *)
Definition newly (a : atom) : list tree := match snd a with VB => [fst a] | _ => [] end.

Lemma pop_newly a rest stk' e : pop a rest stk' e -> newly a = match e with EvOther => [] | _ => [fst a] end.
Proof. destruct 1; reflexivity. Qed.

(* the nodes never included so far that the stack will still open *)
Definition todo_atom (a : atom) : list tree :=
  match snd a with
  | VB => nodes (fst a)
  | VA => match fst a with Node _ _ l r => nodes l ++ nodes r | _ => [] end
  | VL => match fst a with Node _ _ l r => nodes r | _ => [] end
  | VR => []
  end.
Fixpoint todo (stk : list atom) : list tree :=
  match stk with
  | [] => []
  | a :: rest => todo_atom a ++ todo rest
  end.

Lemma todo_push_child c stk : todo (push_child c stk) = nodes c ++ todo stk.
Proof. destruct c; reflexivity. Qed.

Lemma todo_app a b : todo (a ++ b) = todo a ++ todo b.
Proof. induction a as [|x a IH]; cbn [todo app]; [reflexivity|]. now rewrite IH, app_assoc. Qed.

Lemma pop_todo a rest stk' e : pop a rest stk' e -> todo (a :: rest) = newly a ++ todo stk'.
Proof.
  destruct 1; rewrite ?todo_push_child; try destruct lf as [[? ?]|];
    cbn [todo todo_atom newly lfatom nodes lfnode fst snd app]; rewrite <- ?app_assoc; reflexivity.
Qed.

Definition leafy (n : tree) : Prop := forall m, In m (nodes n) -> contents m <> [].

Lemma leafy_l lbl lf l r : leafy (Node lbl lf l r) -> leafy l.
Proof. intros L m Hm. apply L. cbn [nodes]. right. rewrite !in_app_iff. auto. Qed.
Lemma leafy_r lbl lf l r : leafy (Node lbl lf l r) -> leafy r.
Proof. intros L m Hm. apply L. cbn [nodes]. right. rewrite !in_app_iff. auto. Qed.

Lemma nodes_trans s : forall n, In n (nodes s) -> incl (nodes n) (nodes s).
Proof.
  induction s as [|k v|lbl lf l IHl r IHr]; intros n Hn; cbn [nodes] in Hn.
  - destruct Hn.
  - destruct Hn as [<-|[]]. intros x Hx; exact Hx.
  - destruct Hn as [<-|Hn]; [intros x Hx; exact Hx|]. rewrite !in_app_iff in Hn.
    intros x Hx. cbn [nodes]. right. rewrite !in_app_iff. destruct Hn as [Hn|[Hn|Hn]].
    + apply lfnode_contents in Hn as (k & v & -> & ->). destruct Hx as [<-|[]]. left. cbn. auto.
    + right; left. eapply IHl; eauto.
    + right; right. eapply IHr; eauto.
Qed.

Lemma leafy_in s n : leafy s -> In n (nodes s) -> leafy n.
Proof. intros L Hn m Hm. apply L. eapply nodes_trans; eauto. Qed.

Lemma pop_atoms a rest stk' e : pop a rest stk' e -> forall n st, In (n, st) stk' ->
  In (n, st) rest \/ (n = fst a /\ st <> VB /\ ~ is_leaf n) \/ (st = VB /\ n <> Nil /\ In n (nodes (fst a))).
Proof.
  assert (forall c stk n st, In (n, st) (push_child c stk) -> In (n, st) stk \/ (st = VB /\ n <> Nil /\ n = c)) as Hpc
    by (destruct c; cbn; auto; intros stk n st [[= <- <-]|?]; auto; right; repeat split; discriminate).
  assert (forall lbl lf l r, ~ is_leaf (Node lbl lf l r)) as Hnl by (intros ? ? ? ? (k & v & ?); discriminate).
  destruct 1 as [k v rest|lbl lf l r rest|lbl lf l r rest|lbl lf l r rest|lbl lf l r rest]; intros n st Hin; cbn [fst]; auto.
  - apply in_app_or in Hin as [Hin|[[= <- <-]|Hin]]; auto.
    + destruct lf as [[k v]|]; [|destruct Hin]. destruct Hin as [[= <- <-]|[]]. do 2 right. repeat split; [discriminate|cbn; auto].
    + right; left. repeat split; [discriminate|apply Hnl].
  - apply Hpc in Hin as [[[= <- <-]|Hin]|(-> & Hn & ->)]; auto.
    + right; left. repeat split; [discriminate|apply Hnl].
    + do 2 right. repeat split; auto. cbn [nodes]. right. rewrite !in_app_iff. right; left. now apply nodes_self.
  - apply Hpc in Hin as [[[= <- <-]|Hin]|(-> & Hn & ->)]; auto.
    + right; left. repeat split; [discriminate|apply Hnl].
    + do 2 right. repeat split; auto. cbn [nodes]. right. rewrite !in_app_iff. right; right. now apply nodes_self.
Qed.

Definition atom_ok (pb : pbuilder) (n : tree) (st : vstate) : Prop :=
  n <> Nil /\ (st <> VB -> In n (inc pb)) /\ (is_leaf n -> st = VB) /\ leafy n.
Definition good (stk : list atom) (pb : pbuilder) : Prop :=
  pb_ok pb /\ NoDup (inc pb ++ todo stk) /\
  (forall n st, In (n, st) stk -> atom_ok pb n st).

Lemma good_pop a rest pb : good (a :: rest) pb -> pop a rest (fst (mstep a rest)) (snd (mstep a rest)).
Proof. destruct a as [n st]. intros (_ & _ & Hst). destruct (Hst n st (or_introl eq_refl)) as (? & _ & ? & _). now apply mstep_pop. Qed.

Lemma good_step a rest pb :
  good (a :: rest) pb ->
  good (fst (mstep a rest)) (include (fst a) pb) /\
  inc (include (fst a) pb) = newly a ++ inc pb /\
  psize (include (fst a) pb) = (psize pb + nsize_sum (newly a))%N.
Proof.
  intros Hg. pose proof (good_pop _ _ _ Hg) as Hp. destruct a as [nd st], Hg as (Hok & Hnd & Hst). cbn [fst].
  destruct (Hst nd st (or_introl eq_refl)) as (Hnn & Hinc & Hlf & Hly).
  rewrite (pop_todo _ _ _ _ Hp) in Hnd.
  (* a node in state VB was never seen before, any other is included already *)
  assert (include nd pb = mkpb (newly (nd, st) ++ inc pb) (psize pb + nsize_sum (newly (nd, st)))) as Einc.
  { rewrite include_nonnil by exact Hnn. unfold newly. cbn [fst snd].
    destruct (existsb (tree_eqb nd) (inc pb)) eqn:E; destruct st;
      try (destruct pb; cbn; f_equal; lia);
      try (assert (In nd (inc pb)) as Hi by (apply Hinc; discriminate); apply mem_tree_in in Hi; congruence).
    exfalso. apply mem_tree_in in E. apply NoDup_app_iff in Hnd as (_ & _ & Hd). apply (Hd nd E). now left. }
  destruct (include_ok nd pb Hok) as [Hok' _]. rewrite Einc in *. cbn [inc psize].
  split; [|split; reflexivity]. split; [exact Hok'|]. split.
  - eapply Permutation_NoDup; [|exact Hnd]. rewrite !app_assoc. apply Permutation_app_tail, Permutation_app_comm.
  - intros n0 st0 Hin.
    destruct (pop_atoms _ _ _ _ Hp n0 st0 Hin) as [Hr|[(-> & Hs & Hl)|(-> & Hn0 & Hi)]]; cbn [fst] in *.
    + destruct (Hst n0 st0 (or_intror Hr)) as (H1 & H2 & H3 & H4). repeat split; auto.
      intros Hs. cbn [inc]. apply in_or_app. auto.
    + repeat split; auto; [|tauto]. intros _. cbn [inc]. unfold newly. cbn [fst snd].
      destruct st; [now left|apply Hinc; discriminate..].
    + repeat split; auto; [congruence|eapply leafy_in; eauto].
Qed.

Definition em := (entry * N)%type.
Definition toem (a : aent) : em := (aentry a, amarg a).
Definition bumpm (c : N) (l : list em) : list em :=
  match l with (e, m) :: r => (e, (m + c)%N) :: r | [] => [] end.
Definition margs (t : tree) : list em := map toem (annot 0 t).

Lemma map_bump c l : map toem (bump c l) = bumpm c (map toem l).
Proof. destruct l as [|[[e f] m] r]; reflexivity. Qed.

Lemma margs_any t : forall A, map toem (annot A t) = margs t.
Proof.
  unfold margs. induction t as [|k v|lbl lf l IHl r IHr]; intros A; cbn [annot]; try reflexivity.
  rewrite !map_bump, !map_app, IHl, IHr, (IHl (0 + _)%N), (IHr (0 + _)%N). f_equal. f_equal.
  destruct lf as [[k v]|]; reflexivity.
Qed.

Definition margs_lf (lf : option entry) : list em :=
  match lf with Some (k, v) => [((k, v), leaf_cost k v)] | None => [] end.
Lemma margs_node lbl lf l r :
  margs (Node lbl lf l r) = bumpm (node_cost lbl lf) (margs_lf lf ++ margs l ++ margs r).
Proof.
  unfold margs at 1. cbn [annot]. rewrite map_bump, !map_app, !margs_any. f_equal. f_equal.
  destruct lf as [[k v]|]; reflexivity.
Qed.
Lemma margs_entries t : map fst (margs t) = contents t.
Proof. unfold margs. rewrite map_map. rewrite <- (annot_entries t 0%N). apply map_ext. intros [[e f] m]. reflexivity. Qed.

Definition fut_atom (a : atom) : list em :=
  match snd a with
  | VB => margs (fst a)
  | VA => match fst a with Node _ _ l r => margs l ++ margs r | _ => [] end
  | VL => match fst a with Node _ _ l r => margs r | _ => [] end
  | VR => []
  end.
Fixpoint fut (stk : list atom) : list em :=
  match stk with [] => [] | a :: rest => fut_atom a ++ fut rest end.

Lemma fut_push_child c stk : fut (push_child c stk) = margs c ++ fut stk.
Proof. destruct c; reflexivity. Qed.
Lemma fut_app a b : fut (a ++ b) = fut a ++ fut b.
Proof. induction a as [|x a IH]; cbn [fut app]; [reflexivity|]. now rewrite IH, app_assoc. Qed.

Fixpoint tm (size acc : N) (l : list em) : list entry :=
  match l with
  | [] => []
  | (e, m) :: r => if (acc <? size)%N then e :: tm size (acc + m) r else []
  end.
Lemma take_more_tm size l : forall acc, take_more size acc l = tm size acc (map toem l).
Proof. induction l as [|[[e f] m] r IH]; intros acc; cbn; [reflexivity|]. now rewrite IH. Qed.

Lemma pop_fut a rest stk' e : pop a rest stk' e -> leafy (fst a) ->
  match e with
  | EvLeaf kv => fut (a :: rest) = (kv, node_size (fst a)) :: fut stk'
  | EvOpen => fut (a :: rest) = bumpm (node_size (fst a)) (fut stk') /\ fut stk' <> []
  | EvOther => fut (a :: rest) = fut stk'
  end.
Proof.
  destruct 1 as [k v rest|lbl lf l r rest|lbl lf l r rest|lbl lf l r rest|lbl lf l r rest]; intros Hly;
    rewrite ?fut_push_child; cbn [fut fut_atom fst snd]; rewrite <- ?app_assoc; try reflexivity.
  rewrite margs_node.
  assert (fut (lfatom lf ++ (Node lbl lf l r, VA) :: rest) = (margs_lf lf ++ margs l ++ margs r) ++ fut rest) as ->
    by (destruct lf as [[k v]|]; reflexivity).
  assert (margs_lf lf ++ margs l ++ margs r <> []) as Hne.
  { intros E. apply (Hly (Node lbl lf l r) (or_introl eq_refl)).
    rewrite <- margs_entries, margs_node, E. reflexivity. }
  destruct (margs_lf lf ++ margs l ++ margs r) as [|[e m] x]; [congruence|]. split; [reflexivity|discriminate].
Qed.

Fixpoint pops (t : tree) : nat :=
  match t with
  | Nil => 0
  | Leaf _ _ => 1
  | Node _ lf l r => 4 + length (lf_contents lf) + pops l + pops r
  end.
Definition mu_atom (a : atom) : nat :=
  match snd a with
  | VB => pops (fst a)
  | VA => match fst a with Node _ _ l r => 3 + pops l + pops r | _ => 1 end
  | VL => match fst a with Node _ _ l r => 2 + pops r | _ => 1 end
  | VR => 1
  end.
Fixpoint smu (stk : list atom) : nat := match stk with [] => 0 | a :: r => mu_atom a + smu r end.

Lemma smu_push_child c stk : smu (push_child c stk) = pops c + smu stk.
Proof. destruct c; reflexivity. Qed.

Lemma pop_smu a rest stk' e : pop a rest stk' e -> S (smu stk') = smu (a :: rest).
Proof.
  destruct 1; rewrite ?smu_push_child; try destruct lf as [[? ?]|];
    cbn [smu app lfatom]; unfold mu_atom; cbn [fst snd pops lf_contents length]; lia.
Qed.

Inductive reach : cfg -> cfg -> Prop :=
| reach_refl c : reach c c
| reach_step a rest pb ll vis jl c' :
    reach (cstep a rest pb ll vis) c' -> reach (a :: rest, pb, ll, vis, jl) c'.

Lemma reach_inv (P : cfg -> Prop) :
  (forall a rest pb ll vis jl, P (a :: rest, pb, ll, vis, jl) -> P (cstep a rest pb ll vis)) ->
  forall c c', reach c c' -> P c -> P c'.
Proof. intros Hs c c' Hr. induction Hr; eauto. Qed.

(* what the loop visits, by the break rule *)
Definition visits (size : N) (stk : list atom) (pb : pbuilder) (ll : bool) : list entry :=
  if ll then tm size (psize pb) (fut stk)
  else match fut stk with [] => [] | (e, m) :: r => e :: tm size (psize pb + m) r end.

(* one pop when the break test fails (no leaf was popped last, or the estimate is
   below the size): what will be visited in all does not change *)
Lemma cfg_step size a rest pb ll vis :
  good (a :: rest) pb -> (size <=? psize pb)%N && ll = false ->
  let '(stk', pb', ll', vis', jl') := cstep a rest pb ll vis in
  good stk' pb' /\ S (smu stk') = smu (a :: rest) /\
  (ll' = true -> (size <= psize pb')%N -> jl' = true) /\
  rev vis ++ visits size (a :: rest) pb ll = rev vis' ++ visits size stk' pb' ll'.
Proof.
  intros Hg Eb.
  assert (ll = true -> (psize pb < size)%N) as Hlt
    by (intros ->; apply andb_false_iff in Eb as [Eb|Eb]; [now apply N.leb_gt|discriminate]).
  destruct (good_step a rest pb Hg) as (Hg' & _ & Hsz). pose proof (good_pop _ _ _ Hg) as Hp.
  assert (leafy (fst a)) as Hly by (destruct a as [n st]; apply (proj2 (proj2 Hg) n st); now left).
  pose proof (pop_fut _ _ _ _ Hp Hly) as Hf. pose proof (pop_smu _ _ _ _ Hp) as Hmu.
  rewrite (pop_newly _ _ _ _ Hp) in Hsz.
  unfold cstep, visits. destruct (mstep a rest) as [stk1 e1]. cbn [fst snd] in *.
  destruct e1 as [e| |]; cbn in Hsz; rewrite N.add_0_r in Hsz; (split; [exact Hg'|]; split; [exact Hmu|]); rewrite Hsz.
  - split; [auto|]. cbn [rev]. rewrite Hf, <- app_assoc. f_equal. destruct ll; [|reflexivity].
    cbn [tm app]. destruct (N.ltb_spec (psize pb) size); [reflexivity|specialize (Hlt eq_refl); lia].
  - split; [discriminate|]. f_equal. destruct Hf as (-> & Hne). destruct (fut stk1) as [|[e m] r]; [congruence|]. cbn [bumpm].
    destruct ll; [cbn [tm]; destruct (N.ltb_spec (psize pb) size); [|specialize (Hlt eq_refl); lia]|]; f_equal; f_equal; lia.
  - split; [intros Hl Hle; specialize (Hlt Hl); lia|]. now rewrite Hf.
Qed.

Lemma loop_run size fuel : forall stk pb ll vis jl,
  good stk pb -> smu stk < fuel ->
  (ll = true -> (size <= psize pb)%N -> jl = true) ->
  exists stk' pb' ll' jl',
    nc_loop fuel size stk pb ll vis = Some (stk', pb', rev vis ++ visits size stk pb ll) /\
    reach (stk, pb, ll, vis, jl) (stk', pb', ll', rev (rev vis ++ visits size stk pb ll), jl') /\
    (stk' = [] \/ jl' = true).
Proof.
  induction fuel as [|fuel IH]; intros stk pb ll vis jl Hg Hm Hj; [lia|].
  destruct stk as [|a rest].
  - exists [], pb, ll, jl. cbn [nc_loop]. unfold visits. cbn [fut]. destruct ll; cbn [tm]; rewrite app_nil_r, rev_involutive;
      (split; [reflexivity|split; [apply reach_refl|now left]]).
  - rewrite nc_loop_unfold.
    destruct ((size <=? psize pb)%N && ll) eqn:Eb.
    + apply andb_true_iff in Eb as [Es ->]. apply N.leb_le in Es.
      exists (a :: rest), pb, true, jl. unfold visits.
      assert (tm size (psize pb) (fut (a :: rest)) = []) as ->.
      { destruct (fut (a :: rest)) as [|[e m] r]; [reflexivity|]. cbn [tm].
        destruct (N.ltb_spec (psize pb) size); [lia|reflexivity]. }
      rewrite app_nil_r, rev_involutive. split; [reflexivity|]. split; [apply reach_refl|right; auto].
    + pose proof (cfg_step size a rest pb ll vis Hg Eb) as Hs.
      destruct (cstep a rest pb ll vis) as [[[[stk1 pb1] ll1] vis1] jl1] eqn:Ec. destruct Hs as (Hg' & Hmu & Hj' & ->).
      destruct (IH stk1 pb1 ll1 vis1 jl1 Hg' ltac:(apply Nat.succ_lt_mono; now rewrite Hmu) Hj') as (stk' & pb' & ll' & jl' & E & R & F).
      exists stk', pb', ll', jl'. split; [exact E|]. split; [|exact F]. apply reach_step. now rewrite Ec.
Qed.

Definition tot (s : tree) : nat := length (contents s).
Definition nlf (lf : option entry) : nat := length (lf_contents lf).

Inductive lrep : tree -> nat -> list atom -> Prop :=
| lr_fresh s : s <> Nil -> lrep s 0 [(s, VB)]
| lr_done s : lrep s (tot s) []
| lr_lfpend lbl k v l r :
    lrep (Node lbl (Some (k, v)) l r) 0 [(Leaf k v, VB); (Node lbl (Some (k, v)) l r, VA)]
| lr_at lbl lf l r : lrep (Node lbl lf l r) (nlf lf) [(Node lbl lf l r, VA)]
| lr_left lbl lf l r dl stkl :
    lrep l dl stkl -> lrep (Node lbl lf l r) (nlf lf + dl) (stkl ++ [(Node lbl lf l r, VL)])
| lr_right lbl lf l r dr stkr :
    lrep r dr stkr -> lrep (Node lbl lf l r) (nlf lf + tot l + dr) (stkr ++ [(Node lbl lf l r, VR)]).

Lemma tot_node lbl lf l r : tot (Node lbl lf l r) = nlf lf + tot l + tot r.
Proof. unfold tot, nlf. cbn [contents]. rewrite !app_length. lia. Qed.

Lemma lrep_le s d stk : lrep s d stk -> d <= tot s.
Proof.
  induction 1; try rewrite tot_node; try lia.
Qed.

Lemma lrep_nil s d : lrep s d [] -> d = tot s.
Proof.
  intros Hl. remember [] as stk eqn:E. destruct Hl; try discriminate; try reflexivity;
    destruct stkl + destruct stkr; discriminate.
Qed.

Lemma push_child_app c a b : push_child c (a ++ b) = push_child c a ++ b.
Proof. destruct c; reflexivity. Qed.

Lemma mstep_app a r c : mstep a (r ++ c) = (fst (mstep a r) ++ c, snd (mstep a r)).
Proof.
  unfold mstep. destruct (fst a) as [|k v|lbl lf l rr]; try reflexivity.
  destruct (snd a); cbn [fst snd]; try reflexivity.
  - now rewrite <- app_assoc.
  - now rewrite <- push_child_app.
  - now rewrite <- push_child_app.
Qed.

Definition leafev (e : ev) : nat := match e with EvLeaf _ => 1 | _ => 0 end.

Lemma lrep_child c : lrep c 0 (push_child c []).
Proof. destruct c; [apply (lr_done Nil)|apply lr_fresh; discriminate..]. Qed.

Lemma lrep_step s d a rest :
  lrep s d (a :: rest) -> lrep s (d + leafev (snd (mstep a rest))) (fst (mstep a rest)).
Proof.
  intros Hl. remember (a :: rest) as stk eqn:E. revert a rest E.
  induction Hl as [s Hn|s|lbl k v l r|lbl lf l r|lbl lf l r dl stkl Hl IH|lbl lf l r dr stkr Hl IH]; intros a rest E;
    try discriminate.
  - injection E as <- <-. unfold mstep. cbn [fst snd]. destruct s as [|k v|lbl lf l r]; [congruence| |].
    + apply (lr_done (Leaf k v)).
    + destruct lf as [[k v]|]; [apply lr_lfpend|apply (lr_at lbl None l r)].
  - injection E as <- <-. apply (lr_at lbl (Some (k, v)) l r).
  - injection E as <- <-. unfold mstep. cbn [fst snd leafev].
    rewrite (push_child_app l [] [_] : push_child l [_] = _). apply lr_left, lrep_child.
  - destruct stkl as [|a0 rest0]; cbn [app] in E; injection E as <- <-.
    + apply lrep_nil in Hl as ->. unfold mstep. cbn [fst snd leafev].
      rewrite (push_child_app r [] [_] : push_child r [_] = _). apply lr_right, lrep_child.
    + rewrite mstep_app. cbn [fst snd]. rewrite <- Nat.add_assoc. apply lr_left, IH. reflexivity.
  - destruct stkr as [|a0 rest0]; cbn [app] in E; injection E as <- <-.
    + apply lrep_nil in Hl as ->. unfold mstep. cbn [fst snd leafev]. rewrite Nat.add_0_r, <- (tot_node lbl lf l r). apply lr_done.
    + rewrite mstep_app. cbn [fst snd]. rewrite <- Nat.add_assoc. apply lr_right, IH. reflexivity.
Qed.

(* After trim (subtree.go:173-197) and with at least one key visited and one
   left, the stack is the chain of partially visited ancestors of the next
   key, one case per visit state of the subroot: own leaf visited, inside the
   left subtree, left subtree complete, inside the right subtree. *)
Inductive crep : tree -> nat -> list atom -> Prop :=
| cr_at lbl lf l r :
    1 <= nlf lf -> 1 <= tot l + tot r -> crep (Node lbl lf l r) (nlf lf) [(Node lbl lf l r, VA)]
| cr_left lbl lf l r dl stkl :
    crep l dl stkl -> crep (Node lbl lf l r) (nlf lf + dl) (stkl ++ [(Node lbl lf l r, VL)])
| cr_mid lbl lf l r :
    1 <= tot l -> 1 <= tot r -> crep (Node lbl lf l r) (nlf lf + tot l) [(Node lbl lf l r, VL)]
| cr_right lbl lf l r dr stkr :
    crep r dr stkr -> crep (Node lbl lf l r) (nlf lf + tot l + dr) (stkr ++ [(Node lbl lf l r, VR)]).

(* the stack of a position after trim: untouched, or as above, or used up *)
Definition after (s : tree) (d : nat) (stk : list atom) : Prop := crep s d stk \/ (d = tot s /\ stk = []).
Definition srep (s : tree) (d : nat) (stk : list atom) : Prop := (d = 0 /\ stk = [(s, VB)]) \/ after s d stk.

Lemma crep_bounds s d stk : crep s d stk -> 1 <= d < tot s.
Proof. induction 1; rewrite tot_node; lia. Qed.

Lemma crep_nonempty s d stk : crep s d stk -> stk <> [].
Proof. destruct 1; try discriminate; apply not_eq_sym, app_cons_not_nil. Qed.

Lemma crep_lrep s d stk : crep s d stk -> lrep s d stk.
Proof.
  induction 1; [apply lr_at|now apply lr_left|apply (lr_left _ _ _ _ _ []), lr_done|now apply lr_right].
Qed.

Lemma crep_atoms s d stk : crep s d stk -> forall n st, In (n, st) stk ->
  st <> VB /\ In n (nodes s) /\ exists lbl lf l r, n = Node lbl lf l r.
Proof.
  assert (forall lbl lf l r st0 n st, st0 <> VB -> In (n, st) [(Node lbl lf l r, st0)] ->
          st <> VB /\ In n (nodes (Node lbl lf l r)) /\ exists lbl lf l r, n = Node lbl lf l r) as Hself.
  { intros lbl lf l r st0 n st Hs [[= <- <-]|[]]. split; [exact Hs|]. split; [now left|eauto]. }
  induction 1 as [lbl lf l r|lbl lf l r dl stkl _ IH|lbl lf l r|lbl lf l r dr stkr _ IH]; intros n st Hin;
    try (apply in_app_or in Hin as [Hin|Hin]; [destruct (IH _ _ Hin) as (? & ? & ?)|]);
    try (eapply Hself; [|exact Hin]; discriminate);
    (split; [assumption|]; split; [|assumption]; cbn [nodes]; right; rewrite !in_app_iff; auto).
Qed.

Lemma crep_contains s d stk : crep s d stk -> forall e n st,
  In (n, st) stk -> nth_error (contents s) d = Some e -> In e (contents n).
Proof.
  induction 1 as [lbl lf l r|lbl lf l r dl stkl Hc IH|lbl lf l r|lbl lf l r dr stkr Hc IH]; intros e n st Hin Hnth;
    try (apply in_app_or in Hin as [Hin|Hin]);
    try (destruct Hin as [[= <- <-]|[]]; eapply nth_error_In; exact Hnth);
    apply (IH e n st Hin); cbn [contents] in Hnth; fold (nlf lf) (tot l) in Hnth.
  - pose proof (crep_bounds _ _ _ Hc). unfold nlf, tot in *.
    rewrite nth_error_app2, nth_error_app1 in Hnth by lia. now replace (length (lf_contents lf) + dl - length (lf_contents lf)) with dl in Hnth by lia.
  - unfold nlf, tot in *. rewrite nth_error_app2, nth_error_app2 in Hnth by lia.
    now replace (length (lf_contents lf) + length (contents l) + dr - length (lf_contents lf) - length (contents l)) with dr in Hnth by lia.
Qed.

Lemma trim_app a : forall b, trim (a ++ b) = match trim a with [] => trim b | x => x ++ b end.
Proof.
  induction a as [|[nd st] a IH]; intros b; cbn [app trim]; [destruct (trim b); reflexivity|].
  destruct nd as [|k v|lbl lf l r]; [apply IH|reflexivity|].
  destruct st; try reflexivity; try apply IH.
  - destruct l, r; try reflexivity. apply IH.
  - destruct r; try reflexivity. apply IH.
Qed.

Lemma leafy_tot s : leafy s -> s <> Nil -> 1 <= tot s.
Proof.
  intros L Hn. specialize (L s (nodes_self s Hn)). unfold tot. destruct (contents s); [congruence|cbn; lia].
Qed.

Lemma lrep_leaf_trim s d k v rest :
  lrep s d ((Leaf k v, VB) :: rest) -> leafy s -> after s (d + 1) (trim rest).
Proof.
  intros Hl. remember ((Leaf k v, VB) :: rest) as stk eqn:E. revert rest E.
  induction Hl as [s Hn|s|lbl k0 v0 l r|lbl lf l r|lbl lf l r dl stkl Hl IH|lbl lf l r dr stkr Hl IH];
    intros rest E L; try discriminate.
  - injection E as -> <-. right. split; reflexivity.
  - injection E as <- <- <-. cbn [trim].
    assert (l <> Nil -> 1 <= tot l) as Tl by (apply leafy_tot; eapply leafy_l; eauto).
    assert (r <> Nil -> 1 <= tot r) as Tr by (apply leafy_tot; eapply leafy_r; eauto).
    assert (l <> Nil \/ r <> Nil -> crep (Node lbl (Some (k0, v0)) l r) (0 + 1) [(Node lbl (Some (k0, v0)) l r, VA)]) as Hc.
    { intros Hlr. apply (cr_at lbl (Some (k0, v0)) l r); [cbn; lia|]. destruct Hlr as [Hx|Hx]; [specialize (Tl Hx)|specialize (Tr Hx)]; lia. }
    destruct l; [destruct r; [right; split; reflexivity| |]|..]; left; apply Hc; (left; discriminate) || (right; discriminate).
  - destruct stkl as [|a0 rest0]; [discriminate|]. cbn [app] in E. injection E as -> <-.
    rewrite trim_app. destruct (IH _ eq_refl (leafy_l _ _ _ _ L)) as [Hc|[Ed ->]].
    + left. pose proof (crep_nonempty _ _ _ Hc). destruct (trim rest0); [congruence|].
      rewrite <- Nat.add_assoc. now apply cr_left.
    + cbn [trim]. rewrite <- Nat.add_assoc, Ed.
      destruct r; [right; split; [rewrite tot_node; change (tot Nil) with 0; lia|reflexivity]|..]; left;
        (apply cr_mid; [lia|apply leafy_tot; [eapply leafy_r; eauto|discriminate]]).
  - destruct stkr as [|a0 rest0]; [discriminate|]. cbn [app] in E. injection E as -> <-.
    rewrite trim_app. destruct (IH _ eq_refl (leafy_r _ _ _ _ L)) as [Hc|[Ed ->]].
    + left. pose proof (crep_nonempty _ _ _ Hc). destruct (trim rest0); [congruence|].
      rewrite <- Nat.add_assoc. now apply cr_right.
    + right. cbn [trim]. split; [rewrite tot_node; lia|reflexivity].
Qed.

Definition sn_atom (a : atom) : list tree := match snd a with VB => [] | _ => [fst a] end.
Fixpoint sn (stk : list atom) : list tree := match stk with [] => [] | a :: r => sn_atom a ++ sn r end.
Lemma sn_app a b : sn (a ++ b) = sn a ++ sn b.
Proof. induction a as [|x a IH]; cbn [sn app]; [reflexivity|]. now rewrite IH, app_assoc. Qed.

Lemma nsize_cons x l : nsize_sum (x :: l) = (node_size x + nsize_sum l)%N.
Proof. reflexivity. Qed.
Lemma nsize_perm l1 l2 : Permutation l1 l2 -> nsize_sum l1 = nsize_sum l2.
Proof. induction 1; rewrite ?nsize_cons; try lia. Qed.
Lemma nsize_app a b : nsize_sum (a ++ b) = (nsize_sum a + nsize_sum b)%N.
Proof. induction a as [|x a IH]; cbn [app]; rewrite ?nsize_cons; [cbn; lia|]. rewrite IH. lia. Qed.

Lemma annot_lf_length A lf : length (annot_lf A lf) = nlf lf.
Proof. destruct lf as [[k v]|]; reflexivity. Qed.

Lemma skipn_head_nth {A} d : forall (l : list A) a r, skipn d l = a :: r -> nth_error l d = Some a.
Proof. induction d as [|d IH]; intros [|x l] a r E; try discriminate; [now injection E as ->|exact (IH _ _ _ E)]. Qed.

Lemma skipn_add {A} (a b : list A) n : skipn (length a + n) (a ++ b) = skipn n b.
Proof. induction a; cbn; auto. Qed.

Lemma skipn_bump c l d : 1 <= d -> skipn d (bump c l) = skipn d l.
Proof. destruct d; [lia|]. destruct l as [|[[e f] m] r]; reflexivity. Qed.

Lemma skipn_annot_node A lbl lf l r n : 1 <= nlf lf + n ->
  skipn (nlf lf + n) (annot A (Node lbl lf l r)) =
  skipn n (annot (A + node_cost lbl lf) l ++ annot (A + node_cost lbl lf) r).
Proof.
  intros Hn. cbn [annot]. rewrite skipn_bump by assumption.
  rewrite <- (annot_lf_length (A + node_cost lbl lf) lf). apply skipn_add.
Qed.

Lemma crep_fut s d stk : crep s d stk -> forall A,
  exists a0 r0 m, skipn d (annot A s) = a0 :: r0 /\ fut stk = (aentry a0, m) :: map toem r0 /\
                  (A + nsize_sum (sn stk) + m = afull a0)%N.
Proof.
  induction 1 as [lbl lf l r Hf Hlr|lbl lf l r dl stkl Hc IH|lbl lf l r Hl Hr|lbl lf l r dr stkr Hc IH]; intros A;
    set (A' := (A + node_cost lbl lf)%N).
  - rewrite <- (Nat.add_0_r (nlf lf)), skipn_annot_node by lia. fold A'. cbn [skipn].
    destruct (annot A' l ++ annot A' r) as [|a0 r0] eqn:E.
    { apply (f_equal (@length _)) in E. rewrite app_length, !annot_length in E. unfold tot in *. cbn in E. lia. }
    exists a0, r0, (amarg a0). split; [reflexivity|]. split.
    + cbn [fut fut_atom fst snd]. now rewrite app_nil_r, <- !(margs_any _ A'), <- map_app, E.
    + assert (afull a0 = (A' + amarg a0)%N) as ->; [|unfold A'; cbn; lia].
      destruct (annot A' l) as [|a1 r1] eqn:E1; cbn [app] in E; [|injection E as -> _]; eapply annot_first; eauto.
  - pose proof (crep_bounds _ _ _ Hc). rewrite skipn_annot_node by lia. fold A'.
    rewrite skipn_app_l by (rewrite annot_length; unfold tot in *; lia).
    destruct (IH A') as (a0 & r0 & m & -> & Ef & Em). exists a0, (r0 ++ annot A' r), m. split; [reflexivity|].
    rewrite fut_app, sn_app, nsize_app, Ef, map_app, margs_any. cbn [fut fut_atom fst snd app].
    split; [now rewrite app_nil_r|]. unfold A' in Em. cbn. lia.
  - rewrite skipn_annot_node by lia. fold A'. rewrite <- (Nat.add_0_r (tot l)). unfold tot at 1.
    rewrite <- (annot_length A' l), skipn_add. cbn [skipn].
    destruct (annot A' r) as [|a0 r0] eqn:E; [apply (f_equal (@length _)) in E; rewrite annot_length in E; unfold tot in *; cbn in E; lia|].
    exists a0, r0, (amarg a0). split; [reflexivity|]. split.
    + cbn [fut fut_atom fst snd]. now rewrite app_nil_r, <- (margs_any _ A'), E.
    + rewrite (annot_first _ _ _ _ E). unfold A'. cbn. lia.
  - rewrite <- Nat.add_assoc, skipn_annot_node by (pose proof (crep_bounds _ _ _ Hc); lia). fold A'. unfold tot at 1.
    rewrite <- (annot_length A' l), skipn_add.
    destruct (IH A') as (a0 & r0 & m & -> & Ef & Em). exists a0, r0, m. split; [reflexivity|].
    rewrite fut_app, sn_app, nsize_app, Ef. cbn [fut fut_atom fst snd app].
    split; [now rewrite app_nil_r|]. unfold A' in Em. cbn. lia.
Qed.

Lemma crep_alloc s d stk : crep s d stk -> sub_perm (sn stk ++ todo stk) (nodes s).
Proof.
  assert (forall lbl lf l r a, sub_perm a (nodes l ++ nodes r) ->
          sub_perm (Node lbl lf l r :: a) (nodes (Node lbl lf l r))) as Hnode.
  { intros lbl lf l r a Ha. cbn [nodes]. apply (sub_perm_app [_] [_]); [apply sub_perm_refl|].
    eapply sub_perm_trans; [exact Ha|]. exists (lfnode lf). apply Permutation_app_comm. }
  induction 1 as [lbl lf l r|lbl lf l r dl stkl _ IH|lbl lf l r|lbl lf l r dr stkr _ IH];
    rewrite ?sn_app, ?todo_app; cbn [sn sn_atom todo todo_atom fst snd app]; rewrite ?app_nil_r.
  - apply Hnode, sub_perm_refl.
  - apply (sub_perm_trans _ (Node lbl lf l r :: (sn stkl ++ todo stkl) ++ nodes r)).
    + apply sub_perm_perm. rewrite <- !app_assoc. cbn [app]. symmetry. apply Permutation_middle.
    + apply Hnode, sub_perm_app; [exact IH|apply sub_perm_refl].
  - apply Hnode. exists (nodes l). apply Permutation_app_comm.
  - apply (sub_perm_trans _ (Node lbl lf l r :: sn stkr ++ todo stkr)).
    + apply sub_perm_perm. rewrite <- !app_assoc. cbn [app]. symmetry. apply Permutation_middle.
    + apply Hnode. eapply sub_perm_trans; [exact IH|]. exists (nodes l). apply Permutation_app_comm.
Qed.

Lemma pbuild_eq H S incl0 t :
  (forall n, In n (nodes t) -> (In n incl0 <-> selected S n)) ->
  pbuild H incl0 t = chunk_of H S t.
Proof.
  assert (forall n, (In n incl0 <-> selected S n) -> existsb (tree_eqb n) incl0 = selb S n) as Hb
    by (intros n Hn; apply Bool.eq_true_iff_eq; now rewrite mem_tree_in, selb_spec).
  induction t as [|k v|lbl lf l IHl r IHr]; intros Hn; [reflexivity| |];
    rewrite chunk_of_eq; cbn [pbuild]; rewrite Hb by (apply Hn; now left); [reflexivity|].
  rewrite IHl, IHr; [reflexivity| |]; intros n Hi; apply Hn; cbn [nodes]; right; rewrite !in_app_iff; auto.
Qed.

Lemma node_key_inv q lbl lf l r n e :
  wf_at q (Node lbl lf l r) -> In n (nodes (Node lbl lf l r)) -> In e (contents n) ->
  n = Node lbl lf l r \/ (n = Leaf (fst e) (snd e) /\ In e (lf_contents lf)) \/
  (In n (nodes l) /\ In e (contents l)) \/ (In n (nodes r) /\ In e (contents r)).
Proof.
  intros W Hn He. cbn [wf_at] in W. destruct W as (_ & Wl & Wr & _).
  cbn [nodes] in Hn. destruct Hn as [<-|Hn]; [now left|right]. rewrite !in_app_iff in Hn.
  destruct Hn as [Hn|[Hn|Hn]].
  - left. apply lfnode_contents in Hn as (k & v & -> & ->). destruct He as [<-|[]]. cbn. auto.
  - right; left. destruct (nodes_facts _ _ Wl _ Hn) as (_ & _ & Il & _). auto.
  - right; right. destruct (nodes_facts _ _ Wr _ Hn) as (_ & _ & Ir & _). auto.
Qed.

Lemma node_key_child q lbl lf l r c n e :
  wf_at q (Node lbl lf l r) -> c = l \/ c = r -> In e (contents c) ->
  In n (nodes (Node lbl lf l r)) -> In e (contents n) -> n = Node lbl lf l r \/ In n (nodes c).
Proof.
  intros W Hc Hec Hn He. pose proof (contents_sorted_at _ _ W) as Srt. cbn [contents] in Srt.
  pose proof (sorted_distinct _ _ Srt e) as D1. apply sorted_app_inv in Srt as (_ & Srt & _).
  pose proof (sorted_distinct _ _ Srt e) as D2. rewrite in_app_iff in D1.
  destruct (node_key_inv _ _ _ _ _ _ _ W Hn He) as [?|[[_ Hf]|[[Hi Hx]|[Hi Hx]]]]; [now left| |right..];
    destruct Hc as [->| ->]; tauto.
Qed.

(* the chain of ancestors of a subtree *)
Inductive achain : tree -> list tree -> tree -> Prop :=
| ac_here t : achain t [] t
| ac_down lbl lf l r c p s :
    c = l \/ c = r -> achain c p s -> achain (Node lbl lf l r) (Node lbl lf l r :: p) s.

Lemma achain_sub t p s : achain t p s -> sub s t.
Proof. induction 1 as [|? ? ? ? ? ? ? [->| ->]]; [apply sub_refl|now apply sub_l|now apply sub_r]. Qed.

Lemma achain_snoc t p lbl lf l r c :
  achain t p (Node lbl lf l r) -> c = l \/ c = r -> achain t (p ++ [Node lbl lf l r]) c.
Proof.
  intros Ha Hc. remember (Node lbl lf l r) as s eqn:Es. induction Ha as [t|? ? ? ? ? p s Hc' Ha IH].
  - subst t. apply (ac_down _ _ _ _ c); [exact Hc|apply ac_here].
  - cbn [app]. apply (ac_down _ _ _ _ c0); auto.
Qed.

Lemma achain_incl t p s : achain t p s -> incl (p ++ nodes s) (nodes t).
Proof.
  induction 1 as [t|lbl lf l r c p s Hc Ha IH]; intros n Hn; [exact Hn|].
  destruct Hn as [<-|Hn]; [now left|]. cbn [nodes]. right. rewrite !in_app_iff.
  destruct Hc as [->| ->]; auto.
Qed.

Lemma achain_nodup t p s : achain t p s -> forall q, wf_at q t -> NoDup (p ++ nodes s).
Proof.
  induction 1 as [t|lbl lf l r c p s Hc Ha IH]; intros q W; [eapply nodes_nodup; eauto|].
  assert (exists q', wf_at q' c) as [q' Wc]
    by (cbn [wf_at] in W; destruct W as (_ & Wl & Wr & _), Hc as [->| ->]; eauto).
  cbn [app]. constructor; [|eauto]. intros Hin. apply (achain_incl _ _ _ Ha) in Hin.
  destruct (nodes_facts _ _ Wc _ Hin) as (_ & _ & _ & L & _). cbn [tnodes] in L. destruct Hc as [->| ->]; lia.
Qed.

Lemma achain_contains t p s : achain t p s -> forall n, In n p -> incl (contents s) (contents n).
Proof.
  induction 1 as [t|lbl lf l r c p s Hc Ha IH]; intros n Hn; [destruct Hn|].
  destruct Hn as [<-|Hn]; [|auto]. apply (sub_contents s). apply achain_sub in Ha.
  destruct Hc as [->| ->]; [now apply sub_l|now apply sub_r].
Qed.

Lemma achain_anc t p s : achain t p s -> forall q, wf_at q t ->
  forall n e, In n (nodes t) -> In e (contents s) -> In e (contents n) -> In n p \/ In n (nodes s).
Proof.
  induction 1 as [t|lbl lf l r c p s Hc Ha IH]; intros q W n e Hn Hes Hen; [now right|].
  assert (exists q', wf_at q' c) as [q' Wc]
    by (cbn [wf_at] in W; destruct W as (_ & Wl & Wr & _), Hc as [->| ->]; eauto).
  pose proof (sub_contents _ _ (achain_sub _ _ _ Ha) _ Hes) as Hec.
  destruct (node_key_child _ _ _ _ _ _ _ _ W Hc Hec Hn Hen) as [->|Hnc]; [left; now left|].
  destruct (IH _ Wc n e Hnc Hes Hen); [left; now right|now right].
Qed.

Lemma lrep_top_leaf s d k v rest : lrep s d ((Leaf k v, VB) :: rest) -> forall q, wf_at q s ->
  In (k, v) (contents s) /\
  forall n, In n (nodes s) -> In (k, v) (contents n) ->
  n = Leaf k v \/ exists st, In (n, st) rest /\ st <> VB.
Proof.
  intros Hl. remember ((Leaf k v, VB) :: rest) as stk eqn:E. revert rest E.
  induction Hl as [s Hs0|s|lbl k0 v0 l r|lbl lf l r|lbl lf l r dl stkl Hl IH|lbl lf l r dr stkr Hl IH];
    intros rest E q W; try discriminate.
  - injection E as -> _. split; [now left|]. intros n [<-|[]] _. now left.
  - injection E as <- <- <-. split; [now left|]. intros n Hn Hc.
    pose proof (contents_sorted_at _ _ W) as Srt. cbn [contents lf_contents] in Srt.
    pose proof (sorted_distinct [(k0, v0)] _ Srt (k0, v0) (or_introl eq_refl)) as D. rewrite in_app_iff in D.
    destruct (node_key_inv _ _ _ _ _ _ _ W Hn Hc) as [->|[[-> _]|[[_ Hx]|[_ Hx]]]]; [|now left|tauto..].
    right. exists VA. split; [now left|discriminate].
  - destruct stkl as [|a0 r0]; [discriminate|]. cbn [app] in E. injection E as -> <-.
    assert (exists q', wf_at q' l) as [q' Wl] by (cbn [wf_at] in W; destruct W as (_ & Wl & _); eauto).
    destruct (IH _ eq_refl _ Wl) as [Hkl IHn]. split; [cbn [contents]; rewrite !in_app_iff; auto|]. intros n Hn Hc.
    destruct (node_key_child _ _ _ _ _ l _ _ W (or_introl eq_refl) Hkl Hn Hc) as [->|Hnl].
    + right. exists VL. split; [apply in_or_app; right; now left|discriminate].
    + destruct (IHn n Hnl Hc) as [?|(st & Hi & Hs)]; [now left|].
      right. exists st. split; [apply in_or_app; now left|assumption].
  - destruct stkr as [|a0 r0]; [discriminate|]. cbn [app] in E. injection E as -> <-.
    assert (exists q', wf_at q' r) as [q' Wr] by (cbn [wf_at] in W; destruct W as (_ & _ & Wr & _); eauto).
    destruct (IH _ eq_refl _ Wr) as [Hkr IHn]. split; [cbn [contents]; rewrite !in_app_iff; auto|]. intros n Hn Hc.
    destruct (node_key_child _ _ _ _ _ r _ _ W (or_intror eq_refl) Hkr Hn Hc) as [->|Hnr].
    + right. exists VR. split; [apply in_or_app; right; now left|discriminate].
    + destruct (IHn n Hnr Hc) as [?|(st & Hi & Hs)]; [now left|].
      right. exists st. split; [apply in_or_app; now left|assumption].
Qed.

Lemma wf_leafy q s : wf_at q s -> leafy s.
Proof. intros W m Hm. destruct (nodes_facts _ _ W _ Hm) as (_ & ? & _). assumption. Qed.

Lemma pops_bound s : pops s <= 4 * tnodes s.
Proof.
  induction s as [|k v|lbl lf l IHl r IHr]; cbn [pops tnodes]; try lia.
  assert (length (lf_contents lf) <= 1) by (destruct lf; cbn; lia). lia.
Qed.

Lemma lrep_smu s d stk : lrep s d stk -> smu stk <= pops s.
Proof.
  assert (forall a b, smu (a ++ b) = smu a + smu b) as Happ
    by (induction a as [|x a IH]; intros b; cbn [smu app]; [reflexivity|rewrite IH; lia]).
  induction 1; try rewrite Happ; cbn [smu]; unfold mu_atom; cbn [fst snd pops lf_contents length]; try lia.
Qed.

Lemma margs_head n : leafy n -> n <> Nil -> exists e m r, margs n = (e, m) :: r /\ In e (contents n).
Proof.
  intros L Hn. pose proof (L n (nodes_self n Hn)) as Hc. pose proof (margs_entries n) as E.
  destruct (margs n) as [|[e m] r]; [exfalso; apply Hc; rewrite <- E; reflexivity|]. exists e, m, r. split; [reflexivity|].
  rewrite <- E. cbn. auto.
Qed.

Section RunFrom.
  Variable s : tree.
  Variable q : path.
  Hypothesis Ws : wf_at q s.
  Variable d0 : nat.
  Variable inc0 : list tree.

  (* the loop of one nextChunk started at position [d0] with [inc0] included:
     the stack is that of position d0 + #visited; right after a leaf pop its
     trim is the stack to resume from; an included node holds a visited key or
     (while a freshly opened node has not reached its first leaf) the next key;
     every node of [s] that holds a visited key is included *)
  Definition J (c : cfg) : Prop :=
    let '(stk, pb, ll, vis, jl) := c in
    (incl inc0 (inc pb) /\ (jl = true -> ll = true)) /\
    good stk pb /\ lrep s (d0 + length vis) stk /\ (jl = true -> after s (d0 + length vis) (trim stk)) /\
    (forall n, In n (inc pb) ->
       (exists e, In e vis /\ In e (contents n)) \/
       (ll = false /\ exists e m r, fut stk = (e, m) :: r /\ In e (contents n))) /\
    (forall e n, In e vis -> In n (nodes s) -> In e (contents n) -> In n (inc pb)).

  Lemma J_step a rest pb ll vis jl : J (a :: rest, pb, ll, vis, jl) -> J (cstep a rest pb ll vis).
  Proof.
    intros ((H0 & _) & Hg & Hl & _ & HA & HB).
    destruct (good_step a rest pb Hg) as (Hg' & Hinc & _). pose proof (good_pop _ _ _ Hg) as Hp.
    assert (fst a <> Nil /\ leafy (fst a)) as [Hnn Hly] by (destruct a as [n st]; split; apply (proj2 (proj2 Hg) n st); now left).
    pose proof (pop_fut _ _ _ _ Hp Hly) as Hf. pose proof (lrep_step _ _ _ _ Hl) as Hl'.
    rewrite (pop_newly _ _ _ _ Hp) in Hinc.
    assert (incl (inc pb) (inc (include (fst a) pb))) as Hmono by (rewrite Hinc; apply incl_appr, incl_refl).
    unfold cstep. destruct (mstep a rest) as [stk1 e1] eqn:Ems. cbn [fst snd] in *.
    destruct e1 as [e| |]; cbn [leafev app] in *; rewrite ?Nat.add_0_r in Hl';
      (refine (conj (conj (fun x Hx => Hmono x (H0 x Hx)) _) (conj Hg' _)); [discriminate || reflexivity|]).
    - (* a leaf: its ancestors within the subtree are the open atoms below it, all included *)
      inversion Hp; subst. cbn [fst length] in *. rewrite Nat.add_succ_r, <- Nat.add_1_r.
      split; [exact Hl'|]. split; [intros _; exact (lrep_leaf_trim _ _ _ _ _ Hl (wf_leafy _ _ Ws))|]. split.
      + intros n Hn. left. rewrite Hinc in Hn. destruct Hn as [<-|Hn].
        * exists (k, v). split; [now left|cbn; auto].
        * destruct (HA n Hn) as [(e & He & Hc)|(_ & e & m & r & Ef & Hc)].
          -- exists e. split; [now right|assumption].
          -- rewrite Hf in Ef. injection Ef as <- _ _. exists (k, v). split; [now left|assumption].
      + intros e n [<-|He] Hn Hc; [|apply Hmono; eapply HB; eauto].
        rewrite Hinc. destruct (proj2 (lrep_top_leaf _ _ _ _ _ Hl _ Ws) n Hn Hc) as [->|(st & Hi & Hs)]; [now left|].
        right. destruct Hg as (_ & _ & Hat). destruct (Hat n st (or_intror Hi)) as (_ & Hin & _). auto.
    - (* an internal node is opened: the next key is its first key *)
      destruct Hf as (Hf & Hne). split; [exact Hl'|]. split; [discriminate|]. split.
      + intros n Hn. destruct (fut stk1) as [|[e m] r] eqn:Ef; [congruence|]. cbn [bumpm] in Hf.
        rewrite Hinc in Hn. destruct Hn as [<-|Hn].
        * right. split; [reflexivity|]. exists e, m, r. split; [reflexivity|].
          destruct (margs_head (fst a) Hly Hnn) as (e' & m' & r' & Em & Hc).
          inversion Hp; subst. cbn [fut fut_atom fst snd] in Hf, Em. rewrite Em in Hf. now injection Hf as -> _ _.
        * destruct (HA n Hn) as [(e' & He & Hc)|(Hll & e' & m' & r' & Ef' & Hc)]; [left; eauto|].
          right. split; [reflexivity|]. exists e, m, r. split; [reflexivity|].
          rewrite Hf in Ef'. injection Ef' as <- _ _. exact Hc.
      + intros e n He Hn Hc. apply Hmono. eapply HB; eauto.
    - split; [exact Hl'|]. split; [discriminate|]. rewrite Hinc, <- Hf. split; [exact HA|exact HB].
  Qed.
End RunFrom.

(* what a chunk needs of the stack it starts from, at position [d] of [s] *)
Definition ready (s : tree) (d : nat) (stk : list atom) : Prop :=
  lrep s d stk /\ sub_perm (sn stk ++ todo stk) (nodes s) /\
  (forall n st, In (n, st) stk -> In n (nodes s) /\ (is_leaf n -> st = VB)) /\
  (forall e n st, In (n, st) stk -> st <> VB -> nth_error (contents s) d = Some e -> In e (contents n)) /\
  (forall A, exists a0 r0 m, skipn d (annot A s) = a0 :: r0 /\ fut stk = (aentry a0, m) :: map toem r0 /\
                             (A + nsize_sum (sn stk) + m = afull a0)%N).

Lemma ready_fresh s : s <> Nil -> leafy s -> ready s 0 [(s, VB)].
Proof.
  intros Hn Ly. split; [now apply lr_fresh|]. split; [cbn; rewrite app_nil_r; apply sub_perm_refl|].
  split; [intros n st [[= <- <-]|[]]; split; [now apply nodes_self|reflexivity]|].
  split; [intros e n st [[= <- <-]|[]] Hs; congruence|]. intros A.
  destruct (annot A s) as [|a0 r0] eqn:E.
  { apply (f_equal (@length _)) in E. rewrite annot_length in E. pose proof (leafy_tot s Ly Hn). unfold tot in *. cbn in E. lia. }
  exists a0, r0, (amarg a0). split; [reflexivity|]. split; [|rewrite (annot_first _ _ _ _ E); cbn; lia].
  cbn [fut fut_atom fst snd]. now rewrite app_nil_r, <- (margs_any s A), E.
Qed.

Lemma ready_crep s d stk : crep s d stk -> ready s d stk.
Proof.
  intros Hc. split; [now apply crep_lrep|]. split; [exact (crep_alloc _ _ _ Hc)|].
  split; [|split; [intros e n st Hi _; exact (crep_contains _ _ _ Hc e n st Hi)|now apply crep_fut]].
  intros n st Hi. destruct (crep_atoms _ _ _ Hc n st Hi) as (_ & Hn & lbl & lf & l & r & ->).
  split; [exact Hn|]. intros (k & v & ?). discriminate.
Qed.

Lemma sn_in n st stk : In (n, st) stk -> st <> VB -> In n (sn stk).
Proof.
  induction stk as [|a r IH]; [intros []|]. intros [->|Hi] Hs; cbn [sn]; apply in_or_app; [left|right; auto].
  unfold sn_atom. cbn. destruct st; [congruence|now left..].
Qed.

Lemma sn_in_inv n stk : In n (sn stk) -> exists st, In (n, st) stk /\ st <> VB.
Proof.
  induction stk as [|[n0 st0] r IH]; cbn [sn]; [intros []|]. intros Hi. apply in_app_or in Hi as [Hi|Hi].
  - unfold sn_atom in Hi. cbn in Hi. destruct st0; [destruct Hi|..]; destruct Hi as [<-|[]]; eexists; (split; [now left|discriminate]).
  - destruct (IH Hi) as (st & ? & ?). exists st. split; [now right|assumption].
Qed.

Section NextChunk.
  Variable H : bytes -> bytes.
  Variable t : tree.
  Hypothesis Wt : wf t.
  Variable size : N.

  Lemma next_run_incl l : incl (next_run size l) (map aentry l).
  Proof. intros e He. rewrite (next_run_split size l). apply in_or_app. now left. Qed.

  Lemma run_from s q path d stk pb :
    wf_at q s -> achain t path s -> ready s d stk -> d < tot s ->
    pb_ok pb -> Permutation (inc pb) (path ++ sn stk) ->
    let run := next_run size (skipn d (annot (nsize_sum path) s)) in
    exists stk' pb',
      nc_loop (4 * tnodes t + 4) size stk pb false [] = Some (stk', pb', run) /\
      after s (d + length run) (trim stk') /\ 1 <= length run /\
      pbuild H (inc pb') t = chunk_of H (inrun run) t.
  Proof.
    intros Ws Hch (Hl & Hal & Hat & Hq & Hfut) Hd Hok Hperm run.
    destruct (Hfut (nsize_sum path)) as (a0 & r0 & m & Esk & Efut & Efull).
    pose proof (wf_leafy _ _ Ws) as Ly. pose proof (achain_nodup _ _ _ Hch _ Wt) as Hnd.
    pose proof (achain_incl _ _ _ Hch) as Hinc.
    assert (nth_error (contents s) d = Some (aentry a0)) as Hnth
      by (rewrite <- (annot_entries s (nsize_sum path)), nth_error_map, (skipn_head_nth _ _ _ _ Esk); reflexivity).
    assert (good stk pb) as Hg.
    { split; [exact Hok|]. split.
      - eapply Permutation_NoDup; [apply Permutation_app_tail, Permutation_sym; exact Hperm|].
        rewrite <- app_assoc. eapply sub_perm_nodup; [apply sub_perm_app; [apply sub_perm_refl|exact Hal]|exact Hnd].
      - intros n st Hi. destruct (Hat n st Hi) as [Hns Hlf].
        destruct (nodes_facts _ _ Ws _ Hns) as (Hnn & _). repeat split; auto; [|eapply leafy_in; eauto].
        intros Hs. eapply Permutation_in; [apply Permutation_sym; exact Hperm|]. apply in_or_app. right.
        eapply sn_in; eauto. }
    assert (smu stk < 4 * tnodes t + 4) as Hfu.
    { pose proof (lrep_smu s d stk Hl). pose proof (pops_bound s).
      assert (s <> Nil) as Hn by (intros ->; unfold tot in Hd; cbn in Hd; lia).
      destruct (nodes_facts _ _ Wt _ (Hinc s (in_or_app _ _ _ (or_intror (nodes_self s Hn))))) as (_ & _ & _ & L & _). lia. }
    assert (forall n, In n path -> In n (inc pb)) as Hpath
      by (intros n Hi; eapply Permutation_in; [apply Permutation_sym; exact Hperm|]; apply in_or_app; now left).
    assert (forall n, In n (inc pb) -> exists e m' r, fut stk = (e, m') :: r /\ In e (contents n)) as HA0.
    { intros n Hi. exists (aentry a0), m, (map toem r0). split; [exact Efut|].
      eapply Permutation_in in Hi; [|exact Hperm]. apply in_app_or in Hi as [Hi|Hi].
      - eapply achain_contains; eauto. eapply nth_error_In; eauto.
      - apply sn_in_inv in Hi as (st & Hi & Hs). eapply Hq; eauto. }
    assert (psize pb + m = afull a0)%N as Epsz
      by (destruct Hok as (_ & -> & _); now rewrite (nsize_perm _ _ Hperm), nsize_app).
    assert (1 <= length run) as Hlen by (unfold run; rewrite Esk; destruct a0 as [[? ?] ?]; cbn; lia).
    destruct (loop_run size (4 * tnodes t + 4) stk pb false [] false Hg Hfu ltac:(discriminate))
      as (stk' & pb' & ll' & jl' & E & R & F).
    assert (visits size stk pb false = run) as Ev.
    { unfold visits, run. rewrite Efut, Esk, Epsz. destruct a0 as [[e f] mm]. cbn [next_run aentry fst].
      now rewrite take_more_tm. }
    rewrite Ev in E, R. cbn [rev app] in E, R.
    assert (J s d path (stk', pb', ll', rev run, jl')) as Jend.
    { eapply (reach_inv (J s d path)); [|exact R|].
      - intros. eapply (J_step s q Ws); eauto.
      - refine (conj (conj Hpath _) (conj Hg (conj _ (conj _ (conj _ _))))).
        + discriminate.
        + cbn [length]. rewrite Nat.add_0_r. exact Hl.
        + discriminate.
        + intros n Hn. right. split; [reflexivity|]. destruct (HA0 n Hn) as (e & m' & r & ? & ?). eauto.
        + intros e n []. }
    destruct Jend as ((Hp' & Hjl) & Hg' & Hl' & Ha' & HA & HB). rewrite rev_length in Hl', Ha'.
    exists stk', pb'. split; [exact E|].
    split; [|split; [exact Hlen|]].
    - destruct F as [->|Hj]; [right; split; [now apply lrep_nil|reflexivity]|auto].
    - apply pbuild_eq. intros n Hn. split.
      + intros Hi. destruct (HA n Hi) as [(e & He & Hc)|(Hll & e & m' & r & Ef & _)].
        * apply in_rev in He. destruct e as [k v]. exists k, v. split; [assumption|]. eapply inrun_self; eauto.
        * exfalso. destruct F as [->|Hj]; [discriminate|]. rewrite (Hjl Hj) in Hll. discriminate.
      + intros (k & v & Hc & Hs).
        assert (exists v', In (k, v') run) as (v' & Hr).
        { unfold inrun in Hs. apply existsb_exists in Hs as ([k' v'] & Hin & Hk). cbn in Hk.
          apply bytes_eqb_eq in Hk. subst k'. eauto. }
        assert (In (k, v') (contents s)) as Hcs.
        { apply next_run_incl in Hr. rewrite <- skipn_map, annot_entries in Hr.
          rewrite <- (firstn_skipn d (contents s)). apply in_or_app. now right. }
        pose proof (achain_sub _ _ _ Hch) as Hsub.
        assert (v' = v) as ->.
        { eapply (sorted_key_unique (contents t)); [now apply contents_sorted|eapply sub_contents; eauto|].
          destruct (nodes_facts _ _ Wt _ Hn) as (_ & _ & Ic & _). now apply Ic. }
        destruct (achain_anc _ _ _ Hch _ Wt n (k, v) Hn Hcs Hc) as [Hp|Hns]; [now apply Hp'|].
        eapply HB; eauto. apply in_rev. now rewrite rev_involutive.
  Qed.
End NextChunk.

Lemma include_idem n pb : pb_ok pb -> include n (include n pb) = include n pb.
Proof.
  intros Hok. destruct (include_ok n pb Hok) as [Hok' Hin].
  unfold include at 1. destruct n as [|k v|lbl lf l r]; [reflexivity| |];
    (destruct (existsb _ (inc (include _ pb))) eqn:E; [reflexivity|]);
    exfalso; assert (E' : existsb (tree_eqb _) (inc (include _ pb)) = true)
      by (apply mem_tree_in; apply Hin; right; split; [reflexivity|discriminate]);
    rewrite E' in E; discriminate.
Qed.

Lemma fold_include_map (l : list atom) pb :
  fold_left (fun pb a => include (fst a) pb) l pb = fold_left (fun pb n => include n pb) (map (@fst tree vstate) l) pb.
Proof. revert pb; induction l as [|a l IH]; intros pb; cbn [fold_left map]; auto. Qed.

Lemma fold_include_perm ns :
  NoDup ns -> ~ In Nil ns ->
  let pb := fold_left (fun pb n => include n pb) ns (mkpb [] 0%N) in
  pb_ok pb /\ Permutation (inc pb) ns /\ psize pb = nsize_sum ns.
Proof.
  intros Hnd Hnil pb. destruct (pb_size_is_sum_l ns) as (Hnd' & Hsz & Hin). fold pb in Hnd', Hsz, Hin.
  assert (Permutation (inc pb) ns) as Hp.
  { apply NoDup_Permutation; auto. intros x. rewrite Hin. split; [tauto|]. intros Hx. split; [assumption|]. now intros ->. }
  split; [|split; [exact Hp|now rewrite Hsz, (nsize_perm _ _ Hp)]].
  repeat split; auto. intros Hi. apply Hin in Hi as [_ Hi]. congruence.
Qed.

Lemma sn_open stk : (forall n st, In (n, st) stk -> st <> VB) -> sn stk = map fst stk.
Proof.
  induction stk as [|[n st] r IH]; intros Hs; [reflexivity|]. cbn [sn map]. unfold sn_atom. cbn [fst snd].
  rewrite IH by (intros; eapply Hs; right; eauto). pose proof (Hs n st (or_introl eq_refl)). destruct st; [congruence|reflexivity..].
Qed.

Section Premises.
  Variable H : bytes -> bytes.
  Variable t : tree.
  Hypothesis Wt : wf t.
  Variable size : N.

  (* the stack task [st] stands for the count task [c] *)
  Definition Rrep (st : stask) (c : task) : Prop :=
    tsub c <> Nil /\ achain t (spath st) (tsub c) /\ tanc c = nsize_sum (spath st) /\
    srep (tsub c) (tdone c) (spend st).

  Lemma Rrep_wf st c : Rrep st c -> exists q, wf_at q (tsub c).
  Proof. intros (_ & Hch & _). eapply sub_wf; [eapply achain_sub; eauto|exact Wt]. Qed.

  Lemma fin_agree st c : Rrep st c -> s_finished st = negb (unfinished c).
  Proof.
    intros Hr. destruct (Rrep_wf _ _ Hr) as [q Wq]. pose proof (leafy_tot _ (wf_leafy _ _ Wq)) as Ht.
    destruct Hr as (Hn & _ & _ & Hs). specialize (Ht Hn). unfold s_finished, unfinished. fold (tot (tsub c)).
    destruct Hs as [[-> ->]|[Hc|[-> ->]]].
    - destruct (Nat.ltb_spec 0 (tot (tsub c))); [reflexivity|lia].
    - pose proof (crep_bounds _ _ _ Hc). pose proof (crep_nonempty _ _ _ Hc).
      destruct (spend st); [congruence|]. destruct (Nat.ltb_spec (tdone c) (tot (tsub c))); [reflexivity|lia].
    - now rewrite Nat.ltb_irrefl.
  Qed.

  Lemma next_agree st c :
    Rrep st c -> unfinished c = true ->
    exists st', s_next_chunk H t size st =
                Some (chunk_of H (inrun (task_run size c)) t, task_run size c, st') /\
                Rrep st' (advance size c).
  Proof.
    intros Hr Hu. destruct (Rrep_wf _ _ Hr) as [q Wq]. pose proof (wf_leafy _ _ Wq) as Ly.
    destruct Hr as (Hn & Hch & Ha & Hsp).
    destruct st as [path stk], c as [s a d]. cbn [tsub tanc tdone spath spend] in *. subst a.
    unfold unfinished in Hu. cbn [tsub tdone] in Hu. apply Nat.ltb_lt in Hu. fold (tot s) in Hu.
    unfold s_next_chunk. cbn [spath spend]. rewrite fold_include_map, <- fold_left_app.
    pose proof (achain_nodup _ _ _ Hch _ Wt) as Hnd.
    assert (~ In Nil (path ++ nodes s)) as Hnil
      by (intros Hi; apply (achain_incl _ _ _ Hch) in Hi; destruct (nodes_facts _ _ Wt _ Hi) as (Hx & _); congruence).
    (* the stack is ready, and the builder that has included the path and the
       pending stack up front behaves like one that holds the path and the opened nodes *)
    assert (ready s d stk /\ exists pb0, pb_ok pb0 /\ Permutation (inc pb0) (path ++ sn stk) /\
            nc_loop (4 * tnodes t + 4) size stk
              (fold_left (fun pb n => include n pb) (path ++ map fst (rev stk)) (mkpb [] 0%N)) false [] =
            nc_loop (4 * tnodes t + 4) size stk pb0 false []) as (Hrdy & pb0 & Hok & Hperm & ->).
    { destruct Hsp as [[-> ->]|[Hc|[-> _]]]; [| |lia].
      - (* a fresh task: pending = [subtree root], included once more by its pop *)
        split; [now apply ready_fresh|]. cbn [rev map app sn sn_atom fst snd]. rewrite fold_left_app, app_nil_r.
        destruct (fold_include_perm path) as (HokP & Hperm & _);
          [now apply NoDup_app_iff in Hnd|intros Hi; apply Hnil, in_or_app; now left|].
        eexists. split; [exact HokP|]. split; [exact Hperm|]. cbn [fold_left].
        replace (4 * tnodes t + 4) with (S (4 * tnodes t + 3)) by lia. rewrite !nc_loop_unfold.
        rewrite !andb_false_r. unfold cstep. cbn [fst]. now rewrite include_idem.
      - (* resumed: the chain of open ancestors of the next key *)
        pose proof (crep_atoms _ _ _ Hc) as Hat. pose proof (crep_alloc _ _ _ Hc) as Hal. unfold atom in *.
        assert (sn stk = map fst stk) as Esn by (apply sn_open; intros n st Hi; apply (Hat n st Hi)).
        assert (Permutation (path ++ map fst (rev stk)) (path ++ sn stk)) as Hp
          by (rewrite map_rev, <- Esn; apply Permutation_app_head, Permutation_sym, Permutation_rev).
        assert (NoDup (path ++ sn stk) /\ ~ In Nil (path ++ sn stk)) as [Hnd2 Hnil2].
        { assert (sub_perm (path ++ sn stk) (path ++ nodes s)) as Hsp.
          { apply sub_perm_app; [apply sub_perm_refl|]. eapply sub_perm_trans; [|exact Hal].
            exists (todo stk). reflexivity. }
          split; [eapply sub_perm_nodup; eauto|]. intros Hi. now apply Hnil, (sub_perm_incl _ _ Hsp). }
        split; [now apply ready_crep|].
        destruct (fold_include_perm (path ++ map fst (rev stk))) as (Hok1 & Hperm & _).
        { eapply Permutation_NoDup; [apply Permutation_sym; exact Hp|exact Hnd2]. }
        { intros Hi. apply Hnil2. eapply Permutation_in; eauto. }
        eexists. split; [exact Hok1|]. split; [|reflexivity]. now rewrite Hperm. }
    destruct (run_from H t Wt size s q path d stk pb0 Wq Hch Hrdy Hu Hok Hperm) as (stk' & pb' & E & Haf & Hlen & Epb).
    rewrite E. eexists. split; [unfold task_run, remaining; cbn [tsub tanc tdone]; rewrite Epb; reflexivity|].
    unfold Rrep, advance. cbn [tsub tanc tdone spath spend]. repeat split; auto. now right.
  Qed.
End Premises.

Lemma s_split_left path lbl lf l r (stkl : list atom) :
  stkl <> [] ->
  s_split (mks path (stkl ++ [(Node lbl lf l r, VL)])) =
  s_child path (Node lbl lf l r) r ++ [mks (path ++ [Node lbl lf l r]) stkl].
Proof.
  intros Hne. unfold s_split. cbn [spend spath]. rewrite rev_unit.
  destruct (@rev (tree * vstate) stkl) eqn:E; [apply (f_equal (@rev _)) in E; rewrite rev_involutive in E; contradiction|].
  now rewrite <- E, rev_involutive.
Qed.

Lemma s_split_right path lbl lf l r (stkr : list atom) :
  s_split (mks path (stkr ++ [(Node lbl lf l r, VR)])) = [mks (path ++ [Node lbl lf l r]) stkr].
Proof. unfold s_split. cbn [spend spath]. now rewrite rev_unit, rev_involutive. Qed.

Section Premises2.
  Variable H : bytes -> bytes.
  Variable t : tree.
  Hypothesis Wt : wf t.

  Notation RUrep := (RU (Rrep t)).

  Lemma desc_rel path lbl lf l r c dc stkc :
    achain t path (Node lbl lf l r) -> c = l \/ c = r -> srep c dc stkc -> dc < tot c ->
    RUrep (mks (path ++ [Node lbl lf l r]) stkc) (mk c (nsize_sum path + node_cost lbl lf) dc).
  Proof.
    intros Hch Hc Hs Hd. split; [|apply Nat.ltb_lt; exact Hd].
    repeat split; cbn [tsub tanc tdone spath spend];
      [intros ->; inversion Hd|apply achain_snoc; auto|rewrite nsize_app; cbn; lia|exact Hs].
  Qed.

  Lemma child_rel path lbl lf l r c :
    achain t path (Node lbl lf l r) -> c = l \/ c = r ->
    Forall2 RUrep (s_child path (Node lbl lf l r) c) (child_tasks (nsize_sum path + node_cost lbl lf) [c]).
  Proof.
    intros Hch Hc. pose proof (achain_snoc _ _ _ _ _ _ c Hch Hc) as Hc'.
    destruct (sub_wf _ _ (achain_sub _ _ _ Hc') [] Wt) as [q Wq].
    pose proof (leafy_tot _ (wf_leafy _ _ Wq)) as Ht.
    destruct c; cbn [s_child child_tasks flat_map app]; [constructor|..];
      (constructor; [apply desc_rel; [exact Hch|exact Hc|now left|apply Ht; discriminate]|constructor]).
  Qed.

  Lemma kids_rel path lbl lf l r :
    achain t path (Node lbl lf l r) ->
    Forall2 RUrep (s_child path (Node lbl lf l r) l ++ s_child path (Node lbl lf l r) r)
                  (child_tasks (nsize_sum path + node_cost lbl lf) [l; r]).
  Proof. intros Hch. rewrite child_tasks_two. apply Forall2_app; apply child_rel; auto. Qed.

  Lemma split_agree st c :
    RUrep st c -> Forall2 RUrep (s_split st) (split c).
  Proof.
    intros [Hr Hu]. assert (Forall2 RUrep [st] [c]) as Hsame by (constructor; [split; assumption|constructor]).
    destruct Hr as (Hn & Hch & Ha & Hsp).
    destruct st as [path stk], c as [s a d]. cbn [tsub tanc tdone spath spend] in *. subst a.
    unfold unfinished in Hu. cbn [tsub tdone] in Hu. apply Nat.ltb_lt in Hu. fold (tot s) in Hu.
    pose proof (split_cases (mk s (nsize_sum path) d)) as Hsc. cbn [tsub tanc tdone] in Hsc.
    destruct Hsp as [[-> ->]|[Hc|[-> _]]]; [| |lia].
    - (* untouched *)
      unfold s_split. cbn [spend spath rev app]. destruct s as [|k v|lbl lf l r]; [congruence|exact Hsame|].
      destruct (Hsc _ _ _ _ eq_refl)
        as [(-> & [(_ & -> & ->)|(? & _)])|[(-> & _ & Hnn & _)|[(_ & ? & _)|(_ & ? & _)]]];
        try lia; [exact Hsame|].
      destruct l, r; try (apply kids_rel, Hch). destruct Hnn; congruence.
    - (* [Hsc] is used and cleared before the arithmetic: every [in *] and every [lia] would go through it *)
      destruct Hc as [lbl lf l r Hf Hlr|lbl lf l r dl stkl Hc|lbl lf l r Hl Hr|lbl lf l r dr stkr Hc];
        destruct (Hsc _ _ _ _ eq_refl)
          as [(-> & [(_ & -> & ->)|(? & ?)])|[(-> & ? & Hnn & _)|[(-> & ? & _)|(-> & ? & _)]]]; clear Hsc;
        try (pose proof (crep_bounds _ _ _ Hc)); unfold nlf, tot in *; cbn [contents length] in *; try lia.
      + (* own leaf visited, children untouched *)
        unfold s_split. cbn [spend spath rev app].
        destruct l, r; try (apply kids_rel, Hch). destruct Hnn; congruence.
      + (* inside the left subtree: the right child becomes a task, the rest descends *)
        rewrite s_split_left by (eapply crep_nonempty; eauto). apply Forall2_app; [apply child_rel; auto|].
        replace (length (lf_contents lf) + dl - length (lf_contents lf)) with dl by lia.
        constructor; [|constructor]. apply desc_rel; auto; [right; now left|apply (crep_bounds _ _ _ Hc)].
      + exact Hsame.
      + (* inside the right subtree *)
        rewrite s_split_right.
        replace (length (lf_contents lf) + length (contents l) + dr - length (lf_contents lf) - length (contents l)) with dr by lia.
        constructor; [|constructor]. apply desc_rel; auto; [right; now left|apply (crep_bounds _ _ _ Hc)].
  Qed.

  Theorem par_stack_refines_count_l size threads :
    t <> Nil ->
    exists res,
      s_par H size threads t = Some (res, []) /\
      map snd res = fst (par_runs size threads t) /\
      map fst res = par_chunks H size threads t.
  Proof.
    intros Hn.
    apply (par_stack_refines_count_sim H t size (Rrep t)).
    - apply split_agree.
    - intros s c [Hr Hu]. now apply next_agree.
    - apply fin_agree. exact Wt.
    - exact Hn.
    - split.
      + repeat split; cbn [tsub tanc tdone spath spend new_stask]; auto; [apply ac_here|now left].
      + unfold unfinished. cbn [tsub tdone]. apply Nat.ltb_lt.
        apply (leafy_tot t (wf_leafy _ _ Wt) Hn).
  Qed.
End Premises2.

Lemma g_split_tasks_fix {T} (spl : T -> list T) tk threads n :
  spl tk = [tk] -> g_split_tasks spl threads n [tk] = [tk].
Proof.
  intros E. induction n as [|n IH]; [reflexivity|]. cbn [g_split_tasks g_split_pass length app].
  destruct (threads <=? 0 + 1); [reflexivity|]. rewrite E. cbn [g_split_pass app]. exact IH.
Qed.

Lemma s_par_nil H size threads : s_par H size threads Nil = Some ([(PNil, [])], []).
Proof.
  unfold s_par. cbn [contents length s_rounds new_stask].
  rewrite g_split_tasks_fix by reflexivity. cbn [map].
  assert (s_next_chunk H Nil size (new_stask Nil) = Some (PNil, [], mks [] [])) as ->.
  { unfold s_next_chunk, new_stask. cbn [spath spend fold_left rev app fst include tnodes].
    change (4 * 1 + 4) with (S 7). rewrite nc_loop_unfold. rewrite andb_false_r.
    unfold cstep, mstep. cbn [fst snd include nc_loop rev pbuild inc trim]. reflexivity. }
  cbn [opt_all map snd fst filter s_finished spend negb app]. reflexivity.
Qed.

(* every well-formed tree, the empty one included, and every thread count *)
Theorem stack_refines_count_all H t size threads :
  wf t -> exists res, s_par H size threads t = Some (res, []) /\
                      map snd res = fst (par_runs size threads t) /\ map fst res = par_chunks H size threads t.
Proof.
  intros W. destruct (nil_or_not t) as [->|Hn].
  - exists [(PNil, [])]. split; [apply s_par_nil|]. split; reflexivity.
  - now apply par_stack_refines_count_l.
Qed.

Lemma stack_port_chunks_l H t : wf t -> forall size n, t <> Nil ->
  exists res, s_par H size (S n) t = Some (res, []) /\ map fst res = chunks H size (S n) t.
Proof.
  intros W size n _. destruct (stack_refines_count_all H t size (S n) W) as (res & E & _ & Ec).
  exists res. split; [exact E|exact Ec].
Qed.

(* create with the ported stack machine, restore: exactly the contents *)
Lemma stack_create_restore_exact_l : forall H t size n, wf t ->
  exists res, s_par H size (S n) t = Some (res, []) /\
    (forall c, In c (map fst res) -> phash H c = root_hash H t /\ incl (pleaves c) (contents t)) /\
    (forall e, In e (contents t) -> exists c, In c (map fst res) /\ In e (pleaves c)) /\
    NoDup (concat (map snd res)) /\ Forall sorted (map snd res) /\
    incl (concat (map snd res)) (contents t) /\
    (forall l, (forall c, In c l -> In c (map fst res)) -> (forall c, In c (map fst res) -> In c l) ->
               fold_left (fun s c => import c s) l [] = contents t).
Proof.
  intros H t size n W. destruct (stack_refines_count_all H t size (S n) W) as (res & E & Er & Ec).
  change (par_chunks H size (S n) t) with (chunks H size (S n) t) in Ec.
  exists res. split; [exact E|]. rewrite Ec, Er.
  destruct (par_runs_disjoint_l size (S n) t W) as (Hnd & Hincl & Hsrt).
  repeat split; auto.
  - eapply chunks_hash; eauto.
  - eapply chunks_sound; eauto.
  - intros e He. apply chunks_cover_all; assumption.
  - intros l Hs Ha. eapply restore_any_order_l; eauto.
Qed.
