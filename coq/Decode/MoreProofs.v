(* Totality / boundedness of the decoders of More.v. *)
From Verif Require Import Lib.Base Decode.GoSlice Decode.GoSliceFacts Decode.Node Decode.NodeProofs
  Decode.KeyFormat Decode.KeyFormatProofs Decode.Quote Decode.QuoteProofs Decode.More
  Gen.DecodeConsts Gen.QuoteConsts Gen.MiscConsts.

Definition hex_post (s : bytes) (r : res bytes) : Prop :=
  match r with
  | Ok b => 2 * glen b = glen s
  | Err _ => True
  | Panic => False
  end.

Lemma hex_decode_spec : forall s, hex_post s (hex_decode s) /\ forall c, hex_post (c :: s) (hex_decode (c :: s)).
Proof.
  induction s as [|b s [IH1 IH2]].
  - split; [cbn; reflexivity|]. intros c. cbn. destruct (hex_val c); exact I.
  - split; [apply IH2|]. intros c. cbn [hex_decode].
    destruct (hex_val c); [|exact I]. destruct (hex_val b); [|exact I].
    unfold hex_post in *. destruct (hex_decode s) as [r|e|]; cbn [rbind]; try exact I; try contradiction.
    rewrite !glen_cons. lia.
Qed.

Lemma hex_decode_total_l : forall s, hex_decode s <> Panic /\ (forall b, hex_decode s = Ok b -> 2 * glen b = glen s).
Proof.
  intros s. pose proof (proj1 (hex_decode_spec s)) as H. split.
  - intros E. rewrite E in H. exact H.
  - intros b E. rewrite E in H. exact H.
Qed.

(* hex.DecodeString as a statement of a decoder: an error or the decoded bytes *)
Ltac hex :=
  lazymatch goal with
  | |- _ (bind (lift (hex_decode ?t)) _ _) =>
      let r := fresh "r" in let E := fresh "E" in
      pose proof (proj1 (hex_decode_spec t)) as E; destruct (hex_decode t) as [r| |];
      [rewrite bind_lift_ok | apply safe_err; lia | contradiction]
  end.

Ltac callf := eapply (safe_bind _ _ _ _ 0); [apply fixed_safe | lia | intros ? ? ? ?].

Lemma unmarshal_hex_safe size kind text s : safe anyv 0 s (unmarshal_hex size kind text s).
Proof. unfold unmarshal_hex. hex. eapply safe_rebase; [apply fixed_safe | lia | intros; exact I]. Qed.

Lemma unmarshal_b64_safe size kind b64 s : safe anyv 0 s (unmarshal_b64 size kind b64 s).
Proof.
  unfold unmarshal_b64. destruct b64; cbv beta iota; [|step].
  eapply safe_rebase; [apply fixed_safe | lia | intros; exact I].
Qed.

Lemma unmarshal_hex_or_b64_safe size kind b64 text s :
  safe anyv 0 s (unmarshal_hex_or_b64 size kind b64 text s).
Proof.
  unfold unmarshal_hex_or_b64. pose proof (unmarshal_hex_safe size kind text s) as H.
  destruct (unmarshal_hex size kind text s) as [[b|e|] s1]; cbn in H; try contradiction.
  - cbn. split; [lia|exact I].
  - eapply safe_rebase; [apply unmarshal_b64_safe | lia | auto].
Qed.

Lemma enclave_identity_safe decoded s : decoded <> Panic -> safe anyv 0 s (enclave_identity decoded s).
Proof.
  intros Hd. unfold enclave_identity. destruct decoded as [b|e|]; [|rewrite bind_unfold; cbn; lia|contradiction].
  step. step; [step|]. assert (glen b = 64) by golia.
  do 2 step. callf. callf. step.
Qed.

Lemma akid_safe data s : safe anyv 0 s (akid data s).
Proof.
  unfold akid. step; [step|]. assert (158 <= glen data) by lia.
  do 3 step; [step|]. assert (le16v (sl data 4 6) = 32) as E by golia. rewrite E.
  step. callf. repeat step.
Qed.

Lemma qe_masks_safe rm rf rx ms msm att attm s : safe anyv 0 s (qe_masks rm rf rx ms msm att attm s).
Proof.
  unfold qe_masks.
  hex. step; [step|]. hex. step; [step|].
  do 2 step. step; [step|].
  hex. step; [step|]. hex. step; [step|].
  repeat step.
Qed.

Lemma pb_ptr_safe data s :
  safe (fun x : N * (bytes * N * N) => fst x = 44 /\ 44 <= glen data) 0 s (pb_ptr data s).
Proof.
  unfold pb_ptr. step; [step|]. assert (44 <= glen data) by golia.
  step. unfold hash_unmarshal.
  eapply (safe_bind anyv _ _ _ 0); [| lia |].
  { unfold wrap. rewrite glen_sl by golia. replace (HashSize - 0 =? HashSize) with true by golia.
    cbn. split; [lia|exact I]. }
  intros h s2 _ Hs2. step; [step|]. repeat step.
  apply safe_ret; [lia|]. cbn. golia.
Qed.

Lemma key_safe c data s :
  safe (fun x : bytes * N => 2 <= snd x /\ snd x <= glen data) (glen data) s
       (wrap c (key_sized_unmarshal data) s).
Proof. eapply outcome_wrap; [eapply outcome_weaken; [apply key_spec| |intros e s' H; exact H]|]; cbn beta; lia. Qed.

Lemma depth_safe c data s :
  safe (fun x : N * N => snd x = 2 /\ 2 <= glen data) 0 s (wrap c (depth_unmarshal data) s).
Proof. eapply outcome_wrap; [eapply outcome_weaken; [apply depth_spec| |intros e s' H; exact H]|]; cbn beta; lia. Qed.

(* an optional child pointer of an internal node *)
Lemma pb_optr_safe (c : bool) value pos s : pos <= glen value ->
  safe (fun x : option (bytes * N * N) * N => pos <= snd x /\ snd x <= glen value) 0 s
    ((if c then rest <- lift (slice_from value pos) ;; '(size, p) <- pb_ptr rest ;; ret (Some p, pos + size)
      else ret (None, pos)) s).
Proof.
  intros Hpos. step; [|apply safe_ret; [lia | cbn [snd]; lia]].
  step. eapply (safe_bind _ _ _ _ 0); [apply pb_ptr_safe | lia |].
  intros [sz p] s1 [Hp1 Hp2] Hs1. cbn [fst] in *. subst sz. rewrite glen_sl in Hp2 by lia.
  apply safe_ret; [lia | cbn [snd]; lia].
Qed.

Lemma pb_node_safe value s : safe anyv (3 * glen value) s (pb_node value s).
Proof.
  unfold pb_node. step; [step|]. assert (2 <= glen value) as Hv by lia.
  step. step.
  - step.
    eapply (safe_bind _ _ _ _ _); [apply key_safe | rewrite glen_sl by lia; lia |].
    intros [key size] s1 [Hk1 Hk2] Hs1. cbn [snd] in *. rewrite glen_sl in * by lia.
    cbv zeta. step. step. rewrite glen_sl by lia. step.
  - step; [|step].
    step.
    eapply (safe_bind _ _ _ _ _); [apply key_safe | rewrite glen_sl by lia; lia |].
    intros [label size] s1 [Hk1 Hk2] Hs1. cbn [snd] in *. rewrite glen_sl in * by lia.
    cbv zeta. step.
    eapply (safe_bind _ _ _ _ 0); [apply depth_safe | lia |].
    intros [lbl size2] s2 [Hd1 Hd2] Hs2. cbn [snd] in *. rewrite glen_sl in Hd2 by lia. subst size2.
    cbv zeta.
    eapply (safe_bind _ _ _ _ 0); [apply pb_optr_safe; lia | lia |].
    intros [lptr pos1] s3 [Hl1 Hl2] Hs3. cbn [snd] in *.
    eapply (safe_bind _ _ _ _ 0); [apply pb_optr_safe; lia | lia |].
    intros [rptr pos2] s4 [Hr1 Hr2] Hs4. cbn [snd] in *.
    step; [|step].
    step.
    eapply (safe_bind _ _ _ _ _); [apply key_safe | rewrite glen_sl by lia; lia |].
    intros [lkey size3] s5 [Hk3 Hk4] Hs5. cbn [snd] in *. rewrite glen_sl in * by lia.
    cbv zeta. step. step. rewrite glen_sl by lia. step.
Qed.

Lemma frame_read_safe stream dec s :
  safe (fun n : N => n <= maxMessageSize) 4 s (frame_read stream dec s).
Proof.
  unfold frame_read. step. step; [step|]. do 2 step.
  step; [step|]. destruct dec as [rem|]; [|step]. step; [step|].
  apply safe_ret; lia.
Qed.

Lemma enum_text_total_l : forall table text, enum_text table text <> Panic.
Proof.
  induction table as [|[n v] t IH]; intros text; cbn; [discriminate|].
  destruct (bytes_eqb n text); [discriminate|apply IH].
Qed.

Lemma gen_sigstruct_layout_expected :
  sigstructSize = 1808 /\ Forall (fun ow => fst ow + snd ow <= sigstructSize) sigstruct_offs.
Proof. split; [reflexivity|]. repeat constructor; vm_compute; discriminate. Qed.

Lemma sigstruct_reads_safe : forall offs buf s,
  Forall (fun ow => fst ow + snd ow <= sigstructSize) offs ->
  safe anyv 0 s (sigstruct_reads offs buf s).
Proof.
  intros offs buf s Hall. unfold sigstruct_reads. step; [step|].
  assert (glen buf = sigstructSize) as Hl by lia. clear Heqb.
  induction Hall as [|[o w] l Hx Hl' IH]; cbn [fold_right]; [step|].
  cbn [fst snd] in *. destruct (w =? 0) eqn:Ew; step; exact IH.
Qed.

Lemma decode_text_total_l : forall size kind b64 text s,
  fst (unmarshal_hex size kind text s) <> Panic /\ snd (unmarshal_hex size kind text s) <= s /\
  fst (unmarshal_b64 size kind b64 s) <> Panic /\
  fst (unmarshal_hex_or_b64 size kind b64 text s) <> Panic.
Proof.
  intros. repeat apply conj.
  - exact (outcome_no_panic _ _ _ (unmarshal_hex_safe size kind text s)).
  - pose proof (safe_alloc _ _ _ _ (unmarshal_hex_safe size kind text s)). lia.
  - exact (outcome_no_panic _ _ _ (unmarshal_b64_safe size kind b64 s)).
  - exact (outcome_no_panic _ _ _ (unmarshal_hex_or_b64_safe size kind b64 text s)).
Qed.

Lemma decode_sgx_misc_total_l : forall decoded data rm rf rx ms msm att attm s, decoded <> Panic ->
  fst (enclave_identity decoded s) <> Panic /\ fst (akid data s) <> Panic /\
  fst (qe_masks rm rf rx ms msm att attm s) <> Panic /\ fst (quantity_unmarshal_binary data s) <> Panic.
Proof.
  intros decoded data rm rf rx ms msm att attm s Hd. repeat apply conj.
  - exact (outcome_no_panic _ _ _ (enclave_identity_safe decoded s Hd)).
  - exact (outcome_no_panic _ _ _ (akid_safe data s)).
  - exact (outcome_no_panic _ _ _ (qe_masks_safe rm rf rx ms msm att attm s)).
  - discriminate.
Qed.

Lemma decode_pathbadger_total_l : forall data s,
  fst (pb_ptr data s) <> Panic /\ fst (pb_node data s) <> Panic /\
  snd (pb_node data s) <= s + 3 * glen data.
Proof.
  intros data s. repeat apply conj.
  - exact (outcome_no_panic _ _ _ (pb_ptr_safe data s)).
  - exact (outcome_no_panic _ _ _ (pb_node_safe data s)).
  - exact (safe_alloc _ _ _ _ (pb_node_safe data s)).
Qed.

(* the frame reader allocates 4 bytes whatever length the prefix declares *)
Lemma frame_read_total_l : forall stream dec s,
  fst (frame_read stream dec s) <> Panic /\ snd (frame_read stream dec s) <= s + 4 /\
  (forall n, fst (frame_read stream dec s) = Ok n -> n <= maxMessageSize).
Proof.
  intros stream dec s. pose proof (frame_read_safe stream dec s) as H. repeat apply conj.
  - exact (outcome_no_panic _ _ _ H).
  - exact (safe_alloc _ _ _ _ H).
  - intros n E. destruct (frame_read stream dec s) as [r s']. cbn [fst] in E. subst r. exact (proj2 H).
Qed.

Lemma sigstruct_reads_total_l : forall buf s, fst (sigstruct_reads sigstruct_offs buf s) <> Panic.
Proof.
  intros buf s.
  exact (outcome_no_panic _ _ _ (sigstruct_reads_safe _ buf s (proj2 gen_sigstruct_layout_expected))).
Qed.

Example hex_examples :
  hex_decode [48; 97; 70; 102] = Ok [10; 255] /\ hex_decode [48] = Err E_HEX_LEN /\
  hex_decode [48; 103] = Err E_HEX_BYTE /\ hex_decode [103] = Err E_HEX_BYTE /\
  hex_decode [48; 48; 120] = Err E_HEX_BYTE.
Proof. repeat apply conj; vm_compute; reflexivity. Qed.
