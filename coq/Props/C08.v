(* C08 — A failed transaction changes nothing but fee and nonce.
   Only statements; proofs are in Atomic/Proofs.v and Atomic/Handlers.v, and the equations
   about the regenerated constants of Gen/AtomicConsts.v are closed and hold by computation.
   The model (Atomic/Model.v) ports the multiplexer's per-transaction pipeline, the
   authentication handler and the overlay / transaction-layer machinery; the handlers of
   the individual apps are
   ARBITRARY programs over the context interface (they are not modelled one by one). *)
From Verif Require Import Lib.Base Atomic.Model Atomic.Proofs Atomic.Handlers Atomic.GenCheck Gen.AtomicConsts.
From Verif Require Ledger.State Ledger.Ops Ledger.TxAtomic.

(* Writes made inside a transaction layer (ctx.NewTransaction) that is not
   committed are invisible afterwards: dropping the layer gives back LITERALLY the
   tree that was there before, for any body program (any reads, writes, removals,
   gas use and nested transaction layers, committed or not). *)
Theorem overlay_tx_atomic_discard : forall body g t r g1 t1,
  run body g (copen t) = (r, g1, t1) -> cdiscard t1 = t.
Proof. exact tx_discard_literal. Qed.
Print Assumptions overlay_tx_atomic_discard.

(* After Commit exactly the body's writes are applied: result, gas and the view of
   every key equal those of running the body directly on the parent. *)
Theorem overlay_tx_atomic_commit : forall body g t r g1 t1 r' g1' t2,
  run body g (copen t) = (r, g1, t1) -> run body g t = (r', g1', t2) ->
  r = r' /\ g1 = g1' /\ forall k, cget k (ccommit t1) = cget k t2.
Proof. exact tx_commit_exact. Qed.
Print Assumptions overlay_tx_atomic_commit.

(* Whatever a program does, it writes only the innermost layer: the layers below
   and the committed base tree are untouched. *)
Theorem program_writes_innermost_layer_only : forall p g t r g' t',
  run p g t = (r, g', t') -> frame t t'.
Proof. exact run_frame. Qed.
Print Assumptions program_writes_innermost_layer_only.

(* Between decoding and the handler the only change is: fee moved from the signer's
   general balance to the block fee accumulator and nonce + 1 (mod 2^64) in the
   signer's account record; every other key reads as before. *)
Theorem auth_only_pre_execution_write : forall P t fa x t1 fa1 g1,
  auth P Deliver t fa x = inr (t1, fa1, g1) ->
  let a := signer_acct t x in
  fa1 = fa + tx_fee x /\
  cget (tx_signer x) t1 =
    Some (VAcct (mkAcct ((a_nonce a + 1) mod two64) (a_bal a - tx_fee x) (a_rest a))) /\
  (forall k, k <> tx_signer x -> cget k t1 = cget k t) /\
  frame t t1 /\
  a_nonce a = tx_nonce x /\ tx_fee x + p_min_transact P <= a_bal a.
Proof. exact Proofs.auth_only_pre_execution_write. Qed.
Print Assumptions auth_only_pre_execution_write.

(* The multiplexer does not wrap the handler in a transaction layer and does not
   roll back (mux.go:703-750). Hence, for an ARBITRARY app, the statement needs the
   premise that the handler selected for the transaction is atomic (an error
   leaves the tree it was given); under it a failing delivered transaction leaves
   either exactly the previous state or exactly the post-authentication state.
   The premise is needed on EVERY path that reaches a handler (there is no path on
   which the multiplexer supplies the rollback); it is not needed for decode,
   routing, authentication, transaction-size gas and minimum-gas-price failures. *)
Theorem failed_tx_effect_generic : forall P exec dec size s e g s',
  deliver P exec dec size s = (Err e, g, s') ->
  (forall x h, dec = Some x -> exec Deliver x = Some h -> atomic h) ->
  s' = s \/
  (exists x g1 t1 fa1, dec = Some x /\ tx_critical x = false /\
     auth P Deliver (m_tree s) (m_feeacc s) x = inr (t1, fa1, g1) /\
     s' = post_auth_state s x).
Proof. exact Proofs.failed_tx_effect_generic. Qed.
Print Assumptions failed_tx_effect_generic.

(* The premise holds for every handler written in one of the two conventions used
   by the apps: validate and charge gas first / write last, or fallible writes
   inside NewTransaction()...Commit(). *)
Theorem conventions_give_atomic_handlers :
  (forall h, safe h -> atomic (run h)) /\ (forall body, atomic (run (Tx body Ret))).
Proof. exact (conj safe_atomic tx_wrapped_atomic). Qed.
Print Assumptions conventions_give_atomic_handlers.

Theorem failed_tx_effect_safe_handlers : forall P exec dec size s e g s',
  (forall x h, exec Deliver x = Some h -> exists p, h = run p /\ safe p) ->
  deliver P exec dec size s = (Err e, g, s') ->
  s' = s \/ (exists x, dec = Some x /\ s' = post_auth_state s x).
Proof. exact Proofs.failed_tx_effect_safe_handlers. Qed.
Print Assumptions failed_tx_effect_safe_handlers.

(* Without the premise the statement is false in the model: the multiplexer keeps
   the writes of a handler that fails after writing outside a transaction layer. *)
Theorem mux_rolls_back_refuted :
  exists P exec x size s e g s',
    deliver P exec (Some x) size s = (Err e, g, s') /\ s' <> s /\ s' <> post_auth_state s x.
Proof. exact mux_does_not_roll_back. Qed.
Print Assumptions mux_rolls_back_refuted.

(* A transaction rejected at decoding, routing or authentication changes nothing. *)
Theorem auth_failure_changes_nothing : forall P exec dec size s,
  (dec = None \/
   exists x, dec = Some x /\
     (exec Deliver x = None \/
      (tx_critical x = false /\ exists e, auth P Deliver (m_tree s) (m_feeacc s) x = inl e))) ->
  exists e g, deliver P exec dec size s = (Err e, g, s).
Proof. exact rejected_up_to_auth_changes_nothing. Qed.
Print Assumptions auth_failure_changes_nothing.

(* A delivered transaction (failed or not) never touches the last committed tree
   or the CheckTx tree: it writes the block's proposal overlay only. *)
Theorem deliver_writes_proposal_overlay_only : forall P exec dec size s r g s',
  (forall x h, exec Deliver x = Some h -> framed h) ->
  deliver P exec dec size s = (r, g, s') ->
  frame (m_tree s) (m_tree s') /\ m_check s' = m_check s.
Proof. exact deliver_frame. Qed.
Print Assumptions deliver_writes_proposal_overlay_only.

(* CheckTx works on the separate check tree, EstimateGas on a discarded copy: the
   delivery state (committed tree, proposal overlay, fee accumulator) is unchanged. *)
Theorem check_and_estimate_pure : forall P exec,
  (forall dec size s r g s', check_tx P exec dec size s = (r, g, s') ->
     m_tree s' = m_tree s /\ m_feeacc s' = m_feeacc s) /\
  (forall x size s gas s', estimate_gas P exec x size s = (gas, s') -> s' = s).
Proof. exact Proofs.check_and_estimate_pure. Qed.
Print Assumptions check_and_estimate_pure.

(* ---------- concrete handlers (Atomic/Handlers.v) ----------
   registry registerEntity / deregisterEntity / registerNode / registerRuntime and roothash
   submitMsg ported with their real order of gas charges, checks, NewTransaction(), writes
   (through the received handle or through ctx-built wrappers) and Commit(); keys, records
   and the verdicts of the pure validation routines are universally quantified. *)

(* The discipline: before the first write that dropping the layer does not undo (a write
   while no layer is open, a write through the RECEIVED handle, Commit) a handler only
   reads, charges gas, calls other apps inside its layer and writes into its layer; after
   it, it cannot fail. Such a handler is atomic. *)
Theorem handler_discipline_gives_atomicity : forall p, hsafe false p -> atomic (hrun p false).
Proof. exact hsafe_atomic. Qed.
Print Assumptions handler_discipline_gives_atomicity.

Theorem failed_tx_effect_registry :
  forall k_reg_params k_stake_params k_epoch k_features
         k_entity k_entity_acct k_entity_nodes k_entity_runtimes
         k_node k_node_index k_node_status k_node_lookups k_beacon_params
         k_runtime k_suspended_runtime k_runtime_owner k_old_runtime_owner k_rt_acct k_old_rt_acct
         cost count verify_entity_args signer_ok bypass_stake add_claim remove_claim new_val nonempty
         verify_node_args admission_ok node_expired node_lookup_failed verify_node_update resume_needed
         publish_resumed publish_new publish_updated rt_registration_disabled verify_runtime_args
         verify_runtime_new_or_update rt_signer_ok rt_needs_stake owner_changed
         P dec size s e g s',
  deliver P (registry_exec k_reg_params k_stake_params k_epoch k_features
         k_entity k_entity_acct k_entity_nodes k_entity_runtimes
         k_node k_node_index k_node_status k_node_lookups k_beacon_params
         k_runtime k_suspended_runtime k_runtime_owner k_old_runtime_owner k_rt_acct k_old_rt_acct
         cost count verify_entity_args signer_ok bypass_stake add_claim remove_claim new_val nonempty
         verify_node_args admission_ok node_expired node_lookup_failed verify_node_update resume_needed
         publish_resumed publish_new publish_updated rt_registration_disabled verify_runtime_args
         verify_runtime_new_or_update rt_signer_ok rt_needs_stake owner_changed) dec size s = (Err e, g, s') ->
  s' = s \/ (exists x, dec = Some x /\ s' = post_auth_state s x).
Proof. exact Handlers.failed_tx_effect_registry. Qed.
Print Assumptions failed_tx_effect_registry.

Theorem failed_tx_effect_submitmsg :
  forall k_stake_params k_rh_params k_rt_state k_in_meta k_in_msg k_caller_acct k_rt_staking_acct
         cost new_val rt_state_usable max_in_zero fee_below_min transfer_noop move below_min queue_full
         P dec size s e g s',
  deliver P (submitmsg_exec k_stake_params k_rh_params k_rt_state k_in_meta k_in_msg k_caller_acct k_rt_staking_acct
         cost new_val rt_state_usable max_in_zero fee_below_min transfer_noop move below_min queue_full) dec size s = (Err e, g, s') ->
  s' = s \/ (exists x, dec = Some x /\ s' = post_auth_state s x).
Proof. exact Handlers.failed_tx_effect_submitmsg. Qed.
Print Assumptions failed_tx_effect_submitmsg.

(* roothash submitEvidence (after the repair 583b4f4: hash record and slashing inside a
   transaction layer, committed only on success) *)
Theorem failed_tx_effect_submitevidence :
  forall (k_rh_params : N) (k_rt_state : tx -> N) (cost : option val -> N -> N) (new_val : tx -> option val -> val)
         (nonempty rt_state_usable : option val -> bool)
         (k_evidence k_accused_node k_accused_acct k_caller_node : tx -> N) (validate_evidence : tx -> bool)
         (rt_slashes : option val -> bool) (evidence_expired : option val -> option val -> tx -> bool)
         (penalty_zero : option val -> bool) (slash_escrow : option val -> tx -> option val)
         (slashed_nothing : option val -> tx -> bool) (distribute : option val -> tx -> prog)
         (P : params) (dec : option tx) (size : N) (s : mstate) (e : N) (g : gasacc) (s' : mstate),
  deliver P
    (submitevidence_exec k_rh_params k_rt_state cost new_val nonempty rt_state_usable k_evidence k_accused_node
       k_accused_acct k_caller_node validate_evidence rt_slashes evidence_expired penalty_zero slash_escrow
       slashed_nothing distribute) dec size s = (Err e, g, s') ->
  s' = s \/ (exists x : tx, dec = Some x /\ s' = post_auth_state s x).
Proof. exact Handlers.failed_tx_effect_submitevidence. Qed.
Print Assumptions failed_tx_effect_submitevidence.

(* The order before the repair (hash stored through the received handle, no layer, then the
   slashing fails for a key that is no registered node) is not atomic: the defect this check
   found, kept as a refuted witness. *)
Theorem submitevidence_old_order_refuted : ~ atomic (hrun evidence_old_handler false).
Proof. exact evidence_old_not_atomic. Qed.
Print Assumptions submitevidence_old_order_refuted.

Theorem gen_submit_evidence_order :
  submit_evidence_events = [8; 8; 1; 8; 8; 8; 8; 8; 8; 8; 8; 8; 8; 2; 7; 5; 8; 5; 8; 3] /\
  layered_handler submit_evidence_events = true.
Proof. exact (conj eq_refl eq_refl). Qed.
Print Assumptions gen_submit_evidence_order.

(* A state wrapper built from ctx.State() BEFORE NewTransaction() writes below the layer:
   submitMsg with that order (the seeded change C08-1) is not atomic. *)
Theorem wrapper_built_before_layer_refuted : ~ atomic (hrun c08_1_handler false).
Proof. exact c08_1_not_atomic. Qed.
Print Assumptions wrapper_built_before_layer_refuted.

(* G: the order of the steps in the source is the one the ports were written against, every
   ctx-built wrapper of a handler with a layer is built inside the layer, no gas is charged
   after a write. *)
Theorem gen_handler_step_order :
  register_entity_events = [8; 8; 1; 8; 1; 8; 8; 7; 8; 5; 8; 4; 8] /\
  deregister_entity_events = [8; 1; 8; 8; 8; 8; 8; 4; 8; 8; 7; 8; 5] /\
  register_node_events =
    [8; 8; 8; 8; 8; 8; 8; 8; 8; 8; 1; 8; 2; 7; 8; 7; 8; 8; 5; 8; 8; 4; 8; 8; 7; 8; 4; 8; 8; 4; 6; 8; 8; 3] /\
  register_runtime_events =
    [8; 8; 8; 8; 8; 8; 8; 1; 8; 8; 8; 8; 8; 8; 8; 8; 2; 7; 8; 5; 8; 5; 8; 8; 6; 8; 6; 8; 4; 8; 4; 8; 4; 8; 4; 8; 4; 8; 3] /\
  submit_msg_events = [8; 1; 8; 8; 8; 8; 2; 8; 7; 5; 8; 8; 8; 4; 8; 4; 8; 3].
Proof. exact (conj eq_refl (conj eq_refl (conj eq_refl (conj eq_refl eq_refl)))). Qed.
Print Assumptions gen_handler_step_order.

Theorem gen_wrappers_built_inside_layer :
  forallb captures_inside_layer
    [register_entity_events; deregister_entity_events; register_node_events; register_runtime_events; submit_msg_events] = true /\
  forallb (no_gas_after_write_from false)
    [register_entity_events; deregister_entity_events; register_node_events; register_runtime_events; submit_msg_events] = true.
Proof. exact (conj eq_refl eq_refl). Qed.
Print Assumptions gen_wrappers_built_inside_layer.

(* ---------- staking / governance-deposit handlers: the ledger model of C05 ----------
   (Ledger/TxAtomic.v, proved by the C05 builder on the ported staking handlers) *)
Theorem failed_tx_effect_staking : forall p s signer n fee g1 g2 b,
  fst (Ledger.Ops.exec_tx p s signer n fee g1 g2 b) <> Ledger.Ops.ROk ->
  snd (Ledger.Ops.exec_tx p s signer n fee g1 g2 b) = s \/
  snd (Ledger.Ops.exec_tx p s signer n fee g1 g2 b) = Ledger.TxAtomic.post_auth p s signer n fee.
Proof. exact Ledger.TxAtomic.failed_tx_effect_staking_l. Qed.
Print Assumptions failed_tx_effect_staking.

Theorem failed_tx_after_auth_staking : forall p s signer n fee g1 g2 b,
  fst (Ledger.Ops.auth p s signer n fee) = Ledger.Ops.ROk ->
  fst (Ledger.Ops.exec_tx p s signer n fee g1 g2 b) <> Ledger.Ops.ROk ->
  snd (Ledger.Ops.exec_tx p s signer n fee g1 g2 b) = Ledger.TxAtomic.post_auth p s signer n fee.
Proof. exact Ledger.TxAtomic.failed_tx_after_auth_l. Qed.
Print Assumptions failed_tx_after_auth_staking.

(* ---------- staking addEscrow / reclaimEscrow / allow / withdraw and the vault handlers
   create / authorizeAction / cancelAction, ported step by step (Atomic/Handlers.v, Section
   Ports2; keys, checks and computed records are universally quantified; the withdraw hook and
   the vault action execution are ARBITRARY programs) ---------- *)
Theorem failed_tx_effect_staking_vault :
  forall (key : N -> tx -> N) (chk : N -> list (option val) -> tx -> bool) (calc : N -> list (option val) -> tx -> option val)
         (newv : N -> list (option val) -> tx -> val) (gcost : option val -> N) (withdraw_hook execute_action : tx -> prog)
         (P : params) (dec : option tx) (size : N) (s : mstate) (e : N) (g : gasacc) (s' : mstate),
  deliver P (staking_vault_exec key chk calc newv gcost withdraw_hook execute_action) dec size s = (Err e, g, s') ->
  s' = s \/ (exists x : tx, dec = Some x /\ s' = post_auth_state s x).
Proof. exact Handlers.failed_tx_effect_staking_vault. Qed.
Print Assumptions failed_tx_effect_staking_vault.

(* withdraw with the hook published BEFORE the layer is opened (the seeded change C08-4) is not
   atomic: the hook's write stays when the transfer fails *)
Theorem withdraw_hook_before_layer_refuted : ~ atomic (hrun c08_4_handler false).
Proof. exact c08_4_not_atomic. Qed.
Print Assumptions withdraw_hook_before_layer_refuted.

Theorem gen_staking_vault_step_order :
  add_escrow_events = [8; 1; 8; 8; 8; 8; 8; 8; 8; 8; 8; 8; 4; 8; 4; 8; 4; 8] /\
  reclaim_escrow_events = [8; 8; 1; 8; 8; 8; 8; 8; 8; 8; 8; 8; 8; 8; 8; 4; 8; 4; 8; 4; 8; 4; 8] /\
  allow_events = [8; 1; 8; 8; 8; 8; 8; 8; 8; 8; 8; 8; 4; 8] /\
  withdraw_events = [8; 1; 8; 8; 8; 8; 8; 2; 8; 6; 8; 8; 8; 8; 8; 8; 8; 4; 8; 4; 8; 3] /\
  vault_create_events = [7; 8; 8; 1; 8; 2; 7; 8; 4; 8; 3] /\
  vault_authorize_events = [7; 8; 8; 8; 8; 8; 1; 8; 2; 8; 8; 4; 8; 3; 8; 4; 8; 4; 8; 3] /\
  vault_cancel_events = [8; 7; 8; 8; 8; 8; 1; 8; 2; 8; 8; 4; 8; 4; 8; 3].
Proof. exact (conj eq_refl (conj eq_refl (conj eq_refl (conj eq_refl (conj eq_refl (conj eq_refl eq_refl)))))). Qed.
Print Assumptions gen_staking_vault_step_order.

Theorem gen_withdraw_layer_before_hook :
  no_write_before_open withdraw_events = true /\
  forallb (no_gas_after_write_from false)
    [add_escrow_events; reclaim_escrow_events; allow_events; withdraw_events; vault_create_events; vault_authorize_events; vault_cancel_events] = true /\
  forallb (fun l => (last l 0 =? COMMIT) && no_write_before_open l)
    [withdraw_events; vault_create_events; vault_authorize_events; vault_cancel_events] = true.
Proof. exact (conj eq_refl (conj eq_refl eq_refl)). Qed.
Print Assumptions gen_withdraw_layer_before_hook.

(* every transaction method of every app (read from the ExecuteTx switches) is either ported
   with a failed_tx_effect theorem or listed as covered by the twin-replica stream only; a new
   method in neither list breaks this obligation *)
Theorem gen_every_method_covered :
  forallb method_covered all_tx_methods = true /\
  forallb (fun p => existsb (pair_eqb p) all_tx_methods) ported_methods = true /\
  List.length all_tx_methods = 30%nat.
Proof. exact (conj eq_refl (conj eq_refl eq_refl)). Qed.
Print Assumptions gen_every_method_covered.

(* every md.Publish call and every subscription of the apps, as read from the source; every
   (publishing transaction handler, subscriber) pair has a failing class in the twin stream (or
   cannot fail) *)
Theorem gen_publish_sites : all_publishes = expected_publishes /\ all_subscriptions = expected_subscriptions.
Proof. exact (conj eq_refl eq_refl). Qed.
Print Assumptions gen_publish_sites.

Theorem gen_publish_pairs_covered : publishes_covered = true.
Proof. exact eq_refl. Qed.
Print Assumptions gen_publish_pairs_covered.

(* The mux-level failures after authentication (transaction-size gas, consensus minimum gas price)
   are decided before the handler runs: for ANY handler the state is exactly the
   post-authentication state. *)
Theorem mux_level_failures_precede_handler : forall P exec x h size s t1 fa1 g1,
  tx_critical x = false ->
  exec Deliver x = Some h ->
  auth P Deliver (m_tree s) (m_feeacc s) x = inr (t1, fa1, g1) ->
  ((exists e, use_gas ((size * p_byte_cost P) mod two64) g1 = inl e) \/
   ((0 <? p_min_gas_price P) = true /\ (gas_price x <? p_min_gas_price P) = true)) ->
  exists e g, deliver P exec (Some x) size s = (Err e, g, post_auth_state s x).
Proof. exact Proofs.mux_level_failures_precede_handler. Qed.
Print Assumptions mux_level_failures_precede_handler.

(* G: in the source the minimum-gas-price check precedes app.ExecuteTx *)
Theorem gen_process_tx_order : process_tx_steps = [21; 22; 1; 23; 24; 25].
Proof. exact eq_refl. Qed.
Print Assumptions gen_process_tx_order.
