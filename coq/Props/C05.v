(* C05 — Token supply is conserved and share bookkeeping stays consistent.
   Only statements; the model is Ledger/State.v + Ledger/Ops.v, proofs are in
   Ledger/Conserve.v, TxAtomic.v, InvB.v and Total.v. *)
From Verif Require Import Lib.Base Ledger.SharePool Ledger.State Ledger.Ops Ledger.ConserveMap Ledger.Conserve Ledger.TxAtomic Ledger.InvB Ledger.Total.

(* Inv s: the three key sets are duplicate free, every escrow pool's share total
   equals the sum of the (debonding) delegations into it, and the recorded total
   supply equals general + active + debonding balances + common pool +
   governance deposits + last block fees (while not yet paid out by this
   block's BeginBlock) + the block's fee accumulator. *)

(* every operation (transaction with fee payment, fee disbursement at begin and
   end of block, rewards, slashing, debonding completion, governance deposit
   return/discard), succeeding or failing at any internal point, preserves Inv *)
Theorem op_preserves_inv : forall p s o, Inv s -> Inv (snd (step p s o)).
Proof. exact op_preserves_inv_l. Qed.
Print Assumptions op_preserves_inv.

(* ... hence every operation sequence from every state satisfying Inv *)
Theorem run_preserves_inv : forall p ops s, Inv s -> Inv (run p s ops).
Proof. exact run_preserves_inv_l. Qed.
Print Assumptions run_preserves_inv.

(* ... and at every intermediate point of the sequence *)
Theorem run_prefix_inv : forall p ops1 ops2 s, Inv s -> Inv (run p s ops1) /\ Inv (run p s (ops1 ++ ops2)).
Proof. exact run_prefix_inv_l. Qed.
Print Assumptions run_prefix_inv.

(* a genesis-like state (supply recorded as the sum of its parts, empty
   accumulator) with consistent share totals satisfies Inv *)
Theorem inv_genesis : forall accs dl db cp lbf gov,
  let s := mkSt accs dl db (msum (fun _ x => general x) accs + msum (fun _ x => bal (active x)) accs
                            + msum (fun _ x => bal (debonding x)) accs + cp + gov + lbf) cp lbf gov 0 false in
  WF s -> Inv s.
Proof. exact inv_genesis_l. Qed.
Print Assumptions inv_genesis.

(* at a block boundary (after the end-of-block fee disbursement) Inv is
   literally the equation of the statement plus the two share equations *)
Theorem boundary_equation : forall s, Inv s -> boundary s ->
  total_supply s = sum_general s + sum_active s + sum_debonding s + common_pool s
                   + gov_deposits s + last_block_fees s
  /\ (forall e, tsh (active (acct s e)) = dsum e s)
  /\ (forall e, tsh (debonding (acct s e)) = bsum e s).
Proof. exact boundary_equation_l. Qed.
Print Assumptions boundary_equation.

(* a block = any operations followed by a successful end-of-block fee
   disbursement ends at a boundary: accumulator empty, persisted fees live *)
Theorem block_boundary : forall p s ops pr, Inv s ->
  fst (step p (run p s ops) (OFeesP pr)) = ROk ->
  let s' := run p s (ops ++ [OFeesP pr]) in Inv s' /\ boundary s'.
Proof. exact block_boundary_l. Qed.
Print Assumptions block_boundary.

(* the recorded supply decreases exactly by the amounts explicitly burned
   (successful Burn, successful Transfer to the burn address) ... *)
Theorem supply_exact : forall p ops s, Inv s ->
  total_supply s = total_supply (run p s ops) + burned_run p s ops.
Proof. exact supply_run_l. Qed.
Print Assumptions supply_exact.

Theorem supply_step_exact : forall p s o, Inv s ->
  total_supply s = total_supply (snd (step p s o)) + burned p o (fst (step p s o)).
Proof. exact (fun p s o I => proj2 (step_inv p s o I)). Qed.
Print Assumptions supply_step_exact.

(* ... in particular it never increases *)
Theorem supply_monotone : forall p ops s, Inv s -> total_supply (run p s ops) <= total_supply s.
Proof. exact supply_monotone_l. Qed.
Print Assumptions supply_monotone.

(* quantity.Move / MoveUpTo: debit and credit of the same amount; a failure
   leaves both sides untouched; the aliasing cases dst == src and src == n *)
Theorem move_conserves : forall dst src n d' s',
  qmove dst src n = Some (d', s') -> d' + s' = dst + src /\ d' = dst + n /\ s' + n = src.
Proof. exact move_conserves_l. Qed.
Print Assumptions move_conserves.

Theorem move_fail_unchanged : forall dst src n, qmove dst src n = None <-> src < n.
Proof. exact move_fail_unchanged_l. Qed.
Print Assumptions move_fail_unchanged.

Theorem move_alias : forall x n, (qmove_alias x n = None <-> x < n) /\ (n <= x -> qmove_alias x n = Some x).
Proof. exact move_alias_l. Qed.
Print Assumptions move_alias.

Theorem move_all : forall dst src, qmove_all dst src = Some (dst + src, 0).
Proof. exact move_all_l. Qed.
Print Assumptions move_all.

Theorem move_up_to_amount : forall dst src n d' s' a,
  qmove_up_to dst src n = (d', s', a) -> a = N.min src n /\ d' = dst + a /\ s' + a = src /\ d' + s' = dst + src.
Proof. exact move_up_to_l. Qed.
Print Assumptions move_up_to_amount.

(* a failed authentication leaves the state untouched *)
Theorem auth_fail_leaves_state : forall p s signer n fee,
  fst (auth p s signer n fee) <> ROk -> snd (auth p s signer n fee) = s.
Proof. exact auth_fail_leaves_state_l. Qed.
Print Assumptions auth_fail_leaves_state.

(* ---- failed transactions (discharges the premise C08 leaves abstract, for the staking and
   governance-deposit handlers) ---- *)
(* the handler part of EVERY transaction body (transfer, burn, add escrow, reclaim escrow,
   allow, withdraw, governance submit at the deposit level, ledger-neutral ones such as
   vote / amend commission): a failing handler has written nothing, i.e. the state is the
   one authentication left *)
Theorem tx_fail_leaves_post_auth_state : forall p s signer b gas_ok,
  fst (exec_body p s signer b gas_ok) <> ROk -> snd (exec_body p s signer b gas_ok) = s.
Proof. exact tx_fail_leaves_post_auth_state_l. Qed.
Print Assumptions tx_fail_leaves_post_auth_state.

(* a successful authenticate-and-pay does exactly: nonce matched, fee moved from the signer's
   general balance to the block's accumulator, nonce + 1 (mod 2^64) *)
Theorem auth_ok_effect : forall p s signer n fee,
  fst (auth p s signer n fee) = ROk ->
  let a := acct s signer in
  nonce a = n /\ fee <= general a /\
  post_auth p s signer n fee =
    set_acct signer (with_nonce (with_general a (general a - fee)) ((nonce a + 1) mod two64))
             (with_feeacc s (fee_acc s + fee)).
Proof. exact auth_ok_effect_l. Qed.
Print Assumptions auth_ok_effect.

(* a transaction whose result is not ok changed nothing, or nothing but fee and nonce *)
Theorem failed_tx_effect_staking : forall p s signer n fee size_gas_ok gas_ok b,
  fst (exec_tx p s signer n fee size_gas_ok gas_ok b) <> ROk ->
  snd (exec_tx p s signer n fee size_gas_ok gas_ok b) = s \/
  snd (exec_tx p s signer n fee size_gas_ok gas_ok b) = post_auth p s signer n fee.
Proof. exact failed_tx_effect_staking_l. Qed.
Print Assumptions failed_tx_effect_staking.

Theorem failed_tx_after_auth : forall p s signer n fee size_gas_ok gas_ok b,
  fst (auth p s signer n fee) = ROk ->
  fst (exec_tx p s signer n fee size_gas_ok gas_ok b) <> ROk ->
  snd (exec_tx p s signer n fee size_gas_ok gas_ok b) = post_auth p s signer n fee.
Proof. exact failed_tx_after_auth_l. Qed.
Print Assumptions failed_tx_after_auth.

(* ---- the invariant is decidable by the executable [inv_b], which the correspondence cases
   evaluate on every dump of the real state ---- *)
Theorem inv_b_correct : forall s, inv_b s = true <-> Inv s.
Proof. exact inv_b_correct_l. Qed.
Print Assumptions inv_b_correct.

(* ---- totality: no block-aborting error under the parameter sanity conditions ---- *)
Theorem slash_never_fatal : forall s addr amount, fst (slash s addr amount) = ROk.
Proof. exact slash_never_fatal_l. Qed.
Print Assumptions slash_never_fatal.

(* rates are bounded by the commission denominator (commission.go:162) *)
Theorem rewards_never_fatal : forall s scale factor who,
  (forall a r, In (a, r) who -> r <= commission_den) -> fst (add_rewards s scale factor who) = ROk.
Proof. exact add_rewards_never_fatal_l. Qed.
Print Assumptions rewards_never_fatal.

Theorem reward_single_never_fatal : forall s scale factor num den addr rate,
  den <> 0 -> rate <= commission_den -> fst (add_reward_single s scale factor num den addr rate) = ROk.
Proof. exact add_reward_single_never_fatal_l. Qed.
Print Assumptions reward_single_never_fatal.

(* TransferFromCommon incl. the dead-pool branch of the repaired code *)
Theorem transfer_from_common_never_fatal : forall s to amount rate esc,
  rate <= commission_den -> fst (transfer_from_common s to amount rate esc) = ROk.
Proof. exact transfer_from_common_never_fatal_l. Qed.
Print Assumptions transfer_from_common_never_fatal.

(* BeginBlock fee disbursement: a non-empty commit when fees are pending (CometBFT), at most
   as many voters as eligible validators; any weights (zero vote+next weight is guarded) *)
Theorem fees_vq_never_fatal : forall p s pr n voters,
  vq_done s = false -> (last_block_fees s <> 0 -> n <> 0) -> N.of_nat (length voters) <= n ->
  fst (fees_vq p s pr n voters) = ROk.
Proof. exact fees_vq_never_fatal_l. Qed.
Print Assumptions fees_vq_never_fatal.

(* EndBlock fee disbursement: not all three weights zero (ConsensusParameters.SanityCheck) *)
Theorem fees_p_never_fatal : forall p s pr,
  vq_done s = true -> p_w_propose p + p_w_vote p + p_w_next p <> 0 -> fst (fees_p p s pr) = ROk.
Proof. exact fees_p_never_fatal_l. Qed.
Print Assumptions fees_p_never_fatal.

(* consistency is what makes debonding completion total: with Inv the
   epoch-change loop never fails (no block-aborting error) *)
Theorem debond_all_never_fatal : forall s ep, Inv s -> fst (debond_all s ep) = ROk.
Proof. exact (fun s ep I => debond_all_never_fatal_l s ep (proj1 I)). Qed.
Print Assumptions debond_all_never_fatal.

(* non-vacuity: a concrete 4-account state satisfies Inv, and a one-block
   history with fees, reward, slash, burn, reclaim, escrow, a failing transfer,
   allowance + withdrawal, governance deposit + discard and a debonding
   completion ends with supply 11957 - 20 *)
Theorem example_state_inv : Inv ex_s0.
Proof. exact ex_inv. Qed.
Print Assumptions example_state_inv.

Theorem example_history :
  fst (run_rc ex_p ex_s0 ex_ops) = [ROk; ROk; ROk; ROk; ROk; ROk; ROk; RFail 3; ROk; ROk; ROk; ROk; ROk; ROk]
  /\ total_supply (run ex_p ex_s0 ex_ops) = 11937
  /\ burned_run ex_p ex_s0 ex_ops = 20
  /\ common_pool (run ex_p ex_s0 ex_ops) = 10189
  /\ debdeleg (run ex_p ex_s0 ex_ops) = [((1, 2, 6), 101)]
  /\ fee_acc (run ex_p ex_s0 ex_ops) = 0 /\ vq_done (run ex_p ex_s0 ex_ops) = false.
Proof. exact ex_run. Qed.
Print Assumptions example_history.

(* ---- SlashEscrow for an arbitrary penalty and arbitrary balances (incl. penalty > active +
   debonding, where slashPool's MoveUpTo caps): the common pool gains exactly what the two
   pools lose, never more than the penalty; shares, general balance, every other account and
   the recorded supply are untouched; a penalty covering both pools empties both ---- *)
Theorem slash_exact : forall s addr amount,
  let s' := snd (slash s addr amount) in
  let a := acct s addr in let a' := acct s' addr in
  common_pool s' + bal (active a') + bal (debonding a') = common_pool s + bal (active a) + bal (debonding a)
  /\ common_pool s <= common_pool s' /\ common_pool s' - common_pool s <= amount
  /\ bal (active a') <= bal (active a) /\ bal (debonding a') <= bal (debonding a)
  /\ tsh (active a') = tsh (active a) /\ tsh (debonding a') = tsh (debonding a) /\ general a' = general a
  /\ (bal (active a) + bal (debonding a) <= amount -> bal (active a') = 0 /\ bal (debonding a') = 0)
  /\ (forall e, e <> addr -> acct s' e = acct s e)
  /\ total_supply s' = total_supply s.
Proof. exact slash_exact_l. Qed.
Print Assumptions slash_exact.

(* 150 active + 50 debonding, penalty 120 three times: 120, the remaining 80, nothing *)
Theorem slash_repeated :
  let s0 := mkSt [(1, mkAcct 0 0 (mkPool 150 150) (mkPool 50 50) [])] [((1, 1), 150)] [((1, 1, 9), 50)] 1200 1000 0 0 0 false in
  let s3 := run ex_p s0 [OSlash 1 120; OSlash 1 120; OSlash 1 120] in
  Inv s0 /\ common_pool s3 = 1200 /\ bal (active (acct s3 1)) = 0 /\ bal (debonding (acct s3 1)) = 0 /\ total_supply s3 = 1200.
Proof. exact slash_repeated_example. Qed.
Print Assumptions slash_repeated.

(* ---- parameter changes (governance ChangeParameters taking effect) between operations: every
   operation carries the parameters in force when it runs; the change itself touches no
   balance (parameters are not part of the ledger state) ---- *)
Theorem run_params_preserves_inv : forall ops s, Inv s -> Inv (run_params s ops).
Proof. exact run_params_preserves_inv_l. Qed.
Print Assumptions run_params_preserves_inv.

Theorem supply_exact_params : forall ops s, Inv s ->
  total_supply s = total_supply (run_params s ops) + burned_run_params s ops.
Proof. exact supply_run_params_l. Qed.
Print Assumptions supply_exact_params.

(* fee disbursement at begin and end of block conserves for ALL weights, zero sums included *)
Theorem fee_disbursement_conserves : forall p s pr n vs, Inv s ->
  (Inv (snd (fees_vq p s pr n vs)) /\ total_supply (snd (fees_vq p s pr n vs)) = total_supply s) /\
  (Inv (snd (fees_p p s pr)) /\ total_supply (snd (fees_p p s pr)) = total_supply s).
Proof. exact fee_disbursement_conserves_l. Qed.
Print Assumptions fee_disbursement_conserves.

(* with vote + next-propose weight = 0, fees still pending from the previous block all go to
   the common pool (nothing is dropped) *)
Theorem fees_vq_zero_weights : forall p s pr n vs,
  vq_done s = false -> p_w_vote p + p_w_next p = 0 -> n <> 0 ->
  snd (fees_vq p s pr n vs) = with_common (with_lbf s (last_block_fees s) true) (common_pool s + last_block_fees s)
  /\ fst (fees_vq p s pr n vs) = ROk.
Proof. exact fees_vq_zero_weights_l. Qed.
Print Assumptions fees_vq_zero_weights.

(* ---- withdrawals with source = caller (also for accounts with a withdraw hook, i.e. vaults,
   and whatever the hook answers): rejected, nothing changes ---- *)
Theorem withdraw_self_noop : forall p s a amt hook_ok gas_ok,
  (fst (withdraw_op p s a a amt gas_ok) <> ROk /\ snd (withdraw_op p s a a amt gas_ok) = s) /\
  (fst (withdraw_hooked p s a a amt hook_ok gas_ok) <> ROk /\ snd (withdraw_hooked p s a a amt hook_ok gas_ok) = s).
Proof. exact withdraw_self_noop_l. Qed.
Print Assumptions withdraw_self_noop.
