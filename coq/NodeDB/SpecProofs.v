(* NodeDB/SpecProofs.v — the abstract database: what each operation does to the roots metadata,
   and what holds of a finalized version over all histories. *)
From Verif Require Import Lib.Base NodeDB.Spec.

Lemma nmem_In x l : nmem x l = true <-> In x l.
Proof.
  unfold nmem. rewrite existsb_exists. split.
  - intros [y [HI HE]]. apply N.eqb_eq in HE. subst. exact HI.
  - intros HI. exists x. split; [exact HI|apply N.eqb_refl].
Qed.

Lemma nmem_app x a b : nmem x (a ++ b) = nmem x a || nmem x b.
Proof. apply existsb_app. Qed.

Lemma nmem_filter x f l : nmem x (filter f l) = nmem x l && f x.
Proof.
  unfold nmem. induction l as [|y t IH]; [reflexivity|]. cbn [filter existsb].
  destruct (f y) eqn:F; cbn [existsb]; rewrite IH; (destruct (x =? y) eqn:E; cbn [orb]; [|reflexivity]);
    apply N.eqb_eq in E; subst y; rewrite F; [reflexivity|].
  destruct (existsb (N.eqb x) t); reflexivity.
Qed.

Lemma find_root_in rid l r : find_root rid l = Some r -> In r l /\ r_id r = rid.
Proof.
  induction l as [|x t IH]; cbn [find_root]; [discriminate|].
  destruct (r_id x =? rid) eqn:E.
  - intros H. injection H as <-. apply N.eqb_eq in E. split; [left; reflexivity|exact E].
  - intros H. destruct (IH H) as [HI HE]. split; [right; exact HI|exact HE].
Qed.

Lemma find_root_has rid l x : find_root rid l = Some x -> has_rid rid l = true.
Proof. unfold has_rid. intros ->. reflexivity. Qed.

Lemma has_find rid l : has_rid rid l = true -> exists x, find_root rid l = Some x.
Proof. unfold has_rid. destruct (find_root rid l) as [x|]; [intros _; exists x; reflexivity|discriminate]. Qed.

Lemma in_has_rid r l : In r l -> has_rid (r_id r) l = true.
Proof.
  unfold has_rid. induction l as [|x t IH]; [intros []|]. cbn [find_root]. intros [->|HI].
  - rewrite N.eqb_refl. reflexivity.
  - destruct (r_id x =? r_id r); [reflexivity|exact (IH HI)].
Qed.

Lemma find_root_app rid l x :
  find_root rid (l ++ [x]) =
  match find_root rid l with Some r => Some r | None => if r_id x =? rid then Some x else None end.
Proof.
  induction l as [|y t IH]; cbn [app find_root]; [reflexivity|].
  destruct (r_id y =? rid); [reflexivity|exact IH].
Qed.

(* the first root with id [o] is the one that gains the link, and the one [find_root o] finds *)
Lemma find_root_add_derived rid o n l :
  find_root rid (add_derived o n l) =
  option_map (fun r => if o =? rid then mkroot (r_id r) (r_typ r) (r_cont r) (r_derived r ++ [n]) else r)
             (find_root rid l).
Proof.
  induction l as [|y t IH]; cbn [add_derived find_root]; [reflexivity|].
  destruct (r_id y =? o) eqn:E; cbn [find_root r_id].
  - apply N.eqb_eq in E. subst o. destruct (r_id y =? rid); [reflexivity|].
    destruct (find_root rid t); reflexivity.
  - rewrite IH. destruct (r_id y =? rid) eqn:E2; [|reflexivity].
    replace (o =? rid) with false by lia. reflexivity.
Qed.

Lemma has_rid_app rid l x : has_rid rid (l ++ [x]) = has_rid rid l || (r_id x =? rid).
Proof.
  unfold has_rid. rewrite find_root_app.
  destruct (find_root rid l); [reflexivity|]. destruct (r_id x =? rid); reflexivity.
Qed.

Lemma has_rid_add_derived rid o n l : has_rid rid (add_derived o n l) = has_rid rid l.
Proof. unfold has_rid. rewrite find_root_add_derived. destruct (find_root rid l); reflexivity. Qed.

Lemma has_rid_filter_in rid f l :
  has_rid rid (filter f l) = true -> exists r, In r l /\ r_id r = rid /\ f r = true.
Proof.
  intros H. destruct (has_find _ _ H) as [r E].
  destruct (find_root_in _ _ _ E) as [HI HE]. apply filter_In in HI as [HI Hf]. exists r. auto.
Qed.

Lemma roots_at_set e l m v l' v' :
  roots_at (mkdb e l (set_roots m v l')) v' = if v =? v' then l' else roots_at m v'.
Proof.
  unfold roots_at, set_roots. cbn [d_vers]. destruct (v =? v') eqn:E.
  - apply N.eqb_eq in E. subst. rewrite aget_aset_same. reflexivity.
  - rewrite aget_aset_other by lia. reflexivity.
Qed.

Lemma roots_at_prune_do m ver v : roots_at (s_prune_do m ver) v = if ver =? v then [] else roots_at m v.
Proof.
  unfold roots_at, s_prune_do. cbn [d_vers]. destruct (ver =? v) eqn:E.
  - apply N.eqb_eq in E. subst. rewrite aget_adel_same. reflexivity.
  - rewrite aget_adel_other by lia. reflexivity.
Qed.

Lemma listed_key m v rid : has_rid rid (roots_at m v) = true -> In v (map fst (d_vers m)).
Proof.
  unfold roots_at. induction (d_vers m) as [|[k x] r IH]; cbn [aget]; [discriminate|].
  destruct (k =? v) eqn:E; [apply N.eqb_eq in E; subst; left; reflexivity|right; auto].
Qed.

(* the roots of version [v] after a commit that created [newr]: the new root is appended to its
   version, and a non-empty old root gains the link to it *)
Definition committed (m : sdb) (ver rid : N) (old : option (N * N)) (newr : sroot) (v : N) : list sroot :=
  let l := if ver =? v then roots_at m ver ++ [newr] else roots_at m v in
  match old with
  | Some (over, orid) => if negb (is_empty_rid orid) && (over =? v) then add_derived orid rid l else l
  | None => l
  end.

Lemma s_commit_ok m ver typ rid old ws m' :
  s_commit m ver typ rid old ws = (EOk, m') ->
  d_earliest m' = d_earliest m /\ d_last m' = d_last m /\ last_geb m ver = false /\
  (has_rid rid (roots_at m ver) = true -> m' = m) /\
  (has_rid rid (roots_at m ver) = false ->
   (exists c, forall v, roots_at m' v = committed m ver rid old (mkroot rid typ c []) v) /\
   match old with
   | Some (over, orid) =>
       is_empty_rid orid = false ->
       (ver = over \/ ver = over + 1) /\ has_rid orid (roots_at m over) = true /\
       (d_earliest m <= over \/ over = ver)
   | None => True
   end).
Proof.
  unfold s_commit.
  match goal with |- context [apply_writes ws ?c] => generalize c end. intros oc.
  match goal with |- (match ?pre with EOk => _ | _ => _ end) = _ -> _ => destruct pre; try discriminate end.
  match goal with |- (if ?c then _ else _) = _ -> _ => destruct c eqn:FOL; [discriminate|] end.
  destruct (last_geb m ver); [discriminate|].
  destruct (has_rid rid (roots_at m ver)).
  { intros H. injection H as <-. repeat split; discriminate. }
  destruct old as [[over orid]|]; [destruct (is_empty_rid orid) eqn:EM|].
  - intros H. injection H as <-. cbn [d_earliest d_last]. repeat split; try discriminate.
    eexists. intros v. unfold committed. rewrite EM, roots_at_set. reflexivity.
  - destruct ((over <? d_earliest m) && negb (over =? ver)) eqn:PM; [discriminate|].
    destruct (negb (has_rid orid (roots_at m over))) eqn:HO; [discriminate|].
    intros H. injection H as <-. cbn [d_earliest d_last]. repeat split; try discriminate; try lia.
    eexists. intros v. unfold committed. rewrite EM, !roots_at_set. cbn [negb andb].
    destruct (over =? v) eqn:E; [|reflexivity]. apply N.eqb_eq in E. subst v. reflexivity.
  - intros H. injection H as <-. cbn [d_earliest d_last]. repeat split; try discriminate.
    eexists. intros v. unfold committed. rewrite roots_at_set. reflexivity.
Qed.

Lemma committed_listed m ver rid old newr v r :
  r_id newr = rid -> has_rid r (committed m ver rid old newr v) = true ->
  has_rid r (roots_at m v) = true \/ (v = ver /\ r = rid).
Proof.
  intros <-. unfold committed.
  destruct old as [[over orid]|]; [destruct (negb (is_empty_rid orid) && (over =? v))|];
    rewrite ?has_rid_add_derived; (destruct (ver =? v) eqn:E; [|auto]);
    apply N.eqb_eq in E; subst v; rewrite has_rid_app; intros H;
    (apply orb_true_iff in H as [H|H]; [left; exact H|right; lia]).
Qed.

Lemma committed_cont m ver rid old newr v r :
  ver <> v ->
  option_map r_cont (find_root r (committed m ver rid old newr v)) =
  option_map r_cont (find_root r (roots_at m v)).
Proof.
  intros NE. unfold committed. replace (ver =? v) with false by lia.
  destruct old as [[over orid]|]; [destruct (negb (is_empty_rid orid) && (over =? v))|]; try reflexivity.
  rewrite find_root_add_derived. destruct (find_root r (roots_at m v)); [|reflexivity].
  cbn [option_map]. destruct (orid =? r); reflexivity.
Qed.

Lemma s_commit_err m ver typ rid old ws e m' :
  s_commit m ver typ rid old ws = (e, m') -> e <> EOk -> m' = m.
Proof.
  unfold s_commit.
  match goal with |- (match ?pre with EOk => _ | _ => _ end) = _ -> _ => destruct pre end;
    try (intros H; injection H as <- <-; reflexivity).
  repeat match goal with
         | |- (if ?c then _ else _) = _ -> _ => destruct c
         | |- (match ?o with Some _ => _ | None => _ end) = _ -> _ => destruct o as [[? ?]|]
         end;
    intros H; injection H as <- <-; intros NE; try reflexivity; exfalso; apply NE; reflexivity.
Qed.

Lemma s_finalize_ok m ver rids m' :
  s_finalize m ver rids = (EOk, m') ->
  d_last m' = Some ver /\ last_geb m ver = false /\
  d_earliest m' = (match d_last m with None => ver | Some _ => d_earliest m end) /\
  forall v, roots_at m' v =
            if ver =? v then filter (fun r => nmem (r_id r) (fin_set (roots_at m ver) rids)) (roots_at m ver)
            else roots_at m v.
Proof.
  unfold s_finalize. destruct rids as [|r0 rs]; [discriminate|].
  destruct (match d_last m with Some l => (0 <? ver) && (l + 1 <? ver) | None => false end); [discriminate|].
  destruct (last_geb m ver); [discriminate|].
  destruct (negb (forallb _ _)); [discriminate|].
  intros H. injection H as <-. cbn [d_last d_earliest]. repeat split. intros v. apply roots_at_set.
Qed.

Lemma s_finalize_listed m ver rids m' v r :
  s_finalize m ver rids = (EOk, m') ->
  has_rid r (roots_at m' v) = true -> has_rid r (roots_at m v) = true.
Proof.
  intros SF. destruct (s_finalize_ok _ _ _ _ SF) as [_ [_ [_ HR]]]. rewrite HR.
  destruct (ver =? v) eqn:E; [|auto]. apply N.eqb_eq in E. subst v. intros H.
  destruct (has_rid_filter_in _ _ _ H) as [x [HI [<- _]]]. apply in_has_rid, HI.
Qed.

Lemma s_finalize_err m ver rids e m' : s_finalize m ver rids = (e, m') -> e <> EOk -> m' = m.
Proof.
  unfold s_finalize. destruct rids; [intros H; injection H as <- <-; reflexivity|].
  repeat match goal with |- (if ?c then _ else _) = _ -> _ => destruct c end;
    intros H; injection H as <- <-; intros NE; try reflexivity; exfalso; apply NE; reflexivity.
Qed.

Lemma s_prune_check_ok s v :
  s_prune_check s v = EOk -> exists l, d_last s = Some l /\ v = d_earliest s /\ v < l.
Proof.
  unfold s_prune_check. destruct (d_last s) as [l|]; [|discriminate].
  destruct (l <? v) eqn:E1; [discriminate|].
  destruct (negb (v =? d_earliest s)) eqn:E2; [discriminate|].
  destruct (v =? l) eqn:E3; [discriminate|].
  intros _. exists l. repeat split; lia.
Qed.

Lemma s_prune_ok s v s' :
  s_prune s v = (EOk, s') ->
  exists l, d_last s = Some l /\ v = d_earliest s /\ v < l /\
            d_earliest s' = v + 1 /\ d_last s' = Some l /\
            (forall u, u <> v -> roots_at s' u = roots_at s u) /\ roots_at s' v = [].
Proof.
  unfold s_prune. destruct (s_prune_check s v) eqn:PC; try discriminate.
  intros H. injection H as <-. destruct (s_prune_check_ok _ _ PC) as [l [DL [EV LT]]].
  exists l. cbn [s_prune_do d_earliest d_last]. repeat split; try assumption.
  - intros u Hu. rewrite roots_at_prune_do. replace (v =? u) with false by lia. reflexivity.
  - rewrite roots_at_prune_do, N.eqb_refl. reflexivity.
Qed.

Lemma s_prune_err s v e s' : s_prune s v = (e, s') -> e <> EOk -> s' = s.
Proof.
  unfold s_prune. destruct (s_prune_check s v); intros H; injection H as <- <-; intros NE;
    try reflexivity. exfalso. apply NE. reflexivity.
Qed.

(* what any history keeps of a finalized version [v] *)
Definition fin_kept (v : N) (s s' : sdb) : Prop :=
  last_geb s' v = true /\ d_earliest s <= d_earliest s' /\
  (d_earliest s' <= v -> forall rid,
     option_map r_cont (find_root rid (roots_at s' v)) = option_map r_cont (find_root rid (roots_at s v))).

Lemma fin_kept_refl v s : last_geb s v = true -> fin_kept v s s.
Proof. intros LG. split; [exact LG|split; [lia|reflexivity]]. Qed.

Lemma fin_kept_trans v s1 s2 s3 : fin_kept v s1 s2 -> fin_kept v s2 s3 -> fin_kept v s1 s3.
Proof.
  intros [_ [M1 R1]] [L2 [M2 R2]]. split; [exact L2|]. split; [lia|].
  intros Hv rid. rewrite (R2 Hv). apply R1. lia.
Qed.

Lemma s_step_finalized s o v : last_geb s v = true -> fin_kept v s (snd (s_step s o)).
Proof.
  intros LG. pose proof (fin_kept_refl v s LG) as U.
  unfold last_geb in LG. destruct (d_last s) as [l|] eqn:DL; [|discriminate].
  destruct o as [ver typ r2 old ws p1 p2 p3 p4|ver rids|ver]; cbn [s_step].
  - destruct (s_commit s ver typ r2 old ws) as [e m'] eqn:SC. cbn [snd].
    destruct e; try (rewrite (s_commit_err _ _ _ _ _ _ _ _ SC) by discriminate; exact U).
    destruct (s_commit_ok _ _ _ _ _ _ _ SC) as [HE [HL [LV [HM HF]]]].
    destruct (has_rid r2 (roots_at s ver)); [rewrite HM by reflexivity; exact U|].
    destruct (HF eq_refl) as [[c HC] _]. unfold fin_kept, last_geb in *. rewrite HL, HE, DL in *.
    split; [exact LG|]. split; [lia|]. intros _ rid. rewrite HC. apply committed_cont. lia.
  - destruct (s_finalize s ver rids) as [e m'] eqn:SF. cbn [snd].
    destruct e; try (rewrite (s_finalize_err _ _ _ _ _ SF) by discriminate; exact U).
    destruct (s_finalize_ok _ _ _ _ SF) as [HL [LV [HE HR]]].
    unfold fin_kept, last_geb in *. rewrite HL, HE, DL in *.
    split; [lia|]. split; [lia|]. intros _ rid. rewrite HR. replace (ver =? v) with false by lia. reflexivity.
  - destruct (s_prune s ver) as [e m'] eqn:SP. cbn [snd].
    destruct e; try (rewrite (s_prune_err _ _ _ _ SP) by discriminate; exact U).
    destruct (s_prune_ok _ _ _ SP) as [l2 [H1 [H2 [H3 [H4 [H5 [H6 _]]]]]]].
    unfold fin_kept, last_geb. rewrite H5, H4. rewrite DL in H1. injection H1 as <-.
    split; [exact LG|]. split; [lia|]. intros Hv rid. rewrite H6 by lia. reflexivity.
Qed.

Lemma s_run_finalized h : forall s v, last_geb s v = true -> fin_kept v s (s_run s h).
Proof.
  induction h as [|o t IH]; intros s v LG; [exact (fin_kept_refl v s LG)|].
  pose proof (s_step_finalized s o v LG) as K. exact (fin_kept_trans _ _ _ _ K (IH _ v (proj1 K))).
Qed.

(* a root of a finalized version reads back the same contents after any continuation that
   does not prune that version *)
Lemma s_finalized_stable h s v rid c :
  last_geb s v = true -> s_read s v rid = Some c ->
  d_earliest (s_run s h) <= v -> s_read (s_run s h) v rid = Some c.
Proof.
  intros LG HR HE. destruct (s_run_finalized h s v LG) as [_ [MO RE]].
  unfold s_read in *. destruct (is_empty_rid rid); [exact HR|].
  replace (d_earliest (s_run s h) <=? v) with true by lia.
  destruct (d_earliest s <=? v); [|discriminate].
  exact (eq_trans (RE HE rid) HR).
Qed.

(* once a version is finalized, each of its candidate roots is, after any continuation,
   either reported absent or read back with exactly the contents it had *)
Lemma s_absent_or_exact h s v rid :
  last_geb s v = true ->
  s_read (s_run s h) v rid = None \/ s_read (s_run s h) v rid = s_read s v rid.
Proof.
  intros LG. destruct (s_run_finalized h s v LG) as [_ [MO RE]].
  unfold s_read. destruct (is_empty_rid rid); [right; reflexivity|].
  destruct (d_earliest (s_run s h) <=? v) eqn:E; [|left; reflexivity].
  right. replace (d_earliest s <=? v) with true by lia. apply (RE ltac:(lia) rid).
Qed.
