(* The exhaustive enumeration of map iterations and other sources of replica-local
   nondeterminism (Gen/MuxMapSites.v, from harness/cmd/gen muxmapsites) and the generic
   facts each reviewed class relies on.

     SortedBeforeUse   sort canonicity             (MuxProofs.sort_by_canonical, MapOrderProofs)
     OrderInsensitive  fold of a commuting step over any permutation; per-key independent
                       writes; delete-by-predicate; universal/existential tests; strict-majority
                       arg-max                       (this file)
     LoggedOnly        an arbitrary node-local oracle whose answers are only logged
                                                     (LocalOracle.exec_block_ignores_local_oracle)
     PanicToReject     the recovered panic resets the proposal cache
                                                     (MuxProofs.aborted_round_resets_cache, _harmless)
     ErrorOnly / NotInExecPath / LocalOnly / Deterministic / UnsafeDebugFlag / HaltsNode
                       no lemma: justified in coq/Abci/mapsites_reviewed.json (reviewed by hand) *)
From Coq Require Import Permutation.
From Verif Require Import Lib.Base Gen.MuxMapSites.

Definition reviewed (s : site) : bool :=
  match s_class s with Unreviewed => false | _ => true end.
Definition class_count (c : siteclass -> bool) : nat := List.length (filter (fun s => c (s_class s)) sites).

(* every enumerated site is in the reviewed table with the statement text it was reviewed with *)
Lemma all_sites_reviewed : forallb reviewed sites = true.
Proof. vm_compute. reflexivity. Qed.

Lemma enumeration_not_empty : (50 <=? List.length sites)%nat = true /\ (40 <=? packages_loaded)%nat = true.
Proof. vm_compute. split; reflexivity. Qed.

(* ---------- OrderInsensitive: commuting folds ---------- *)
(* up to an observation [R] of the accumulator, for steps that commute only for
   DIFFERENT entries (independent per-key writes into a map) *)
Section FoldRel.
  Context {A B : Type} (f : A -> B -> A) (R : A -> A -> Prop).
  Hypothesis R_refl : forall a, R a a.
  Hypothesis R_trans : forall a b c, R a b -> R b c -> R a c.
  Hypothesis f_proper : forall a b x, R a b -> R (f a x) (f b x).
  Variable indep : B -> B -> Prop.
  Hypothesis f_comm : forall a x y, indep x y -> R (f (f a x) y) (f (f a y) x).

  Lemma fold_left_proper l : forall a b, R a b -> R (fold_left f l a) (fold_left f l b).
  Proof. induction l as [|x l IH]; intros a b H; cbn [fold_left]; [exact H|]. apply IH. apply f_proper. exact H. Qed.

  (* independence as a condition on the SET of entries: invariant under permutation *)
  Lemma fold_left_perm_rel l1 l2 :
    Permutation l1 l2 -> (forall x y, In x l1 -> In y l1 -> x = y \/ indep x y) ->
    forall a, R (fold_left f l1 a) (fold_left f l2 a).
  Proof.
    induction 1 as [|x l l' _ IH|x y l|l l' l'' Hp1 IH1 _ IH2]; intros Hind a; cbn [fold_left].
    - apply R_refl.
    - apply IH. intros u v Hu Hv. apply Hind; right; assumption.
    - apply fold_left_proper. destruct (Hind y x) as [->|Hi]; [left; reflexivity|right; left; reflexivity|apply R_refl|].
      apply f_comm. exact Hi.
    - eapply R_trans; [apply IH1; exact Hind|]. apply IH2.
      intros u v Hu Hv. apply Hind; eapply Permutation_in; try apply Permutation_sym; eassumption.
  Qed.
End FoldRel.

(* [R] := eq, any two entries independent *)
Lemma fold_left_perm {A B} (f : A -> B -> A) :
  (forall a x y, f (f a x) y = f (f a y) x) ->
  forall l1 l2, Permutation l1 l2 -> forall a, fold_left f l1 a = fold_left f l2 a.
Proof.
  intros Hc l1 l2 Hp.
  apply (fold_left_perm_rel f eq (@eq_refl A) (@eq_trans A)) with (indep := fun _ _ => True).
  - intros a b x ->. reflexivity.
  - intros a x y _. apply Hc.
  - exact Hp.
  - intros x y _ _. right. exact I.
Qed.

(* instances used by the review *)
Lemma sum_perm l1 l2 : Permutation l1 l2 -> fold_left N.add l1 0 = fold_left N.add l2 0.
Proof. intros H. apply fold_left_perm; [intros; lia|exact H]. Qed.
Lemma max_perm l1 l2 : Permutation l1 l2 -> fold_left N.max l1 0 = fold_left N.max l2 0.
Proof. intros H. apply fold_left_perm; [intros; lia|exact H]. Qed.
Lemma count_perm {B} (p : B -> bool) l1 l2 :
  Permutation l1 l2 -> fold_left (fun n x => if p x then n + 1 else n) l1 0 = fold_left (fun n x => if p x then n + 1 else n) l2 0.
Proof. intros H. apply fold_left_perm; [|exact H]. intros a x y. destruct (p x), (p y); lia. Qed.
Lemma all_perm {B} (p : B -> bool) l1 l2 : Permutation l1 l2 -> forallb p l1 = forallb p l2.
Proof.
  induction 1 as [|x l l' _ IH|x y l|l l' l'' _ IH1 _ IH2]; cbn [forallb]; try congruence.
  destruct (p x), (p y); reflexivity.
Qed.
Lemma any_perm {B} (p : B -> bool) l1 l2 : Permutation l1 l2 -> existsb p l1 = existsb p l2.
Proof.
  induction 1 as [|x l l' _ IH|x y l|l l' l'' _ IH1 _ IH2]; cbn [existsb]; try congruence.
  destruct (p x), (p y); reflexivity.
Qed.

(* independent per-key writes: lookups in the resulting map do not depend on the order *)
Definition write_all {V} (l : list (N * V)) (m : list (N * V)) : list (N * V) :=
  fold_left (fun m kv => aset (fst kv) (snd kv) m) l m.

Lemma per_key_writes_perm {V} (l1 l2 : list (N * V)) m :
  Permutation l1 l2 -> NoDup (map fst l1) -> forall k, aget k (write_all l1 m) = aget k (write_all l2 m).
Proof.
  intros Hp Hnd k. unfold write_all.
  apply (fold_left_perm_rel (fun m kv => aset (fst kv) (snd kv) m) (fun a b => forall k, aget k a = aget k b)
                            (fun _ _ => eq_refl) (fun a b c H1 H2 k => eq_trans (H1 k) (H2 k)))
    with (indep := fun x y : N * V => fst x <> fst y); try assumption.
  - intros a b x H k0. destruct (N.eq_dec k0 (fst x)) as [->|Hne].
    + rewrite !aget_aset_same. reflexivity.
    + rewrite !aget_aset_other by exact Hne. apply H.
  - intros a x y Hxy k0.
    destruct (N.eq_dec k0 (fst y)) as [->|Hy].
    + rewrite aget_aset_same. rewrite aget_aset_other by (intros E; apply Hxy; congruence). rewrite aget_aset_same. reflexivity.
    + rewrite aget_aset_other by exact Hy.
      destruct (N.eq_dec k0 (fst x)) as [->|Hx].
      * rewrite !aget_aset_same. reflexivity.
      * rewrite !aget_aset_other by assumption. reflexivity.
  - clear - Hnd. induction l1 as [|z l IH]; intros x y Hx Hy; [destruct Hx|].
    cbn [map] in Hnd. inversion Hnd as [|? ? Hn Hd]; subst.
    destruct Hx as [->|Hx], Hy as [->|Hy]; [left; reflexivity| | |apply IH; assumption]; right; intros E; apply Hn.
    + rewrite E. apply in_map. exact Hy.
    + rewrite <- E. apply in_map. exact Hx.
Qed.

(* delete-by-predicate (commitment pool, sites in pool.go): what survives is the filtered set *)
Lemma delete_by_predicate_perm {B} (keep : B -> bool) l1 l2 : Permutation l1 l2 -> Permutation (filter keep l1) (filter keep l2).
Proof.
  induction 1 as [|x l l' _ IH|x y l|l l' l'' _ IH1 _ IH2]; cbn [filter].
  - constructor.
  - destruct (keep x); [constructor|]; exact IH.
  - destruct (keep x), (keep y); first [apply perm_swap | apply Permutation_refl].
  - eapply Permutation_trans; eassumption.
Qed.

(* strict-majority arg-max (roothash/api/commitment/pool.go, discrepancy resolution): the loop
   "if v > best { hash = h; best = v }" over a map.  [best] is the maximum; [hash] depends on the
   iteration order only among entries with equal top votes -- and it is only used when
   best >= total/2+1, where the top entry is unique. *)
Definition argmax_step (acc : option N * N) (hv : N * N) : option N * N :=
  if snd acc <? snd hv then (Some (fst hv), snd hv) else acc.
Definition argmax (l : list (N * N)) : option N * N := fold_left argmax_step l (None, 0).
Definition vsum (l : list (N * N)) : N := fold_left (fun a hv => a + snd hv) l 0.

Lemma argmax_inv l : forall acc,
  snd acc <= snd (fold_left argmax_step l acc) /\
  (forall hv, In hv l -> snd hv <= snd (fold_left argmax_step l acc)) /\
  (fold_left argmax_step l acc = acc \/
   exists h, fst (fold_left argmax_step l acc) = Some h /\ In (h, snd (fold_left argmax_step l acc)) l).
Proof.
  induction l as [|[h v] l IH]; intros acc; cbn [fold_left].
  - split; [lia|]. split; [intros hv []|left; reflexivity].
  - assert (Hstep : snd acc <= snd (argmax_step acc (h, v)) /\ v <= snd (argmax_step acc (h, v)) /\
                    (argmax_step acc (h, v) = acc \/ argmax_step acc (h, v) = (Some h, v))).
    { unfold argmax_step. cbn [fst snd]. destruct (snd acc <? v) eqn:E; cbn [snd]; repeat split; try lia; auto. }
    destruct Hstep as (S1 & S2 & S3). destruct (IH (argmax_step acc (h, v))) as (H1 & H2 & H3).
    split; [lia|]. split.
    + intros hv [<-|Hin]; [cbn [snd]; lia|apply H2; exact Hin].
    + destruct H3 as [E3|(h' & Hf & Hin)]; [|right; exists h'; split; [exact Hf|right; exact Hin]].
      rewrite E3. destruct S3 as [->| ->]; [left; reflexivity|right; exists h; split; [reflexivity|left; reflexivity]].
Qed.

Lemma vsum_perm l1 l2 : Permutation l1 l2 -> vsum l1 = vsum l2.
Proof. intros H. unfold vsum. apply fold_left_perm; [intros; lia|exact H]. Qed.

Lemma vsum_two l h1 h2 v : NoDup (map fst l) -> In (h1, v) l -> In (h2, v) l -> h1 <> h2 -> 2 * v <= vsum l.
Proof.
  intros Hnd H1 H2 Hne.
  apply in_split in H1 as (la & lb & ->).
  assert (Hp : Permutation (la ++ (h1, v) :: lb) ((h1, v) :: la ++ lb)) by (apply Permutation_sym, Permutation_middle).
  rewrite (vsum_perm _ _ Hp).
  assert (H2' : In (h2, v) (la ++ lb)).
  { apply in_app_or in H2 as [H|[H|H]]; [apply in_or_app; left; exact H|congruence|apply in_or_app; right; exact H]. }
  apply in_split in H2' as (lc & ld & E). rewrite E.
  assert (Hp2 : Permutation ((h1, v) :: lc ++ (h2, v) :: ld) ((h1, v) :: (h2, v) :: lc ++ ld)) by (constructor; apply Permutation_sym, Permutation_middle).
  rewrite (vsum_perm _ _ Hp2). unfold vsum. cbn [fold_left snd].
  apply (fold_left_invariant (fun a => 2 * v <= a)); [intros; lia|lia].
Qed.

Theorem majority_argmax_unique l1 l2 :
  NoDup (map fst l1) -> Permutation l1 l2 ->
  snd (argmax l1) = snd (argmax l2) /\
  (vsum l1 < 2 * snd (argmax l1) -> fst (argmax l1) = fst (argmax l2)).
Proof.
  intros Hnd Hp. unfold argmax.
  destruct (argmax_inv l1 (None, 0)) as (_ & M1 & W1).
  destruct (argmax_inv l2 (None, 0)) as (_ & M2 & W2).
  set (r1 := fold_left argmax_step l1 (None, 0)) in *. set (r2 := fold_left argmax_step l2 (None, 0)) in *.
  assert (Es : snd r1 = snd r2).
  { assert (snd r1 <= snd r2).
    { destruct W1 as [->|(h & _ & Hin)]; [cbn; lia|]. apply (Permutation_in _ Hp) in Hin. apply M2 in Hin. exact Hin. }
    assert (snd r2 <= snd r1).
    { destruct W2 as [->|(h & _ & Hin)]; [cbn; lia|]. apply (Permutation_in _ (Permutation_sym Hp)) in Hin. apply M1 in Hin. exact Hin. }
    lia. }
  split; [exact Es|]. intros Hmaj.
  destruct W1 as [E1|(h1 & F1 & I1)].
  { rewrite E1 in Hmaj. cbn in Hmaj. lia. }
  destruct W2 as [E2|(h2 & F2 & I2)].
  { rewrite E2 in Es. cbn in Es. lia. }
  rewrite F1, F2. f_equal.
  destruct (N.eq_dec h1 h2) as [E|Hne]; [exact E|exfalso].
  apply (Permutation_in _ (Permutation_sym Hp)) in I2. rewrite <- Es in I2.
  pose proof (vsum_two l1 h1 h2 (snd r1) Hnd I1 I2 Hne). lia.
Qed.
