(* C14, validator election: voting power from stake; every elected validator
   is an eligible one and the size and per-entity limits hold, for the entropy
   shuffle and for VRF sortition. *)
From Verif Require Import Lib.Base Sched.Elect Sched.ElectSpec Sched.ElectLemmas Sched.ElectCore.
From Coq Require Import Permutation.

(* the power before the floor at 1 and the overflow check *)
Definition raw_power (sq : bool) (stake : N) : N :=
  if sq then N.sqrt stake else stake / BASE_UNITS_PER_POWER.
Lemma raw_power_mono sq a b : a <= b -> raw_power sq a <= raw_power sq b.
Proof.
  intros H. unfold raw_power. destruct sq; [apply N.sqrt_le_mono; exact H|].
  apply N.div_le_mono; [unfold BASE_UNITS_PER_POWER; lia|exact H].
Qed.
Lemma voting_power_spec sq s :
  voting_power sq s = if raw_power sq s <? 2 ^ 63 then Some (N.max 1 (raw_power sq s)) else None.
Proof.
  unfold voting_power, raw_power. destruct sq; cbv zeta.
  - destruct (s =? 0) eqn:E.
    + apply N.eqb_eq in E. subst s. reflexivity.
    + assert (1 <= N.sqrt s) by (apply N.sqrt_le_square; lia).
      rewrite N.max_r by assumption. reflexivity.
  - set (q := s / BASE_UNITS_PER_POWER). destruct (q =? 0) eqn:E.
    + apply N.eqb_eq in E. rewrite E. reflexivity.
    + rewrite N.max_r by lia. reflexivity.
Qed.

Lemma power_positive sq s x : voting_power sq s = Some x -> 1 <= x.
Proof.
  rewrite voting_power_spec. destruct (raw_power sq s <? 2 ^ 63); [intros [= <-]; lia|discriminate].
Qed.

Lemma power_monotone sq a b x y :
  a <= b -> voting_power sq a = Some x -> voting_power sq b = Some y -> x <= y.
Proof.
  intros Hab. pose proof (raw_power_mono sq a b Hab) as Hr. rewrite !voting_power_spec.
  destruct (raw_power sq a <? 2 ^ 63); [|discriminate].
  destruct (raw_power sq b <? 2 ^ 63); [|discriminate].
  intros [= <-] [= <-]. lia.
Qed.

Lemma power_defined_downward sq a b y :
  a <= b -> voting_power sq b = Some y -> exists x, voting_power sq a = Some x.
Proof.
  intros Hab. pose proof (raw_power_mono sq a b Hab) as Hr. rewrite !voting_power_spec.
  destruct (raw_power sq b <? 2 ^ 63) eqn:Eb; [intros _|discriminate].
  destruct (raw_power sq a <? 2 ^ 63) eqn:Ea; [eexists; reflexivity|lia].
Qed.

Lemma node_power_positive p ents n pw : node_power p ents n = Some pw -> 1 <= pw.
Proof.
  unfold node_power. destruct (p_bypass p); [intros [= <-]; lia|apply power_positive].
Qed.

(* the election for ANY shuffled candidate list [sh] drawn from the candidates *)
Theorem core_sound p ents epoch nodes pe sh vals vents :
  (forall n, In n sh -> In n (vcands p ents epoch nodes)) ->
  elect_core p ents pe (vcands p ents epoch nodes) sh = VOk vals vents ->
  Forall (validator_ok p ents epoch nodes) vals /\
  len vals <= N.max 1 (p_max p) /\ p_min p <= len vals /\ 1 <= len vals.
Proof.
  intros Hsh H. destruct (elect_ok_inv _ _ _ _ _ _ _ H) as [acc [Hf [-> [Hmin Hpos]]]].
  (* invariant: while the inserted candidates are validator candidates, every entry is a sound one *)
  apply (fill_invariant p ents
           (fun done acc => (forall n, In n done -> In n (vcands p ents epoch nodes)) ->
                            Forall (validator_ok p ents epoch nodes) acc) [])
    in Hf as [cs1 [cs2 [Hcs [HI [Hlen _]]]]].
  - rewrite (len_perm _ _ (sort_by_perm fst acc)). rewrite len_nil in Hlen. split; [|lia].
    eapply Permutation_Forall; [symmetry; apply sort_by_perm|]. apply HI.
    intros n Hn. apply Hsh, (cand_seq_sh_In p ents pe (vcands p ents epoch nodes)).
    rewrite Hcs. apply in_or_app. left. exact Hn.
  - intros done acc0 n pw HI Hpw Hd. constructor.
    + assert (Hn : In n (vcands p ents epoch nodes)) by (apply Hd, in_or_app; right; left; reflexivity).
      apply vcands_spec in Hn. destruct Hn as [Hn [Hlive Hc]].
      apply live_spec in Hlive. destruct Hlive as [Hfr Hexp].
      unfold is_vcand in Hc. rewrite andb_true_iff, orb_true_iff in Hc. destruct Hc as [Hc1 Hc2].
      exists n, pw. repeat split; trivial. eapply node_power_positive. exact Hpw.
    + assert (Ha : Forall (validator_ok p ents epoch nodes) acc0).
      { apply HI. intros m Hm. apply Hd, in_or_app. left. exact Hm. }
      rewrite Forall_forall in *. intros kv Hkv. apply Ha. eapply adel_incl. exact Hkv.
  - intros _. constructor.
Qed.

Lemma core_powers_nonzero p ents epoch nodes pe sh vals vents :
  (forall n, In n sh -> In n (vcands p ents epoch nodes)) ->
  elect_core p ents pe (vcands p ents epoch nodes) sh = VOk vals vents ->
  Forall (fun kv => snd kv <> 0) (powers_of vals).
Proof.
  intros Hsh H. destruct (core_sound _ _ _ _ _ _ _ _ Hsh H) as [Hv _].
  unfold powers_of. rewrite Forall_map. eapply Forall_impl; [|exact Hv].
  intros kv [n [pw [_ [-> [_ [_ [_ [_ [_ Hpw]]]]]]]]]. cbn [fst snd]. lia.
Qed.

(* every elected validator is a registered, unexpired, unfrozen node with the
   validator role whose entity's escrow covers its claims; the count limits
   hold -- for EVERY pair of index lists used as shuffles *)
Theorem elect_sound p ents epoch nodes pe pn vals vents :
  elect_validators p ents epoch nodes pe pn = VOk vals vents ->
  Forall (validator_ok p ents epoch nodes) vals /\
  len vals <= N.max 1 (p_max p) /\ p_min p <= len vals /\ 1 <= len vals.
Proof.
  unfold elect_validators. apply core_sound. intros n Hn. eapply In_apply_perm. exact Hn.
Qed.

Theorem core_per_entity p ents pe cands sh vals vents :
  is_perm pe (length (usort (map n_ent cands))) ->
  elect_core p ents pe cands sh = VOk vals vents ->
  forall e, count_ent e vals <= p_per p.
Proof.
  intros Hpe H e. destruct (elect_ok_inv _ _ _ _ _ _ _ H) as [acc [Hf [-> _]]].
  rewrite (count_ent_perm e _ _ (sort_by_perm fst acc)).
  pose proof (fill_count _ _ _ _ _ e Hf) as H1.
  pose proof (count_flat_picks p sh e _ (by_stake_nodup p ents pe _ Hpe)) as H2.
  unfold cand_seq_sh in H1. lia.
Qed.

Theorem elect_per_entity p ents epoch nodes pe pn vals vents :
  is_perm pe (length (usort (map n_ent (vcands p ents epoch nodes)))) ->
  elect_validators p ents epoch nodes pe pn = VOk vals vents ->
  forall e, count_ent e vals <= p_per p.
Proof. intros Hpe H. eapply core_per_entity; eassumption. Qed.

Theorem elect_sound_vrf p ents epoch nodes pe pn beta vals vents :
  elect_validators_vrf p ents epoch nodes pe pn beta = VOk vals vents ->
  Forall (validator_ok p ents epoch nodes) vals /\
  len vals <= N.max 1 (p_max p) /\ p_min p <= len vals /\ 1 <= len vals.
Proof.
  unfold elect_validators_vrf. apply core_sound. intros n Hn.
  destruct (len (filter (has_pi beta) (vcands p ents epoch nodes)) <? p_min p).
  - eapply In_apply_perm. exact Hn.
  - apply vrf_sort_In in Hn. tauto.
Qed.
Theorem elect_per_entity_vrf p ents epoch nodes pe pn beta vals vents :
  is_perm pe (length (usort (map n_ent (vcands p ents epoch nodes)))) ->
  elect_validators_vrf p ents epoch nodes pe pn beta = VOk vals vents ->
  forall e, count_ent e vals <= p_per p.
Proof. intros Hpe H. eapply core_per_entity; eassumption. Qed.
