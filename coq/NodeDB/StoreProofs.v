(* NodeDB/StoreProofs.v — reads of a timestamped write log.  [Badger.best] and
   [PathBadger.fbest] are one function, [newest], over two key types; a log read is the
   left-biased maximum [newer] of the reads of its parts. *)
From Verif Require Import Lib.Base NodeDB.Spec NodeDB.SpecProofs NodeDB.PathBadger NodeDB.Badger.

Section Newest.
  Context {K V : Type} (eqb : K -> K -> bool).
  Hypothesis eqb_eq : forall a b, eqb a b = true <-> a = b.

  Definition newer (a b : option (N * V)) : option (N * V) :=
    match a with
    | Some (ta, _) => match b with Some (tb, _) => if tb <=? ta then a else b | None => a end
    | None => b
    end.

  Definition hit (k : K) (t : N) (e : K * N * V) : option (N * V) :=
    let '(k', ts, v) := e in if eqb k' k && (ts <=? t) then Some (ts, v) else None.

  Fixpoint newest (k : K) (t : N) (st : list (K * N * V)) : option (N * V) :=
    match st with
    | [] => None
    | e :: r => newer (hit k t e) (newest k t r)
    end.

  Lemma newer_assoc a b c : newer a (newer b c) = newer (newer a b) c.
  Proof.
    destruct a as [[ta va]|], b as [[tb vb]|], c as [[tc vc]|]; cbn [newer]; try reflexivity.
    - destruct (tc <=? tb) eqn:E1, (tb <=? ta) eqn:E2; cbn [newer]; rewrite ?E1, ?E2; try reflexivity;
        destruct (tc <=? ta) eqn:E3; try reflexivity; lia.
    - destruct (tb <=? ta); reflexivity.
  Qed.

  Lemma newer_either a b x : newer a b = Some x -> a = Some x \/ b = Some x.
  Proof.
    destruct a as [[ta va]|], b as [[tb vb]|]; cbn [newer]; [destruct (tb <=? ta)|..]; auto.
  Qed.

  Lemma newer_ge a b ts v :
    a = Some (ts, v) \/ b = Some (ts, v) -> exists ts' v', newer a b = Some (ts', v') /\ ts <= ts'.
  Proof.
    destruct a as [[ta va]|], b as [[tb vb]|]; cbn [newer]; try destruct (tb <=? ta) eqn:E;
      intros [H|H]; try discriminate; injection H as -> ->; eexists _, _; (split; [reflexivity|lia]).
  Qed.

  Lemma newest_app k t l1 l2 : newest k t (l1 ++ l2) = newer (newest k t l1) (newest k t l2).
  Proof.
    induction l1 as [|e l1 IH]; cbn [app newest]; [reflexivity|]. rewrite IH. apply newer_assoc.
  Qed.

  Lemma hit_same k t ts v : ts <= t -> hit k t (k, ts, v) = Some (ts, v).
  Proof.
    intros Hle. cbn [hit]. rewrite (proj2 (eqb_eq k k) eq_refl).
    replace (ts <=? t) with true by lia. reflexivity.
  Qed.

  Lemma hit_in k t e ts v : hit k t e = Some (ts, v) -> e = (k, ts, v) /\ ts <= t.
  Proof.
    destruct e as [[k' ts'] v']. cbn [hit]. destruct (eqb k' k && (ts' <=? t)) eqn:C; [|discriminate].
    apply andb_true_iff in C as [C1 C2]. apply eqb_eq in C1. intros H. injection H as <- <-.
    subst k'. split; [reflexivity|lia].
  Qed.

  Lemma newest_in k t st ts v : newest k t st = Some (ts, v) -> In (k, ts, v) st /\ ts <= t.
  Proof.
    induction st as [|e r IH]; [discriminate|]. cbn [newest]. intros H.
    apply newer_either in H as [H|H].
    - apply hit_in in H as [-> Hle]. split; [left; reflexivity|exact Hle].
    - destruct (IH H) as [HI Hle]. split; [right; exact HI|exact Hle].
  Qed.

  Lemma newest_ge k t st ts v :
    In (k, ts, v) st -> ts <= t -> exists ts' v', newest k t st = Some (ts', v') /\ ts <= ts'.
  Proof.
    induction st as [|e r IH]; [intros []|]. cbn [newest]. intros [->|HI] Hle.
    - apply (newer_ge _ _ ts v). left. apply hit_same. exact Hle.
    - destruct (IH HI Hle) as [a [va [E Ha]]].
      destruct (newer_ge (hit k t e) _ a va (or_intror E)) as [b [vb [E2 Hb]]].
      exists b, vb. split; [exact E2|lia].
  Qed.

  Lemma newest_drop k t l1 k0 ts v l2 ts' v' :
    In (k0, ts', v') (l1 ++ l2) -> ts < ts' -> ts' <= t ->
    newest k t (l1 ++ (k0, ts, v) :: l2) = newest k t (l1 ++ l2).
  Proof.
    intros HI Hlt Hle. rewrite !newest_app. cbn [newest hit].
    destruct (eqb k0 k && (ts <=? t)) eqn:C; [|reflexivity].
    apply andb_true_iff in C as [C _]. apply eqb_eq in C. subst k0.
    apply in_app_or in HI as [HI|HI]; destruct (newest_ge k t _ ts' v' HI Hle) as [a [va [E Ha]]]; rewrite E.
    - destruct (newest k t l2) as [[b vb]|]; cbn [newer].
      + destruct (b <=? ts) eqn:E1; cbn [newer]; [|reflexivity].
        replace (ts <=? a) with true by lia. replace (b <=? a) with true by lia. reflexivity.
      + replace (ts <=? a) with true by lia. reflexivity.
    - cbn [newer]. replace (a <=? ts) with false by lia. reflexivity.
  Qed.
End Newest.

Lemma best_newest n t st : best n t st = newest N.eqb n t st.
Proof.
  induction st as [|[[n' ts] b] r IH]; [reflexivity|]. cbn [best newest hit]. rewrite <- IH.
  destruct ((n' =? n) && (ts <=? t)); [|reflexivity].
  destruct (best n t r) as [[ts' b']|]; reflexivity.
Qed.

Lemma best_in n t st ts b : best n t st = Some (ts, b) -> In (n, ts, b) st /\ ts <= t.
Proof. rewrite best_newest. apply newest_in, N.eqb_eq. Qed.

Lemma best_ge n t st ts b :
  In (n, ts, b) st -> ts <= t -> exists ts' b', best n t st = Some (ts', b') /\ ts <= ts'.
Proof. rewrite best_newest. apply newest_ge, N.eqb_eq. Qed.

Lemma best_write_all n t ns d b st :
  best n t (write_all ns d b st) =
  if nmem n ns && (d <=? t)
  then match best n t st with
       | Some (ts', b') => if ts' <=? d then Some (d, b) else Some (ts', b')
       | None => Some (d, b)
       end
  else best n t st.
Proof.
  assert (B : newest N.eqb n t (map (fun m => (m, d, b)) ns) = if nmem n ns && (d <=? t) then Some (d, b) else None).
  { induction ns as [|m ms IH]; [reflexivity|]. cbn [map newest hit]. rewrite IH.
    unfold nmem. cbn [existsb]. rewrite (N.eqb_sym n m).
    destruct (m =? n), (existsb (N.eqb n) ms), (d <=? t) eqn:E; cbn [andb orb newer]; rewrite ?E, ?N.leb_refl; reflexivity. }
  unfold write_all. rewrite !best_newest, newest_app, B.
  destruct (nmem n ns && (d <=? t)); [|reflexivity].
  destruct (newest N.eqb n t st) as [[ts' b']|]; reflexivity.
Qed.

Lemma best_write_notin n t ns d b st : ~ In n ns -> best n t (write_all ns d b st) = best n t st.
Proof.
  intros HN. rewrite best_write_all. destruct (nmem n ns) eqn:M; [|reflexivity].
  apply nmem_In in M. contradiction.
Qed.

Lemma best_write_before n t ns d b st : t < d -> best n t (write_all ns d b st) = best n t st.
Proof.
  intros Hlt. rewrite best_write_all. replace (d <=? t) with false by lia. rewrite andb_false_r. reflexivity.
Qed.

Lemma best_write_shadowed n t0 t ns d b st ts b0 :
  best n t0 st = Some (ts, b0) -> d < ts -> t0 <= t -> best n t (write_all ns d b st) = best n t st.
Proof.
  intros B Hlt Hle. destruct (best_in _ _ _ _ _ B) as [HI H0].
  destruct (best_ge n t st ts b0 HI ltac:(lia)) as [ts1 [b1 [E H1]]].
  rewrite best_write_all, E. destruct (nmem n ns && (d <=? t)); [|reflexivity].
  replace (ts1 <=? d) with false by lia. reflexivity.
Qed.

Lemma best_write_twice n t ns d b st :
  best n t (write_all ns d b (write_all ns d b st)) = best n t (write_all ns d b st).
Proof.
  rewrite (best_write_all n t ns d b (write_all ns d b st)), best_write_all.
  destruct (nmem n ns && (d <=? t)); [|reflexivity].
  destruct (best n t st) as [[ts' b']|]; [destruct (ts' <=? d) eqn:E; [|rewrite E]|];
    rewrite ?N.leb_refl; reflexivity.
Qed.

Lemma visible_puts n t ps v st :
  visible n t st = true -> visible n t (write_all ps v true st) = true.
Proof.
  unfold visible. rewrite best_write_all. destruct (nmem n ps && (v <=? t)); [|auto].
  destruct (best n t st) as [[ts' b']|]; [destruct (ts' <=? v)|]; auto.
Qed.

Lemma visible_put_new n t ps v st :
  In n ps -> (forall ts b, In (n, ts, b) st -> ts <= v) -> v <= t ->
  visible n t (write_all ps v true st) = true.
Proof.
  intros HI Hb Hle. unfold visible. rewrite best_write_all.
  rewrite (proj2 (nmem_In n ps) HI). replace (v <=? t) with true by lia. cbn [andb].
  destruct (best n t st) as [[ts' b']|] eqn:B; [|reflexivity].
  destruct (best_in _ _ _ _ _ B) as [HS _]. specialize (Hb _ _ HS).
  replace (ts' <=? v) with true by lia. reflexivity.
Qed.

Lemma best_write_at n d ns b st : nmem n ns = true -> best n d (write_all ns d b st) = Some (d, b).
Proof.
  intros M. rewrite best_write_all, M, N.leb_refl. cbn [andb].
  destruct (best n d st) as [[ts' b']|] eqn:B; [|reflexivity].
  destruct (best_in _ _ _ _ _ B) as [_ Hle]. replace (ts' <=? d) with true by lia. reflexivity.
Qed.

Lemma visible_puts_at n v ps st : visible n v (write_all ps v true st) = nmem n ps || visible n v st.
Proof.
  unfold visible. destruct (nmem n ps) eqn:M; [rewrite best_write_at by exact M; reflexivity|].
  rewrite best_write_notin; [reflexivity|]. rewrite <- nmem_In, M. discriminate.
Qed.

Lemma visible_dels_at n d ds st : visible n d (write_all ds d false st) = visible n d st && negb (nmem n ds).
Proof.
  unfold visible. destruct (nmem n ds) eqn:M; [rewrite best_write_at by exact M; symmetry; apply andb_false_r|].
  rewrite best_write_notin; [symmetry; apply andb_true_r|]. rewrite <- nmem_In, M. discriminate.
Qed.

Lemma visible_deleted n d ds st : In n ds -> visible n d (write_all ds d false st) = false.
Proof. intros HI. rewrite visible_dels_at, (proj2 (nmem_In n ds) HI). apply andb_false_r. Qed.

Lemma fkey_eqb_eq a b : fkey_eqb a b = true <-> a = b.
Proof.
  destruct a as [ta [av ai]], b as [tb [bv bi]]. unfold fkey_eqb, pos_eqb. cbn [fst snd].
  rewrite !andb_true_iff, !N.eqb_eq. split; [intros [-> [-> ->]]; reflexivity|intros H; injection H; auto].
Qed.

Lemma fbest_newest k t st : fbest k t st = newest fkey_eqb k t st.
Proof.
  induction st as [|[[k' ts] v] r IH]; [reflexivity|]. cbn [fbest newest hit]. rewrite <- IH.
  destruct (fkey_eqb k' k && (ts <=? t)); [|reflexivity].
  destruct (fbest k t r) as [[ts' v']|]; reflexivity.
Qed.
