(* Shared basics: association lists keyed by N, byte strings from big literals,
   case-comparison helpers used by the correspondence files written by the
   Go harnesses. *)
From Coq Require Export List NArith ZArith Bool Lia.
From Coq Require Import ZifyBool ZifyNat ZifyN.
Export ListNotations.
Open Scope N_scope.

Arguments N.add : simpl never.
Arguments N.mul : simpl never.
Arguments N.div : simpl never.
Arguments N.modulo : simpl never.
Arguments N.sub : simpl never.
Arguments N.pow : simpl never.
Arguments N.ltb : simpl never.
Arguments N.leb : simpl never.
Arguments N.eqb : simpl never.

(* ---------- association lists keyed by N (first match wins; [aset] keeps
   keys unique when they were) ---------- *)
Section AList.
  Context {V : Type}.
  Fixpoint aget (k : N) (l : list (N * V)) : option V :=
    match l with
    | [] => None
    | (k', v) :: r => if k' =? k then Some v else aget k r
    end.
  Fixpoint adel (k : N) (l : list (N * V)) : list (N * V) :=
    match l with
    | [] => []
    | (k', v) :: r => if k' =? k then adel k r else (k', v) :: adel k r
    end.
  Definition aset (k : N) (v : V) (l : list (N * V)) : list (N * V) :=
    (k, v) :: adel k l.

  Lemma aget_adel_same k l : aget k (adel k l) = None.
  Proof.
    induction l as [|[k' v] r IH]; cbn [adel aget]; [reflexivity|].
    destruct (k' =? k) eqn:E; [exact IH|]. cbn [aget]. rewrite E. exact IH.
  Qed.
  Lemma aget_adel_other k k' l : k <> k' -> aget k (adel k' l) = aget k l.
  Proof.
    intros Hne. induction l as [|[k2 v] r IH]; cbn [adel aget]; [reflexivity|].
    destruct (k2 =? k') eqn:E.
    - destruct (k2 =? k) eqn:E2; [lia|exact IH].
    - cbn [aget]. destruct (k2 =? k); [reflexivity|exact IH].
  Qed.
  Lemma aget_aset_same k v l : aget k (aset k v l) = Some v.
  Proof. unfold aset. cbn [aget]. rewrite N.eqb_refl. reflexivity. Qed.
  Lemma aget_aset_other k k' v l : k <> k' -> aget k (aset k' v l) = aget k l.
  Proof.
    intros Hne. unfold aset. cbn [aget].
    destruct (k' =? k) eqn:E; [lia|]. apply aget_adel_other; exact Hne.
  Qed.

  Lemma aget_In k v l : aget k l = Some v -> In (k, v) l.
  Proof.
    induction l as [|[k' v'] r IH]; cbn [aget]; [discriminate|].
    destruct (N.eqb_spec k' k) as [->|_]; [intros [= ->]; left; reflexivity|].
    intros H. right. exact (IH H).
  Qed.
  Lemma aget_none_notin k l : aget k l = None <-> ~ In k (map fst l).
  Proof.
    induction l as [|[k' v] r IH]; cbn [aget map fst In]; [tauto|].
    destruct (N.eqb_spec k' k) as [->|Hne]; [|rewrite IH; tauto].
    split; [discriminate|]. intros H. destruct H. left. reflexivity.
  Qed.
  Lemma In_aget k v l : NoDup (map fst l) -> In (k, v) l -> aget k l = Some v.
  Proof.
    induction l as [|[k' v'] r IH]; cbn [aget map fst In]; intros Hnd Hin; [contradiction|].
    inversion Hnd as [|? ? Hx Hr]; subst.
    destruct Hin as [[= -> ->]|Hin]; [rewrite N.eqb_refl; reflexivity|].
    destruct (N.eqb_spec k' k) as [->|_]; [|exact (IH Hr Hin)].
    destruct Hx. exact (in_map fst _ _ Hin).
  Qed.
  Lemma adel_notin k l : ~ In k (map fst l) -> adel k l = l.
  Proof.
    induction l as [|[k' v] r IH]; cbn [adel map fst In]; intros H; [reflexivity|].
    destruct (N.eqb_spec k' k); [tauto|]. f_equal. apply IH. tauto.
  Qed.
  Lemma adel_incl k l : incl (adel k l) l.
  Proof.
    induction l as [|[k' v] r IH]; cbn [adel]; [apply incl_refl|].
    destruct (k' =? k); [apply incl_tl, IH|].
    intros x [<-|H]; [left; reflexivity|right; apply IH, H].
  Qed.
  Lemma adel_nodup k l : NoDup (map fst l) -> NoDup (map fst (adel k l)).
  Proof.
    induction l as [|[k' v] r IH]; cbn [adel map fst]; intros H; [constructor|].
    inversion H as [|x xs Hnotin Hnd]; subst.
    destruct (k' =? k); [apply IH, Hnd|]. cbn [map fst]. constructor; [|apply IH, Hnd].
    intros Hin. apply Hnotin. exact (incl_map fst (adel_incl k r) _ Hin).
  Qed.
  Lemma adel_keys_in k x l : In x (map fst (adel k l)) <-> In x (map fst l) /\ x <> k.
  Proof.
    induction l as [|[k' v] r IH]; cbn [adel map fst In]; [tauto|].
    destruct (N.eqb_spec k' k) as [->|Hne]; cbn [map fst In]; rewrite IH; intuition congruence.
  Qed.
  Lemma aset_nodup k v l : NoDup (map fst l) -> NoDup (map fst (aset k v l)).
  Proof.
    intros H. unfold aset. cbn [map fst]. constructor; [|apply adel_nodup, H].
    rewrite adel_keys_in. intros [_ Hk]. exact (Hk eq_refl).
  Qed.
End AList.

(* ---------- byte strings ---------- *)
Definition bytes := list N.

(* [bs len n]: the big-endian byte string of length [len] whose value is [n].
   The harnesses print byte strings as [bs 3 0x0a0b0c]. *)
Fixpoint bs_aux (len : nat) (n : N) (acc : bytes) : bytes :=
  match len with
  | O => acc
  | S l => bs_aux l (n / 256) ((n mod 256) :: acc)
  end.
Definition bs (len : nat) (n : N) : bytes := bs_aux len n [].

Fixpoint bytes_eqb (a b : bytes) : bool :=
  match a, b with
  | [], [] => true
  | x :: a', y :: b' => (x =? y) && bytes_eqb a' b'
  | _, _ => false
  end.

Lemma bytes_eqb_eq a b : bytes_eqb a b = true <-> a = b.
Proof.
  revert b; induction a as [|x a IH]; intros [|y b]; cbn [bytes_eqb]; split;
    try congruence; try reflexivity.
  - intros H. apply andb_true_iff in H as [H1 H2]. apply N.eqb_eq in H1.
    apply IH in H2. congruence.
  - intros H. injection H as -> ->. rewrite N.eqb_refl. cbn. apply IH. reflexivity.
Qed.
Lemma bytes_eqb_refl a : bytes_eqb a a = true.
Proof. apply bytes_eqb_eq. reflexivity. Qed.
Lemma bytes_eqb_neq a b : bytes_eqb a b = false <-> a <> b.
Proof. rewrite <- bytes_eqb_eq. destruct (bytes_eqb a b); split; congruence. Qed.
Lemma bytes_eq_dec (x y : bytes) : {x = y} + {x <> y}.
Proof. apply list_eq_dec, N.eq_dec. Qed.

(* lexicographic order on byte strings: Lt / Eq / Gt *)
Fixpoint bytes_cmp (a b : bytes) : comparison :=
  match a, b with
  | [], [] => Eq
  | [], _ :: _ => Lt
  | _ :: _, [] => Gt
  | x :: a', y :: b' =>
      match N.compare x y with
      | Eq => bytes_cmp a' b'
      | c => c
      end
  end.

Lemma bytes_cmp_eq a b : bytes_cmp a b = Eq <-> a = b.
Proof.
  revert b. induction a as [|x a IH]; intros [|y b]; cbn [bytes_cmp]; try (split; congruence).
  destruct (N.compare_spec x y) as [->|H|H]; rewrite ?IH; split; try congruence;
    intros [= -> _]; lia.
Qed.
Lemma bytes_cmp_refl a : bytes_cmp a a = Eq.
Proof. apply bytes_cmp_eq. reflexivity. Qed.
Lemma bytes_cmp_antisym a b : bytes_cmp b a = CompOpp (bytes_cmp a b).
Proof.
  revert b. induction a as [|x a IH]; intros [|y b]; cbn [bytes_cmp]; try reflexivity.
  rewrite (N.compare_antisym x y). destruct (N.compare x y); cbn [CompOpp]; try reflexivity. apply IH.
Qed.
Lemma bytes_cmp_gt_lt a b : bytes_cmp a b = Gt <-> bytes_cmp b a = Lt.
Proof. rewrite (bytes_cmp_antisym a b). destruct (bytes_cmp a b); cbn; split; congruence. Qed.
Lemma bytes_cmp_lt_trans a b c : bytes_cmp a b = Lt -> bytes_cmp b c = Lt -> bytes_cmp a c = Lt.
Proof.
  revert b c. induction a as [|x a IH]; intros [|y b] [|z c]; cbn [bytes_cmp]; try congruence.
  destruct (N.compare_spec x y) as [->|Hxy|Hxy]; try discriminate.
  - destruct (N.compare y z); try congruence. apply IH.
  - intros _. destruct (N.compare_spec y z) as [<-|Hyz|Hyz]; try discriminate; intros _.
    + rewrite (proj2 (N.compare_lt_iff x y) Hxy). reflexivity.
    + rewrite (proj2 (N.compare_lt_iff x z) (N.lt_trans _ _ _ Hxy Hyz)). reflexivity.
Qed.

(* ---------- correspondence helper ----------
   [mismatches run eqb cases]: indices (from 0) of the cases whose model output
   differs from the recorded implementation output. *)
Section Mismatch.
  Context {I O : Type} (run : I -> O) (eqb : O -> O -> bool).
  Fixpoint mismatches_from (i : N) (cases : list (I * O)) : list N :=
    match cases with
    | [] => []
    | (inp, out) :: r =>
        if eqb (run inp) out then mismatches_from (i + 1) r
        else i :: mismatches_from (i + 1) r
    end.
  Definition mismatches := mismatches_from 0.
End Mismatch.

Fixpoint list_eqb {A} (eqb : A -> A -> bool) (a b : list A) : bool :=
  match a, b with
  | [], [] => true
  | x :: a', y :: b' => eqb x y && list_eqb eqb a' b'
  | _, _ => false
  end.
Lemma list_eqb_eq {A} (eqb : A -> A -> bool) :
  (forall x y, eqb x y = true -> x = y) -> forall a b, list_eqb eqb a b = true -> a = b.
Proof.
  intros He. induction a as [|x a IH]; intros [|y b]; cbn [list_eqb]; try congruence.
  intros H. apply andb_true_iff in H as [H1 H2]. apply He in H1. apply IH in H2. congruence.
Qed.

(* insertion sort on N, used to canonicalise set-like outputs *)
Fixpoint ninsert (x : N) (l : list N) : list N :=
  match l with
  | [] => [x]
  | y :: r => if x <=? y then x :: l else y :: ninsert x r
  end.
Definition nsort (l : list N) : list N := fold_right ninsert [] l.

(* ---------- lists ---------- *)
Lemma app_inv_len {A} (a a' b b' : list A) :
  length a = length a' -> a ++ b = a' ++ b' -> a = a' /\ b = b'.
Proof.
  revert a'; induction a as [|x a IH]; intros [|y a'] Hl E; cbn in *; try discriminate; auto.
  injection E as -> E. injection Hl as Hl. destruct (IH _ Hl E) as [-> ->]. auto.
Qed.
Lemma firstn_app_exact {A} (a b : list A) : firstn (length a) (a ++ b) = a.
Proof. induction a as [|x a IH]; cbn [length firstn app]; [reflexivity|]. rewrite IH. reflexivity. Qed.
Lemma skipn_app_exact {A} (a b : list A) : skipn (length a) (a ++ b) = b.
Proof. induction a as [|x a IH]; cbn [length skipn app]; [reflexivity|exact IH]. Qed.
Lemma skipn_skipn {A} (x y : nat) (l : list A) : skipn x (skipn y l) = skipn (y + x) l.
Proof.
  revert l; induction y as [|y IH]; intros l; [reflexivity|].
  destruct l as [|a l]; [now rewrite !skipn_nil|]. cbn [skipn Nat.add]. apply IH.
Qed.
Lemma fold_left_invariant {A B} (P : A -> Prop) (f : A -> B -> A) :
  (forall a x, P a -> P (f a x)) -> forall l a, P a -> P (fold_left f l a).
Proof. intros Hf l. induction l as [|x l IH]; intros a Ha; [exact Ha|]. apply IH, Hf, Ha. Qed.
Lemma filter_none {A} (f : A -> bool) l : (forall x, In x l -> f x = false) -> filter f l = [].
Proof.
  induction l as [|x r IH]; intros H; cbn [filter]; [reflexivity|].
  rewrite (H x) by (left; reflexivity). apply IH. intros y Hy. apply H. right. exact Hy.
Qed.
Lemma NoDup_map_filter {A B} (g : A -> B) (f : A -> bool) l : NoDup (map g l) -> NoDup (map g (filter f l)).
Proof.
  induction l as [|x l IH]; cbn [map filter]; intros H; [constructor|].
  inversion H as [|? ? Hn Hd]; subst. destruct (f x); cbn [map]; [|apply IH; exact Hd].
  constructor; [|apply IH; exact Hd]. intros Hin. apply Hn.
  exact (incl_map g (incl_filter f l) _ Hin).
Qed.
