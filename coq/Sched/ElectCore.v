(* What the theorems about [elect_core] start from: the candidate sequence
   [cand_seq_sh] (blocks of [picks] laid out in [by_stake] order), the VRF
   sortition order [vrf_sort], and the insertion loop [fill] with its
   loop-invariant rule. *)
From Verif Require Import Lib.Base Sched.Elect Sched.ElectSpec Sched.ElectLemmas.
From Coq Require Import Permutation Sorting.Sorted.

Definition ind (b : bool) : N := if b then 1 else 0.

Lemma count_ent_perm e l l' : Permutation l l' -> count_ent e l = count_ent e l'.
Proof. intros H. unfold count_ent. apply len_perm, filter_perm, H. Qed.
Lemma count_ent_cons e kv l : count_ent e (kv :: l) = ind (ent_of kv =? e) + count_ent e l.
Proof. unfold count_ent. cbn [filter]. destruct (ent_of kv =? e); rewrite ?len_cons; cbn [ind]; lia. Qed.
Lemma count_ent_adel e k (l : vmap) : count_ent e (adel k l) <= count_ent e l.
Proof.
  induction l as [|[k' v] r IH]; cbn [adel]; [lia|].
  destruct (k' =? k); rewrite ?count_ent_cons; lia.
Qed.
Lemma count_node_ent_cons e n l : count_node_ent e (n :: l) = ind (n_ent n =? e) + count_node_ent e l.
Proof. unfold count_node_ent. cbn [filter]. destruct (n_ent n =? e); rewrite ?len_cons; cbn [ind]; lia. Qed.
Lemma count_node_ent_app e a b : count_node_ent e (a ++ b) = count_node_ent e a + count_node_ent e b.
Proof. unfold count_node_ent. rewrite filter_app, len_app. reflexivity. Qed.

Lemma live_nodes_spec epoch nodes n :
  In n (live_nodes epoch nodes) -> In n nodes /\ live epoch n = true.
Proof. unfold live_nodes. rewrite filter_In, In_sort_by. tauto. Qed.
Lemma live_spec epoch n : live epoch n = true -> n_freeze n = 0 /\ epoch <= n_exp n.
Proof. unfold live. lia. Qed.
Lemma vcands_spec p ents epoch nodes n :
  In n (vcands p ents epoch nodes) <-> In n nodes /\ live epoch n = true /\ is_vcand p ents n = true.
Proof. unfold vcands, live_nodes. rewrite !filter_In, In_sort_by. tauto. Qed.
Lemma vcands_nodup_cons p ents epoch nodes :
  NoDup (map n_cons nodes) -> NoDup (map n_cons (vcands p ents epoch nodes)).
Proof.
  intros Hnd. unfold vcands, live_nodes. apply NoDup_map_filter, NoDup_map_filter, nodup_map_sort_by. exact Hnd.
Qed.

Lemma picks_ent p sh e n : In n (picks p sh e) -> n_ent n = e /\ In n sh.
Proof.
  unfold picks. intros H. apply In_firstn in H. apply filter_In in H.
  destruct H as [H1 H2]. split; [lia|exact H1].
Qed.
Lemma picks_nonempty p sh n : 1 <= p_per p -> In n sh -> exists m, In m (picks p sh (n_ent n)).
Proof.
  intros Hper Hn. unfold picks.
  assert (Hf : In n (filter (fun m => n_ent m =? n_ent n) sh)) by (apply filter_In; split; [exact Hn|lia]).
  destruct (filter (fun m => n_ent m =? n_ent n) sh) as [|m fr]; [contradiction|].
  exists m. destruct (N.to_nat (p_per p)) eqn:Ek; [lia|]. left. reflexivity.
Qed.
Lemma cand_seq_sh_In p ents pe cands sh n : In n (cand_seq_sh p ents pe cands sh) -> In n sh.
Proof.
  unfold cand_seq_sh. rewrite in_flat_map. intros [e [_ H]].
  apply picks_ent in H. destruct H as [_ H]. exact H.
Qed.

Lemma by_stake_perm p ents pe cands :
  is_perm pe (length (usort (map n_ent cands))) ->
  Permutation (by_stake p ents pe cands) (usort (map n_ent cands)).
Proof.
  intros Hp. unfold by_stake. pose proof (apply_perm_perm _ _ Hp) as H.
  destruct (p_bypass p); [exact H|]. rewrite sort_desc_perm. exact H.
Qed.
Lemma by_stake_nodup p ents pe cands :
  is_perm pe (length (usort (map n_ent cands))) -> NoDup (by_stake p ents pe cands).
Proof.
  intros Hp. eapply Permutation_NoDup; [symmetry; apply by_stake_perm; exact Hp|apply usort_nodup].
Qed.

Lemma cand_seq_nodup p ents pe cands sh :
  NoDup (map n_cons sh) ->
  is_perm pe (length (usort (map n_ent cands))) ->
  NoDup (map n_cons (cand_seq_sh p ents pe cands sh)).
Proof.
  intros Hsh Hpe. unfold cand_seq_sh.
  pose proof (by_stake_nodup p ents pe cands Hpe) as HL.
  induction (by_stake p ents pe cands) as [|a r IH]; cbn [flat_map map]; [constructor|].
  inversion HL as [|? ? Ha Hr]; subst. rewrite map_app. apply nodup_app.
  - unfold picks. apply nodup_map_firstn, NoDup_map_filter. exact Hsh.
  - apply IH. exact Hr.
  - intros k H1 H2. apply in_map_iff in H1. destruct H1 as [n1 [<- H1]].
    apply in_map_iff in H2. destruct H2 as [n2 [Hk H2]].
    apply in_flat_map in H2. destruct H2 as [e' [He' H2]].
    apply picks_ent in H1. apply picks_ent in H2. destruct H1 as [E1 S1], H2 as [E2 S2].
    assert (n2 = n1) by (eapply (key_inj_of_nodup n_cons sh); eassumption).
    subst n2. apply Ha. rewrite <- E1, E2. exact He'.
Qed.

(* with real stakes the candidates come in descending order of their entity's escrow *)
Lemma cand_seq_sorted p ents pe cands sh :
  p_bypass p = false ->
  StronglySorted (fun n m => escrow_of ents (n_ent m) <= escrow_of ents (n_ent n))
                 (cand_seq_sh p ents pe cands sh).
Proof.
  intros Hby. unfold cand_seq_sh, by_stake. rewrite Hby.
  apply (flat_map_sorted (escrow_of ents) (picks p sh) n_ent).
  - intros e n Hn. apply picks_ent in Hn. tauto.
  - apply sort_desc_sorted.
Qed.

Lemma count_picks_other p sh e e' : e' <> e -> count_node_ent e (picks p sh e') = 0.
Proof.
  intros Hne. unfold count_node_ent. rewrite filter_none; [reflexivity|].
  intros n Hn. apply picks_ent in Hn. lia.
Qed.
Lemma count_picks_le p sh e e' : count_node_ent e (picks p sh e') <= p_per p.
Proof.
  unfold count_node_ent. etransitivity; [apply len_filter_le|].
  unfold picks. rewrite len_firstn. lia.
Qed.
Lemma count_flat_picks_notin p sh e L : ~ In e L -> count_node_ent e (flat_map (picks p sh) L) = 0.
Proof.
  intros Hn. unfold count_node_ent. rewrite filter_none; [reflexivity|].
  intros n Hin. apply in_flat_map in Hin. destruct Hin as [e' [He' Hin]]. apply picks_ent in Hin.
  destruct (n_ent n =? e) eqn:E; [|reflexivity]. exfalso. apply Hn.
  assert (e' = e) by lia. subst. exact He'.
Qed.
Lemma count_flat_picks p sh e L :
  NoDup L -> count_node_ent e (flat_map (picks p sh) L) <= p_per p.
Proof.
  induction L as [|a r IH]; intros Hnd; cbn [flat_map].
  - unfold count_node_ent. cbn. lia.
  - inversion Hnd as [|? ? Ha Hr]; subst. rewrite count_node_ent_app.
    destruct (N.eq_dec a e) as [->|Hne].
    + rewrite (count_flat_picks_notin p sh e r Ha). pose proof (count_picks_le p sh e e). lia.
    + rewrite (count_picks_other p sh e a Hne). specialize (IH Hr). lia.
Qed.

Lemma vrf_collect_In beta l : forall seen b n,
  In (b, n) (vrf_collect beta l seen) -> In n l /\ beta (n_id n) = Some b.
Proof.
  induction l as [|x r IH]; intros seen b n; cbn [vrf_collect]; [intros []|].
  assert (Hrec : forall seen', In (b, n) (vrf_collect beta r seen') -> In n (x :: r) /\ beta (n_id n) = Some b).
  { intros seen' H. destruct (IH _ _ _ H) as [H1 H2]. split; [right; exact H1|exact H2]. }
  destruct (beta (n_id x)) as [bx|] eqn:E; [|apply Hrec].
  destruct (memN bx seen); [apply Hrec|].
  intros [[= <- <-]|H]; [split; [left; reflexivity|exact E]|exact (Hrec _ H)].
Qed.
Lemma vrf_sort_In beta l n : In n (vrf_sort beta l) -> In n l /\ has_pi beta n = true.
Proof.
  unfold vrf_sort. rewrite in_map_iff. intros [[b m] [<- H]]. apply In_sort_by in H.
  apply vrf_collect_In in H. cbn [snd]. unfold has_pi. destruct H as [H1 H2]. rewrite H2. tauto.
Qed.

(* sortNodesByHashedBeta keeps the consensus keys distinct *)
Lemma vrf_collect_nodup beta l : forall seen,
  NoDup (map n_cons l) -> NoDup (map n_cons (map snd (vrf_collect beta l seen))).
Proof.
  induction l as [|x r IH]; intros seen Hnd; cbn [vrf_collect map]; [constructor|].
  cbn [map] in Hnd. inversion Hnd as [|? ? Hx Hr]; subst.
  destruct (beta (n_id x)) as [bx|]; [|apply IH; exact Hr].
  destruct (memN bx seen); [apply IH; exact Hr|].
  cbn [map snd]. constructor; [|apply IH; exact Hr].
  intros Hin. apply Hx. apply in_map_iff in Hin. destruct Hin as [m [Hm Hin]].
  apply in_map_iff in Hin. destruct Hin as [[b m'] [E Hin]]. cbn [snd] in E. subst m'.
  apply vrf_collect_In in Hin. rewrite <- Hm. apply in_map. tauto.
Qed.
Lemma vrf_sort_nodup beta l : NoDup (map n_cons l) -> NoDup (map n_cons (vrf_sort beta l)).
Proof.
  intros Hnd. unfold vrf_sort.
  eapply Permutation_NoDup; [|apply (vrf_collect_nodup beta l [] Hnd)].
  apply Permutation_map, Permutation_map. symmetry. apply sort_by_perm.
Qed.

(* with distinct hashed betas every candidate with a proof takes part in the sortition *)
Lemma vrf_collect_complete beta l : forall seen n b,
  In n l -> beta (n_id n) = Some b -> ~ In b seen ->
  (forall m, In m l -> beta (n_id m) = Some b -> m = n) ->
  In (b, n) (vrf_collect beta l seen).
Proof.
  induction l as [|x r IH]; intros seen n b Hn Hb Hs Hinj; [contradiction|].
  cbn [vrf_collect]. destruct Hn as [->|Hn].
  - rewrite Hb. destruct (memN b seen) eqn:Em.
    + exfalso. apply Hs. unfold memN in Em. apply existsb_exists in Em.
      destruct Em as [y [Hy Ey]]. assert (y = b) by lia. subst. exact Hy.
    + left. reflexivity.
  - assert (Hrec : forall seen', ~ In b seen' -> In (b, n) (vrf_collect beta r seen')).
    { intros seen' Hs'. apply IH; [exact Hn|exact Hb|exact Hs'|].
      intros m Hm. apply Hinj. right. exact Hm. }
    destruct (beta (n_id x)) as [bx|] eqn:Ex; [|apply Hrec; exact Hs].
    destruct (memN bx seen); [apply Hrec; exact Hs|].
    destruct (N.eq_dec bx b) as [->|Hne].
    + assert (x = n) by (apply Hinj; [left; reflexivity|exact Ex]). subst. left. reflexivity.
    + right. apply Hrec. intros [E|E]; [exact (Hne E)|exact (Hs E)].
Qed.
Lemma vrf_sort_complete beta l n b :
  In n l -> beta (n_id n) = Some b ->
  (forall m, In m l -> beta (n_id m) = Some b -> m = n) ->
  In n (vrf_sort beta l).
Proof.
  intros Hn Hb Hinj. unfold vrf_sort. apply in_map_iff. exists (b, n). split; [reflexivity|].
  apply In_sort_by. apply vrf_collect_complete; try assumption. intros [].
Qed.

(* Loop-invariant rule for [fill].  [I done acc] relates the candidates
   inserted so far to the map built from them; if every insertion keeps it,
   it holds at the end for the processed prefix [cs1] of the candidates.  The
   loop stops at the end of the list or once the map has MaxValidators
   entries, so it never grows beyond max(len acc + 1, MaxValidators). *)
Lemma fill_invariant p ents (I : list node -> vmap -> Prop) done cs acc ve acc' ve' :
  (forall done acc n pw, I done acc -> node_power p ents n = Some pw ->
                         I (done ++ [n]) (aset (n_cons n) (n_id n, n_ent n, pw) acc)) ->
  I done acc -> fill p ents cs acc ve = Some (acc', ve') ->
  exists cs1 cs2, cs = cs1 ++ cs2 /\ I (done ++ cs1) acc' /\
                  len acc' <= N.max (len acc + 1) (p_max p) /\ (cs2 = [] \/ p_max p <= len acc').
Proof.
  intros Hstep. revert done acc ve.
  induction cs as [|n r IH]; intros done acc ve HI Hf; cbn [fill] in Hf.
  - injection Hf as <- _. exists [], []. rewrite (app_nil_r done).
    split; [reflexivity|]. split; [exact HI|]. split; [lia|left; reflexivity].
  - destruct (node_power p ents n) as [pw|] eqn:Epw; [|discriminate].
    pose proof (Hstep _ _ _ _ HI Epw) as HI1.
    pose proof (len_aset (n_cons n) (n_id n, n_ent n, pw) acc) as Hl1.
    set (acc1 := aset (n_cons n) (n_id n, n_ent n, pw) acc) in *. clearbody acc1.
    unfold vmap, vinfo in *.
    destruct (p_max p <=? len acc1) eqn:Eb.
    + injection Hf as <- _. exists [n], r.
      split; [reflexivity|]. split; [exact HI1|]. split; [lia|right; lia].
    + destruct (IH _ _ _ HI1 Hf) as [cs1 [cs2 [-> [H1 [H2 H3]]]]].
      exists (n :: cs1), cs2. rewrite <- app_assoc in H1.
      split; [reflexivity|]. split; [exact H1|]. split; [lia|exact H3].
Qed.

Lemma elect_ok_inv p ents pe cands sh vals vents :
  elect_core p ents pe cands sh = VOk vals vents ->
  exists acc, fill p ents (cand_seq_sh p ents pe cands sh) [] [] = Some (acc, vents) /\
              vals = sort_by fst acc /\ p_min p <= len acc /\ 1 <= len acc.
Proof.
  unfold elect_core.
  destruct (fill p ents _ [] []) as [[acc ve]|] eqn:Ef; [|discriminate].
  destruct (len acc =? 0) eqn:E0; [discriminate|].
  destruct (len acc <? p_min p) eqn:E1; [discriminate|].
  intros [= <- <-]. exists acc. split; [reflexivity|]. split; [reflexivity|]. lia.
Qed.

Lemma fill_count p ents cs acc ve e :
  fill p ents cs [] [] = Some (acc, ve) -> count_ent e acc <= count_node_ent e cs.
Proof.
  intros Hf.
  apply (fill_invariant p ents (fun done acc => count_ent e acc <= count_node_ent e done) [])
    in Hf as [cs1 [cs2 [-> [HI _]]]].
  - cbn [app] in HI. rewrite count_node_ent_app. lia.
  - intros done acc0 n pw HI _. unfold aset.
    rewrite count_ent_cons, count_node_ent_app, count_node_ent_cons.
    change (ent_of (n_cons n, (n_id n, n_ent n, pw))) with (n_ent n).
    change (count_node_ent e []) with 0.
    pose proof (count_ent_adel e (n_cons n) acc0) as Ha. unfold vinfo in Ha. lia.
  - reflexivity.
Qed.

Lemma fill_keys_nodup p ents cs acc ve :
  fill p ents cs [] [] = Some (acc, ve) -> NoDup (map fst acc).
Proof.
  intros Hf.
  apply (fill_invariant p ents (fun _ acc => NoDup (map fst acc)) [])
    in Hf as [cs1 [cs2 [_ [HI _]]]].
  - exact HI.
  - intros done acc0 n pw HI _. apply aset_nodup. exact HI.
  - constructor.
Qed.

(* the entry the loop writes for candidate [n]; a power conversion error stops the loop before *)
Definition elected (p : params) (ents : list entity) (n : node) : N * vinfo :=
  (n_cons n, (n_id n, n_ent n, match node_power p ents n with Some pw => pw | None => 0 end)).

(* with distinct consensus keys no entry is ever overwritten: the map is
   exactly the processed prefix, and the prefix is cut by MaxValidators only *)
Lemma fill_distinct p ents cs acc ve :
  NoDup (map n_cons cs) -> fill p ents cs [] [] = Some (acc, ve) ->
  exists cs1 cs2, cs = cs1 ++ cs2 /\ acc = rev (map (elected p ents) cs1) /\
                  len acc <= N.max 1 (p_max p) /\ (cs2 = [] \/ p_max p <= len acc).
Proof.
  intros Hnd Hf.
  apply (fill_invariant p ents
           (fun done acc => NoDup (map n_cons done) -> acc = rev (map (elected p ents) done)) [])
    in Hf as [cs1 [cs2 [-> [HI [Hlen Hstop]]]]].
  - exists cs1, cs2. rewrite len_nil in Hlen. split; [reflexivity|]. split; [|split; [lia|exact Hstop]].
    apply HI. rewrite map_app in Hnd. eapply nodup_app_l. exact Hnd.
  - intros done acc0 n pw HI Hpw Hd. rewrite map_app in Hd. cbn [map] in Hd.
    apply NoDup_remove in Hd. rewrite app_nil_r in Hd. destruct Hd as [Hd Hn].
    rewrite (HI Hd), map_app, rev_app_distr. cbn [map rev app]. unfold aset, elected at 2. rewrite Hpw.
    f_equal. apply adel_notin. rewrite <- map_rev, map_map. cbn [elected fst].
    intros Hin. apply Hn. rewrite map_rev in Hin. apply in_rev in Hin. exact Hin.
  - reflexivity.
Qed.
