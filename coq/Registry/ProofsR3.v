(* Property C17: protected fields of registered runtimes along
   histories; no bypass between runtime messages and transactions; key reuse
   only after removal; removal at epoch transitions; per-role admission
   limits; the entity of every registered node is registered. *)
From Verif Require Import Lib.Base Registry.Model Registry.Lemmas Registry.Proofs Registry.ProofsRt.

Definition protected (a b : runtime) : Prop :=
  r_kind b = r_kind a /\ r_genesis b = r_genesis a /\
  (forall k, r_km a = Some k -> r_km b = Some k) /\
  (r_gov b = r_gov a \/ (r_gov a = 1 /\ r_gov b = 2)).

Lemma protected_refl a : protected a a.
Proof. unfold protected. auto. Qed.
Lemma protected_trans a b c : protected a b -> protected b c -> protected a c.
Proof.
  intros (K1 & G1 & M1 & V1) (K2 & G2 & M2 & V2). unfold protected.
  repeat split; try congruence; auto.
  destruct V1 as [V1|[V1 V1']], V2 as [V2|[V2 V2']]; try (left; congruence); try (right; split; congruence).
Qed.

Lemma km_kept a b : km_changed a b = false -> forall k, a = Some k -> b = Some k.
Proof.
  intros H k ->. destruct b as [x|]; cbn in H; [|discriminate].
  apply negb_false_iff in H. apply N.eqb_eq in H. congruence.
Qed.

Definition RT_ids (s : state) : Prop := forall r rt, any_runtime s r = Some rt -> r_id rt = r.

Section Runtimes.
  Variable addr : N -> N.
  Variable fixed : bool.
  Variables maxexp debond : N.
  Notation stp := (step addr fixed maxexp debond).
  Notation runs := (run addr fixed maxexp debond).

  Lemma step_protected s o r rt0 :
    tx_op o = true -> Inv_rt s -> RT_ids s -> any_runtime s r = Some rt0 ->
    RT_ids (snd (stp s o)) /\
    exists rt1, any_runtime (snd (stp s o)) r = Some rt1 /\ protected rt0 rt1.
  Proof.
    intros Htx Hinv Hids H0.
    destruct (step_any_runtime addr fixed maxexp debond s o Htx (proj1 Hinv)) as [E|(caller & rt & _ & EC & E)].
    - split; [intros x y; rewrite E; apply Hids|]. exists rt0. rewrite E. split; [exact H0|apply protected_refl].
    - apply reg_runtime_ok in EC as (_ & _ & _ & Hc). unfold rt_change_ok in Hc. split.
      + intros x y. rewrite E. destruct (N.eqb_spec (r_id rt) x) as [Ex|Hne]; [congruence|apply Hids].
      + rewrite E. destruct (N.eqb_spec (r_id rt) r) as [Er|Hne]; [|exists rt0; split; [exact H0|apply protected_refl]].
        exists rt. split; [reflexivity|]. rewrite Er, H0 in Hc.
        destruct Hc as (_ & K & G & M & GE & _ & _). unfold protected.
        repeat split; try congruence; [apply km_kept, M|].
        destruct G as [G|[G1 G2]]; [left; congruence|right; auto].
  Qed.

  Lemma run_protected ops s r rt0 :
    forallb tx_op ops = true -> Inv_rt s -> RT_ids s -> any_runtime s r = Some rt0 ->
    exists rt1, any_runtime (runs ops s) r = Some rt1 /\ protected rt0 rt1.
  Proof.
    intros Htx Hinv Hids H0.
    apply (run_invariant addr fixed maxexp debond
             (fun s' => Inv_rt s' /\ RT_ids s' /\ exists rt1, any_runtime s' r = Some rt1 /\ protected rt0 rt1))
      with (ops := ops) (s := s); [|split; [exact Hinv|split; [exact Hids|]]|exact Htx].
    - intros s' o Ho (Hi & Hd & rt1 & H1 & P1).
      destruct (step_protected s' o r rt1 Ho Hi Hd H1) as (Hd' & rt2 & H2 & P2).
      split; [apply step_rt; assumption|]. split; [exact Hd'|]. exists rt2. split; [exact H2|].
      eapply protected_trans; eauto.
    - exists rt0. split; [exact H0|apply protected_refl].
  Qed.

  Lemma rt_ids_st0 : RT_ids st0.
  Proof. intros r rt H. discriminate. Qed.

  (* An accepted RegisterRuntime whose caller is a runtime's own account 2r+1
     (a message emitted by runtime r) can only touch runtime r itself, and only
     when the controlling descriptor is under runtime governance; one whose
     caller is 2k (a transaction signed by key k) only a runtime whose
     controlling descriptor is under entity governance with entity k. *)
  Lemma no_bypass s caller rt :
    RT_ids s -> reg_runtime_check s caller rt = COk ->
    let ctl := match any_runtime s (r_id rt) with Some old => old | None => rt end in
    (exists k, caller = 2 * k /\ r_gov ctl = 1 /\ r_ent ctl = k) \/
    (exists r, caller = 2 * r + 1 /\ r_gov ctl = 2 /\ r_id rt = r).
  Proof.
    intros Hids EC. apply reg_runtime_ok in EC as (_ & _ & _ & Hc). unfold rt_change_ok in Hc. cbn zeta.
    assert (A : forall x, rt_acct x = Some caller ->
                (exists k, caller = 2 * k /\ r_gov x = 1 /\ r_ent x = k) \/
                (exists r, caller = 2 * r + 1 /\ r_gov x = 2 /\ r_id x = r)).
    { intros x Hx. unfold rt_acct in Hx.
      destruct (N.eqb_spec (r_gov x) 1) as [G|G].
      - injection Hx as <-. left. eauto.
      - destruct (N.eqb_spec (r_gov x) 2) as [G2|G2]; [|discriminate].
        injection Hx as <-. right. eauto. }
    destruct (any_runtime s (r_id rt)) as [old|] eqn:Eo.
    - destruct Hc as [Hc _]. destruct (A old Hc) as [L|[r [C [G I]]]]; [left; exact L|].
      right. exists r. rewrite <- (Hids _ _ Eo). auto.
    - destruct Hc as [Hc _]. apply A. exact Hc.
  Qed.
End Runtimes.

Section Keys.
  Variable addr : N -> N.
  Variable fixed : bool.
  Variables maxexp debond : N.
  Notation stp := (step addr fixed maxexp debond).

  (* while a node record exists (live, or expired and still held during the
     debonding interval) none of its keys can be taken by another node id *)
  Lemma key_of_registered_node_not_reusable s id m k txs n signers ok :
    Inv_index s -> aget id (s_nodes s) = Some m -> In k (keys m) ->
    n_id n <> id -> In k (keys n) ->
    fst (stp s (TRegNode txs n signers ok)) <> COk /\ snd (stp s (TRegNode txs n signers ok)) = s.
  Proof.
    intros (Hids & Hkm & _) Hm Hk Hne Hkn. apply reg_node_rejected. intros EC.
    apply reg_node_ok in EC as (_ & _ & _ & _ & Hd & _).
    apply Hne. symmetry. apply (dup_subkey_own s n k id Hids Hkm (Hd k Hkn)). apply Hkm. eauto.
  Qed.

  Lemma unheld_key_is_free s k :
    Inv_index s -> (forall id m, aget id (s_nodes s) = Some m -> ~ In k (keys m)) ->
    aget k (s_keymap s) = None.
  Proof.
    intros (_ & Hkm & _) H. destruct (aget k (s_keymap s)) as [id|] eqn:E; [|reflexivity].
    apply Hkm in E as [m [Hm Hk]]. exfalso. exact (H _ _ Hm Hk).
  Qed.

  (* which nodes an epoch transition removes: exactly those expired for longer
     than the debonding interval, whatever their status *)
  Definition removable (e : N) (n : node) : bool := (n_exp n <? e) && (n_exp n + debond <? e).

  Lemma epoch_removal_exact s e id :
    IDS (s_nodes s) ->
    aget id (s_nodes (snd (stp s (TEpoch e)))) =
    match aget id (s_nodes s) with
    | Some n => if removable e n then None else Some n
    | None => None
    end.
  Proof.
    intros Hids. cbn [step snd]. unfold epoch_change, removable.
    destruct (mark_fold_shape e (sorted_ids s) (with_epoch s e)) as (st & ->). apply epoch_nodes, Hids.
  Qed.
End Keys.

Section Limits.
  Variable maxexp : N.

  (* the nodes the counting loop counts: other ids, not expired, registered for
     the runtime, having the role *)
  Definition counted (epoch newid rt role : N) (m : node) : bool :=
    negb ((n_id m =? newid) || (n_exp m <? epoch) || negb (nmem rt (n_rts m))) && has_role (n_roles m) role.

  Lemma count_loop_sound epoch newid rt role max l : forall cur,
    cur + 1 <= max ->
    count_loop epoch newid rt role max cur l = false ->
    cur + N.of_nat (length (filter (counted epoch newid rt role) l)) + 1 <= max.
  Proof.
    induction l as [|m r IH]; intros cur Hc H; [cbn; lia|].
    cbn [count_loop] in H. cbn [filter]. unfold counted at 1.
    destruct ((n_id m =? newid) || (n_exp m <? epoch) || negb (nmem rt (n_rts m))) eqn:Es; cbn [negb andb].
    - apply IH; assumption.
    - destruct (has_role (n_roles m) role) eqn:Er.
      + destruct (max <? cur + 1 + 1) eqn:Em; [discriminate|]. apply N.ltb_ge in Em.
        cbn [length]. specialize (IH (cur + 1) Em H). lia.
      + destruct (max <? cur + 1) eqn:Em; [discriminate|]. apply IH; assumption.
  Qed.

  Lemma admission_each s n l : admission_check s n l = COk ->
    forall r x, In r l -> any_runtime s r = Some x -> wl_check s n x = COk /\ pr_check s n x all_roles = COk.
  Proof.
    induction l as [|r0 rest IH]; intros H r x Hr Hx; [destruct Hr|].
    cbn [admission_check] in H. destruct Hr as [->|Hr].
    - rewrite Hx in H. destruct (wl_check s n x); try discriminate.
      destruct (pr_check s n x all_roles); try discriminate. auto.
    - destruct (any_runtime s r0) as [y|].
      + destruct (wl_check s n y); try discriminate. destruct (pr_check s n y all_roles); try discriminate.
        eapply IH; eauto.
      + eapply IH; eauto.
  Qed.

  Lemma wl_roles_each s n rt mn roles : wl_roles_check s n rt mn roles = COk ->
    forall role, In role roles -> has_role (n_roles n) role = true ->
    exists mx, aget role mn = Some mx /\ mx <> 0 /\ too_many s n rt role mx = COk.
  Proof.
    induction roles as [|r0 rest IH]; intros H role Hin Hr; [destruct Hin|].
    cbn [wl_roles_check] in H. destruct Hin as [->|Hin].
    - rewrite Hr in H. cbn [negb] in H. destruct (aget role mn) as [mx|]; [|discriminate].
      destruct (N.eqb_spec mx 0); [discriminate|]. destruct (too_many s n rt role mx) eqn:T; try discriminate.
      eauto.
    - destruct (negb (has_role (n_roles n) r0)); [eapply IH; eauto|].
      destruct (aget r0 mn) as [mx|]; [|discriminate]. destruct (mx =? 0); [discriminate|].
      destruct (too_many s n rt r0 mx); try discriminate. eapply IH; eauto.
  Qed.

  Lemma pr_each s n x roles : pr_check s n x roles = COk ->
    forall role ents, In role roles -> has_role (n_roles n) role = true -> aget role (r_pr x) = Some ents ->
    exists mx, aget (n_ent n) ents = Some mx /\ (mx = 0 \/ too_many s n (r_id x) role mx = COk).
  Proof.
    induction roles as [|r0 rest IH]; intros H role ents Hin Hr He; [destruct Hin|].
    cbn [pr_check] in H. destruct Hin as [->|Hin].
    - rewrite Hr, He in H. cbn [negb] in H. destruct (aget (n_ent n) ents) as [mx|]; [|discriminate].
      exists mx. split; [reflexivity|]. destruct (N.eqb_spec mx 0); [auto|].
      destruct (too_many s n (r_id x) role mx); try discriminate. auto.
    - destruct (negb (has_role (n_roles n) r0)); [eapply IH; eauto|].
      destruct (aget r0 (r_pr x)) as [es|]; [|eapply IH; eauto].
      destruct (aget (n_ent n) es) as [mx|]; [|discriminate].
      destruct (mx =? 0); [eapply IH; eauto|].
      destruct (too_many s n (r_id x) r0 mx); try discriminate. eapply IH; eauto.
  Qed.

  Lemma too_many_ok s n rt role mx : mx <> 0 -> too_many s n rt role mx = COk ->
    exists l, entity_node_records s (n_ent n) = Some l /\
              N.of_nat (length (filter (counted (s_epoch s) (n_id n) rt role) l)) + 1 <= mx.
  Proof.
    intros Hmx H. unfold too_many in H. destruct (entity_node_records s (n_ent n)) as [l|]; [|discriminate].
    destruct (count_loop (s_epoch s) (n_id n) rt role mx 0 l) eqn:C; [discriminate|].
    exists l. split; [reflexivity|]. apply (count_loop_sound _ _ _ _ _ l 0); [lia|exact C].
  Qed.

  (* an accepted node registration respects the entity whitelist's per-role limit:
     the entity's OTHER non-expired nodes with that role in that runtime, plus
     this one, are at most the limit in force *)
  Lemma whitelist_limit_respected s txs n signers ok r x wl mn role :
    reg_node_check maxexp s txs n signers ok = COk ->
    In r (n_rts n) -> any_runtime s r = Some x -> r_wl x = Some wl ->
    aget (n_ent n) wl = Some mn -> mn <> [] ->
    In role all_roles -> has_role (n_roles n) role = true ->
    exists mx l, aget role mn = Some mx /\ entity_node_records s (n_ent n) = Some l /\
                 N.of_nat (length (filter (counted (s_epoch s) (n_id n) (r_id x) role) l)) + 1 <= mx.
  Proof.
    intros EC Hr Hx Hwl Hmn Hne Hrole Hhas.
    apply reg_node_checks_passed in EC as (_ & _ & _ & _ & Hadm & _).
    destruct (admission_each s n (n_rts n) Hadm r x Hr Hx) as [Hw _].
    unfold wl_check in Hw. rewrite Hwl, Hmn in Hw. destruct mn as [|p q]; [congruence|].
    destruct (wl_roles_each s n (r_id x) (p :: q) all_roles Hw role Hrole Hhas) as [mx [A [B C]]].
    destruct (too_many_ok s n (r_id x) role mx B C) as [l [D E]]. eauto.
  Qed.

  Lemma per_role_limit_respected s txs n signers ok r x role ents :
    reg_node_check maxexp s txs n signers ok = COk ->
    In r (n_rts n) -> any_runtime s r = Some x ->
    In role all_roles -> has_role (n_roles n) role = true -> aget role (r_pr x) = Some ents ->
    exists mx, aget (n_ent n) ents = Some mx /\
      (mx = 0 \/ exists l, entity_node_records s (n_ent n) = Some l /\
                 N.of_nat (length (filter (counted (s_epoch s) (n_id n) (r_id x) role) l)) + 1 <= mx).
  Proof.
    intros EC Hr Hx Hrole Hhas He.
    apply reg_node_checks_passed in EC as (_ & _ & _ & _ & Hadm & _).
    destruct (admission_each s n (n_rts n) Hadm r x Hr Hx) as [_ Hp].
    destruct (pr_each s n x all_roles Hp role ents Hrole Hhas He) as [mx [A B]].
    exists mx. split; [exact A|]. destruct B as [B|B]; [auto|].
    destruct (N.eq_dec mx 0) as [Z|NZ]; [auto|right]. apply too_many_ok; assumption.
  Qed.
End Limits.

(* The limit is checked at registration time only: a later runtime update may
   lower it below the number of nodes already admitted (they are not evicted). *)
Example lowering_the_limit_does_not_evict :
  let any := fun k : N => k in
  let rt mx := mkRt 1 1 1 1 (Some [(1, [(1, mx)])]) None [] 0 0 [mkDep 0 1 0] in
  let nd id c p v t := mkNode id 1 c p v t 4 1 [1] in
  let ops := [TRegEntity 1 (mkEnt 1 [4; 7]) 1 true;
              TRegRuntime 2 (rt 2);
              TRegNode 4 (nd 4 8 9 10 11) [4; 8; 9; 10; 11] true;
              TRegNode 7 (nd 7 12 13 14 15) [7; 12; 13; 14; 15] true;
              TRegRuntime 2 (rt 1)] in
  let s := run any true 5 2 ops st0 in
  map fst (s_nodes s) = [7; 4] /\
  option_map r_wl (any_runtime s 1) = Some (Some [(1, [(1, 1)])]) /\
  fst (step any true 5 2 s (TRegNode 7 (nd 7 12 13 14 15) [7; 12; 13; 14; 15] true)) = CForbidden.
Proof. cbn zeta. vm_compute. repeat split; reflexivity. Qed.

Definition Inv_owner (s : state) : Prop :=
  forall id n, aget id (s_nodes s) = Some n -> exists ent, aget (n_ent n) (s_ents s) = Some ent.

Section Owner.
  Variable addr : N -> N.
  Variable fixed : bool.
  Variables maxexp debond : N.
  Notation stp := (step addr fixed maxexp debond).

  Lemma step_owner s o :
    tx_op o = true -> Inv_reg s -> Inv_owner s -> Inv_owner (snd (stp s o)).
  Proof.
    intros Htx Hreg Hown. destruct (step_view addr fixed maxexp debond s o Htx); try exact Hown;
      intros id m Hm; fields.
    - rewrite aget_aset. destruct (e_id e =? n_ent m); [eauto|apply (Hown id m Hm)].
    - unfold dereg_entity_check in H. destruct (has_entity_nodes s txs) eqn:HN; [discriminate|].
      rewrite aget_adel. destruct (N.eqb_spec txs (n_ent m)) as [E|Hne]; [|apply (Hown id m Hm)].
      rewrite (proj2 (byent_mirror s txs (proj1 (proj2 Hreg)))) in HN by eauto. discriminate.
    - apply reg_node_ok in H as ((ent & He & _) & _).
      rewrite aget_aset in Hm. destruct (n_id n =? id); [injection Hm as <-; eauto|apply (Hown id m Hm)].
    - rewrite epoch_fold_ents. fields.
      destruct (epoch_nodes_cases addr debond e s st id (proj1 Hreg)) as [E|(x & _ & E & _)];
        cbn zeta in E; rewrite E in Hm; [apply (Hown id m Hm)|discriminate].
  Qed.

  Lemma run_owner ops s :
    Inv_reg s -> Inv_owner s -> forallb tx_op ops = true ->
    Inv_owner (run addr fixed maxexp debond ops s).
  Proof.
    intros Hr Hw H.
    apply (run_invariant addr fixed maxexp debond (fun s => Inv_reg s /\ Inv_owner s)) with (ops := ops) (s := s);
      [|split; assumption|exact H].
    intros s' o Ho [Hr' Hw']. split; [apply step_reg|apply step_owner]; assumption.
  Qed.

  Lemma owner_from_initial ops id n :
    forallb tx_op ops = true ->
    aget id (s_nodes (run addr fixed maxexp debond ops st0)) = Some n ->
    exists ent, aget (n_ent n) (s_ents (run addr fixed maxexp debond ops st0)) = Some ent.
  Proof. intros H. apply (run_owner ops st0 Inv_reg_st0); [intros x y Hxy; discriminate|exact H]. Qed.
End Owner.
