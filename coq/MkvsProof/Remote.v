(* A remote-backed reader (mkvs.NewWithRoot over an untrusted ReadSyncer):
   the cached partial tree, the merge of verified subtrees by hash equality
   (syncer/merge.go:15-72), the acceptance rule of cache.remoteSync
   (cache.go:385-451: a proof is only accepted for ptr.Hash or for
   syncRoot.Hash), eviction of whole subtrees (cache.removeNode), and the
   partial removal that cache.tryRemoveNode performs when it hits the locked
   pointer (cache.go:243-275) -- the bounded-cache defect, kept as a separate
   step kind that the safety theorem excludes and the refutation uses. *)
From Verif Require Import Lib.Base Mkvs.Trie Mkvs.BitsProofs Mkvs.HashProofs MkvsProof.Model
  MkvsProof.Sound MkvsProof.Complete MkvsProof.Examples MkvsProof.Final.

(* a pointer position: LeafNode / Left / Right steps from the root pointer *)
Inductive dir := DF | DL | DR.

Fixpoint sub_at (p : ptree) (path : list dir) {struct path} : option ptree :=
  match path with
  | [] => Some p
  | d :: rest =>
      match p with
      | PNode _ _ lf l r => sub_at (match d with DF => lf | DL => l | DR => r end) rest
      | _ => None
      end
  end.

Fixpoint upd_at (p : ptree) (path : list dir) (f : ptree -> ptree) {struct path} : ptree :=
  match path with
  | [] => f p
  | d :: rest =>
      match p with
      | PNode bl lb lf l r =>
          match d with
          | DF => PNode bl lb (upd_at lf rest f) l r
          | DL => PNode bl lb lf (upd_at l rest f) r
          | DR => PNode bl lb lf l (upd_at r rest f)
          end
      | _ => p
      end
  end.

Section Remote.
  Variable H : bytes -> bytes.

  (* MergeVerifiedSubtree, merge.go:15-72: (merged tree, no error).  Only Left
     and Right are merged below an existing internal node; an error stops the
     merge where it is (what was merged before stays). *)
  Fixpoint merge (dst sub : ptree) : ptree * bool :=
    match dst, sub with
    | PNil, _ => (dst, true)                                         (* :21 dst == nil *)
    | _, PNil => (dst, true)                                         (* :21 subtree == nil *)
    | _, _ =>
        if negb (bytes_eqb (phash H dst) (phash H sub)) then (dst, false)   (* :34 hash mismatch *)
        else
          match sub with
          | PHash _ => (dst, true)                                   (* :42 subtree.Node == nil *)
          | _ =>
              match dst with
              | PHash _ => (sub, true)                               (* :47 dst.Node == nil: take it *)
              | PNode bl lb lf l r =>                                (* :52 *)
                  match sub with
                  | PNode _ _ _ sl sr =>
                      let '(l', ok) := merge l sl in
                      if ok then let '(r', ok2) := merge r sr in (PNode bl lb lf l' r', ok2)
                      else (PNode bl lb lf l' r, false)
                  | _ => (dst, false)                                (* type assertion would panic *)
                  end
              | _ => (dst, true)                                     (* :64 clean leaf: untouched *)
              end
          end
    end.

  (* cache.remoteSync for a response received while dereferencing the pointer
     at [path]: which root the proof is checked against, then merge *)
  Definition apply_resp (root : bytes) (p : ptree) (path : list dir)
             (ver : N) (untrusted : bytes) (es : list pentry) : ptree :=
    match sub_at p path with
    | None => p
    | Some cur =>
        let h := phash H cur in                                      (* ptr.Hash *)
        if bytes_eqb untrusted h then                                (* cache.go:399 *)
          match verify H ver h untrusted es with
          | ROk sub => upd_at p path (fun c => fst (merge c sub))
          | RErr _ => p
          end
        else if bytes_eqb untrusted root then                        (* :402 syncRoot.Hash *)
          match verify H ver root untrusted es with
          | ROk sub => fst (merge p sub)
          | RErr _ => p
          end
        else p                                                       (* :405 unknown root *)
    end.

  Inductive rstep :=
  | SResp (path : list dir) (ver : N) (untrusted : bytes) (es : list pentry)
  | SEvict (path : list dir)                    (* removeNode: a cached subtree back to its hash *)
  | SPartialRemove (path : list dir) (d : dir). (* tryRemoveNode hit the locked pointer after
                                                   having nil-ed LeafNode / Left of the node at [path] *)

  Definition apply_step (root : bytes) (p : ptree) (s : rstep) : ptree :=
    match s with
    | SResp path ver untrusted es => apply_resp root p path ver untrusted es
    | SEvict path => upd_at p path (fun c => match c with PNil => PNil | _ => PHash (phash H c) end)
    | SPartialRemove path d =>
        upd_at p path (fun c =>
          match c with
          | PNode bl lb lf l r =>
              match d with
              | DF => PNode bl lb PNil l r
              | DL => PNode bl lb PNil PNil r
              | DR => PNode bl lb PNil PNil PNil
              end
          | _ => c
          end)
    end.

  Definition run_steps (root : bytes) (steps : list rstep) : ptree :=
    fold_left (apply_step root) steps (PHash root).

  (* unbounded cache: tryRemoveNode is never entered with a locked pointer, so
     no partial removal; and response entries are wire-sized *)
  Definition step_ok (s : rstep) : Prop :=
    match s with
    | SResp _ _ _ es => Forall entry_wire es
    | SEvict _ => True
    | SPartialRemove _ _ => False
    end.

  (* an executable Get: answer from the cached tree if it decides the key,
     else one fetch per round for the pointer the walk stopped at *)
  Fixpoint need (fresh : bool) (d : N) (k : bytes) (p : ptree) : option (list dir) :=
    match p with
    | PHash _ => Some []
    | PNode bl _ lf l r =>
        if negb fresh && is_phash lf then Some []
        else
          let d' := d + bl in
          let kl := N.of_nat (length (bits_of k)) in
          if kl =? d' then option_map (cons DF) (need false d' k lf)
          else if kl <? d' then None
          else if bit (bits_of k) (N.to_nat d') then option_map (cons DR) (need false d' k r)
          else option_map (cons DL) (need false d' k l)
    | _ => None
    end.

  Inductive resp := RespErr | RespProof (ver : N) (untrusted : bytes) (es : list pentry).

  Fixpoint rget (root : bytes) (p : ptree) (k : bytes) (rs : list resp) : pres * ptree :=
    match plookup_go H true 0 k p with
    | Unknown =>
        match need true 0 k p, rs with
        | Some path, RespProof ver untrusted es :: rest =>
            let p1 := apply_step root p (SEvict path) in             (* refetch drops the node first *)
            let p2 := apply_resp root p1 path ver untrusted es in
            match sub_at p2 path with
            | Some (PHash _) => (Unknown, p2)                        (* cache.go:377 no node received *)
            | _ => rget root p2 k rest
            end
        | _, _ => (Unknown, p)
        end
    | a => (a, p)
    end.

  Hypothesis Hlen : forall x, length (H x) = HASH_SIZE.

  (* the subtree at a position prunes the corresponding subtree of [t], and may
     be replaced by anything that does *)
  Lemma prunes_at path : forall p t cur,
    prunes H p t -> bounded t -> sub_at p path = Some cur ->
    exists t', prunes H cur t' /\ bounded t' /\
               forall f, prunes H (f cur) t' -> prunes H (upd_at p path f) t.
  Proof.
    induction path as [|d rest IH]; intros p t cur P B S; simpl in S.
    - assert (cur = p) as -> by congruence. exists t. split; [exact P|]. split; [exact B|]. intros f Pf. exact Pf.
    - destruct p as [| | |bl lb lf l r]; try discriminate.
      cbn [prunes] in P. destruct t as [|k' v'|lbl olf tl tr]; try contradiction.
      destruct P as (E1 & E2 & Plf & Pl & Pr). cbn [bounded] in B. destruct B as (Bl & Bf & Btl & Btr).
      (* the slot, the left or the right subtree; the slot as a one-node tree *)
      destruct d;
        [apply (prunes_lf_otree H) in Plf;
         destruct (IH lf (otree olf) cur Plf (otree_bounded olf Bf) S) as (t' & Pc & Bt' & Hf)
        |destruct (IH l tl cur Pl Btl S) as (t' & Pc & Bt' & Hf)
        |destruct (IH r tr cur Pr Btr S) as (t' & Pc & Bt' & Hf)];
        (exists t'; split; [exact Pc|]; split; [exact Bt'|]; intros f Pf; cbn [upd_at prunes]; repeat split; auto).
      apply (prunes_lf_otree H), Hf, Pf.
  Qed.

  Lemma merge_prunes dst : forall sub t,
    prunes H dst t -> prunes H sub t -> prunes H (fst (merge dst sub)) t.
  Proof.
    induction dst as [|h|k v|bl lb lf _ l IHl r IHr]; intros sub t Pd Ps; [exact Pd|..];
      destruct sub as [|h'|k' v'|bl' lb' lf' l' r']; cbn [merge]; try exact Pd;
      destruct (negb (bytes_eqb _ _)); cbn [fst]; auto.
    (* both are internal nodes: Left and Right are merged *)
    cbn [prunes] in Pd, Ps. destruct t as [|k0 v0|lbl olf tl tr]; try contradiction.
    destruct Pd as (E1 & E2 & Plf & Pl & Pr). destruct Ps as (_ & _ & _ & Psl & Psr).
    specialize (IHl l' tl Pl Psl). specialize (IHr r' tr Pr Psr).
    destruct (merge l l') as [lm [|]]; [destruct (merge r r') as [rm okr]|]; cbn [fst prunes] in *; auto.
  Qed.

  Lemma upd_at_none path : forall p f, sub_at p path = None -> upd_at p path f = p.
  Proof.
    induction path as [|d rest IH]; intros p f S; [discriminate|].
    cbn [sub_at] in S. destruct p as [| | |bl lb lf l r]; cbn [upd_at]; try reflexivity.
    destruct d; rewrite IH by exact S; reflexivity.
  Qed.

  Lemma apply_step_prunes root p t s :
    root = root_hash H t -> bounded t -> step_ok s ->
    prunes H p t -> prunes H (apply_step root p s) t \/ collision H.
  Proof.
    intros Er B Ok P. destruct s as [path ver untrusted es|path|path d]; cbn [step_ok] in Ok; [| |contradiction].
    - cbn [apply_step]. unfold apply_resp.
      destruct (sub_at p path) as [cur|] eqn:S; [|auto].
      destruct (prunes_at path p t cur P B S) as (t' & Pc & Bt' & Hf).
      destruct (bytes_eqb untrusted (phash H cur)) eqn:E1.
      + rewrite (prunes_hash H cur t' Pc).
        destruct (verify H ver (root_hash H t') untrusted es) as [sub|e] eqn:V; [|auto].
        destruct (verify_sound_l H Hlen _ _ _ _ _ V Ok Bt') as [Ps|C]; [|auto].
        left. apply Hf. apply merge_prunes; assumption.
      + destruct (bytes_eqb untrusted root) eqn:E2; [|auto].
        destruct (verify H ver root untrusted es) as [sub|e] eqn:V; [|auto].
        rewrite Er in V.
        destruct (verify_sound_l H Hlen _ _ _ _ _ V Ok B) as [Ps|C]; [|auto].
        left. apply merge_prunes; assumption.
    - cbn [apply_step]. left.
      destruct (sub_at p path) as [cur|] eqn:S.
      + destruct (prunes_at path p t cur P B S) as (t' & Pc & Bt' & Hf).
        apply Hf. destruct cur; try exact Pc; cbn [prunes]; apply (prunes_hash H); exact Pc.
      + rewrite upd_at_none by exact S. exact P.
  Qed.

  Lemma run_prunes root t steps : forall p,
    root = root_hash H t -> bounded t -> Forall step_ok steps ->
    prunes H p t -> prunes H (fold_left (apply_step root) steps p) t \/ collision H.
  Proof.
    induction steps as [|s rest IH]; intros p Er B F P; cbn [fold_left]; [auto|].
    inversion F as [|s0 r0 Fs Fr]; subst s0 r0.
    destruct (apply_step_prunes root p t s Er B Fs P) as [P'|C]; [|auto].
    apply IH; auto.
  Qed.

  (* the first fetch of a fresh reader: a response that verifies for the root
     is merged into the hash-only root pointer, which takes it whole *)
  Lemma apply_resp_root root ver es :
    apply_resp root (PHash root) [] ver root es =
    match verify H ver root root es with ROk sub => fst (merge (PHash root) sub) | RErr _ => PHash root end.
  Proof. unfold apply_resp. cbn [sub_at]. change (phash H (PHash root)) with root. now rewrite bytes_eqb_refl. Qed.

  Lemma merge_into_hash p :
    merge (PHash (phash H p)) p = (match p with PNil | PHash _ => PHash (phash H p) | _ => p end, true).
  Proof.
    destruct p; try reflexivity; cbn [merge]; change (phash H (PHash ?h)) with h; now rewrite bytes_eqb_refl.
  Qed.

  (* Every answer a reader holding only the trusted root can derive -- after
     ANY sequence of responses (honest, corrupt, for sub-pointers or for the
     root, accepted or rejected) and evictions -- is the full replica's answer,
     or no answer (Unknown = the Go tree returns an error). *)
  Theorem remote_tree_safe_l t steps :
    wf t -> bounded t -> Forall step_ok steps ->
    (forall fresh k, agrees t k (plookup_go H fresh 0 k (run_steps (root_hash H t) steps)) /\
                     agrees t k (plookup 0 k (run_steps (root_hash H t) steps))) \/ collision H.
  Proof.
    intros W B F. unfold run_steps.
    destruct (run_prunes (root_hash H t) t steps (PHash (root_hash H t)) eq_refl B F eq_refl) as [P|C]; [|auto].
    destruct (plookup_go_prunes H _ t P) as [G|C]; [|auto].
    left. intros fresh k. split.
    - apply agrees_of_opt; [exact W|]. exact (G fresh 0%nat k).
    - apply agrees_of_opt; [exact W|]. exact (plookup_prunes H _ t 0%nat k P).
  Qed.

  (* the write-log / iteration side: whatever leaf the reader can see is a real pair *)
  Theorem remote_tree_leaves_safe_l t steps :
    bounded t -> Forall step_ok steps ->
    incl (pleaves (run_steps (root_hash H t) steps)) (contents t) \/ collision H.
  Proof.
    intros B F. unfold run_steps.
    destruct (run_prunes (root_hash H t) t steps (PHash (root_hash H t)) eq_refl B F eq_refl) as [P|C]; [|auto].
    left. apply pleaves_prunes with (H := H). exact P.
  Qed.

  (* the executable Get over any list of responses *)
  Definition resp_ok (r : resp) : Prop :=
    match r with RespErr => True | RespProof _ _ es => Forall entry_wire es end.

  Theorem rget_safe_l t rs : forall p k,
    wf t -> bounded t -> Forall resp_ok rs -> prunes H p t ->
    (agrees t k (fst (rget (root_hash H t) p k rs)) /\ prunes H (snd (rget (root_hash H t) p k rs)) t)
    \/ collision H.
  Proof.
    induction rs as [|r rest IH]; intros p k W B F P;
      (destruct (plookup_go_prunes H p t P) as [G|C]; [|auto]);
      pose proof (agrees_of_opt t k _ W (G true 0%nat k)) as A; change (N.of_nat 0) with 0 in A;
      cbn [rget]; destruct (plookup_go H true 0 k p); cbn [fst snd]; auto;
      destruct (need true 0 k p) as [path|]; cbn [fst snd agrees]; auto.
    (* one more fetch: evict, apply the response, go on *)
    inversion F as [|r0 rs0 Fr Frest]; subst r0 rs0.
    destruct r as [|ver untrusted es]; cbn [fst snd agrees]; auto.
    destruct (apply_step_prunes (root_hash H t) p t (SEvict path) eq_refl B I P) as [P1|C]; [|auto].
    destruct (apply_step_prunes (root_hash H t) _ t (SResp path ver untrusted es) eq_refl B Fr P1) as [P2|C]; [|auto].
    cbn [apply_step] in P2.
    destruct (sub_at _ path) as [[|h| |]|]; cbn [fst snd agrees]; auto; apply IH; auto.
  Qed.
End Remote.

(* With the partial removal of cache.tryRemoveNode (an ancestor keeps its place
   in the cache with LeafNode / Left nil-ed after errRemoveLocked) safety is
   false: a present key resolves absent.  The witness is the shape of the known
   replay: the root's own leaf (the empty key) disappears. *)
Theorem remote_tree_safe_bounded_cache_refuted_l :
  exists H t steps k v,
    (forall x, length (H x) = HASH_SIZE) /\ wf t /\ bounded t /\
    tlookup k t = Some v /\
    plookup_go H true 0 k (run_steps H (root_hash H t) steps) = Absent.
Proof.
  exists Examples.Hc, Examples.ex_t.
  exists [SResp [] 0 (root_hash Examples.Hc Examples.ex_t)
                (build_get_proof Examples.Hc 0 false [1] Examples.ex_t);
          SPartialRemove [] DF].
  exists [], [14].
  split; [exact Examples.Hc_len|]. split; [exact Examples.ex_t_wf|]. split; [exact Examples.ex_t_bounded|].
  split; [reflexivity|]. unfold run_steps. cbn [fold_left apply_step].
  rewrite apply_resp_root, Examples.ex_get_proof by lia.
  rewrite <- (prunes_hash _ _ _ (bgt_prunes Examples.Hc 0 false [1] Examples.ex_t 0)), merge_into_hash.
  reflexivity.
Qed.
