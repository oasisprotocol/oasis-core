(* What an accepted proof says about keys and the write log, against the
   contents of the real tree. *)
From Verif Require Import Lib.Base Mkvs.Trie Mkvs.TrieProofs Mkvs.HashProofs MkvsProof.Model
  MkvsProof.Sound.

(* what an answer about key [k] claims, against the real contents *)
Definition agrees (t : tree) (k : bytes) (a : pres) : Prop :=
  match a with
  | Found v => al_get k (contents t) = Some v
  | Absent => al_get k (contents t) = None
  | Unknown => True
  end.

Section Final.
  Variable H : bytes -> bytes.
  Hypothesis Hlen : forall x, length (H x) = HASH_SIZE.

  Lemma agrees_of_opt t k a : wf t -> (a = Unknown \/ a = of_opt (lookup 0 k t)) -> agrees t k a.
  Proof.
    intros W [->| ->]; [exact I|]. pose proof (lookup_contents t k W) as E. unfold tlookup in E.
    destruct (lookup 0 k t); cbn; congruence.
  Qed.

  Theorem proof_cannot_lie_l ver untrusted es p t :
    verify H ver (root_hash H t) untrusted es = ROk p ->
    Forall entry_wire es -> wf t -> bounded t ->
    (forall k, agrees t k (plookup 0 k p) /\ agrees t k (plookup_go H true 0 k p)) \/ collision H.
  Proof.
    intros E F W B. destruct (verify_sound_l H Hlen _ _ _ _ _ E F B) as [P|C]; [|auto].
    destruct (plookup_go_prunes H p t P) as [G|C]; [|auto].
    left. intros k. split.
    - apply agrees_of_opt; [exact W|]. exact (plookup_prunes H p t 0%nat k P).
    - apply agrees_of_opt; [exact W|]. exact (G true 0%nat k).
  Qed.

  Theorem plookup_go_sound_l p t fresh d k :
    prunes H p t ->
    ((forall v, plookup_go H fresh (N.of_nat d) k p = Found v -> lookup d k t = Some v) /\
     (plookup_go H fresh (N.of_nat d) k p = Absent -> lookup d k t = None)) \/ collision H.
  Proof.
    intros P. destruct (plookup_go_prunes H p t P) as [G|C]; [|auto]. left.
    exact (of_opt_sound _ _ (G fresh d k)).
  Qed.

  (* the write log of an accepted proof holds only real entries *)
  Theorem writelog_sound_l ver untrusted es wl t :
    verify_to_writelog H ver (root_hash H t) untrusted es = Some wl ->
    Forall entry_wire es -> bounded t ->
    incl wl (contents t) \/ collision H.
  Proof.
    unfold verify_to_writelog. intros E F B.
    destruct (vp VP_FUEL ver 0 es) as [p0 rest|] eqn:Evp; [|discriminate].
    destruct (verify H ver (root_hash H t) untrusted es) as [p|] eqn:Ev; [|discriminate].
    injection E as <-.
    apply (verify_inv H Hlen) in Ev as (p0' & Evp' & Eh & _).
    rewrite Evp in Evp'. injection Evp' as <- _.
    destruct (vp_pwf _ _ _ _ _ _ F Evp) as [W _].
    destruct (hash_prunes H Hlen p0 t W B Eh) as [P|C]; [|auto].
    left. apply pleaves_prunes with (H := H). exact P.
  Qed.

  (* all entries are consumed, and exactly once: the verifier's recursion
     returns the unconsumed suffix, which must be empty *)
  Theorem verify_consumes_all_l ver root untrusted es p :
    verify H ver root untrusted es = ROk p ->
    exists p0, vp VP_FUEL ver 0 es = VOk p0 [] /\ phash H p0 = root.
  Proof.
    intros E. apply (verify_inv H Hlen) in E as (p0 & Evp & Eh & _). eauto.
  Qed.
End Final.
