(* Totality / boundedness of the decoders of Misc.v. *)
From Verif Require Import Lib.Base Decode.GoSlice Decode.GoSliceFacts Decode.Node Decode.NodeProofs
  Decode.ProofEntries Decode.ProofEntriesProofs Decode.Quote Decode.QuoteProofs Decode.Misc
  Gen.DecodeConsts Gen.QuoteConsts Gen.MiscConsts.

Lemma gen_ias_layout_expected :
  ias_quoteLen = 432 /\ ias_quoteBodyLen = 48 /\ ias_quoteReportLen = 384 /\
  ias_offsetReportReportData = 320.
Proof. repeat split; reflexivity. Qed.

#[export] Hint Unfold ias_quoteLen ias_quoteBodyLen ias_quoteReportLen ias_offsetReportReportData : goconsts.

Lemma ias_body_safe data s : safe anyv 0 s (ias_body data s).
Proof.
  unfold ias_body, rd16, rd32, cp. step; [step|]. assert (48 <= glen data) by golia.
  repeat step.
Qed.

Lemma ias_report_safe data s : safe anyv 0 s (ias_report data s).
Proof.
  unfold ias_report, rd16, rd32, rd64, cp. step; [step|]. assert (384 <= glen data) by golia.
  repeat step.
Qed.

Lemma ias_quote_safe data s : safe anyv 0 s (ias_quote data s).
Proof.
  unfold ias_quote. step; [step|]. assert (432 <= glen data) by golia.
  do 2 step. call ias_body_safe. step. call ias_report_safe. step.
Qed.

Lemma decode_ias_quote_total_l : forall b s,
  fst (ias_body b s) <> Panic /\ fst (ias_report b s) <> Panic /\ fst (ias_quote b s) <> Panic /\
  snd (ias_quote b s) <= s.
Proof.
  intros b s. repeat apply conj.
  - exact (outcome_no_panic _ _ _ (ias_body_safe b s)).
  - exact (outcome_no_panic _ _ _ (ias_report_safe b s)).
  - exact (outcome_no_panic _ _ _ (ias_quote_safe b s)).
  - pose proof (safe_alloc _ _ _ _ (ias_quote_safe b s)). lia.
Qed.

Definition item_bytes (ev : dec_event) : N :=
  match ev with DItem (Some b) => glen b | _ => 0 end.
Definition events_len (evs : list dec_event) : N := fold_right (fun e acc => item_bytes e + acc) 0 evs.

Lemma total_len_app a b : total_len (a ++ b) = total_len a + total_len b.
Proof.
  unfold total_len in *. induction a as [|x a IH]; cbn [app fold_right]; lia.
Qed.

Lemma chunk_collect_len : forall evs acc,
  total_len (fst (chunk_collect evs acc)) <= total_len (rev acc) + events_len evs.
Proof.
  induction evs as [|ev evs IH]; intros acc; cbn [chunk_collect events_len fold_right].
  - cbn [fst]. lia.
  - fold (events_len evs). destruct ev as [e| |]; cbn [fst item_bytes]; try lia.
    specialize (IH (e :: acc)). cbn [rev] in IH. rewrite total_len_app in IH.
    cbn [total_len fold_right] in IH. destruct e; cbn [item_bytes]; lia.
Qed.

Lemma restore_chunk_spec digest_ok evs s :
  outcome (fun _ s' => s' <= s + events_len evs)
          (fun e s' => e <> W_CHUNK + E_FUEL /\ s' <= s + events_len evs)
          (restore_chunk digest_ok evs s).
Proof.
  unfold restore_chunk. pose proof (chunk_collect_len evs []) as HL. cbn [rev total_len fold_right] in HL.
  destruct (chunk_collect evs []) as [es derr]. cbn [fst] in HL.
  step; [step; split; [discriminate|lia]|]. step; [step; split; [discriminate|lia]|].
  eapply outcome_wrap; [eapply outcome_weaken; [apply verify_opts_spec| |intros e s1 H; exact H]|];
    cbn beta; unfold E_FUEL, W_CHUNK; lia.
Qed.

Lemma restore_chunk_total_l : forall digest_ok evs s,
  fst (restore_chunk digest_ok evs s) <> Panic /\
  fst (restore_chunk digest_ok evs s) <> Err (W_CHUNK + E_FUEL) /\
  snd (restore_chunk digest_ok evs s) <= s + events_len evs.
Proof.
  intros digest_ok evs s. pose proof (restore_chunk_spec digest_ok evs s) as H. repeat apply conj.
  - exact (outcome_no_panic _ _ _ H).
  - apply (outcome_not_err _ _ _ _ H). intros s' [Hne _]. exact (Hne eq_refl).
  - apply (outcome_alloc _ _ _ _ H); cbn; tauto.
Qed.

Example restore_chunk_example :
  fst (run (restore_chunk true [DItem (Some [1; 1; 0; 0; 2]); DItem None; DItem None; DEof]))
  = Ok (PInt 0 [] PNil PNil PNil)
  /\ fst (run (restore_chunk true [DItem (Some [1; 1; 0; 0; 2]); DErr])) = Err E_CHUNK_DECODE
  /\ fst (run (restore_chunk false [DItem None])) = Err E_CHUNK_CORRUPTED.
Proof. repeat apply conj; vm_compute; reflexivity. Qed.
