(* NodeDB/StructProofs.v — the semantic side condition prune_safe follows from the structural
   hypothesis of the design (no node shared between a lone root of the pruned version and a root
   of that version that has derived roots), for histories without same-version child roots. *)
From Verif Require Import Lib.Base NodeDB.Spec NodeDB.SpecProofs NodeDB.Badger NodeDB.StoreProofs
  NodeDB.BadgerProofs NodeDB.Examples.

Definition nonlone (m : sdb) (v rid : N) : Prop :=
  exists x, find_root rid (roots_at m v) = Some x /\ r_derived x <> [].

(* lineage: a node of a listed root was written in the root's own version, or belongs to the
   root's parent in the previous version - which is then still listed, with a derived root *)
Definition lin (d : bdb) : Prop :=
  forall v rid, d_earliest (b_meta d) <= v -> has_rid rid (roots_at (b_meta d) v) = true ->
  forall n, In n (a_reach (aux_get v rid (b_aux d))) ->
    (exists b, In (n, v, b) (b_store d)) \/
    (exists prid, v <> 0 /\
       (d_earliest (b_meta d) <= v - 1 ->
        In n (a_reach (aux_get (v - 1) prid (b_aux d))) /\ nonlone (b_meta d) (v - 1) prid)).

Lemma lin0 : lin bdb0.
Proof. intros v rid _ H. discriminate. Qed.

(* no same-version child roots *)
Definition wf2_step (o : op) : bool :=
  match o with
  | OCommit ver _ _ (Some (over, _)) _ _ _ _ _ => over + 1 =? ver
  | _ => true
  end.

Lemma find_root_appended m ver newr v r x :
  find_root r (roots_at m v) = Some x ->
  find_root r (if ver =? v then roots_at m ver ++ [newr] else roots_at m v) = Some x.
Proof.
  intros HF. destruct (ver =? v) eqn:E; [|exact HF].
  apply N.eqb_eq in E. subst v. rewrite find_root_app, HF. reflexivity.
Qed.

Lemma committed_keeps m ver rid old newr v r x :
  find_root r (roots_at m v) = Some x -> r_derived x <> [] ->
  exists x', find_root r (committed m ver rid old newr v) = Some x' /\ r_derived x' <> [].
Proof.
  intros HF ND. apply (find_root_appended m ver newr) in HF. unfold committed.
  destruct old as [[over orid]|]; [destruct (negb (is_empty_rid orid) && (over =? v))|];
    try (exists x; split; assumption).
  rewrite find_root_add_derived, HF. cbn [option_map]. eexists. split; [reflexivity|].
  destruct (orid =? r); [cbn [r_derived]; destruct (r_derived x); discriminate|exact ND].
Qed.

Lemma committed_links m ver rid over orid newr :
  is_empty_rid orid = false -> has_rid orid (roots_at m over) = true ->
  exists x', find_root orid (committed m ver rid (Some (over, orid)) newr over) = Some x' /\ r_derived x' <> [].
Proof.
  intros EM HH. destruct (has_find _ _ HH) as [x HF]. apply (find_root_appended m ver newr) in HF.
  unfold committed. rewrite EM, N.eqb_refl. cbn [negb andb].
  rewrite find_root_add_derived, HF, N.eqb_refl. cbn [option_map]. eexists. split; [reflexivity|].
  cbn [r_derived]. destruct (r_derived x); discriminate.
Qed.

Lemma lin_commit d ver typ rid old ws puts removed reach inl0 :
  lin d -> wf_step d (OCommit ver typ rid old ws puts removed reach inl0) = true ->
  wf2_step (OCommit ver typ rid old ws puts removed reach inl0) = true ->
  lin (snd (b_commit d ver typ rid old ws puts removed reach inl0)).
Proof.
  intros L WF W2. unfold b_commit.
  destruct (s_commit (b_meta d) ver typ rid old ws) as [e m'] eqn:SC.
  destruct e; try exact L.
  destruct (has_rid rid (roots_at (b_meta d) ver)) eqn:FR; [exact L|]. cbn [negb snd].
  destruct (s_commit_ok _ _ _ _ _ _ _ SC) as [HE [_ [_ [_ HF]]]].
  destruct (HF FR) as [[c HC] HO]. clear HF SC.
  cbn [wf_step] in WF. apply andb_true_iff in WF as [_ W3]. rewrite forallb_forall in W3.
  unfold lin. cbn [b_meta b_aux b_store]. rewrite HE. intros v r Hev Hh n Hn.
  rewrite HC in Hh. apply committed_listed in Hh as [Hh|[-> ->]]; [| |reflexivity].
  - (* an existing root: its parent keeps its links *)
    rewrite aux_get_other in Hn by (intros C; injection C as -> ->; congruence).
    destruct (L v r Hev Hh n Hn) as [[b HB]|[prid [NZ HP]]].
    + left. exists b. apply in_or_app. right. exact HB.
    + right. exists prid. split; [exact NZ|]. intros EV. destruct (HP EV) as [HP1 [x [HX ND]]].
      split; [|unfold nonlone; rewrite HC; exact (committed_keeps _ _ _ _ _ _ _ _ HX ND)].
      rewrite aux_get_other; [exact HP1|].
      intros C. injection C as C1 ->. rewrite <- C1 in HX. apply find_root_has in HX. congruence.
  - (* the new root: a node this commit does not put comes from the old root, which gains the link *)
    rewrite aux_get_cons, !N.eqb_refl in Hn. cbn [andb a_reach] in Hn.
    specialize (W3 n Hn). apply orb_true_iff in W3 as [P|P].
    + left. exists true. apply nmem_In in P. apply in_or_app. left.
      apply in_map_iff. exists n. split; [reflexivity|exact P].
    + right. apply andb_true_iff in P as [P _]. apply nmem_In in P. unfold old_reach in P.
      destruct old as [[over orid]|]; [|destruct P].
      destruct (is_empty_rid orid) eqn:EM; [destruct P|].
      cbn [wf2_step] in W2. destruct (HO eq_refl) as [_ [HH _]].
      assert (OV : ver - 1 = over /\ ver <> 0) by (clear - W2; lia). destruct OV as [-> NZ].
      exists orid. split; [exact NZ|]. intros _. split.
      * rewrite aux_get_other; [exact P|]. intros C. injection C as C1 _. lia.
      * unfold nonlone. rewrite HC. exact (committed_links _ _ _ _ _ _ EM HH).
Qed.

Lemma lin_finalize d ver rids :
  inv_meta d -> lin d -> wf_step d (OFinalize ver rids) = true -> lin (snd (b_finalize d ver rids)).
Proof.
  intros IM L WF. unfold b_finalize.
  destruct (s_finalize (b_meta d) ver rids) as [e m'] eqn:SF.
  destruct e; try exact L. cbn [snd].
  destruct (s_finalize_ok _ _ _ _ SF) as [_ [_ [_ HR]]].
  pose proof (finalize_earliest_le d ver rids m' IM SF) as OLDE.
  unfold lin. cbn [b_meta b_aux b_store]. intros v r Hev Hh n Hn.
  pose proof (s_finalize_listed _ _ _ _ v r SF Hh) as Hh'.
  destruct (L v r (N.le_trans _ _ _ OLDE Hev) Hh' n Hn) as [[b HB]|[prid [NZ HP]]].
  - left. exists b. apply in_or_app. right. exact HB.
  - right. exists prid. split; [exact NZ|]. intros EV.
    destruct (HP (N.le_trans _ _ _ OLDE EV)) as [HP1 [x [HF ND]]]. split; [exact HP1|].
    exists x. split; [|exact ND]. rewrite HR.
    pose proof (wf_finalize_le d ver rids v r WF Hh'). replace (ver =? v - 1) with false by lia. exact HF.
Qed.

Lemma lin_prune d ver : lin d -> lin (snd (b_prune d ver)).
Proof.
  intros L. unfold b_prune.
  destruct (s_prune_check (b_meta d) ver) eqn:PC; try exact L.
  destruct (visit_all d ver (lone_roots d ver)); try exact L. cbn [snd].
  destruct (s_prune_check_ok _ _ PC) as [l [_ [EV _]]].
  unfold lin. cbn [b_meta b_aux b_store]. intros v r Hev Hh n Hn. cbn [s_prune_do d_earliest] in Hev.
  rewrite roots_at_prune_do in Hh. replace (ver =? v) with false in Hh by lia.
  destruct (L v r ltac:(lia) Hh n Hn) as [[b HB]|[prid [NZ HP]]].
  - left. exists b. apply in_or_app. right. exact HB.
  - right. exists prid. split; [exact NZ|]. intros EV2.
    destruct (HP ltac:(lia)) as [HP1 [x [HF ND]]]. split; [exact HP1|].
    exists x. split; [|exact ND]. rewrite roots_at_prune_do.
    replace (ver =? v - 1) with false by (cbn [s_prune_do d_earliest] in EV2; lia). exact HF.
Qed.

Definition no_lone_sharing (d : bdb) (ver : N) : bool :=
  forallb (fun l => negb (is_empty_rid (r_id l)) &&
     forallb (fun r => match r_derived r with
                       | [] => true
                       | _ => forallb (fun n => negb (nmem n (a_reach (aux_get ver (r_id r) (b_aux d)))))
                                      (a_reach (aux_get ver (r_id l) (b_aux d)))
                       end) (roots_at (b_meta d) ver))
    (lone_roots d ver).

(* climbing down the lineage: a node of a listed root of a later version that has no write after
   the pruned version belongs to a root of the pruned version that has derived roots *)
Lemma lineage_down d ver n : lin d -> d_earliest (b_meta d) = ver ->
  forall k v rid, v = ver + 1 + N.of_nat k -> has_rid rid (roots_at (b_meta d) v) = true ->
    In n (a_reach (aux_get v rid (b_aux d))) ->
    (forall t b, In (n, t, b) (b_store d) -> ver < t -> t <= v -> False) ->
    exists prid, In n (a_reach (aux_get ver prid (b_aux d))) /\ nonlone (b_meta d) ver prid.
Proof.
  intros L EA. induction k as [|k IH]; intros v rid Hv Hh Hn NW;
    (destruct (L v rid ltac:(lia) Hh n Hn) as [[b HB]|[prid [NZ HP]]]; [exfalso; apply (NW v b HB); lia|]).
  - replace (v - 1) with ver in HP by lia. exists prid. apply HP. lia.
  - destruct (HP ltac:(lia)) as [HP1 [x [HF ND]]].
    apply (IH (v - 1) prid); [lia|eapply find_root_has; exact HF|exact HP1|].
    intros t b HI H1 H2. apply (NW t b HI H1). lia.
Qed.

Lemma structural_prune_safe d ver :
  inv d -> lin d -> s_prune_check (b_meta d) ver = EOk -> no_lone_sharing d ver = true ->
  prune_safe d ver = true.
Proof.
  intros [IR _] L PC NS. destruct (s_prune_check_ok _ _ PC) as [l0 [_ [EV _]]].
  unfold no_lone_sharing in NS. rewrite forallb_forall in NS.
  unfold prune_safe. apply andb_true_iff. split.
  - apply forallb_forall. intros l Hl. specialize (NS l Hl). apply andb_true_iff in NS as [NS _]. exact NS.
  - apply forallb_forall. intros n Hn. apply forallb_forall. intros p Hp.
    destruct (fst p <=? ver) eqn:LE; [reflexivity|]. cbn [orb].
    apply forallb_forall. intros r Hr.
    destruct (nmem n (a_reach (aux_get (fst p) (r_id r) (b_aux d)))) eqn:NM; [|reflexivity]. cbn [negb orb].
    apply nmem_In in NM. pose proof (in_has_rid r _ Hr) as Hh.
    destruct (IR (fst p) (r_id r) ltac:(lia) Hh n NM) as [V _]. unfold visible in V.
    destruct (best n (fst p) (b_store d)) as [[ts b]|] eqn:B; [|discriminate].
    destruct (ver <? ts) eqn:LT; [reflexivity|]. exfalso.
    (* n has no write after the pruned version: it descends from a root of that version with
       derived roots, yet it is a node of a lone root of the pruned version *)
    unfold prune_dels in Hn. apply in_flat_map in Hn as [l [Hl Hn]]. apply filter_In in Hn as [Hn _].
    destruct (lineage_down d ver n L (eq_sym EV) (N.to_nat (fst p - ver - 1)) (fst p) (r_id r) ltac:(lia) Hh NM)
      as [prid [P1 [x [HF ND]]]].
    { intros t b0 HI H1 H2. destruct (best_ge n (fst p) _ t b0 HI H2) as [ts' [b' [E Hle]]].
      rewrite B in E. injection E as <- <-. lia. }
    specialize (NS l Hl). apply andb_true_iff in NS as [_ NS]. rewrite forallb_forall in NS.
    destruct (find_root_in _ _ _ HF) as [HI HX]. specialize (NS x HI).
    destruct (r_derived x) as [|d0 ds]; [congruence|].
    rewrite forallb_forall in NS. specialize (NS n Hn). rewrite HX in NS.
    apply negb_true_iff in NS. apply nmem_In in P1. congruence.
Qed.

Definition struct_safe (d : bdb) (o : op) : bool :=
  match o with
  | OCommit _ _ _ _ _ _ _ _ _ => true
  | OFinalize ver rids => fin_safe d ver rids
  | OPrune ver => match s_prune_check (b_meta d) ver with EOk => no_lone_sharing d ver | _ => true end
  end.

Fixpoint ok_run_struct (d : bdb) (h : list op) : bool :=
  match h with
  | [] => true
  | o :: t => wf_step d o && wf2_step o && struct_safe d o && ok_run_struct (snd (b_step d o)) t
  end.

Lemma step_struct d o :
  inv d -> lin d -> wf_step d o = true -> wf2_step o = true -> struct_safe d o = true ->
  inv (snd (b_step d o)) /\ lin (snd (b_step d o)) /\
  fst (b_step d o) = fst (s_step (b_meta d) o) /\ b_meta (snd (b_step d o)) = snd (s_step (b_meta d) o).
Proof.
  intros I L WF W2 SS. destruct o as [ver typ rid old ws puts removed reach inl0|ver rids|ver].
  - split; [apply inv_step; [exact I|exact WF|reflexivity]|].
    split; [apply lin_commit; assumption|]. apply b_step_refines; [exact I|reflexivity].
  - cbn [struct_safe] in SS. split; [apply inv_step; assumption|].
    split; [apply lin_finalize; [exact (proj2 I)|exact L|exact WF]|]. apply b_step_refines; assumption.
  - cbn [struct_safe] in SS. cbn [b_step s_step].
    destruct (s_prune_check (b_meta d) ver) eqn:PC.
    { pose proof (structural_prune_safe d ver I L PC SS) as PS.
      split; [apply inv_prune; assumption|]. split; [apply lin_prune; exact L|].
      apply (b_step_refines d (OPrune ver) I PS). }
    all: unfold b_prune, s_prune; rewrite PC; cbn [fst snd]; (split; [exact I|split; [exact L|split; reflexivity]]).
Qed.

Lemma run_struct h : forall d, inv d -> lin d -> ok_run_struct d h = true ->
  inv (b_run d h) /\ b_meta (b_run d h) = s_run (b_meta d) h.
Proof.
  induction h as [|o t IH]; intros d I L OK; [split; [exact I|reflexivity]|].
  cbn [ok_run_struct] in OK. apply andb_true_iff in OK as [OK O4]. apply andb_true_iff in OK as [OK O3].
  apply andb_true_iff in OK as [O1 O2].
  destruct (step_struct d o I L O1 O2 O3) as [I' [L' [_ HM]]].
  unfold b_run, s_run. cbn [fold_left]. rewrite <- HM. apply IH; assumption.
Qed.

Lemma badger_refines_spec_structural_l h :
  ok_run_struct bdb0 h = true ->
  inv (b_run bdb0 h) /\ b_meta (b_run bdb0 h) = s_run sdb0 h /\
  forall v rid, s_has (b_meta (b_run bdb0 h)) v rid = true ->
    b_status (b_run bdb0 h) v rid = 1 /\ b_read (b_run bdb0 h) v rid = s_read (s_run sdb0 h) v rid.
Proof.
  intros OK. destruct (run_struct h bdb0 inv0 lin0 OK) as [I HM]. split; [exact I|]. split; [exact HM|].
  intros v rid SH. destruct (inv_status _ v rid I SH) as [A B]. split; [exact A|]. rewrite B, HM. reflexivity.
Qed.

Example structural_conditions_satisfiable :
  ok_run_struct bdb0 h_good = true /\
  no_lone_sharing (b_run bdb0 (firstn 5 h_prune_shared)) 1 = false.
Proof. vm_compute. split; reflexivity. Qed.
