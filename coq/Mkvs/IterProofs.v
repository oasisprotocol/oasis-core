(* The ported tree iterator (Mkvs/Iter.v) against the specification iterator:
   the instance of doNext_refines_seek (Mkvs/IterLift.v) on a finite domain of
   trees and seek keys, and the conditional bridge between the two runners. *)
From Verif Require Import Lib.Base Mkvs.Trie Mkvs.BitsProofs Mkvs.AlistProofs Mkvs.TrieProofs
  Mkvs.Key Mkvs.Overlay Mkvs.OverlayProofs Mkvs.Iter Mkvs.IterLift.

Definition iter_universe : list bytes :=
  [[]; [0]; [0; 0]; [0; 1]; [0; 128; 7]; [1]; [128]; [128; 0; 0; 1]; [255]; [255; 255]].
Definition iter_seeks : list bytes :=
  iter_universe ++
  [[0; 0; 0]; [0; 2]; [0; 128]; [0; 128; 6]; [0; 128; 8]; [0; 255]; [127]; [127; 255; 255]; [129];
   [128; 0; 0]; [128; 0; 0; 0]; [128; 0; 0; 2]; [255; 0]].

Fixpoint sublists {A} (l : list A) : list (list A) :=
  match l with
  | [] => [[]]
  | x :: r => sublists r ++ map (cons x) (sublists r)
  end.
Lemma sublists_spec {A} (l s : list A) : In s (sublists l) -> incl s l.
Proof.
  revert s; induction l as [|x r IH]; cbn; intros s H.
  - destruct H as [<-|[]]. intros ? [].
  - apply in_app_or in H as [H|H].
    + intros y Hy. right. eapply IH; eauto.
    + apply in_map_iff in H as (s' & <- & H). intros y [<-|Hy]; [left; reflexivity|right; eapply IH; eauto].
Qed.

Definition build_keys (ks : list bytes) : tree :=
  run (map (fun k => OIns k (k ++ [N.of_nat (length k)])) ks).

Theorem doNext_refines_seek_partial ks k :
  In ks (sublists iter_universe) -> In k iter_seeks ->
  port_iter k (build_keys ks) = al_seek k (contents (build_keys ks)).
Proof.
  intros Hks Hk. assert (Forall valid_bytes iter_seeks) as V by repeat constructor. rewrite Forall_forall in V.
  apply doNext_refines_seek; [|now apply V].
  apply run_wf, Forall_forall. intros o Ho. apply in_map_iff in Ho as (k' & <- & Hk').
  apply V, in_or_app. left. exact (sublists_spec _ _ Hks k' Hk').
Qed.

(* non-vacuity: the domain contains the tree with all the keys of the universe *)
Lemma sublists_full {A} (l : list A) : In l (sublists l).
Proof.
  induction l as [|x r IH]; cbn; [auto|]. apply in_or_app. right. now apply in_map.
Qed.
Example iter_sweep_size :
  length (sublists iter_universe) = 1024%nat /\ length iter_seeks = 23%nat /\
  length (contents (build_keys iter_universe)) = 10%nat.
Proof. vm_compute. auto. Qed.
Example iter_sweep_full k :
  In k iter_seeks -> port_iter k (build_keys iter_universe) = al_seek k (contents (build_keys iter_universe)).
Proof. apply doNext_refines_seek_partial, sublists_full. Qed.

Definition port_agrees (t : tree) : Prop := forall k, port_iter k t = al_seek k (contents t).

Lemma s_step_p_eq st o : port_agrees (tr (fst st)) -> s_step_p st o = s_step st o.
Proof. intros P. destruct o; cbn [s_step_p s_step]; auto. now rewrite s_iter_p_eq by apply P. Qed.

Fixpoint port_agrees_along (st : store) (ops : list sop) : Prop :=
  port_agrees (tr (fst st)) /\
  match ops with
  | [] => True
  | o :: r => port_agrees_along (fst (s_step st o)) r
  end.

Theorem port_run_eq_spec_run ops : forall st,
  port_agrees_along st ops -> s_run_p st ops = s_run st ops.
Proof.
  induction ops as [|o r IH]; intros st [P R]; cbn [s_run_p s_run]; [reflexivity|].
  rewrite s_step_p_eq by exact P. destruct (s_step st o) as [st1 res]. cbn [fst] in R.
  now rewrite IH.
Qed.
