(* Facts about the association maps of Ledger/State.v (C05). *)
From Verif Require Import Lib.Base Ledger.SharePool Ledger.State.

Section MapFacts.
  Context {K V : Type} (keq : K -> K -> bool).
  Context (keq_spec : forall a b, keq a b = true <-> a = b).

  Definition keys (l : list (K * V)) : list K := map fst l.
  Implicit Types l : list (K * V).

  Lemma keq_refl k : keq k k = true.
  Proof. apply keq_spec. reflexivity. Qed.

  Lemma keq_neq a b : a <> b -> keq a b = false.
  Proof.
    intros Hne. destruct (keq a b) eqn:E; [|reflexivity].
    apply keq_spec in E. contradiction.
  Qed.

  Lemma mget_mdel_same k l : mget keq k (mdel keq k l) = None.
  Proof.
    induction l as [|[k' v] r IH]; cbn [mdel mget]; [reflexivity|].
    destruct (keq k' k) eqn:E; [exact IH|]. cbn [mget]. rewrite E. exact IH.
  Qed.

  Lemma mget_mdel_other k k' l : k <> k' -> mget keq k (mdel keq k' l) = mget keq k l.
  Proof.
    intros Hne. induction l as [|[k2 v] r IH]; cbn [mdel mget]; [reflexivity|].
    destruct (keq k2 k') eqn:E.
    - apply keq_spec in E. subst k2. rewrite (keq_neq k' k) by congruence. exact IH.
    - cbn [mget]. destruct (keq k2 k); [reflexivity|exact IH].
  Qed.

  Lemma mget_mset_same k v l : mget keq k (mset keq k v l) = Some v.
  Proof. unfold mset. cbn [mget]. rewrite keq_refl. reflexivity. Qed.

  Lemma mget_mset_other k k' v l : k <> k' -> mget keq k (mset keq k' v l) = mget keq k l.
  Proof.
    intros Hne. unfold mset. cbn [mget]. rewrite (keq_neq k' k) by congruence.
    apply mget_mdel_other. exact Hne.
  Qed.

  Lemma in_keys_mdel k k' l : In k (keys (mdel keq k' l)) -> In k (keys l) /\ k <> k'.
  Proof.
    induction l as [|[k2 v] r IH]; cbn [mdel keys map fst In]; [tauto|].
    destruct (keq k2 k') eqn:E.
    - intros H. destruct (IH H) as [H1 H2]. split; [right; exact H1|exact H2].
    - cbn [keys map fst In]. intros [H|H].
      + subst k2. split; [left; reflexivity|]. intros ->. rewrite keq_refl in E. discriminate.
      + destruct (IH H) as [H1 H2]. split; [right; exact H1|exact H2].
  Qed.

  Lemma nodup_mdel k l : NoDup (keys l) -> NoDup (keys (mdel keq k l)).
  Proof.
    induction l as [|[k2 v] r IH]; cbn [mdel keys map fst]; intros H; [constructor|].
    inversion H as [|x xs Hn Hr]; subst.
    destruct (keq k2 k); [apply IH; exact Hr|].
    cbn [keys map fst]. constructor; [|apply IH; exact Hr].
    intros Hin. apply in_keys_mdel in Hin. tauto.
  Qed.

  Lemma nodup_mset k v l : NoDup (keys l) -> NoDup (keys (mset keq k v l)).
  Proof.
    intros H. unfold mset. cbn [keys map fst]. constructor; [|apply nodup_mdel; exact H].
    intros Hin. apply in_keys_mdel in Hin. tauto.
  Qed.

  Lemma mget_none_notin k l : ~ In k (keys l) -> mget keq k l = None.
  Proof.
    induction l as [|[k2 v] r IH]; cbn [mget keys map fst In]; intros H; [reflexivity|].
    rewrite keq_neq by tauto. apply IH. tauto.
  Qed.

  Lemma mdel_notin k l : ~ In k (keys l) -> mdel keq k l = l.
  Proof.
    induction l as [|[k2 v] r IH]; cbn [mdel keys map fst In]; intros H; [reflexivity|].
    rewrite keq_neq by tauto. f_equal. apply IH. tauto.
  Qed.

  Section Sum.
    Context (f : K -> V -> N).
    Definition fo (k : K) (o : option V) : N := match o with Some v => f k v | None => 0 end.

    Lemma msum_mdel k l : NoDup (keys l) ->
      msum f (mdel keq k l) + fo k (mget keq k l) = msum f l.
    Proof.
      induction l as [|[k2 v] r IH]; cbn [mdel mget msum keys map fst]; intros H; [reflexivity|].
      inversion H as [|x xs Hn Hr]; subst.
      destruct (keq k2 k) eqn:E.
      - apply keq_spec in E. subst k2. rewrite (mdel_notin k r Hn). cbn [fo]. lia.
      - cbn [msum]. specialize (IH Hr). lia.
    Qed.

    Lemma msum_mset k v l : NoDup (keys l) ->
      msum f (mset keq k v l) + fo k (mget keq k l) = msum f l + f k v.
    Proof.
      intros H. unfold mset. cbn [msum]. pose proof (msum_mdel k l H). lia.
    Qed.

    Lemma mget_le_msum k v l : mget keq k l = Some v -> f k v <= msum f l.
    Proof.
      induction l as [|[k2 v2] r IH]; cbn [mget msum]; [discriminate|].
      destruct (keq k2 k) eqn:E.
      - intros H. injection H as ->. apply keq_spec in E. subst k2. lia.
      - intros H. specialize (IH H). lia.
    Qed.
  End Sum.
End MapFacts.

Lemma k2_eqb_spec a b : k2_eqb a b = true <-> a = b.
Proof.
  destruct a as [a1 a2], b as [b1 b2]. unfold k2_eqb. cbn [fst snd].
  rewrite andb_true_iff, !N.eqb_eq. split; [intros [-> ->]; reflexivity|intros H; injection H; auto].
Qed.

Lemma k3_eqb_spec a b : k3_eqb a b = true <-> a = b.
Proof.
  destruct a as [[a1 a2] a3], b as [[b1 b2] b3]. unfold k3_eqb. cbn [fst snd].
  rewrite !andb_true_iff, !N.eqb_eq. split; [intros [[-> ->] ->]; reflexivity|intros H; injection H; auto].
Qed.

(* N-valued maps whose keys fall into groups ([grp k] is the group of key [k]): the sum of one
   group under [mset] and [mdel]. [dsum]/[dget] of State.v are the instance [grp := fst] over
   [deleg], [bsum]/[bget] the instance [grp k := fst (fst k)] over [debdeleg]. *)
Section Groups.
  Context {K : Type} (keq : K -> K -> bool) (keq_spec : forall a b, keq a b = true <-> a = b).
  Context (grp : K -> N).
  Implicit Types l : list (K * N).

  Definition vget (k : K) l : N := match mget keq k l with Some v => v | None => 0 end.
  Definition gsum (g : N) l : N := msum (fun k v => if grp k =? g then v else 0) l.

  Lemma fo_group g k l :
    fo (fun k v => if grp k =? g then v else 0) k (mget keq k l) = if grp k =? g then vget k l else 0.
  Proof. unfold fo, vget. destruct (mget keq k l), (grp k =? g); reflexivity. Qed.

  Lemma gsum_mdel k l g : NoDup (keys l) ->
    gsum g (mdel keq k l) + (if grp k =? g then vget k l else 0) = gsum g l.
  Proof. intros H. rewrite <- fo_group. apply (msum_mdel keq keq_spec). exact H. Qed.

  Lemma gsum_mset k v l g : NoDup (keys l) ->
    gsum g (mset keq k v l) + (if grp k =? g then vget k l else 0) = gsum g l + (if grp k =? g then v else 0).
  Proof. intros H. rewrite <- fo_group. apply (msum_mset keq keq_spec). exact H. Qed.

  Lemma vget_le_gsum k l : vget k l <= gsum (grp k) l.
  Proof.
    unfold vget. destruct (mget keq k l) as [v|] eqn:E; [|lia].
    pose proof (mget_le_msum keq keq_spec (fun k' v' => if grp k' =? grp k then v' else 0) k v l E) as H.
    cbn beta in H. rewrite N.eqb_refl in H. exact H.
  Qed.

  Lemma gsum_notin g l : ~ In g (map (fun kv => grp (fst kv)) l) -> gsum g l = 0.
  Proof.
    unfold gsum. induction l as [|[k v] r IH]; cbn [map In fst msum]; intros H; [reflexivity|].
    destruct (N.eqb_spec (grp k) g); [tauto|]. apply IH. tauto.
  Qed.
End Groups.
