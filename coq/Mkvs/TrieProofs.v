(* Proofs about the trie model: well-formedness is preserved, contents are the
   sorted-association-list update, the shape is canonical.  Each is proved for
   a subtree hanging below any bit path [p] ([wf_at p], depth [length p]); the
   theorems about whole trees are the instances [p = []]. *)
From Verif Require Import Lib.Base Mkvs.Trie Mkvs.BitsProofs Mkvs.AlistProofs.

Lemma in_node e lbl lf l r :
  In e (contents (Node lbl lf l r)) <-> In e (lf_contents lf) \/ In e (contents l) \/ In e (contents r).
Proof. cbn [contents]. now rewrite !in_app_iff. Qed.
Lemma in_lf e lf : In e (lf_contents lf) <-> lf = Some e.
Proof. destruct lf; cbn; intuition congruence. Qed.
Lemma in_present e t : In e (contents t) -> present t = 1%nat.
Proof. destruct t; [intros []|reflexivity..]. Qed.
Lemma present_le t : (present t <= 1)%nat.
Proof. destruct t; cbn; lia. Qed.

Lemma wf_keys t : forall p k v,
  wf_at p t -> In (k, v) (contents t) -> valid_bytes k /\ is_prefix p (bits_of k).
Proof.
  induction t as [|k0 v0|lbl lf l IHl r IHr]; intros p k v Hwf Hin.
  - destruct Hin.
  - cbn in Hin. destruct Hin as [[= <- <-]|[]]. exact Hwf.
  - cbn [wf_at] in Hwf. destruct Hwf as (Hlf & Hl & Hr & _).
    apply in_node in Hin as [Hin|[Hin|Hin]].
    + apply in_lf in Hin. subst lf. destruct Hlf as [Hv Hb]. split; auto. rewrite Hb. apply is_prefix_app.
    + destruct (IHl _ _ _ Hl Hin) as [Hv Hp]. split; auto.
      eapply is_prefix_trans; [apply is_prefix_app|exact Hp].
    + destruct (IHr _ _ _ Hr Hin) as [Hv Hp]. split; auto.
      eapply is_prefix_trans; [apply is_prefix_app|exact Hp].
Qed.

Lemma wf_node_keys p lbl lf l r k v :
  wf_at p (Node lbl lf l r) -> In (k, v) (contents (Node lbl lf l r)) ->
  is_prefix (p ++ lbl) (bits_of k).
Proof.
  intros Hwf Hin. cbn [wf_at] in Hwf. destruct Hwf as (Hlf & Hl & Hr & _).
  apply in_node in Hin as [Hin|[Hin|Hin]].
  - apply in_lf in Hin. subst lf. destruct Hlf as [_ ->]. apply is_prefix_refl.
  - apply (wf_keys _ _ _ _ Hl Hin).
  - apply (wf_keys _ _ _ _ Hr Hin).
Qed.

Lemma starts_keys t q b k v :
  wf_at q t -> starts q b t -> In (k, v) (contents t) -> is_prefix (q ++ [b]) (bits_of k).
Proof.
  destruct t as [|k0 v0|lbl lf l r]; intros Hwf Hs Hin.
  - destruct Hin.
  - cbn in Hin. destruct Hin as [[= <- <-]|[]]. exact Hs.
  - cbn [starts] in Hs. destruct Hs as [s ->].
    pose proof (wf_node_keys _ _ _ _ _ _ _ Hwf Hin) as Hp.
    eapply is_prefix_trans; [|exact Hp]. apply is_prefix_snoc.
Qed.

Lemma wf_present_len t p : wf_at p t -> (present t <= length (contents t))%nat.
Proof.
  revert p; induction t as [|k0 v0|lbl lf l IHl r IHr]; intros p Hwf; cbn; try lia.
  cbn [wf_at] in Hwf. destruct Hwf as (Hlf & Hl & Hr & Hsl & Hsr & Hc).
  specialize (IHl _ Hl). specialize (IHr _ Hr). rewrite !app_length.
  destruct lf; cbn in *; lia.
Qed.
Lemma wf_node_len p lbl lf l r :
  wf_at p (Node lbl lf l r) -> (2 <= length (contents (Node lbl lf l r)))%nat.
Proof.
  intros Hwf. cbn [wf_at] in Hwf. destruct Hwf as (Hlf & Hl & Hr & Hsl & Hsr & Hc).
  pose proof (wf_present_len _ _ Hl). pose proof (wf_present_len _ _ Hr).
  cbn [contents]. rewrite !app_length. destruct lf; cbn in *; lia.
Qed.

(* where the keys of a well-formed node live: the node's own key ends at the
   branching point, the others continue with the bit of their side *)
Lemma node_sides p lbl lf l r :
  wf_at p (Node lbl lf l r) -> forall k v,
  (In (k, v) (lf_contents lf) -> length (bits_of k) = length (p ++ lbl)) /\
  (In (k, v) (contents l) ->
     (length (p ++ lbl) < length (bits_of k))%nat /\ bit (bits_of k) (length (p ++ lbl)) = false) /\
  (In (k, v) (contents r) ->
     (length (p ++ lbl) < length (bits_of k))%nat /\ bit (bits_of k) (length (p ++ lbl)) = true).
Proof.
  intros Hwf k v. cbn [wf_at] in Hwf. destruct Hwf as (Hlf & Hl & Hr & Hsl & Hsr & Hc).
  assert (forall t b, wf_at (p ++ lbl) t -> starts (p ++ lbl) b t -> In (k, v) (contents t) ->
            (length (p ++ lbl) < length (bits_of k))%nat /\ bit (bits_of k) (length (p ++ lbl)) = b) as Side.
  { intros t b W S H. exact (is_prefix_snoc_side _ _ _ (starts_keys _ _ _ _ _ W S H)). }
  split; [|split; eauto]. intros H. apply in_lf in H. subst lf. destruct Hlf as [_ ->]. reflexivity.
Qed.

Lemma key_lt_bits k1 v1 k2 v2 :
  valid_bytes k1 -> valid_bytes k2 -> pcmp (bits_of k1) (bits_of k2) = Lt -> key_lt (k1, v1) (k2, v2).
Proof. intros H1 H2 H. unfold key_lt; cbn. now rewrite bytes_cmp_bits. Qed.

Lemma prefix_bit_form q b k : is_prefix (q ++ [b]) k -> exists s, k = q ++ b :: s.
Proof. intros [s ->]. exists s. now rewrite <- app_assoc. Qed.

Lemma contents_sorted_at t : forall p, wf_at p t -> sorted (contents t).
Proof.
  induction t as [|k0 v0|lbl lf l IHl r IHr]; intros p Hwf.
  - exact I.
  - cbn. auto.
  - cbn [wf_at] in Hwf. destruct Hwf as (Hlf & Hl & Hr & Hsl & Hsr & Hc).
    cbn [contents]. apply sorted_app; [|apply sorted_app|]; eauto.
    + destruct lf as [[k1 v1]|]; cbn; auto.
    + intros [k1 v1] [k2 v2] H1 H2.
      destruct (wf_keys _ _ _ _ Hl H1) as [V1 _]. destruct (wf_keys _ _ _ _ Hr H2) as [V2 _].
      apply key_lt_bits; auto.
      destruct (prefix_bit_form _ _ _ (starts_keys _ _ _ _ _ Hl Hsl H1)) as [s1 ->].
      destruct (prefix_bit_form _ _ _ (starts_keys _ _ _ _ _ Hr Hsr H2)) as [s2 ->].
      apply pcmp_branch_lt.
    + intros [k1 v1] [k2 v2] H1 H2. apply in_lf in H1. subst lf. destruct Hlf as [V1 Hb].
      assert (exists t b, wf_at (p ++ lbl) t /\ starts (p ++ lbl) b t /\ In (k2, v2) (contents t))
        as (t & b & W & S & H) by (apply in_app_or in H2 as [H2|H2]; eauto 6).
      destruct (wf_keys _ _ _ _ W H) as [V2 _]. apply key_lt_bits; auto. rewrite Hb.
      destruct (prefix_bit_form _ _ _ (starts_keys _ _ _ _ _ W S H)) as [s2 ->].
      apply pcmp_prefix_lt.
Qed.

Lemma present_in p t : wf_at p t -> present t = 1%nat -> exists k v, In (k, v) (contents t).
Proof.
  intros W P. pose proof (wf_present_len _ _ W) as L. rewrite P in L.
  destruct (contents t) as [|[k v] c]; [cbn in L; lia|]. exists k, v. cbn; auto.
Qed.

(* the keys of a node have no common prefix beyond its branching point: a key
   ends there, or both sides are inhabited *)
Lemma node_label_max p lbl lf l r b :
  wf_at p (Node lbl lf l r) ->
  ~ (forall k v, In (k, v) (contents (Node lbl lf l r)) -> is_prefix ((p ++ lbl) ++ [b]) (bits_of k)).
Proof.
  intros W Hk. pose proof (node_sides _ _ _ _ _ W) as Hs.
  assert (forall k v, In (k, v) (contents (Node lbl lf l r)) ->
            (length (p ++ lbl) < length (bits_of k))%nat /\ bit (bits_of k) (length (p ++ lbl)) = b) as Hb.
  { intros k v H. exact (is_prefix_snoc_side _ _ _ (Hk k v H)). }
  cbn [wf_at] in W. destruct W as (Hlf & Hl & Hr & _ & _ & Hc). destruct lf as [[k0 v0]|].
  - destruct (Hb k0 v0) as [Hlen _]; [cbn; auto|]. destruct (Hs k0 v0) as [E _]. rewrite E in Hlen; [lia|cbn; auto].
  - cbn [present_lf] in Hc. pose proof (present_le l) as Pl. pose proof (present_le r) as Pr. destruct b.
    + destruct (present_in _ _ Hl) as (k & v & H); [lia|]. destruct (Hb k v) as [_ E]; [apply in_node; auto|].
      apply (Hs k v) in H as [_ E']. congruence.
    + destruct (present_in _ _ Hr) as (k & v & H); [lia|]. destruct (Hb k v) as [_ E]; [apply in_node; auto|].
      apply (Hs k v) in H as [_ E']. congruence.
Qed.

Lemma label_unique p lbl lf l r q :
  wf_at p (Node lbl lf l r) ->
  (forall k v, In (k, v) (contents (Node lbl lf l r)) -> is_prefix q (bits_of k)) ->
  is_prefix (p ++ lbl) q -> p ++ lbl = q.
Proof.
  intros W Hq [s ->]. destruct s as [|b s]; [now rewrite app_nil_r|]. exfalso.
  apply (node_label_max _ _ _ _ _ b W). intros k v Hin.
  eapply is_prefix_trans; [|exact (Hq k v Hin)]. apply is_prefix_snoc.
Qed.

Lemma starts_of_keys q b t :
  wf_at q t -> (forall k v, In (k, v) (contents t) -> is_prefix (q ++ [b]) (bits_of k)) -> starts q b t.
Proof.
  destruct t as [|k0 v0|lbl lf l r]; intros W Hk; [exact I|apply (Hk k0 v0); cbn; auto|].
  cbn [starts]. destruct lbl as [|b0 s].
  - elim (node_label_max _ _ _ _ _ b W). now rewrite app_nil_r.
  - destruct (present_in _ _ W eq_refl) as (k & v & Hin).
    pose proof (wf_node_keys _ _ _ _ _ _ _ W Hin) as H1. apply Hk in Hin.
    assert (is_prefix (q ++ [b0]) (bits_of k)) as H0.
    { eapply is_prefix_trans; [|exact H1]. apply is_prefix_snoc. }
    apply is_prefix_bit in Hin, H0. exists s. congruence.
Qed.

Definition same_off (k : bytes) (A B : list (bytes * bytes)) : Prop :=
  forall e, fst e <> k -> (In e A <-> In e B).

Definition insert_post (p : path) (k v : bytes) (t t' : tree) : Prop :=
  wf_at p t' /\ In (k, v) (contents t') /\ same_off k (contents t') (contents t).

Lemma wf_node_intro p lbl lf l r :
  match lf with None => True | Some (k, _) => valid_bytes k /\ bits_of k = p ++ lbl end ->
  wf_at (p ++ lbl) l -> wf_at (p ++ lbl) r ->
  starts (p ++ lbl) false l -> starts (p ++ lbl) true r ->
  (2 <= present_lf lf + present l + present r)%nat -> wf_at p (Node lbl lf l r).
Proof. intros. cbn [wf_at]. auto 10. Qed.

(* every node that [insert] builds: [x] on side [b], [y] on the other side *)
Lemma wf_fork p c lf (b : bool) x y :
  match lf with None => True | Some (k, _) => valid_bytes k /\ bits_of k = p ++ c end ->
  wf_at (p ++ c) x -> wf_at (p ++ c) y -> starts (p ++ c) b x -> starts (p ++ c) (negb b) y ->
  (2 <= present_lf lf + present x + present y)%nat ->
  wf_at p (if b then Node c lf y x else Node c lf x y).
Proof. intros. destruct b; apply wf_node_intro; auto; lia. Qed.

Lemma in_fork e c lf (b : bool) x y :
  In e (contents (if b then Node c lf y x else Node c lf x y)) <->
  In e (lf_contents lf) \/ In e (contents x) \/ In e (contents y).
Proof. destruct b; rewrite in_node; tauto. Qed.

Lemma insert_post_fork p k v t c lf (b : bool) x y :
  wf_at p (if b then Node c lf y x else Node c lf x y) ->
  (forall e, In e (lf_contents lf) \/ In e (contents x) \/ In e (contents y) <->
             (k, v) = e \/ In e (contents t)) ->
  insert_post p k v t (if b then Node c lf y x else Node c lf x y).
Proof.
  intros W H. split; [exact W|]. split; [apply in_fork, H; auto|].
  intros e Hne. rewrite in_fork, H. split; [|auto]. intros [<-|Hin]; [now elim Hne|exact Hin].
Qed.

Lemma wf_leaf_at q b s k v :
  valid_bytes k -> bits_of k = q ++ b :: s -> wf_at q (Leaf k v) /\ starts q b (Leaf k v).
Proof.
  intros Hv E. cbn. rewrite E. repeat split; auto.
  - now exists (b :: s).
  - apply is_prefix_snoc.
Qed.

Lemma neq_negb (x y : bool) : x <> y -> x = negb y.
Proof. destruct x, y; cbn; congruence. Qed.

Lemma insert_spec t : forall p k v,
  valid_bytes k -> is_prefix p (bits_of k) -> wf_at p t ->
  insert_post p k v t (insert (length p) k v t).
Proof.
  induction t as [|k' v'|lbl lf l IHl r IHr]; intros p k v Hvk [kr Hk] Hwf; cbn [insert].
  - split; [split; [exact Hvk|now exists kr]|]. split; [cbn; auto|].
    intros e Hne. cbn. split; [intros [<-|[]]; now elim Hne|intros []].
  - destruct Hwf as [Hvk' [kr' Hk']]. destruct (bytes_eqb k' k) eqn:E.
    + apply bytes_eqb_eq in E. subst k'. split; [split; [exact Hvk|now exists kr]|]. split; [cbn; auto|].
      intros e Hne. cbn. split; intros [<-|[]]; now elim Hne.
    + apply bytes_eqb_neq in E. rewrite Hk, Hk', !skipn_len_app.
      destruct (lcp_split kr' kr) as (c & a' & b' & -> & -> & Hl & Hd).
      rewrite <- Hl, firstn_len_app, !len_app_eqb_nil. rewrite app_assoc in Hk, Hk'.
      destruct b' as [|y b'], a' as [|x a']; rewrite ?bit_app_mid, ?app_nil_r in *.
      * elim E. apply bits_of_inj; auto. congruence.
      * destruct (wf_leaf_at _ _ _ _ v' Hvk' Hk') as [W S].
        apply insert_post_fork; [apply wf_fork; cbn; auto|intros e; cbn; tauto].
      * destruct (wf_leaf_at _ _ _ _ v Hvk Hk) as [W S].
        apply insert_post_fork; [apply wf_fork; cbn; auto|intros e; cbn; tauto].
      * destruct (wf_leaf_at _ _ _ _ v Hvk Hk) as [W S]. destruct (wf_leaf_at _ _ _ _ v' Hvk' Hk') as [W' S'].
        rewrite (neq_negb _ _ Hd) in S'.
        apply insert_post_fork; [apply wf_fork; cbn; auto|intros e; cbn; tauto].
  - pose proof Hwf as Hwf0. cbn [wf_at] in Hwf. destruct Hwf as (Hlf & Hl & Hr & Hsl & Hsr & Hc).
    rewrite Hk, skipn_len_app.
    destruct (lcp_split lbl kr) as (c & a' & b' & -> & -> & Hlen & Hd).
    rewrite <- Hlen, Nat.eqb_sym, len_app_eqb_nil. rewrite app_assoc in Hk.
    destruct a' as [|x a'].
    + rewrite app_nil_r in *. rewrite <- app_length, app_assoc, len_app_eqb_nil.
      destruct b' as [|y b'].
      * rewrite app_nil_r in Hk. split; [|split; [cbn; auto|]].
        -- cbn [wf_at present_lf]. repeat split; auto. destruct lf; cbn [present_lf] in Hc; lia.
        -- intros e Hne. rewrite !in_node, !in_lf.
           assert (lf <> Some e) as Hn.
           { intros ->. destruct e as [k1 v1], Hlf as [V1 B1]. apply Hne. cbn. apply bits_of_inj; auto. congruence. }
           split; intros [H|H]; auto; [injection H as <-; now elim Hne|contradiction].
      * rewrite bit_app_mid.
        assert (is_prefix (p ++ c) (bits_of k)) as Hq by (rewrite Hk; apply is_prefix_app).
        assert (is_prefix ((p ++ c) ++ [y]) (bits_of k)) as Hqy by (rewrite Hk; exists b'; now rewrite <- !app_assoc).
        assert (forall t t', wf_at (p ++ c) t -> starts (p ++ c) y t -> insert_post (p ++ c) k v t t' ->
                  starts (p ++ c) y t' /\ present t' = 1%nat) as Sub.
        { intros t t' W S (W' & I1 & I2). split; [|exact (in_present _ _ I1)].
          apply starts_of_keys; [exact W'|]. intros k1 v1 Hin.
          destruct (bytes_eq_dec k1 k) as [->|Hne]; [exact Hqy|].
          apply (I2 (k1, v1) Hne) in Hin. exact (starts_keys _ _ _ _ _ W S Hin). }
        pose proof (present_le l). pose proof (present_le r).
        destruct y.
        -- pose proof (IHr (p ++ c) k v Hvk Hq Hr) as IH. destruct (Sub _ _ Hr Hsr IH) as [S P].
           destruct IH as (W & I1 & I2). split; [cbn [wf_at]; repeat split; auto; lia|].
           split; [apply in_node; auto|]. intros e Hne. rewrite !in_node, (I2 e Hne). tauto.
        -- pose proof (IHl (p ++ c) k v Hvk Hq Hl) as IH. destruct (Sub _ _ Hl Hsl IH) as [S P].
           destruct IH as (W & I1 & I2). split; [cbn [wf_at]; repeat split; auto; lia|].
           split; [apply in_node; auto|]. intros e Hne. rewrite !in_node, (I2 e Hne). tauto.
    + rewrite firstn_len_app, skipn_len_app, len_app_eqb_nil. change (bit (x :: a') 0) with x.
      assert (wf_at (p ++ c) (Node (x :: a') lf l r) /\ starts (p ++ c) x (Node (x :: a') lf l r)) as [Wold Sold].
      { cbn [wf_at starts]. rewrite <- app_assoc. eauto 10. }
      destruct b' as [|y b']; rewrite ?bit_app_mid, ?app_nil_r in *.
      * apply insert_post_fork; [apply wf_fork; cbn [present present_lf]; auto; exact I|intros e; rewrite !in_node; cbn; tauto].
      * destruct (wf_leaf_at _ _ _ _ v Hvk Hk) as [W S]. rewrite (neq_negb _ _ Hd) in Sold at 1.
        apply insert_post_fork; [apply wf_fork; cbn [present present_lf]; auto|intros e; rewrite !in_node; cbn; tauto].
Qed.

Lemma lookup_spec t : forall p k v, wf_at p t ->
  (lookup (length p) k t = Some v <-> In (k, v) (contents t)).
Proof.
  induction t as [|k' v'|lbl lf l IHl r IHr]; intros p k v Hwf; cbn [lookup].
  - cbn. split; [discriminate|tauto].
  - cbn. destruct (bytes_eqb k' k) eqn:E.
    + apply bytes_eqb_eq in E. subst. split; [intros [= ->]; auto|intros [[= ->]|[]]; reflexivity].
    + apply bytes_eqb_neq in E. split; [discriminate|intros [[= -> _]|[]]; now elim E].
  - pose proof (node_sides _ _ _ _ _ Hwf k v) as (S0 & Sl & Sr).
    cbn [wf_at] in Hwf. destruct Hwf as (Hlf & Hl & Hr & _). rewrite <- app_length, in_node.
    destruct (Nat.eqb_spec (length (bits_of k)) (length (p ++ lbl))) as [E2|E2].
    + transitivity (In (k, v) (lf_contents lf)); [|split; [auto|intros [H|[H|H]]; [exact H|apply Sl in H; lia|apply Sr in H; lia]]].
      rewrite in_lf. destruct lf as [[k0 v0]|]; [|split; discriminate].
      destruct (bytes_eqb k0 k) eqn:E3.
      * apply bytes_eqb_eq in E3. subst k0. split; congruence.
      * apply bytes_eqb_neq in E3. split; [discriminate|intros [= -> _]; now elim E3].
    + destruct (Nat.ltb_spec (length (bits_of k)) (length (p ++ lbl))) as [E1|E1].
      * split; [discriminate|]. intros [H|[H|H]]; [apply S0 in H|apply Sl in H|apply Sr in H]; lia.
      * destruct (bit (bits_of k) (length (p ++ lbl))) eqn:Eb.
        -- rewrite (IHr _ k v Hr). split; [auto|]. intros [H|[H|H]]; [apply S0 in H; lia|apply Sl in H; destruct H; congruence|exact H].
        -- rewrite (IHl _ k v Hl). split; [auto|]. intros [H|[H|H]]; [apply S0 in H; lia|exact H|apply Sr in H; destruct H; congruence].
Qed.

Definition ctree (x : tree * bool * option bytes) : tree := fst (fst x).
Definition cflag (x : tree * bool * option bytes) : bool := snd (fst x).
Definition cex (x : tree * bool * option bytes) : option bytes := snd x.

Lemma collapse_contents lbl lf l r ch ex :
  contents (ctree (collapse lbl lf l r ch ex)) = lf_contents lf ++ contents l ++ contents r.
Proof.
  unfold collapse, ctree.
  destruct lf as [[k0 v0]|], l as [|kl vl|ll lfl l1 l2], r as [|kr vr|lr lfr r1 r2];
    cbn [fst snd contents lf_contents app]; rewrite ?app_nil_r; reflexivity.
Qed.

Lemma collapse_ex lbl lf l r ch ex : cex (collapse lbl lf l r ch ex) = ex.
Proof.
  unfold collapse, cex.
  destruct lf as [[k0 v0]|], l as [|kl vl|ll lfl l1 l2], r as [|kr vr|lr lfr r1 r2]; reflexivity.
Qed.

Lemma collapse_flag_true lbl lf l r ex : cflag (collapse lbl lf l r true ex) = true.
Proof.
  unfold collapse, cflag.
  destruct lf as [[k0 v0]|], l as [|kl vl|ll lfl l1 l2], r as [|kr vr|lr lfr r1 r2]; reflexivity.
Qed.

Lemma collapse_canon lbl lf l r ch ex :
  (2 <= present_lf lf + present l + present r)%nat ->
  collapse lbl lf l r ch ex = (Node lbl lf l r, ch, ex).
Proof.
  unfold collapse.
  destruct lf as [[k0 v0]|], l as [|kl vl|ll lfl l1 l2], r as [|kr vr|lr lfr r1 r2];
    cbn [present present_lf]; intros H; try lia; reflexivity.
Qed.

Lemma wf_at_weaken_leaf p s k v : wf_at (p ++ s) (Leaf k v) -> wf_at p (Leaf k v).
Proof.
  cbn. intros [Hv Hp]. split; auto. eapply is_prefix_trans; [apply is_prefix_app|exact Hp].
Qed.
Lemma wf_at_merge p lbl lbl' lf l r :
  wf_at (p ++ lbl) (Node lbl' lf l r) -> wf_at p (Node (lbl ++ lbl') lf l r).
Proof. cbn [wf_at]. now rewrite app_assoc. Qed.

Lemma collapse_wf p lbl lf l r ch ex :
  match lf with None => True | Some (k, _) => valid_bytes k /\ bits_of k = p ++ lbl end ->
  wf_at (p ++ lbl) l -> wf_at (p ++ lbl) r ->
  starts (p ++ lbl) false l -> starts (p ++ lbl) true r ->
  wf_at p (ctree (collapse lbl lf l r ch ex)).
Proof.
  intros Hlf Hl Hr Hsl Hsr. unfold collapse, ctree.
  destruct lf as [[k0 v0]|], l as [|kl vl|ll lfl l1 l2], r as [|kr vr|lr lfr r1 r2];
    cbn [fst snd];
    try (apply wf_node_intro; cbn [present present_lf]; auto; lia);
    try (eapply wf_at_weaken_leaf; eassumption);
    try (apply wf_at_merge; assumption);
    try exact I.
  destruct Hlf as [Hv Hb]. cbn. split; auto. rewrite Hb. apply is_prefix_app.
Qed.

Lemma remove_ex t : forall d k, cex (remove d k t) = lookup d k t.
Proof.
  induction t as [|k' v'|lbl lf l IHl r IHr]; intros d k; cbn [remove lookup]; [reflexivity| |].
  - destruct (bytes_eqb k' k); reflexivity.
  - destruct (Nat.eqb_spec (length (bits_of k)) (d + length lbl)) as [E2|E2];
      destruct (Nat.ltb_spec (length (bits_of k)) (d + length lbl)) as [E1|E1]; try lia; [|reflexivity|].
    + destruct lf as [[k0 v0]|]; [destruct (bytes_eqb k0 k)|]; apply collapse_ex.
    + destruct (bit (bits_of k) (d + length lbl)); [rewrite <- IHr|rewrite <- IHl];
        destruct (remove (d + length lbl) k _) as [[t' c] e]; apply collapse_ex.
Qed.

Lemma remove_absent t : forall p k,
  wf_at p t -> lookup (length p) k t = None -> remove (length p) k t = (t, false, None).
Proof.
  induction t as [|k' v'|lbl lf l IHl r IHr]; intros p k Hwf L; cbn [remove lookup] in *; [reflexivity| |].
  - destruct (bytes_eqb k' k); [discriminate|reflexivity].
  - destruct Hwf as (Hlf & Hl & Hr & _ & _ & Hc). rewrite <- app_length in *.
    destruct (length (bits_of k) <? length (p ++ lbl))%nat; [reflexivity|].
    destruct (length (bits_of k) =? length (p ++ lbl))%nat.
    + destruct lf as [[k0 v0]|]; [destruct (bytes_eqb k0 k); [discriminate|]|]; now apply collapse_canon.
    + destruct (bit (bits_of k) (length (p ++ lbl))); [rewrite (IHr _ _ Hr L)|rewrite (IHl _ _ Hl L)];
        now apply collapse_canon.
Qed.

Definition remove_post (p : path) (k : bytes) (t : tree) (x : tree * bool * option bytes) : Prop :=
  wf_at p (ctree x) /\ cflag x = true /\
  forall e, In e (contents (ctree x)) <-> In e (contents t) /\ fst e <> k.

Lemma starts_sub q b t t' :
  wf_at q t -> starts q b t -> wf_at q t' -> (forall e, In e (contents t') -> In e (contents t)) ->
  starts q b t'.
Proof.
  intros W S W' Hsub. apply starts_of_keys; [exact W'|]. intros k v Hin. exact (starts_keys _ _ _ _ _ W S (Hsub _ Hin)).
Qed.

Lemma remove_present t : forall p k v,
  wf_at p t -> lookup (length p) k t = Some v -> remove_post p k t (remove (length p) k t).
Proof.
  induction t as [|k' v'|lbl lf l IHl r IHr]; intros p k v Hwf L; cbn [remove lookup] in *; [discriminate| |].
  - destruct (bytes_eqb k' k) eqn:E; [|discriminate]. apply bytes_eqb_eq in E. subst k'.
    split; [exact I|]. split; [reflexivity|]. intros e. cbn. split; [tauto|].
    intros [[<-|[]] Hn]. now elim Hn.
  - pose proof (fun v1 => node_sides _ _ _ _ _ Hwf k v1) as Hside. cbn beta in Hside.
    destruct Hwf as (Hlf & Hl & Hr & Hsl & Hsr & Hc). rewrite <- app_length in *.
    unfold remove_post.
    destruct (Nat.eqb_spec (length (bits_of k)) (length (p ++ lbl))) as [E2|E2];
      destruct (Nat.ltb_spec (length (bits_of k)) (length (p ++ lbl))) as [E1|E1]; try lia; try discriminate.
    + destruct lf as [[k0 v0]|]; [|discriminate]. destruct (bytes_eqb k0 k) eqn:E3; [|discriminate].
      apply bytes_eqb_eq in E3. subst k0. rewrite collapse_contents, collapse_flag_true.
      split; [now apply collapse_wf|]. split; [reflexivity|].
      intros [k1 v1]. cbn [contents lf_contents app In fst]. rewrite in_app_iff. split.
      * intros H. split; [auto|]. intros ->. destruct H as [H|H]; apply Hside in H; lia.
      * intros [[[= <- _]|H] Hn]; [now elim Hn|exact H].
    + destruct (bit (bits_of k) (length (p ++ lbl))) eqn:Eb.
      * specialize (IHr _ _ _ Hr L). destruct (remove (length (p ++ lbl)) k r) as [[r' c] e].
        destruct IHr as (W & F & I2). cbn [ctree cflag fst snd] in W, F, I2. subst c.
        rewrite collapse_contents, collapse_flag_true.
        split; [apply collapse_wf; auto; apply (starts_sub _ _ r); auto; intros x Hx; now apply I2|].
        split; [reflexivity|]. intros [k1 v1]. rewrite in_node, !in_app_iff, I2. cbn [fst]. split; [|tauto].
        intros [H|[H|H]]; [| |tauto]; (split; [auto|]); intros ->; apply Hside in H; [lia|destruct H; congruence].
      * specialize (IHl _ _ _ Hl L). destruct (remove (length (p ++ lbl)) k l) as [[l' c] e].
        destruct IHl as (W & F & I2). cbn [ctree cflag fst snd] in W, F, I2. subst c.
        rewrite collapse_contents, collapse_flag_true.
        split; [apply collapse_wf; auto; apply (starts_sub _ _ l); auto; intros x Hx; now apply I2|].
        split; [reflexivity|]. intros [k1 v1]. rewrite in_node, !in_app_iff, I2. cbn [fst]. split; [|tauto].
        intros [H|[H|H]]; [|tauto|]; (split; [auto|]); intros ->; apply Hside in H; [lia|destruct H; congruence].
Qed.

Lemma app_split_by {A} (f : A -> bool) a1 : forall b1 a2 b2,
  (forall x, In x a1 -> f x = true) -> (forall x, In x b1 -> f x = true) ->
  (forall x, In x a2 -> f x = false) -> (forall x, In x b2 -> f x = false) ->
  a1 ++ a2 = b1 ++ b2 -> a1 = b1 /\ a2 = b2.
Proof.
  induction a1 as [|x a1 IH]; intros [|y b1] a2 b2 A1 B1 A2 B2 E; cbn [app] in E.
  - auto.
  - subst a2. specialize (A2 y (or_introl eq_refl)). specialize (B1 y (or_introl eq_refl)). congruence.
  - subst b2. specialize (B2 x (or_introl eq_refl)). specialize (A1 x (or_introl eq_refl)). congruence.
  - injection E as -> E. destruct (IH b1 a2 b2) as [-> ->]; auto; intros; [apply A1|apply B1]; cbn; auto.
Qed.

(* the three parts of a node's contents are told apart by the length of the key
   and its bit at the branching point *)
Lemma node_classes p lbl lf l r :
  wf_at p (Node lbl lf l r) -> let n := length (p ++ lbl) in
  (forall e, In e (lf_contents lf) -> (length (bits_of (fst e)) =? n)%nat = true) /\
  (forall e, In e (contents l ++ contents r) -> (length (bits_of (fst e)) =? n)%nat = false) /\
  (forall e, In e (contents l) -> negb (bit (bits_of (fst e)) n) = true) /\
  (forall e, In e (contents r) -> negb (bit (bits_of (fst e)) n) = false).
Proof.
  intros Hwf n. pose proof (node_sides _ _ _ _ _ Hwf) as Hs. fold n in Hs.
  repeat split; intros [k v] H; cbn [fst].
  - apply Nat.eqb_eq. now apply (Hs k v).
  - apply Nat.eqb_neq. apply in_app_or in H as [H|H]; apply (Hs k v) in H; lia.
  - apply (Hs k v) in H as [_ ->]. reflexivity.
  - apply (Hs k v) in H as [_ ->]. reflexivity.
Qed.

Lemma canonical_at t1 : forall p t2,
  wf_at p t1 -> wf_at p t2 -> contents t1 = contents t2 -> t1 = t2.
Proof.
  induction t1 as [|k1 v1|lbl1 lf1 l1 IHl r1 IHr]; intros p t2 W1 W2 E.
  - destruct t2 as [|k2 v2|lbl2 lf2 l2 r2]; [reflexivity|discriminate|].
    pose proof (wf_node_len _ _ _ _ _ W2) as L. rewrite <- E in L. cbn in L. lia.
  - destruct t2 as [|k2 v2|lbl2 lf2 l2 r2]; [discriminate|cbn in E; congruence|].
    pose proof (wf_node_len _ _ _ _ _ W2) as L. rewrite <- E in L. cbn in L. lia.
  - pose proof (wf_node_len _ _ _ _ _ W1) as L.
    destruct t2 as [|k2 v2|lbl2 lf2 l2 r2]; [rewrite E in L; cbn in L; lia..|].
    assert (p ++ lbl1 = p ++ lbl2) as Hq.
    { pose proof (fun k v => wf_node_keys _ _ _ _ _ k v W1) as P1.
      pose proof (fun k v => wf_node_keys _ _ _ _ _ k v W2) as P2. cbn beta in P1, P2.
      destruct (present_in _ _ W1 eq_refl) as (k0 & v0 & H0).
      pose proof (P1 _ _ H0) as H1. rewrite E in P1. rewrite <- E in P2.
      destruct (prefix_comparable _ _ _ H1 (P2 _ _ H0)) as [Hp|Hp].
      - now apply (label_unique _ _ _ _ _ _ W1).
      - symmetry. now apply (label_unique _ _ _ _ _ _ W2). }
    apply app_inv_head in Hq. subst lbl2. cbn [contents] in E.
    destruct (node_classes _ _ _ _ _ W1) as (A0 & A12 & A1 & A2).
    destruct (node_classes _ _ _ _ _ W2) as (B0 & B12 & B1 & B2).
    destruct (app_split_by _ _ _ _ _ A0 B0 A12 B12 E) as [E0 E'].
    destruct (app_split_by _ _ _ _ _ A1 B1 A2 B2 E') as [El Er].
    cbn [wf_at] in W1, W2.
    destruct W1 as (_ & Wl1 & Wr1 & _). destruct W2 as (_ & Wl2 & Wr2 & _).
    f_equal.
    + destruct lf1 as [[? ?]|], lf2 as [[? ?]|]; cbn in E0; congruence.
    + eapply IHl; eauto.
    + eapply IHr; eauto.
Qed.

Theorem insert_wf t k v : valid_bytes k -> wf t -> wf (tinsert k v t).
Proof. intros Hv Hw. exact (proj1 (insert_spec t [] k v Hv (nil_is_prefix _) Hw)). Qed.

Theorem contents_sorted t : wf t -> sorted (contents t).
Proof. apply contents_sorted_at. Qed.

Theorem lookup_contents t k : wf t -> tlookup k t = al_get k (contents t).
Proof.
  intros Hw. pose proof (contents_sorted _ Hw) as S0. destruct (tlookup k t) as [v|] eqn:L; symmetry.
  - now apply in_sorted_get, (lookup_spec t []).
  - apply al_get_notin. intros v Hin. apply (lookup_spec t [] k v Hw) in Hin.
    unfold tlookup in L. cbn [length] in Hin. congruence.
Qed.

Theorem insert_contents t k v :
  valid_bytes k -> wf t -> contents (tinsert k v t) = al_set k v (contents t).
Proof.
  intros Hv Hw. destruct (insert_spec t [] k v Hv (nil_is_prefix _) Hw) as (W & I1 & I2).
  pose proof (contents_sorted _ Hw) as S0. pose proof (contents_sorted_at _ _ W) as S1.
  apply sorted_ext; auto using al_set_sorted.
  intros [k1 v1]. rewrite al_set_in by assumption. cbn [fst].
  destruct (bytes_eq_dec k1 k) as [->|Hne].
  - split; [intros He; left; f_equal; exact (sorted_key_unique _ _ _ _ S1 He I1)|].
    intros [[= ->]|[Hn _]]; [exact I1|now elim Hn].
  - rewrite (I2 (k1, v1) Hne). split; [auto|]. intros [[= -> _]|[_ H]]; [now elim Hne|exact H].
Qed.

Lemma tremove_cases t k : wf t ->
  match tlookup k t with
  | None => tremove k t = (t, false, None)
  | Some _ => remove_post [] k t (tremove k t)
  end.
Proof.
  intros Hw. destruct (tlookup k t) as [v|] eqn:L.
  - exact (remove_present t [] k v Hw L).
  - exact (remove_absent t [] k Hw L).
Qed.

Theorem remove_wf t k : wf t -> wf (fst (fst (tremove k t))).
Proof.
  intros Hw. pose proof (tremove_cases t k Hw) as R. destruct (tlookup k t); [apply R|now rewrite R].
Qed.

Theorem remove_contents t k :
  wf t ->
  contents (fst (fst (tremove k t))) = al_del k (contents t) /\
  snd (tremove k t) = al_get k (contents t) /\
  snd (fst (tremove k t)) = (match al_get k (contents t) with Some _ => true | None => false end).
Proof.
  intros Hw. pose proof (contents_sorted _ Hw) as S0. pose proof (tremove_cases t k Hw) as R.
  rewrite <- lookup_contents by assumption.
  split; [|split; [exact (remove_ex t 0 k)|]]; destruct (tlookup k t) as [v|] eqn:L.
  - destruct R as (W & _ & I2). apply sorted_ext; eauto using al_del_sorted, contents_sorted_at.
    intros e. rewrite al_del_in by assumption. rewrite I2. tauto.
  - rewrite R. symmetry. apply al_del_absent; [assumption|]. now rewrite <- lookup_contents.
  - apply R.
  - now rewrite R.
Qed.

Theorem canonical t1 t2 : wf t1 -> wf t2 -> contents t1 = contents t2 -> t1 = t2.
Proof. apply canonical_at. Qed.

Definition op_valid (o : op) : Prop :=
  match o with OIns k _ => valid_bytes k | ORem _ => True end.

Lemma apply_op_wf t o : op_valid o -> wf t -> wf (apply_op t o).
Proof. destruct o as [k v|k]; cbn [apply_op op_valid]; intros Hv Hw; [now apply insert_wf|now apply remove_wf]. Qed.

Lemma apply_op_contents t o :
  op_valid o -> wf t -> contents (apply_op t o) = apply_op_spec (contents t) o.
Proof.
  destruct o as [k v|k]; cbn [apply_op op_valid apply_op_spec]; intros Hv Hw.
  - now apply insert_contents.
  - now apply remove_contents.
Qed.

Lemma run_from_spec ops : forall t,
  Forall op_valid ops -> wf t ->
  wf (fold_left apply_op ops t) /\
  contents (fold_left apply_op ops t) = fold_left apply_op_spec ops (contents t).
Proof.
  induction ops as [|o ops IH]; intros t Hv Hw; cbn [fold_left]; [auto|].
  inversion Hv as [|? ? Ho Hops]; subst.
  destruct (IH (apply_op t o) Hops (apply_op_wf _ _ Ho Hw)) as [W C].
  split; [exact W|]. rewrite C. now rewrite apply_op_contents.
Qed.

Theorem run_wf ops : Forall op_valid ops -> wf (run ops).
Proof. intros Hv. apply (run_from_spec ops Nil Hv I). Qed.

Theorem run_contents ops :
  Forall op_valid ops -> contents (run ops) = fold_left apply_op_spec ops [].
Proof. intros Hv. apply (run_from_spec ops Nil Hv I). Qed.

Theorem root_depends_only_on_contents ops1 ops2 :
  Forall op_valid ops1 -> Forall op_valid ops2 ->
  contents (run ops1) = contents (run ops2) ->
  run ops1 = run ops2 /\
  hash_expr (run ops1) = hash_expr (run ops2) /\
  forall H, root_hash H (run ops1) = root_hash H (run ops2).
Proof.
  intros H1 H2 E.
  assert (run ops1 = run ops2) as Et by (apply canonical; auto using run_wf).
  rewrite Et. auto.
Qed.

Corollary root_depends_only_on_map ops1 ops2 :
  Forall op_valid ops1 -> Forall op_valid ops2 ->
  fold_left apply_op_spec ops1 [] = fold_left apply_op_spec ops2 [] ->
  forall H, root_hash H (run ops1) = root_hash H (run ops2).
Proof.
  intros H1 H2 E. apply root_depends_only_on_contents; auto.
  now rewrite !run_contents.
Qed.

(* keys "", "a", "ab", "b" (empty key, prefix keys), two orders, with an
   interleaved remove / re-insert and an overwrite *)
Definition ex_ops1 : list op :=
  [OIns [] [1]; OIns [97] [2]; OIns [97; 98] [3]; OIns [98] [4]].
Definition ex_ops2 : list op :=
  [OIns [98] [9]; OIns [97; 98] [3]; ORem [98]; OIns [97] [2]; OIns [120] [7]; OIns [98] [4];
   ORem [120]; OIns [] [1]].
Example ex_ops_valid : Forall op_valid ex_ops1 /\ Forall op_valid ex_ops2.
Proof. split; repeat constructor; cbn; lia. Qed.
Example ex_same_contents : contents (run ex_ops1) = contents (run ex_ops2).
Proof. vm_compute. reflexivity. Qed.
Example ex_same_tree : run ex_ops1 = run ex_ops2.
Proof. apply root_depends_only_on_contents; [apply ex_ops_valid..|apply ex_same_contents]. Qed.
Example ex_shape :
  run ex_ops1 =
  Node [] (Some ([], [1]))
       (Node [false; true; true; false; false; false] None
             (Node [false; true] (Some ([97], [2])) (Leaf [97; 98] [3]) Nil)
             (Leaf [98] [4]))
       Nil.
Proof. vm_compute. reflexivity. Qed.
