From Verif Require Import Lib.Base Roothash.Pool Roothash.PoolSpec Roothash.PoolProofs
  Roothash.Verify Roothash.App.

Definition next_round_of (st : rt_state) : N := (rs_round st + 1) mod W64.

(* the pool / timeout flag of the deciding ProcessCommitments call *)
Definition deciding (H : Z) (prm : rt_params) (c : committee) (p : pool) (timeout : bool) : pool * bool :=
  match process c p (rp_strag prm) timeout with
  | (p1, PDiscrepancy) => (p1, (H + rp_round_timeout prm * 15 / 10 =? H)%Z)
  | _ => (p, timeout)
  end.

(* the first stage touches nothing but the armed timeout *)
Definition with_timeout (st : rt_state) (nt : Z) : rt_state :=
  mkRS (rs_round st) (rs_root st) (rs_htype st) (rs_pool st) (rs_committee st) (rs_suspended st) nt
       (rs_io st) (rs_prev st) (rs_msgs st) (rs_live st) (rs_results st).

Lemma tf_decide_spec H prm c p st timeout st1 p2 o2 ev :
  tf_decide H prm c p st timeout = (st1, p2, o2, ev) ->
  (exists nt, st1 = with_timeout st nt) /\
  process c (fst (deciding H prm c p timeout)) (rp_strag prm) (snd (deciding H prm c p timeout)) = (p2, o2) /\
  o2 <> PDiscrepancy /\
  ((ev = [] /\ st1 = st /\ snd (process c p (rp_strag prm) timeout) = o2) \/
   (exists rank, ev = [EvDiscrepancy (next_round_of st) rank timeout] /\
      snd (process c p (rp_strag prm) timeout) = PDiscrepancy /\
      rs_next_timeout st1 = (H + rp_round_timeout prm * 15 / 10)%Z /\
      snd (deciding H prm c p timeout) = (H + rp_round_timeout prm * 15 / 10 =? H)%Z)).
Proof.
  unfold tf_decide, deciding.
  pose proof (otherwise_wait_resolve_or_fail c p (rp_strag prm) timeout) as S.
  destruct (process c p (rp_strag prm) timeout) as [p1 o1] eqn:E1. cbn [fst snd] in S.
  destruct o1; cbn [outcome_shape fst snd] in S |- *;
    try (destruct S as [-> _]; intros Hx; injection Hx as <- <- <- <-;
         split; [exists (rs_next_timeout st); destruct st; reflexivity|]; split; [exact E1|];
         split; [discriminate|]; left; repeat split; reflexivity).
  destruct S as (_ & _ & Ep1).
  destruct (process c p1 (rp_strag prm) _) as [q2 q] eqn:E2.
  intros Hx. injection Hx as <- <- <- <-.
  split; [eexists; reflexivity|]. split; [reflexivity|]. split.
  - assert (Hd : disc p1 = true) by (rewrite Ep1; reflexivity).
    pose proof (second_process_never_detects c p1 (rp_strag prm)
                  ((H + rp_round_timeout prm * 15 / 10 =? H)%Z) Hd) as Hn.
    rewrite E2 in Hn. exact Hn.
  - right. eexists. repeat split; reflexivity.
Qed.

Lemma tf_decide_no_block H prm c p st timeout st1 p2 o2 ev r :
  tf_decide H prm c p st timeout = (st1, p2, o2, ev) -> ~ In (EvFinalized r) ev.
Proof.
  intros E Hin. apply tf_decide_spec in E as (_ & _ & _ & [(-> & _)|(rank & -> & _)]); [destruct Hin|].
  destruct Hin as [Hf|[]]. discriminate Hf.
Qed.

(* what every runtime block emitted by finalizeBlock has in common *)
Definition new_block (prm : rt_params) (s st2 : rt_state) (e2 : list app_event) : Prop :=
  e2 = [EvFinalized (next_round_of s)] /\ rs_round st2 = next_round_of s /\
  rs_prev st2 = lookup (rs_round s) (rp_hashes prm) /\
  rs_pool st2 = Some new_pool /\ rs_next_timeout st2 = TimeoutNever /\
  rs_committee st2 = rs_committee s /\ rs_suspended st2 = rs_suspended s.

Lemma finalize_normal_spec prm c s p2 lv sc ec st2 e2 :
  finalize_normal prm c s p2 lv sc ec = Some (st2, e2) ->
  new_block prm s st2 e2 /\ rs_htype st2 = HNormal /\
  rs_root st2 = lookup (ec_vote ec) (rp_roots prm) /\
  rs_io st2 = lookup (ec_vote ec) (rp_ios prm) /\
  rs_msgs st2 = lookup (ec_vote ec) (rp_mhs prm).
Proof.
  unfold finalize_normal. destruct (scheduler_idx c _ 0) as [first|]; [|discriminate].
  destruct (live_loop _ _ _ _ _ _ _ _) as [[live good] bad].
  unfold finalize_block. cbn. intros Hx. injection Hx as <- <-. repeat split; reflexivity.
Qed.

Lemma fail_round_spec prm c s p2 lv st2 e2 :
  fail_round prm c s p2 lv = Some (st2, e2) ->
  new_block prm s st2 e2 /\ rs_htype st2 = HRoundFailed /\
  rs_root st2 = rs_root s /\ rs_io st2 = rp_empty prm /\ rs_msgs st2 = rp_empty prm /\
  rs_results st2 = rs_results s.
Proof.
  unfold fail_round. destruct (scheduler_idx c _ 0) as [first|]; [|discriminate].
  unfold finalize_block. cbn. intros Hx. injection Hx as <- <-. repeat split; reflexivity.
Qed.

Lemma try_finalize_cases H prm c p st timeout st' evs :
  try_finalize H prm c p st timeout = TFOk st' evs ->
  exists st1 p2 o2 ev,
    tf_decide H prm c p st timeout = (st1, p2, o2, ev) /\
    ((exists sc ec e2, o2 = POk sc /\ sc_commit sc = Some ec /\
        finalize_normal prm c st1 p2 (live_of st c) sc ec = Some (st', e2) /\ evs = ev ++ e2) \/
     (o2 = PStillWaiting /\ st' = with_pool st1 p2 (live_of st c) (rs_results st1) /\ evs = ev) \/
     (exists e2, (o2 = PInsufficientVotes \/ o2 = PNoScheduler \/ o2 = PBadScheduler) /\
        fail_round prm c st1 p2 (live_of st c) = Some (st', e2) /\ evs = ev ++ e2)).
Proof.
  unfold try_finalize. destruct (tf_decide H prm c p st timeout) as [[[st1 p2] o2] ev].
  intros Htf. exists st1, p2, o2, ev. split; [reflexivity|].
  destruct o2; try discriminate Htf.
  3-5: right; right; destruct (fail_round prm c st1 p2 (live_of st c)) as [[s2 e2]|]; [|discriminate Htf];
       injection Htf as <- <-; exists e2; auto 6.
  - left. destruct (sc_commit sc) as [ec|] eqn:Ec; [|discriminate Htf].
    destruct (finalize_normal prm c st1 p2 (live_of st c) sc ec) as [[s2 e2]|] eqn:F; [|discriminate Htf].
    injection Htf as <- <-. exists sc, ec, e2. repeat split; assumption.
  - right. left. injection Htf as <- <-. repeat split.
Qed.

Lemma try_finalize_emits H prm c p st timeout st' evs :
  try_finalize H prm c p st timeout = TFOk st' evs ->
  exists st1 p2 o2 ev,
    tf_decide H prm c p st timeout = (st1, p2, o2, ev) /\
    ((exists e2, new_block prm st1 st' e2 /\ evs = ev ++ e2) \/
     (o2 = PStillWaiting /\ st' = with_pool st1 p2 (live_of st c) (rs_results st1) /\ evs = ev)).
Proof.
  intros Htf. apply try_finalize_cases in Htf as (st1 & p2 & o2 & ev & E & K).
  exists st1, p2, o2, ev. split; [exact E|].
  destruct K as [(sc & ec & e2 & _ & _ & F & ->)|[K|(e2 & _ & F & ->)]]; [left|right; exact K|left]; exists e2.
  - apply finalize_normal_spec in F as [F _]. split; [exact F|reflexivity].
  - apply fail_round_spec in F as [F _]. split; [exact F|reflexivity].
Qed.

Lemma app_second_process_never_detects H prm c p st timeout :
  try_finalize H prm c p st timeout <> TFErrDiscrepancy.
Proof.
  unfold try_finalize. destruct (tf_decide H prm c p st timeout) as [[[st1 p2] o2] ev] eqn:E.
  apply tf_decide_spec in E as (_ & _ & Hn & _).
  destruct o2; try discriminate; try contradiction.
  2-4: destruct (fail_round _ _ _ _ _) as [[? ?]|]; discriminate.
  destruct (sc_commit sc); [|discriminate].
  destruct (finalize_normal _ _ _ _ _ _ _) as [[? ?]|]; discriminate.
Qed.

Definition tf_shape (H : Z) (prm : rt_params) (c : committee) (p : pool) (st : rt_state) (timeout : bool)
           (st' : rt_state) (evs : list app_event) : Prop :=
  let pe := fst (deciding H prm c p timeout) in
  let te := snd (deciding H prm c p timeout) in
  let o := snd (process c pe (rp_strag prm) te) in
  match o with
  | POk sc =>
      exists ec, sc_commit sc = Some ec /\
        rs_round st' = next_round_of st /\ rs_htype st' = HNormal /\
        rs_root st' = lookup (ec_vote ec) (rp_roots prm) /\
        rs_pool st' = Some new_pool /\ rs_next_timeout st' = TimeoutNever /\
        In (EvFinalized (next_round_of st)) evs /\
        rs_io st' = lookup (ec_vote ec) (rp_ios prm) /\
        rs_msgs st' = lookup (ec_vote ec) (rp_mhs prm) /\
        rs_prev st' = lookup (rs_round st) (rp_hashes prm)
  | PStillWaiting =>
      rs_round st' = rs_round st /\ rs_root st' = rs_root st /\ rs_htype st' = rs_htype st /\
      (forall r, ~ In (EvFinalized r) evs) /\
      rs_io st' = rs_io st /\ rs_msgs st' = rs_msgs st /\ rs_prev st' = rs_prev st
  | PNoScheduler | PBadScheduler | PInsufficientVotes =>
      rs_round st' = next_round_of st /\ rs_htype st' = HRoundFailed /\
      rs_root st' = rs_root st /\
      rs_pool st' = Some new_pool /\ rs_next_timeout st' = TimeoutNever /\
      In (EvFinalized (next_round_of st)) evs /\
      rs_io st' = rp_empty prm /\ rs_msgs st' = rp_empty prm /\
      rs_prev st' = lookup (rs_round st) (rp_hashes prm)
  | _ => False
  end.

Lemma try_finalize_shape H prm c p st timeout st' evs :
  try_finalize H prm c p st timeout = TFOk st' evs -> tf_shape H prm c p st timeout st' evs.
Proof.
  intros Htf. apply try_finalize_cases in Htf as (st1 & p2 & o2 & ev & E & K).
  pose proof (fun r => tf_decide_no_block _ _ _ _ _ _ _ _ _ _ r E) as Hnofin.
  apply tf_decide_spec in E as ((nt & ->) & Ep & _). unfold tf_shape. rewrite Ep. cbn [snd].
  assert (Hfin : In (EvFinalized (next_round_of st)) (ev ++ [EvFinalized (next_round_of st)])).
  { apply in_or_app. right. left. reflexivity. }
  destruct K as [(sc & ec & e2 & -> & Ec & F & ->)|[(-> & -> & ->)|(e2 & Ho & F & ->)]].
  - apply finalize_normal_spec in F as ((-> & Fr & Fpv & Fp & Ft & _) & Fh & Froot & Fio & Fm).
    exists ec. repeat split; assumption.
  - cbn. repeat split; try reflexivity. exact Hnofin.
  - apply fail_round_spec in F as ((-> & Fr & Fpv & Fp & Ft & _) & Fh & Froot & Fio & Fm & _).
    destruct Ho as [-> | [-> | ->]]; repeat split; assumption.
Qed.

Lemma deciding_keeps (P : pool -> Prop) H prm c p timeout :
  (forall q s t, P q -> P (fst (process c q s t))) -> P p -> P (fst (deciding H prm c p timeout)).
Proof.
  intros Hp I. unfold deciding. pose proof (Hp p (rp_strag prm) timeout I) as I'.
  destruct (process c p (rp_strag prm) timeout) as [p1 o1]. destruct o1; assumption.
Qed.

(* a Normal block is produced only if the rule held for the chosen commitment, and it carries
   that commitment's state root, IO root and messages hash *)
Lemma normal_block_only_if_rule H prm c p st timeout st' evs :
  hr_entry_ok c p ->
  try_finalize H prm c p st timeout = TFOk st' evs ->
  In (EvFinalized (next_round_of st)) evs -> rs_htype st' = HNormal ->
  exists sc ec,
    snd (process c (fst (deciding H prm c p timeout)) (rp_strag prm) (snd (deciding H prm c p timeout))) = POk sc /\
    sc_commit sc = Some ec /\
    rs_root st' = lookup (ec_vote ec) (rp_roots prm) /\
    rule c (rp_strag prm) (disc (fst (deciding H prm c p timeout))) sc.
Proof.
  intros I Htf Hev Hn. apply try_finalize_cases in Htf as (st1 & p2 & o2 & ev & E & K).
  pose proof (tf_decide_no_block _ _ _ _ _ _ _ _ _ _ (next_round_of st) E) as Hnofin.
  apply tf_decide_spec in E as (_ & Ep & _).
  destruct K as [(sc & ec & e2 & -> & Hc & F & _)|[(_ & _ & ->)|(e2 & _ & F & _)]].
  - apply finalize_normal_spec in F as (_ & _ & Hroot & _).
    exists sc, ec. rewrite Ep. repeat split; try assumption.
    eapply finalize_only_if_rule; [|exact Ep]. apply deciding_keeps; [apply hr_entry_ok_process|exact I].
  - contradiction.
  - apply fail_round_spec in F as (_ & Hf & _). congruence.
Qed.

(* a failed round keeps the previous state root; its IO root and messages hash are empty *)
Lemma failed_round_fields H prm c p st timeout st' evs :
  try_finalize H prm c p st timeout = TFOk st' evs ->
  rs_htype st' = HRoundFailed -> In (EvFinalized (next_round_of st)) evs ->
  rs_round st' = next_round_of st /\ rs_root st' = rs_root st /\
  rs_pool st' = Some new_pool /\ rs_next_timeout st' = TimeoutNever /\
  rs_io st' = rp_empty prm /\ rs_msgs st' = rp_empty prm /\
  rs_prev st' = lookup (rs_round st) (rp_hashes prm).
Proof.
  intros Htf Hf Hev. apply try_finalize_cases in Htf as (st1 & p2 & o2 & ev & E & K).
  pose proof (tf_decide_no_block _ _ _ _ _ _ _ _ _ _ (next_round_of st) E) as Hnofin.
  apply tf_decide_spec in E as ((nt & ->) & _).
  destruct K as [(sc & ec & e2 & _ & _ & F & _)|[(_ & _ & ->)|(e2 & _ & F & _)]].
  - apply finalize_normal_spec in F as (_ & Hn & _). congruence.
  - contradiction.
  - apply fail_round_spec in F as ((_ & Hr & Hpv & Hp & Ht & _) & _ & Hroot & Hio & Hm & _). repeat split; assumption.
Qed.

Lemma failed_round_keeps_state_root H prm c p st timeout st' evs :
  try_finalize H prm c p st timeout = TFOk st' evs ->
  rs_htype st' = HRoundFailed -> In (EvFinalized (next_round_of st)) evs ->
  rs_root st' = rs_root st /\ rs_round st' = next_round_of st /\
  rs_pool st' = Some new_pool /\ rs_next_timeout st' = TimeoutNever.
Proof.
  intros Htf Hf Hev. destruct (failed_round_fields _ _ _ _ _ _ _ _ Htf Hf Hev) as (A & B & C & D & _).
  repeat split; assumption.
Qed.

Lemma failed_round_header H prm c p st timeout st' evs :
  try_finalize H prm c p st timeout = TFOk st' evs ->
  rs_htype st' = HRoundFailed -> In (EvFinalized (next_round_of st)) evs ->
  rs_root st' = rs_root st /\ rs_io st' = rp_empty prm /\ rs_msgs st' = rp_empty prm /\
  rs_prev st' = lookup (rs_round st) (rp_hashes prm) /\ rs_round st' = next_round_of st.
Proof.
  intros Htf Hf Hev. destruct (failed_round_fields _ _ _ _ _ _ _ _ Htf Hf Hev) as (A & B & _ & _ & E & F & G).
  repeat split; assumption.
Qed.

Lemma state_root_changes_only_with_normal_block H prm c p st timeout st' evs :
  try_finalize H prm c p st timeout = TFOk st' evs ->
  rs_root st' <> rs_root st -> rs_htype st' = HNormal /\ rs_round st' = next_round_of st.
Proof.
  intros Htf Hne. apply try_finalize_cases in Htf as (st1 & p2 & o2 & ev & E & K).
  apply tf_decide_spec in E as ((nt & ->) & _).
  destruct K as [(sc & ec & e2 & _ & _ & F & _)|[(_ & -> & _)|(e2 & _ & F & _)]].
  - apply finalize_normal_spec in F as ((_ & A & _) & B & _). split; assumption.
  - destruct Hne. reflexivity.
  - apply fail_round_spec in F as (_ & _ & A & _). contradiction.
Qed.

(* after the round timer expired the attempt never just keeps waiting: either a block is
   produced, or a discrepancy was detected in this very call and the timer was re-armed to a
   LATER height for the backup workers *)
Lemma timeout_never_keeps_waiting H prm c p st st' evs :
  try_finalize H prm c p st true = TFOk st' evs ->
  (forall r, ~ In (EvFinalized r) evs) ->
  exists rank,
    evs = [EvDiscrepancy (next_round_of st) rank true] /\
    snd (process c p (rp_strag prm) true) = PDiscrepancy /\
    rs_next_timeout st' = (H + rp_round_timeout prm * 15 / 10)%Z /\
    rs_next_timeout st' <> H.
Proof.
  intros Htf Hno. apply try_finalize_emits in Htf as (st1 & p2 & o2 & ev & E & K).
  apply tf_decide_spec in E as (_ & Ep & _ & Hev).
  destruct K as [(e2 & (-> & _) & ->)|(-> & -> & ->)].
  - destruct (Hno (next_round_of st1)). apply in_or_app. right. left. reflexivity.
  - destruct Hev as [(-> & -> & Ho)|(rank & -> & Ho & Hnt & Hte)].
    + destruct (no_wait_after_timeout c p (rp_strag prm) Ho).
    + exists rank. cbn [with_pool rs_next_timeout]. repeat split; try assumption.
      rewrite Hnt. destruct (H + rp_round_timeout prm * 15 / 10 =? H)%Z eqn:Et; [|lia].
      rewrite Hte in Ep.
      destruct (no_wait_after_timeout c (fst (deciding H prm c p true)) (rp_strag prm)). rewrite Ep. reflexivity.
Qed.

Lemma finalize_block_fields prm st ht hdr :
  let s := fst (finalize_block prm st ht hdr) in
  rs_next_timeout s = TimeoutNever /\ rs_round s = (rs_round st + 1) mod W64 /\ rs_htype s = ht /\
  rs_prev s = lookup (rs_round st) (rp_hashes prm) /\
  rs_committee s = rs_committee st /\ rs_suspended s = rs_suspended st /\
  rs_pool s = (match ht with HSuspended => None | _ => Some new_pool end) /\
  snd (finalize_block prm st ht hdr) = [EvFinalized ((rs_round st + 1) mod W64)] /\
  (ht <> HNormal -> rs_root s = rs_root st /\ rs_io s = rp_empty prm /\ rs_msgs s = rp_empty prm).
Proof.
  unfold finalize_block. destruct ht, hdr as [[[a b] d]|]; cbn; repeat split; try reflexivity;
    try (intros Hx; first [contradiction|repeat split; reflexivity]); try contradiction.
Qed.

Lemma executor_commit_cases H prm st vcs :
  (fst (fst (executor_commit H prm st vcs)) = st /\ snd (executor_commit H prm st vcs) = false /\
   (snd (fst (executor_commit H prm st vcs)) = 0 -> vcs = [])) \/
  (exists c p p1 nt,
     rs_suspended st = false /\ rs_committee st = Some c /\ rs_pool st = Some p /\
     commit_all (rs_round st) (lookup (rs_round st) (rp_hashes prm)) (rp_max_msgs prm) c p vcs = (p1, 0) /\
     executor_commit H prm st vcs =
       (mkRS (rs_round st) (rs_root st) (rs_htype st) (Some p1) (rs_committee st) (rs_suspended st) nt
             (rs_io st) (rs_prev st) (rs_msgs st) (rs_live st) (rs_results st), 0, true)).
Proof.
  unfold executor_commit. destruct vcs as [|vc r]; [left; repeat split|].
  destruct (rs_suspended st); [left; repeat split; discriminate|].
  destruct (rs_committee st) as [c|]; [|left; repeat split; discriminate].
  destruct (rs_pool st) as [p|]; [|left; repeat split; discriminate].
  destruct (commit_all _ _ _ c p (vc :: r)) as [p1 code] eqn:Ea.
  destruct (code =? 0) eqn:E; [|left; repeat split; cbn; lia].
  apply N.eqb_eq in E. subst code. right. exists c, p, p1. eexists. repeat split. exact Ea.
Qed.

Lemma try_finalize_round_ok H prm st timeout st' evs :
  try_finalize_round H prm st timeout = EndOk st' evs ->
  exists c p, rs_suspended st = false /\ rs_committee st = Some c /\ rs_pool st = Some p /\
              try_finalize H prm c p st timeout = TFOk st' evs.
Proof.
  unfold try_finalize_round. destruct (rs_suspended st); [discriminate|].
  destruct (rs_committee st) as [c|]; [|discriminate]. destruct (rs_pool st) as [p|]; [|discriminate].
  destruct (try_finalize H prm c p st timeout) as [s e| | | |] eqn:E; cbn [tf_end]; try discriminate.
  intros Hx. injection Hx as <- <-. exists c, p. repeat split. exact E.
Qed.

(* a predicate kept by BeginBlock, by every ExecutorCommit transaction and by every finalization
   attempt is kept by whole blocks and histories *)
Section BlockInvariant.
  Variable prm : rt_params.
  Variable P : rt_state -> Prop.
  Hypothesis Hbegin : forall st ep, P st -> P (fst (begin_block prm st ep)).
  Hypothesis Hcommit : forall H st vcs, P st -> P (fst (fst (executor_commit H prm st vcs))).
  Hypothesis Hattempt : forall H st timeout st' evs,
    P st -> try_finalize_round H prm st timeout = EndOk st' evs -> P st'.

  Lemma run_txs_keeps H txs : forall st fin, P st -> P (fst (fst (run_txs H prm st txs fin))).
  Proof.
    induction txs as [|vcs r IH]; intros st fin I; cbn [run_txs]; [exact I|].
    pose proof (Hcommit H st vcs I) as I1.
    destruct (executor_commit H prm st vcs) as [[st1 code] reg]. cbn [fst] in I1.
    specialize (IH st1 (fin || reg) I1).
    destruct (run_txs H prm st1 r (fin || reg)) as [[st2 codes2] fin2]. exact IH.
  Qed.

  Lemma end_block_keeps H st fin st' evs : P st -> end_block H prm st fin = EndOk st' evs -> P st'.
  Proof.
    intros I. unfold end_block.
    assert (I1 : forall s e, (if fin then try_finalize_round H prm st false else EndOk st []) = EndOk s e -> P s).
    { destruct fin; intros s e Hx; [exact (Hattempt _ _ _ _ _ I Hx)|]. injection Hx as <- _. exact I. }
    destruct (if fin then try_finalize_round H prm st false else EndOk st []) as [st1 e1|cd]; [|discriminate].
    specialize (I1 st1 e1 eq_refl).
    destruct ((rs_next_timeout st1 =? H)%Z && negb (H =? TimeoutNever)%Z).
    - destruct (try_finalize_round H prm st1 true) as [st2 e2|cd] eqn:E2; [|discriminate].
      intros Hx. injection Hx as <- _. exact (Hattempt _ _ _ _ _ I1 E2).
    - intros Hx. injection Hx as <- _. exact I1.
  Qed.

  Lemma app_block_keeps st b : P st -> P (fst (app_block prm st b)).
  Proof.
    intros I. unfold app_block.
    pose proof (Hbegin st (ab_epoch b) I) as I1.
    destruct (begin_block prm st (ab_epoch b)) as [st1 eb]. cbn [fst] in I1.
    pose proof (run_txs_keeps (ab_height b) (ab_txs b) st1 false I1) as I2.
    destruct (run_txs (ab_height b) prm st1 (ab_txs b) false) as [[st2 codes] fin]. cbn [fst] in I2.
    destruct (end_block (ab_height b) prm st2 fin) as [s e|cd] eqn:Ee; cbn [fst]; [|exact I2].
    exact (end_block_keeps _ _ _ _ _ I2 Ee).
  Qed.

  Lemma app_states_keeps bs st : P st -> P (app_states prm st bs).
  Proof. apply fold_left_invariant. intros s b. apply app_block_keeps. Qed.
End BlockInvariant.

Definition active (st : rt_state) : Prop :=
  rs_suspended st = false /\ rs_committee st <> None /\ rs_pool st <> None.

Definition armed_ok (st : rt_state) : Prop := rs_next_timeout st <> TimeoutNever -> active st.

Lemma armed_ok_new prm round root : armed_ok (new_runtime prm round root).
Proof. intros H. cbn in H. contradiction. Qed.

Lemma begin_block_armed_ok prm st ep : armed_ok st -> armed_ok (fst (begin_block prm st ep)).
Proof.
  intros I. destruct ep as [[c|]|]; cbn [begin_block]; [| |exact I].
  - pose proof (finalize_block_fields prm st HEpochTransition None) as [T _].
    destruct (finalize_block prm st HEpochTransition None) as [s e]. intros H. cbn in H, T. contradiction.
  - pose proof (finalize_block_fields prm st HSuspended None) as [T _].
    destruct (finalize_block prm st HSuspended None) as [s e]. intros H. cbn in H, T. contradiction.
Qed.

Lemma executor_commit_ok_active H prm st vcs :
  snd (executor_commit H prm st vcs) = true -> active (fst (fst (executor_commit H prm st vcs))).
Proof.
  intros Hr. destruct (executor_commit_cases H prm st vcs) as [(_ & Hf & _)|(c & p & p1 & nt & Hs & Hc & _ & _ & ->)]; [congruence|].
  unfold active. cbn. rewrite Hs, Hc. repeat split; discriminate.
Qed.

Lemma executor_commit_keeps_active H prm st vcs :
  active st -> active (fst (fst (executor_commit H prm st vcs))).
Proof.
  intros A. destruct (executor_commit_cases H prm st vcs) as [[-> _]|(c & p & p1 & nt & _ & _ & _ & _ & E)]; [exact A|].
  apply executor_commit_ok_active. rewrite E. reflexivity.
Qed.

Lemma executor_commit_armed_ok H prm st vcs :
  armed_ok st -> armed_ok (fst (fst (executor_commit H prm st vcs))).
Proof.
  intros I. destruct (executor_commit_cases H prm st vcs) as [[-> _]|(c & p & p1 & nt & _ & _ & _ & _ & E)]; [exact I|].
  intros _. apply executor_commit_ok_active. rewrite E. reflexivity.
Qed.

Lemma run_txs_active H prm txs : forall st fin st' codes fin',
  run_txs H prm st txs fin = (st', codes, fin') -> (fin = true -> active st) -> fin' = true -> active st'.
Proof.
  induction txs as [|vc r IH]; intros st fin st' codes fin'; cbn [run_txs].
  - intros Hx. injection Hx as <- <- <-. auto.
  - destruct (executor_commit H prm st vc) as [[st1 code] reg] eqn:E1.
    destruct (run_txs H prm st1 r (fin || reg)) as [[st2 codes2] fin2] eqn:E2.
    intros Hx. injection Hx as <- <- <-. intros Hf. apply (IH _ _ _ _ _ E2).
    intros Ho. apply orb_true_iff in Ho as [Ho|Ho].
    + pose proof (executor_commit_keeps_active H prm st vc (Hf Ho)) as K. rewrite E1 in K. exact K.
    + pose proof (executor_commit_ok_active H prm st vc) as K. rewrite E1 in K. apply K. exact Ho.
Qed.

Lemma try_finalize_armed_ok H prm c p st timeout st' evs :
  rs_suspended st = false -> rs_committee st = Some c ->
  try_finalize H prm c p st timeout = TFOk st' evs -> active st' \/ rs_next_timeout st' = TimeoutNever.
Proof.
  intros Hs Hc Htf. apply try_finalize_emits in Htf as (st1 & p2 & o2 & ev & E & K).
  apply tf_decide_spec in E as ((nt & ->) & _).
  destruct K as [(e2 & (_ & _ & _ & _ & T & _) & _)|(_ & -> & _)]; [right; exact T|left].
  unfold active. cbn. rewrite Hs, Hc. repeat split; discriminate.
Qed.

Lemma try_finalize_round_armed_ok H prm st timeout st' evs :
  try_finalize_round H prm st timeout = EndOk st' evs -> armed_ok st'.
Proof.
  intros Hx. apply try_finalize_round_ok in Hx as (c & p & Es & Ec & _ & E).
  destruct (try_finalize_armed_ok _ _ _ _ _ _ _ _ Es Ec E) as [A|A]; intros Hn; [exact A|contradiction].
Qed.

Lemma app_states_armed_ok prm bs : forall st, armed_ok st -> armed_ok (app_states prm st bs).
Proof.
  apply app_states_keeps.
  - apply begin_block_armed_ok.
  - intros H. apply executor_commit_armed_ok.
  - intros H st timeout st' evs _. apply try_finalize_round_armed_ok.
Qed.

Lemma suspended_runtime_has_no_armed_timeout prm bs round root :
  rs_suspended (app_states prm (new_runtime prm round root) bs) = true ->
  rs_next_timeout (app_states prm (new_runtime prm round root) bs) = TimeoutNever.
Proof.
  intros Hs. pose proof (app_states_armed_ok prm bs _ (armed_ok_new prm round root)) as I.
  destruct (Z.eq_dec (rs_next_timeout (app_states prm (new_runtime prm round root) bs)) TimeoutNever) as [E|E];
    [exact E|]. destruct (I E) as [A _]. congruence.
Qed.

(* EndBlock never fails because an expired round timeout belongs to a runtime that cannot be
   finalized (the failure mode of a suspended runtime with an armed timeout) *)
Lemma end_block_never_fails_on_inactive_runtime prm st b :
  armed_ok st -> (0 < ab_height b)%Z -> bo_halt (snd (app_block prm st b)) <> 1.
Proof.
  intros I Hpos. unfold app_block.
  pose proof (begin_block_armed_ok prm st (ab_epoch b) I) as I1.
  destruct (begin_block prm st (ab_epoch b)) as [st1 eb]. cbn [fst] in I1.
  pose proof (run_txs_keeps prm armed_ok (fun H => executor_commit_armed_ok H prm) (ab_height b) (ab_txs b) st1 false I1) as A.
  destruct (run_txs (ab_height b) prm st1 (ab_txs b) false) as [[st2 codes] fin] eqn:Et. cbn [fst] in A.
  assert (Hact : fin = true -> active st2) by (apply (run_txs_active _ _ _ _ _ _ _ _ Et); discriminate).
  destruct (end_block (ab_height b) prm st2 fin) as [s e|cd] eqn:Ee; cbn [snd bo_halt]; [discriminate|].
  intros ->. unfold end_block in Ee.
  assert (Hround : forall s t, active s -> try_finalize_round (ab_height b) prm s t <> EndHalt 1).
  { intros s t (X & Y & Z). unfold try_finalize_round. rewrite X.
    destruct (rs_committee s); [|contradiction]. destruct (rs_pool s); [|contradiction].
    destruct (try_finalize _ _ _ _ _ _); cbn; discriminate. }
  assert (Hfirst : forall s1 e1, (if fin then try_finalize_round (ab_height b) prm st2 false else EndOk st2 []) = EndOk s1 e1 ->
                                 armed_ok s1).
  { destruct fin; intros s1 e1 Hx; [exact (try_finalize_round_armed_ok _ _ _ _ _ _ Hx)|]. injection Hx as <- _. exact A. }
  destruct (if fin then try_finalize_round (ab_height b) prm st2 false else EndOk st2 []) as [st3 e3|cd] eqn:E3.
  - destruct ((rs_next_timeout st3 =? ab_height b)%Z && negb (ab_height b =? TimeoutNever)%Z) eqn:Ec; [|discriminate].
    destruct (try_finalize_round (ab_height b) prm st3 true) as [st4 e4|cd] eqn:E4; [discriminate|].
    injection Ee as ->. apply (Hround st3 true); [|exact E4].
    apply (Hfirst st3 e3 eq_refl). unfold TimeoutNever in *. lia.
  - injection Ee as ->. destruct fin; [|discriminate E3]. apply (Hround st2 false (Hact eq_refl)). exact E3.
Qed.

Lemma executor_commit_all_or_nothing H prm st vcs :
  snd (fst (executor_commit H prm st vcs)) <> 0 ->
  fst (fst (executor_commit H prm st vcs)) = st /\ snd (executor_commit H prm st vcs) = false.
Proof.
  intros Hc. destruct (executor_commit_cases H prm st vcs) as [(A & B & _)|(c & p & p1 & nt & _ & _ & _ & _ & E)];
    [split; assumption|]. rewrite E in Hc. destruct Hc. reflexivity.
Qed.

Lemma commit_all_ok round bh mm c : forall vcs p p1,
  commit_all round bh mm c p vcs = (p1, 0) ->
  Forall (fun vc => verify round bh mm vc = VOk) vcs /\
  p1 = fold_left (fun q vc => fst (add c q (vc_ec vc))) vcs p.
Proof.
  induction vcs as [|vc r IH]; intros p p1; cbn [commit_all fold_left].
  - intros H. injection H as <-. split; [constructor|reflexivity].
  - destruct (verify round bh mm vc) eqn:V; try (cbn; discriminate).
    destruct (add c p (vc_ec vc)) as [q e] eqn:A. destruct e; try (cbn; discriminate).
    intros H. apply IH in H as [F E]. split; [constructor; assumption|]. cbn [fst]. exact E.
Qed.
