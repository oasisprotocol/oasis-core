(* C14: exact sizes of the elected sets, the de-duplicated pool and the
   per-entity limits of a committee; soundness of a whole epoch step
   (run_epoch) and the re-election after a slash. *)
From Verif Require Import Lib.Base Sched.Elect Sched.ElectSpec Sched.ElectLemmas Sched.ElectCore
  Sched.ElectProofs Sched.CommitteeProofs.
From Coq Require Import Permutation.

(* nodes the entity can contribute: min(its nodes in the shuffled list, MaxValidatorsPerEntity) *)
Definition ent_quota (p : params) (sh : list node) (e : N) : N := N.min (count_node_ent e sh) (p_per p).
Lemma len_picks p sh e : len (picks p sh e) = ent_quota p sh e.
Proof. unfold picks, ent_quota, count_node_ent. rewrite len_firstn, N2Nat.id. lia. Qed.
Lemma len_flat_picks p sh L : len (flat_map (picks p sh) L) = sum (map (ent_quota p sh) L).
Proof.
  induction L as [|a r IH]; cbn [flat_map map sum]; [reflexivity|].
  rewrite len_app, len_picks, IH. reflexivity.
Qed.
Lemma sum_perm l l' : Permutation l l' -> sum l = sum l'.
Proof. induction 1; cbn [sum]; lia. Qed.

(* In the success case the number of validators is EXACTLY
   min(sum over eligible entities of min(nodes, MaxValidatorsPerEntity), max(1, MaxValidators)). *)
Theorem validators_exact_count p ents pe cands sh vals vents :
  NoDup (map n_cons sh) ->
  is_perm pe (length (usort (map n_ent cands))) ->
  elect_core p ents pe cands sh = VOk vals vents ->
  len vals = N.min (sum (map (ent_quota p sh) (usort (map n_ent cands)))) (N.max 1 (p_max p)).
Proof.
  intros Hsh Hpe H. destruct (elect_ok_inv _ _ _ _ _ _ _ H) as [acc [Hf [-> [_ Hpos]]]].
  rewrite (len_perm _ _ (sort_by_perm fst acc)).
  destruct (fill_distinct _ _ _ _ _ (cand_seq_nodup p ents pe cands sh Hsh Hpe) Hf)
    as [cs1 [cs2 [Hcs [-> [Hmax Hstop]]]]].
  (* one entry per candidate of the processed prefix, which is everything or MaxValidators long *)
  rewrite <- (sum_perm _ _ (Permutation_map (ent_quota p sh) (by_stake_perm p ents pe cands Hpe))).
  rewrite <- len_flat_picks. fold (cand_seq_sh p ents pe cands sh). rewrite Hcs, len_app.
  assert (Hl : len (rev (map (elected p ents) cs1)) = len cs1).
  { unfold len. rewrite rev_length, map_length. reflexivity. }
  rewrite Hl in *. destruct Hstop as [->|Hstop]; [rewrite len_nil|]; lia.
Qed.

Lemma filter_role r r' (l : list node) :
  filter (fun m : N * N => fst m =? r) (map (fun n => (r', n_id n)) l) =
  if r' =? r then map (fun n => (r', n_id n)) l else [].
Proof.
  induction l as [|x t IH]; cbn [map filter fst]; [destruct (r' =? r); reflexivity|].
  rewrite IH. destruct (r' =? r); reflexivity.
Qed.

(* a committee has exactly GroupSize + GroupBackupSize members *)
Theorem committee_exact_size fv p ents vents epoch rt cnodes blocked sw sb ms :
  elect_committee fv p ents vents epoch rt cnodes blocked sw sb = Some ms ->
  len ms = r_gsize rt + r_bsize rt /\
  len (filter (fun m => fst m =? ROLE_WORKER) ms) = r_gsize rt /\
  len (filter (fun m => fst m =? ROLE_BACKUP) ms) = r_bsize rt.
Proof.
  intros H. apply committee_sound in H.
  destruct H as [_ [_ [_ [_ [w [b [-> [[Hw _] Hb]]]]]]]].
  assert (Hlb : len b = r_bsize rt).
  { destruct (r_bsize rt =? 0) eqn:E; [subst b; rewrite len_nil; lia|destruct Hb as [Hb _]; exact Hb]. }
  rewrite !filter_app, !filter_role.
  change (ROLE_WORKER =? ROLE_WORKER) with true. change (ROLE_BACKUP =? ROLE_BACKUP) with true.
  change (ROLE_WORKER =? ROLE_BACKUP) with false. change (ROLE_BACKUP =? ROLE_WORKER) with false.
  rewrite app_nil_r. cbn [app]. rewrite len_app. unfold len in *. rewrite !map_length. lia.
Qed.

Lemma dedup_count lim : forall l seen e,
  cnt_of e seen <= lim -> count_node_ent e (dedup lim seen l) + cnt_of e seen <= lim.
Proof.
  induction l as [|x r IH]; intros seen e Hs; cbn [dedup].
  - unfold count_node_ent. cbn. lia.
  - destruct (lim <=? cnt_of (n_ent x) seen) eqn:El; [apply IH; exact Hs|].
    rewrite count_node_ent_cons.
    assert (Hs' : cnt_of e (aset (n_ent x) (cnt_of (n_ent x) seen + 1) seen) <= lim).
    { rewrite cnt_of_aset. destruct (n_ent x =? e) eqn:E; [lia|exact Hs]. }
    specialize (IH (aset (n_ent x) (cnt_of (n_ent x) seen + 1) seen) e Hs').
    rewrite cnt_of_aset in IH. destruct (n_ent x =? e) eqn:E; cbn [ind].
    + assert (n_ent x = e) by lia. subst e. lia.
    + lia.
Qed.

(* the candidate pool of a role IS the per-entity de-duplicated one *)
Theorem role_pool_deduplicated p ents vents epoch rt src cs cnodes lim e :
  c_max cs = Some lim -> 0 < lim ->
  count_node_ent e (role_pool p ents vents epoch rt src cs cnodes) <= lim.
Proof.
  intros Hc Hl. unfold role_pool. rewrite Hc, (proj2 (N.ltb_lt 0 lim) Hl).
  assert (H : forall l, count_node_ent e (dedup lim [] l) <= lim).
  { intros l. pose proof (dedup_count lim l [] e (N.le_0_l lim)) as H. change (cnt_of e []) with 0 in H. lia. }
  destruct src; apply H.
Qed.

(* an elected committee's candidate pool AFTER per-entity de-duplication has at
   least MinPoolSize nodes, for each role that is filled; and no entity has
   more than MaxNodes members in a role (workers and backups each) *)
Theorem committee_pool_and_limits fv p ents vents epoch rt cnodes blocked sw sb ms :
  elect_committee fv p ents vents epoch rt cnodes blocked sw sb = Some ms ->
  min_pool (r_cw rt) <= len (role_pool p ents vents epoch rt sw (r_cw rt) cnodes) /\
  (r_bsize rt <> 0 -> min_pool (r_cb rt) <= len (role_pool p ents vents epoch rt sb (r_cb rt) cnodes)) /\
  exists w b,
    ms = map (fun n => (ROLE_WORKER, n_id n)) w ++ map (fun n => (ROLE_BACKUP, n_id n)) b /\
    (forall lim, c_max (r_cw rt) = Some lim -> forall e, count_node_ent e w <= lim) /\
    (forall lim, c_max (r_cb rt) = Some lim -> forall e, count_node_ent e b <= lim).
Proof.
  intros H. apply committee_sound in H.
  destruct H as [_ [_ [_ [_ [w [b [-> [[_ [_ [Hwl Hwm]]] Hb]]]]]]]].
  split; [exact Hwm|].
  destruct (r_bsize rt =? 0) eqn:E.
  - split; [intros; lia|]. exists w, b. split; [reflexivity|]. split; [exact Hwl|].
    subst b. intros lim _ e. unfold count_node_ent. cbn. lia.
  - destruct Hb as [_ [_ [Hbl Hbm]]]. split; [intros _; exact Hbm|].
    exists w, b. split; [reflexivity|]. split; assumption.
Qed.

(* the boundary: entity 11 has three eligible nodes, entity 12 one; MaxNodes 1,
   group size 2.  Raw pool 4, de-duplicated pool 2: MinPoolSize 3 => no
   committee, MinPoolSize 2 => committee. *)
Example ex_minpool_after_dedup :
  let mkn := fun id ent => mkNode id ent (id + 100) 1 9 0 0 [(77, 4294967296, None)] [] in
  let nodes := [mkn 21 11; mkn 22 11; mkn 23 11; mkn 24 12] in
  let rt := fun m => mkRt 77 true false 2 0 [(4294967296, 0)] (mkCs false (Some 1) (Some m)) (mkCs false None None) 0 in
  let tbl := ByTable [[]; [0]; [1; 0]; [2; 0; 1]; [3; 1; 0; 2]] in
  let ents := [mkEnt 11 5000 []; mkEnt 12 5000 []] in
  elect_committee true (mkParams 1 2 1 false false) ents [] 7 (rt 3) nodes false tbl tbl = None /\
  elect_committee true (mkParams 1 2 1 false false) ents [] 7 (rt 2) nodes false tbl tbl = Some [(1, 24); (1, 21)].
Proof. vm_compute. split; reflexivity. Qed.

Lemma elect_committees_ok fv p ents vents epoch cnodes blocked : forall rts srcs,
  comms_ok fv p ents vents epoch cnodes blocked rts srcs
           (elect_committees fv p ents vents epoch cnodes blocked rts srcs).
Proof.
  induction rts as [|rt r IH]; intros srcs; cbn [elect_committees comms_ok]; [exact I|].
  split; [reflexivity|]. split; [|apply IH].
  destruct (elect_committee fv p ents vents epoch rt cnodes blocked _ _) as [ms|] eqn:E; [|exact I].
  apply committee_sound. exact E.
Qed.

Lemma elect_validators_t_sound p ents epoch nodes te tn vrf vals vents :
  elect_validators_t p ents epoch nodes te tn vrf = VOk vals vents ->
  Forall (validator_ok p ents epoch nodes) vals /\
  len vals <= N.max 1 (p_max p) /\ p_min p <= len vals /\ 1 <= len vals.
Proof.
  unfold elect_validators_t. destruct vrf as [v|]; [apply elect_sound_vrf|apply elect_sound].
Qed.

(* Whenever a block elects (epoch change OR a slash inside the epoch), the
   elected validators satisfy every eligibility clause against the state the
   election ran on -- the post-slash stakes and freezes --, the updates are the
   diff against the tracked set, and every committee is acceptable. *)
Theorem run_epoch_sound i vals ups comms :
  run_epoch i = EOk vals ups comms ->
  let ents := sort_by e_addr (post_ents i) in
  let nodes := sort_by n_id (post_nodes i) in
  fst (should_elect (i_base i) (i_epoch i) (i_changed i) (post_slashed i)) = true /\
  Forall (validator_ok (i_params i) ents (i_epoch i) nodes) vals /\
  len vals <= N.max 1 (p_max (i_params i)) /\ p_min (i_params i) <= len vals /\ 1 <= len vals /\
  ups = sort_by fst (diff_validators (i_current i) (powers_of vals)) /\
  exists vents,
    comms_ok (i_fv261 i) (i_params i) ents vents (i_epoch i) (committee_nodes i nodes)
             (vrf_blocked i) (i_rts i) (committee_srcs i) comms.
Proof.
  unfold run_epoch. cbv zeta.
  destruct (fst (should_elect (i_base i) (i_epoch i) (i_changed i) (post_slashed i))) eqn:Es; cbn [negb]; [|discriminate].
  destruct (elect_validators_t _ _ _ _ _ _ _) as [v ve| | |] eqn:Ev; try discriminate.
  intros [= <- <- <-]. apply elect_validators_t_sound in Ev. destruct Ev as [H1 [H2 [H3 H4]]].
  split; [reflexivity|]. repeat (split; [assumption|]). split; [reflexivity|].
  exists ve. apply elect_committees_ok.
Qed.

(* an entity whose post-slash escrow no longer covers its claims has no
   validator in the re-elected set, and a node frozen by the slash is not in it *)
Theorem reelect_after_slash_excludes i vals ups comms :
  run_epoch i = EOk vals ups comms -> p_bypass (i_params i) = false ->
  (forall kv, In kv vals -> stake_ok (sort_by e_addr (post_ents i)) (ent_of kv) = true) /\
  (forall kv, In kv vals ->
     exists n, In n (post_nodes i) /\ n_id n = fst (fst (snd kv)) /\ n_freeze n = 0 /\ i_epoch i <= n_exp n).
Proof.
  intros H Hby. apply run_epoch_sound in H. cbv zeta in H. destruct H as [_ [Hv _]].
  rewrite Forall_forall in Hv. split; intros kv Hkv.
  - destruct (Hv kv Hkv) as [n [pw [_ [-> [_ [_ [_ [[Hb|Hs] _]]]]]]]]; [congruence|exact Hs].
  - destruct (Hv kv Hkv) as [n [pw [Hn [-> [Hf [He _]]]]]]. exists n. cbn [fst snd].
    apply In_sort_by in Hn. tauto.
Qed.

(* the first account under the address decides, before and after the slash *)
Lemma escrow_of_slash_one addr amt ents :
  escrow_of (map (slash_one addr amt) ents) addr = escrow_of ents addr - amt.
Proof.
  unfold escrow_of, find_ent. induction ents as [|e r IH]; cbn [map find]; [lia|].
  destruct (e_addr e =? addr) eqn:E.
  - unfold slash_one. rewrite E. cbn [e_addr]. rewrite E. reflexivity.
  - assert (Hs : slash_one addr amt e = e) by (unfold slash_one; rewrite E; reflexivity).
    rewrite Hs, E. exact IH.
Qed.
Lemma slash_one_escrow addr amt ents :
  NoDup (map e_addr ents) ->
  escrow_of (map (slash_one addr amt) ents) addr = escrow_of ents addr - amt.
Proof. intros _. apply escrow_of_slash_one. Qed.
Lemma freeze_one_frozen id u nodes n :
  In n (map (freeze_one id u) nodes) -> n_id n = id -> n_freeze n = u.
Proof.
  rewrite in_map_iff. intros [m [<- _]]. unfold freeze_one. destruct (n_id m =? id) eqn:E; cbn [n_id n_freeze]; [reflexivity|lia].
Qed.

Example ex_slash :
  let nodes := [mkNode 1 11 101 8 9 0 0 [] []; mkNode 2 12 102 8 9 0 0 [] []; mkNode 3 13 103 8 9 0 0 [] []] in
  let ents := [mkEnt 11 5000 [100; 200]; mkEnt 12 1000 [100; 200]; mkEnt 13 800 [100; 200]] in
  let mk := fun changed sl => mkIn (mkParams 1 2 1 false false) ents 7 nodes [] [[]; [0]; [0; 1]; [0; 1; 2]]
                               [[]; [0]; [0; 1]; [0; 1; 2]] [] [(101, 312); (102, 62)] true None 0 changed false sl in
  (* no epoch change, nothing slashed: no election *)
  run_epoch (mk false []) = ESkip /\
  (* entity 12 slashed below its claims and its node frozen: re-election replaces it by 13 *)
  run_epoch (mk false [(12, 800, Some (2, 9))]) =
    EOk [(101, (1, 11, 312)); (103, (3, 13, 50))] [(102, 0); (103, 50)] [] /\
  (* a slash of an empty account takes nothing: no event, no election *)
  run_epoch (mk false [(14, 800, None)]) = ESkip.
Proof. vm_compute. repeat split; reflexivity. Qed.
