(* C14, beacon (VRF backend): the VRFProve transactions of different nodes
   commute; the invariant on ElectionEligibleAfter that keeps late
   registrations out of the committees; what an epoch transition hands to the
   election; when a proof is accepted. *)
From Verif Require Import Lib.Base Sched.Elect Sched.ElectSpec Sched.ElectLemmas
  Sched.ElectCore Sched.CommitteeProofs Sched.SizeProofs Sched.Beacon.
From Coq Require Import Permutation.

Lemma pput_nil k v : pput k v [] = [(k, v)].
Proof. reflexivity. Qed.
Lemma pput_lt k v k' v' r : k < k' -> pput k v ((k', v') :: r) = (k, v) :: (k', v') :: r.
Proof. intros H. cbn [pput]. apply N.ltb_lt in H. rewrite H. reflexivity. Qed.
Lemma pput_eq k v v' r : pput k v ((k, v') :: r) = (k, v) :: r.
Proof. cbn [pput]. rewrite N.ltb_irrefl, N.eqb_refl. reflexivity. Qed.
Lemma pput_gt k v k' v' r : k' < k -> pput k v ((k', v') :: r) = (k', v') :: pput k v r.
Proof.
  intros H. cbn [pput]. destruct (k <? k') eqn:E1; [lia|]. destruct (k =? k') eqn:E2; [lia|]. reflexivity.
Qed.
#[local] Hint Rewrite pput_nil pput_eq : pput.
#[local] Hint Rewrite pput_lt pput_gt using lia : pput.

(* by symmetry the first key is the smaller one; then by cases on where the head key lies *)
Lemma pput_comm_lt k1 v1 k2 v2 l :
  k1 < k2 -> pput k1 v1 (pput k2 v2 l) = pput k2 v2 (pput k1 v1 l).
Proof.
  intros H. induction l as [|[k v] r IH].
  - autorewrite with pput. reflexivity.
  - destruct (N.lt_total k k1) as [Hk|[->|Hk]].
    + autorewrite with pput. rewrite IH. reflexivity.
    + autorewrite with pput. reflexivity.
    + destruct (N.lt_total k k2) as [Hk2|[->|Hk2]]; autorewrite with pput; reflexivity.
Qed.
Lemma pput_comm k1 v1 k2 v2 l :
  k1 <> k2 -> pput k1 v1 (pput k2 v2 l) = pput k2 v2 (pput k1 v1 l).
Proof.
  intros Hne. destruct (N.lt_total k1 k2) as [H|[H|H]]; [|contradiction|symmetry]; apply pput_comm_lt; exact H.
Qed.

Lemma aget_pput_other k k' v l : k <> k' -> aget k (pput k' v l) = aget k l.
Proof.
  intros Hne. induction l as [|[k0 v0] r IH]; cbn [pput aget].
  - destruct (k' =? k) eqn:E; [lia|reflexivity].
  - destruct (k' <? k0) eqn:A; cbn [aget].
    + destruct (k' =? k) eqn:E; [lia|reflexivity].
    + destruct (k' =? k0) eqn:B; cbn [aget].
      * assert (k0 = k') by lia. subst. destruct (k' =? k) eqn:E; [lia|reflexivity].
      * destruct (k0 =? k); [reflexivity|exact IH].
Qed.

Definition is_prove_of (node : N) (o : bop) : Prop :=
  match o with OProve _ n _ _ _ => n = node | _ => False end.
Definition prove_node (o : bop) : option N :=
  match o with OProve _ n _ _ _ => Some n | _ => None end.

(* what a VRFProve transaction does to the state *)
Definition with_pi (s : bstate) (f : list (N * N) -> list (N * N)) : bstate :=
  match b_vrf s with
  | Some v => mkB (b_epoch s) (b_future s)
                  (Some (mkVs (vs_epoch v) (vs_alpha v) (f (vs_pi v)) (vs_hq v) (vs_after v) (vs_prev v)))
                  (b_beacon s) (b_nodes s)
  | None => s
  end.
Definition stores (s : bstate) (h n e : N) (valid : bool) : bool :=
  match b_vrf s with
  | Some v => negb (h <=? vs_after v) &&
              match aget n (b_nodes s) with Some _ => true | None => false end &&
              (e =? vs_epoch v) && valid &&
              match aget n (vs_pi v) with Some _ => false | None => true end
  | None => false
  end.
Lemma prove_step_char bp s h n e b valid :
  fst (bstep bp s (OProve h n e b valid)) = if stores s h n e valid then with_pi s (pput n b) else s.
Proof.
  unfold stores, with_pi. cbn [bstep]. destruct (b_vrf s) as [v|]; [|reflexivity].
  destruct (h <=? vs_after v); cbn [negb andb fst]; [reflexivity|].
  destruct (aget n (b_nodes s)); cbn [andb fst]; [|reflexivity].
  destruct (e =? vs_epoch v); cbn [negb andb fst]; [|reflexivity].
  destruct valid; cbn [negb andb fst]; [|reflexivity].
  destruct (aget n (vs_pi v)) as [old|]; cbn [fst]; [destruct (old =? b); reflexivity|reflexivity].
Qed.
Lemma stores_with_pi s h n e valid n' b' :
  n <> n' -> stores (with_pi s (pput n' b')) h n e valid = stores s h n e valid.
Proof.
  intros Hne. unfold stores, with_pi. destruct (b_vrf s) as [v|] eqn:E; [|rewrite E; reflexivity].
  cbn [b_vrf b_nodes vs_after vs_epoch vs_pi]. rewrite (aget_pput_other n n' b' _ Hne). reflexivity.
Qed.
Lemma with_pi_comm s n1 b1 n2 b2 :
  n1 <> n2 -> with_pi (with_pi s (pput n1 b1)) (pput n2 b2) = with_pi (with_pi s (pput n2 b2)) (pput n1 b1).
Proof.
  intros Hne. unfold with_pi. destruct (b_vrf s) as [v|] eqn:E; [|rewrite !E; reflexivity].
  cbn [b_vrf b_epoch b_future b_beacon b_nodes vs_epoch vs_alpha vs_pi vs_hq vs_after vs_prev].
  rewrite (pput_comm n2 b2 n1 b1 _ (not_eq_sym Hne)). reflexivity.
Qed.

Lemma prove_commute bp s h1 n1 e1 b1 v1 h2 n2 e2 b2 v2 :
  n1 <> n2 ->
  fst (bstep bp (fst (bstep bp s (OProve h1 n1 e1 b1 v1))) (OProve h2 n2 e2 b2 v2)) =
  fst (bstep bp (fst (bstep bp s (OProve h2 n2 e2 b2 v2))) (OProve h1 n1 e1 b1 v1)).
Proof.
  intros Hne. rewrite !prove_step_char.
  destruct (stores s h1 n1 e1 v1) eqn:S1, (stores s h2 n2 e2 v2) eqn:S2;
    rewrite ?(stores_with_pi s h2 n2 e2 v2 n1 b1 (not_eq_sym Hne)), ?(stores_with_pi s h1 n1 e1 v1 n2 b2 Hne), ?S1, ?S2;
    try reflexivity.
  apply with_pi_comm. exact Hne.
Qed.

(* the proofs of one block/epoch may be delivered in any order: the resulting
   state (hence the next alpha, PrevState and everything elected from them) is
   the same on every replica, whatever order its map iteration or mempool used *)
Theorem prove_order_irrelevant bp ops ops' :
  Permutation ops ops' ->
  Forall (fun o => prove_node o <> None) ops ->
  NoDup (map prove_node ops) ->
  forall s, brun bp s ops = brun bp s ops'.
Proof.
  unfold brun. induction 1 as [|x l l' H IH|x y l|l l' l'' H1 IH1 H2 IH2]; intros Hall Hnd s; cbn [fold_left].
  - reflexivity.
  - inversion Hall; subst. cbn [map] in Hnd. inversion Hnd; subst. apply IH; assumption.
  - inversion Hall as [|? ? Hy Hall']; subst. inversion Hall' as [|? ? Hx _]; subst.
    cbn [map] in Hnd. inversion Hnd as [|? ? Hnin _]; subst.
    destruct x as [| h1 n1 e1 b1 v1 | |]; cbn [prove_node] in Hx; try congruence.
    destruct y as [| h2 n2 e2 b2 v2 | |]; cbn [prove_node] in Hy; try congruence.
    rewrite (prove_commute bp s h2 n2 e2 b2 v2 h1 n1 e1 b1 v1); [reflexivity|].
    intros ->. apply Hnin. left. reflexivity.
  - rewrite IH1 by assumption. apply IH2.
    + eapply Permutation_Forall; eassumption.
    + eapply Permutation_NoDup; [apply Permutation_map; exact H1|exact Hnd].
Qed.

(* every node status is either "not yet eligible" or was set at a transition
   strictly after the epoch of registration and not after the current epoch *)
Definition status_ok (epoch : N) (e : N * (N * N)) : Prop :=
  let '(_, (el, reg)) := e in
  reg <= epoch /\ (el = EPOCH_INVALID \/ (reg < el /\ el <= epoch)).
Definition binv (s : bstate) : Prop :=
  Forall (status_ok (b_epoch s)) (b_nodes s) /\
  match b_future s with Some (fe, _) => b_epoch s < fe | None => True end.

Lemma status_ok_mono e e' x : e <= e' -> status_ok e x -> status_ok e' x.
Proof.
  destruct x as [id [el reg]]. unfold status_ok. intros H [H1 [H2|[H2 H3]]].
  - split; [lia|left; exact H2].
  - split; [lia|right; lia].
Qed.

Lemma bstep_inv bp s o : binv s -> binv (fst (bstep bp s o)).
Proof.
  intros [Hn Hf]. destruct o as [h blk|h node ep beta valid|id|id].
  - cbn [bstep]. destruct (b_future s) as [[fe fh]|] eqn:Ef; rewrite ?Ef in Hf; cbn [fst]; [|split; [exact Hn|exact I]].
    destruct (fh <? h); [split; [exact Hn|exact Hf]|].
    destruct (h <? fh); [split; [exact Hn|exact Hf]|].
    cbn [fst]. split; cbn [b_epoch b_nodes b_future]; [|lia].
    rewrite Forall_forall in *. intros x Hx. apply in_map_iff in Hx. destruct Hx as [[id [el reg]] [<- Hy]].
    specialize (Hn _ Hy). unfold set_elig.
    destruct (el =? EPOCH_INVALID) eqn:E; [|apply (status_ok_mono (b_epoch s)); [lia|exact Hn]].
    cbn [status_ok] in *. split; [lia|right; lia].
  - rewrite prove_step_char. destruct (stores s h node ep valid); [|split; assumption].
    unfold with_pi. destruct (b_vrf s); split; assumption.
  - cbn [bstep fst]. split; cbn [b_epoch b_nodes b_future]; [|exact Hf].
    unfold aset. constructor; [cbn [status_ok]; split; [lia|left; reflexivity]|].
    rewrite Forall_forall in *. intros x Hx. apply Hn. eapply adel_incl. exact Hx.
  - cbn [bstep fst]. split; cbn [b_epoch b_nodes b_future]; [|exact Hf].
    rewrite Forall_forall in *. intros x Hx. apply Hn. eapply adel_incl. exact Hx.
Qed.

Theorem brun_inv bp ops : forall s, binv s -> binv (brun bp s ops).
Proof. unfold brun. apply fold_left_invariant. intros s o. apply bstep_inv. Qed.

(* After any history: a node that (re-)registered in the current epoch E or in
   the previous one has ElectionEligibleAfter >= E, i.e. fails the committee
   filter "epoch > ElectionEligibleAfter" -- whatever proofs it submitted.  A
   node must be registered before the alpha whose proofs feed the election was
   published. *)
Theorem late_registration_ineligible bp s0 ops id el reg :
  binv s0 ->
  let s := brun bp s0 ops in
  In (id, (el, reg)) (b_nodes s) -> b_epoch s < EPOCH_INVALID ->
  b_epoch s <= reg + 1 -> ~ (el < b_epoch s).
Proof.
  intros H0 s Hin Hb Hlate. destruct (brun_inv bp ops s0 H0) as [Hn _]. fold s in Hn.
  rewrite Forall_forall in Hn. specialize (Hn _ Hin). cbn [status_ok] in Hn. lia.
Qed.

Lemma comms_ok_In fv p ents vents epoch cnodes blocked : forall rts srcs outs rid ms,
  comms_ok fv p ents vents epoch cnodes blocked rts srcs outs -> In (rid, Some ms) outs ->
  exists rt sw sb, committee_ok fv p ents vents epoch rt cnodes blocked sw sb ms.
Proof.
  induction rts as [|rt r IH]; intros srcs [|[id oc] o] rid ms; cbn [comms_ok In]; try tauto.
  intros [_ [Hc Hr]] [Hin|Hin].
  - injection Hin as -> ->. eauto.
  - eapply IH; eassumption.
Qed.

(* the scheduler side: with the VRF backend (no weak alpha allowed) every
   committee member passed that filter *)
Theorem vrf_committee_member_seasoned i v vals ups comms rid ms role id :
  run_epoch i = EOk vals ups comms -> i_vrf i = Some v -> v_weak v = false ->
  In (rid, Some ms) comms -> In (role, id) ms ->
  exists n, In n (post_nodes i) /\ n_id n = id /\ n_elig n < i_epoch i.
Proof.
  intros H Hv Hw Hc Hm. apply run_epoch_sound in H. cbv zeta in H.
  destruct H as [_ [_ [_ [_ [_ [_ [vents Hok]]]]]]].
  destruct (comms_ok_In _ _ _ _ _ _ _ _ _ _ _ _ Hok Hc) as [rt [sw [sb Hco]]].
  destruct (committee_member _ _ _ _ _ _ _ _ _ _ _ _ _ Hco Hm)
    as [n [cs [src [wanted [el [[_ [Hall _]] [Hn [Hid _]]]]]]]].
  rewrite Forall_forall in Hall. destruct (Hall n Hn) as [H1 _].
  unfold committee_nodes in H1. rewrite Hv, Hw in H1. apply filter_In in H1. destruct H1 as [H1 H2].
  apply live_nodes_spec in H1. destruct H1 as [H1 _]. apply In_sort_by in H1.
  exists n. split; [exact H1|]. split; [exact Hid|lia].
Qed.

(* PrevState is exactly the set of proofs collected under the previous alpha
   and "can elect" is the quality of that alpha; the entropy depends only on
   the new epoch and the transition block *)
Theorem transition_feeds_election bp s h blk fe v :
  b_future s = Some (fe, h) -> b_vrf s = Some v ->
  let s' := fst (bstep bp s (OBegin h blk)) in
  b_epoch s' = fe /\ b_beacon s' = Some (fe, blk) /\
  exists v', b_vrf s' = Some v' /\ vs_prev v' = Some (vs_pi v, vs_hq v) /\ vs_pi v' = [] /\
             vs_epoch v' = fe /\ vs_after v' = h + bp_delay bp /\
             vs_hq v' = (bp_thresh bp <=? len (vs_pi v)).
Proof.
  intros Hf Hv. cbn [bstep]. rewrite Hf, Hv. rewrite N.ltb_irrefl. cbn [fst b_epoch b_beacon b_vrf].
  split; [reflexivity|]. split; [reflexivity|]. eexists. split; [reflexivity|]. cbn. repeat split; reflexivity.
Qed.

(* a proof is only ever accepted from a registered node, for the current
   alpha's epoch, strictly after the submission delay *)
Theorem prove_accepted_spec bp s h node ep beta valid :
  snd (bstep bp s (OProve h node ep beta valid)) = 0 ->
  exists v, b_vrf s = Some v /\ vs_after v < h /\ aget node (b_nodes s) <> None /\
            ep = vs_epoch v /\ valid = true.
Proof.
  cbn [bstep]. destruct (b_vrf s) as [v|]; cbn [snd]; [|discriminate].
  destruct (h <=? vs_after v) eqn:A; cbn [snd]; [discriminate|].
  destruct (aget node (b_nodes s)) eqn:Nn; cbn [snd]; [|discriminate].
  destruct (negb (ep =? vs_epoch v)) eqn:P; cbn [snd]; [discriminate|].
  destruct valid; cbn [negb snd]; [|discriminate].
  intros _. exists v. repeat split; try lia; congruence.
Qed.

Example ex_beacon :
  let bp := mkBp 10 2 2 in
  let s0 := mkB 5 (Some (6, 20)) None None [(1, (3, 1)); (2, (3, 1))] in
  let ops := [OBegin 11 100; ORegister 3; OProve 12 1 5 71 true; OProve 14 1 5 71 true;
              OProve 14 3 5 73 true; OProve 14 2 5 72 true; OProve 15 2 5 99 true;
              OBegin 20 200; OProve 23 3 6 83 true; ORegister 4; OBegin 30 300] in
  map fst (btrace bp s0 ops) = [0; 0; 2; 0; 0; 0; 6; 0; 0; 0; 0] /\
  let s := brun bp s0 ops in
  b_epoch s = 7 /\ b_beacon s = Some (7, 300) /\
  statuses s = [(1, 3); (2, 3); (3, 6); (4, 7)] /\
  option_map vs_alpha (b_vrf s) = Some (ALow 7 300) /\
  option_map vs_prev (b_vrf s) = Some (Some ([(3, 83)], true)).
Proof. vm_compute. repeat split; reflexivity. Qed.

Example ex_beacon_inv : binv (mkB 5 (Some (6, 20)) None None [(1, (3, 1)); (2, (3, 1))]).
Proof.
  unfold binv. cbn [b_nodes b_epoch b_future]. split; [|lia].
  repeat constructor; unfold EPOCH_INVALID; lia.
Qed.
