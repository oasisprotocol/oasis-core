(* C10: the validator updates handed to the consensus engine are always acceptable to it:
   elected validators have power >= 1 (so none is read as a removal), every removal names a
   validator the engine knows, and the set never becomes empty.  Election model and the
   diff lemmas: Verif.Sched. *)
From Verif Require Import Lib.Base Sched.Elect Sched.ElectProofs Sched.ElectProofs2.
From Coq Require Import Permutation.

Lemma voting_power_small_stake s : s < 16 -> voting_power false s = Some 1.
Proof.
  intros H. unfold voting_power, BASE_UNITS_PER_POWER.
  rewrite N.div_small by exact H. reflexivity.
Qed.

Lemma voting_power_ge_1 sq s x : voting_power sq s = Some x -> 1 <= x.
Proof. apply power_positive. Qed.

Lemma elected_power_ge_1 p ents epoch nodes pe pn vals vents :
  elect_validators p ents epoch nodes pe pn = VOk vals vents ->
  Forall (fun kv => 1 <= snd kv) (powers_of vals).
Proof.
  intros H. pose proof (elect_powers_nonzero _ _ _ _ _ _ _ _ H) as Hn.
  eapply Forall_impl; [|exact Hn]. intros kv Hk. cbn beta in *. lia.
Qed.

Lemma removals_are_known cur pend k :
  Forall (fun kv => snd kv <> 0) pend ->
  In (k, 0) (diff_validators cur pend) -> In k (map fst cur).
Proof.
  intros Hnz H. unfold diff_validators in H. apply in_app_or in H as [H|H].
  - apply in_map_iff in H as [kv [E H]]. injection E as <-.
    apply filter_In in H as [H _]. exact (in_map fst _ _ H).
  - apply filter_In in H as [H _]. rewrite Forall_forall in Hnz. destruct (Hnz _ H eq_refl).
Qed.

Lemma updates_never_empty_the_set cur pend :
  NoDup (map fst cur) -> NoDup (map fst pend) ->
  Forall (fun kv => snd kv <> 0) pend -> pend <> [] ->
  exists k v, aget k (apply_updates cur (diff_validators cur pend)) = Some v /\ v <> 0.
Proof.
  intros Hc Hp Hnz Hne. destruct pend as [|[k v] r]; [contradiction|].
  exists k, v. split.
  - rewrite (diff_applies cur ((k, v) :: r) _ Hc Hp Hnz (Permutation_refl _) k).
    cbn [aget]. rewrite N.eqb_refl. reflexivity.
  - exact (Forall_inv Hnz).
Qed.

Lemma election_updates_acceptable p ents epoch nodes pe pn vals vents cur :
  elect_validators p ents epoch nodes pe pn = VOk vals vents ->
  NoDup (map fst cur) -> NoDup (map fst (powers_of vals)) -> vals <> [] ->
  let ups := diff_validators cur (powers_of vals) in
  (forall k, In (k, 0) ups -> In k (map fst cur)) /\
  (exists k v, aget k (apply_updates cur ups) = Some v /\ v <> 0) /\
  (forall k, aget k (apply_updates cur ups) = aget k (powers_of vals)).
Proof.
  intros H Hc Hp Hne ups.
  pose proof (elect_powers_nonzero _ _ _ _ _ _ _ _ H) as Hnz.
  split; [|split].
  - intros k Hk. eapply removals_are_known; eassumption.
  - apply updates_never_empty_the_set; try assumption.
    destruct vals; [contradiction|discriminate].
  - intros k. apply (diff_applies cur (powers_of vals) ups Hc Hp Hnz (Permutation_refl _)).
Qed.

(* the seeded variant: the "zero -> 1" floor applied BEFORE the linear scaling *)
Definition voting_power_floor_first (stake : N) : option N :=
  if stake =? 0 then Some 1
  else let q := stake / BASE_UNITS_PER_POWER in
       if q <? 2 ^ 63 then Some q else None.

Lemma floor_first_zero_power s : 0 < s -> s < 16 -> voting_power_floor_first s = Some 0.
Proof.
  intros H0 H. unfold voting_power_floor_first, BASE_UNITS_PER_POWER.
  destruct (N.eqb_spec s 0); [lia|].
  rewrite N.div_small by exact H. reflexivity.
Qed.

(* power 0 is read by the consensus engine as the removal of a validator, here one it does not know *)
Lemma floor_first_refuted :
  exists cur pend k,
    NoDup (map fst cur) /\ NoDup (map fst pend) /\
    voting_power_floor_first 10 = Some (match aget k pend with Some v => v | None => 1 end) /\
    In (k, 0) (diff_validators cur pend) /\ ~ In k (map fst cur).
Proof.
  exists [(1, 100)], [(1, 100); (2, 0)], 2.
  split; [repeat constructor; cbn; intuition discriminate|].
  split; [repeat constructor; cbn; intuition discriminate|].
  split; [reflexivity|].
  split; [vm_compute; left; reflexivity|].
  cbn. intuition discriminate.
Qed.
