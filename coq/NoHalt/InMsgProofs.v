(* C10: processing incoming runtime messages at round finalization never fails fatally, for
   ANY committed message count, and never touches another runtime's queue. *)
From Verif Require Import Lib.Base NoHalt.Model NoHalt.Proofs.

(* the size counter equals the number of stored messages, which are distinct *)
Definition rq_ok (r : rq) : Prop :=
  q_size r = N.of_nat (length (q_msgs r)) /\ NoDup (q_msgs r) /\ Forall (fun m => m < q_next r) (q_msgs r).

Lemma filter_notin (m : N) l : ~ In m l -> filter (fun x => negb (x =? m)) l = l.
Proof.
  induction l as [|a r IH]; cbn [filter In]; intros H; [reflexivity|].
  destruct (N.eqb_spec a m); [tauto|]. cbn [negb]. f_equal. apply IH. tauto.
Qed.

(* removing a PREFIX of the queue: the counter never hits zero early *)
Lemma remove_firstn : forall n l size,
  NoDup l -> size = N.of_nat (length l) ->
  remove_msgs (firstn n l) size l = Ok (N.of_nat (length (skipn n l)), skipn n l).
Proof.
  induction n as [|n IH]; intros l size Hnd Hs; [subst; reflexivity|].
  destruct l as [|m r]; [subst; reflexivity|].
  cbn [firstn skipn remove_msgs length] in *. inversion Hnd as [|x l Hnotin Hnd']; subst x l.
  destruct (N.eqb_spec size 0); [lia|].
  cbn [filter]. rewrite N.eqb_refl. cbn [negb]. rewrite filter_notin by exact Hnotin.
  apply IH; [exact Hnd'|lia].
Qed.

Lemma nodup_app_tail {A} (a b : list A) : NoDup (a ++ b) -> NoDup b.
Proof. induction a as [|x r IH]; cbn [app]; intros H; [exact H|]. inversion H; subst. apply IH. assumption. Qed.

Lemma finalize_inmsgs_ok r count hash_ok :
  rq_ok r ->
  (hash_ok = false /\ finalize_inmsgs r count hash_ok = Ok None) \/
  exists r1, finalize_inmsgs r count hash_ok = Ok (Some r1) /\ rq_ok r1 /\
             q_msgs r1 = skipn (N.to_nat count) (q_msgs r).
Proof.
  intros [Hs [Hnd Hlt]]. unfold finalize_inmsgs, fetch_own.
  destruct hash_ok; cbn [negb]; [right|left; split; reflexivity].
  rewrite (remove_firstn _ _ _ Hnd Hs). cbn [bind]. eexists. split; [reflexivity|].
  split; [|reflexivity]. split; [reflexivity|]. cbn [q_msgs q_next].
  rewrite <- (firstn_skipn (N.to_nat count) (q_msgs r)) in Hnd, Hlt.
  split; [exact (nodup_app_tail _ _ Hnd)|]. apply Forall_app in Hlt. apply Hlt.
Qed.

Lemma finalize_inmsgs_total r count hash_ok :
  rq_ok r -> is_fatal (finalize_inmsgs r count hash_ok) = false.
Proof.
  intros H. destruct (finalize_inmsgs_ok r count hash_ok H) as [[_ ->]|[r1 [-> _]]]; reflexivity.
Qed.

Lemma rq_submit_ok maxq r r1 : rq_ok r -> rq_submit maxq r = Some r1 -> rq_ok r1.
Proof.
  intros [Hs [Hnd Hlt]]. unfold rq_submit. destruct (maxq <=? q_size r); [discriminate|].
  intros E; injection E as <-. rewrite Forall_forall in Hlt.
  repeat split; cbn [q_size q_msgs q_next].
  - rewrite app_length. cbn [length]. lia.
  - (* the new sequence number is above all stored ones *)
    apply (NoDup_Add (Add_app (q_next r) (q_msgs r) [])). rewrite app_nil_r.
    split; [exact Hnd|]. intros Hx. specialize (Hlt _ Hx). lia.
  - apply Forall_forall. intros m Hm. apply in_app_or in Hm as [Hm|[<-|[]]]; [specialize (Hlt m Hm)|]; lia.
Qed.

Lemma sys_finalize_independent sys id count hash_ok sys1 other :
  other <> id -> sys_finalize sys id count hash_ok = Ok sys1 -> aget other sys1 = aget other sys.
Proof.
  intros Hne. unfold sys_finalize. destruct (aget id sys) as [r|]; [|intros E; injection E as <-; reflexivity].
  destruct (finalize_inmsgs r count hash_ok) as [[r1|]|]; cbn [bind]; try discriminate;
    intros E; injection E as <-; [|reflexivity].
  apply aget_aset_other. exact Hne.
Qed.

Lemma sys_finalize_total sys id count hash_ok :
  (forall r, aget id sys = Some r -> rq_ok r) -> is_fatal (sys_finalize sys id count hash_ok) = false.
Proof.
  intros H. unfold sys_finalize. destruct (aget id sys) as [r|] eqn:E; [|reflexivity].
  pose proof (finalize_inmsgs_total r count hash_ok (H r eq_refl)) as Hf.
  destruct (finalize_inmsgs r count hash_ok) as [[r1|]|]; [reflexivity|reflexivity|discriminate].
Qed.

Lemma overrun_refuted :
  exists r foreign count, rq_ok r /\ finalize_inmsgs_overrun r foreign count = Fatal /\
                          is_fatal (finalize_inmsgs r count true) = false.
Proof.
  exists (mkRQ 1 1 [0]), [0], 2. repeat split; try reflexivity.
  - repeat constructor. intros [].
  - repeat constructor.
Qed.

Example inmsg_ex :
  finalize_inmsgs (mkRQ 3 3 [0; 1; 2]) 5 true = Ok (Some (mkRQ 0 3 [])) /\
  finalize_inmsgs (mkRQ 3 3 [0; 1; 2]) 2 true = Ok (Some (mkRQ 1 3 [2])) /\
  finalize_inmsgs (mkRQ 3 3 [0; 1; 2]) 2 false = Ok None.
Proof. repeat split; reflexivity. Qed.
