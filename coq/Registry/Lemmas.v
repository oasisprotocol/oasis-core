(* Basic lemmas about Verif.Registry.Model: pair sets, association lists, lookups after a
   list of index operations, the two SetNode orders (property C17). *)
From Verif Require Import Lib.Base Registry.Model.

Lemma pair_eqb_true a b : pair_eqb a b = true <-> a = b.
Proof.
  destruct a as [a1 a2], b as [b1 b2]; unfold pair_eqb; cbn [fst snd].
  rewrite andb_true_iff, !N.eqb_eq. split; [intros [-> ->]; reflexivity|intros [= -> ->]; auto].
Qed.

Lemma pmem_padd p q l : pmem p (padd q l) = true <-> p = q \/ pmem p l = true.
Proof.
  unfold padd. destruct (pmem q l) eqn:E.
  - split; [tauto|]. intros [->|H]; assumption.
  - cbn [pmem]. rewrite orb_true_iff, pair_eqb_true. split; intros [H|H]; auto.
Qed.

Lemma pmem_pdel p q l : pmem p (pdel q l) = true <-> p <> q /\ pmem p l = true.
Proof.
  induction l as [|x r IH]; cbn [pdel pmem].
  - split; [discriminate|]. intros [_ H]; discriminate.
  - destruct (pair_eqb x q) eqn:E; cbn [pmem]; rewrite ?orb_true_iff, IH, pair_eqb_true.
    + apply pair_eqb_true in E. subst x. split; [tauto|]. intros [Hne [H|H]]; [congruence|tauto].
    + split; [|tauto]. intros [->|H]; [|tauto]. split; [|tauto].
      intros ->. rewrite (proj2 (pair_eqb_true q q) eq_refl) in E. discriminate.
Qed.

Lemma has_fst_spec e l : has_fst e l = true <-> exists x, pmem (e, x) l = true.
Proof.
  induction l as [|[a b] r IH]; cbn [has_fst pmem].
  - split; [discriminate|]. intros [x H]; discriminate.
  - rewrite orb_true_iff, IH, N.eqb_eq. split.
    + intros [->|[x H]]; [exists b|exists x]; rewrite orb_true_iff, pair_eqb_true; auto.
    + intros [x H]. rewrite orb_true_iff, pair_eqb_true in H. destruct H as [[= -> _]|H]; eauto.
Qed.

Lemma nmem_In x l : nmem x l = true <-> In x l.
Proof.
  induction l as [|y r IH]; cbn [nmem In].
  - split; [discriminate|tauto].
  - rewrite orb_true_iff, IH, N.eqb_eq. tauto.
Qed.

Lemma aget_adel {V} k x (m : list (N * V)) :
  aget k (adel x m) = if x =? k then None else aget k m.
Proof.
  destruct (N.eqb_spec x k) as [->|Hne].
  - apply aget_adel_same.
  - apply aget_adel_other. congruence.
Qed.

Lemma aget_aset {V} k x (v : V) (m : list (N * V)) :
  aget k (aset x v m) = if x =? k then Some v else aget k m.
Proof.
  destruct (N.eqb_spec x k) as [->|Hne].
  - apply aget_aset_same.
  - apply aget_aset_other. congruence.
Qed.

Lemma In_ninsert x y l : In x (ninsert y l) <-> x = y \/ In x l.
Proof.
  induction l as [|z r IH]; cbn [ninsert In]; [intuition congruence|].
  destruct (y <=? z); cbn [In]; [intuition congruence|]. rewrite IH. intuition congruence.
Qed.
Lemma In_nsort x l : In x (nsort l) <-> In x l.
Proof.
  induction l as [|y r IH]; cbn [nsort fold_right In]; [tauto|].
  unfold nsort in IH. rewrite In_ninsert, IH. intuition congruence.
Qed.

(* [klookup k ops d]: what key [k] maps to after [ops], if it mapped to [d] before *)
Fixpoint klookup (k : N) (ops : list kop) (d : option N) : option N :=
  match ops with
  | [] => d
  | KDel x :: r => klookup k r (if x =? k then None else d)
  | KSet x v :: r => klookup k r (if x =? k then Some v else d)
  end.

Lemma aget_kapply_all k ops : forall m, aget k (kapply_all ops m) = klookup k ops (aget k m).
Proof.
  induction ops as [|o r IH]; intros m; [reflexivity|].
  unfold kapply_all in *. cbn [fold_left]. rewrite IH.
  destruct o as [x|x v]; cbn [kapply klookup]; [rewrite aget_adel|rewrite aget_aset]; reflexivity.
Qed.

Lemma klookup_app k a : forall b d, klookup k (a ++ b) d = klookup k b (klookup k a d).
Proof. induction a as [|[x|x v] a IH]; intros b d; [reflexivity|apply IH|apply IH]. Qed.

Lemma klookup_del_if_changed k o b d :
  klookup k (del_if_changed (Some o) b) d = if (o =? k) && negb (o =? b) then None else d.
Proof.
  cbn [del_if_changed]. destruct (o =? b); cbn [klookup negb];
    [rewrite andb_false_r|rewrite andb_true_r]; reflexivity.
Qed.

Definition keys (n : node) : list N := [n_cons n; n_p2p n; n_vrf n; n_tls n].
Definition okeys (kf : node -> list N) (ex : option node) : list N :=
  match ex with Some o => kf o | None => [] end.

(* An update "exchanges" keys when the new key of an earlier kind (in the order
   SetNode processes them: consensus, P2P, VRF, TLS) is the old, changed key of
   a later kind. *)
Definition exchange (old n : node) : bool :=
  ((n_cons n =? n_p2p old) && negb (n_p2p old =? n_p2p n)) ||
  ((n_cons n =? n_vrf old) && negb (n_vrf old =? n_vrf n)) ||
  ((n_cons n =? n_tls old) && negb (n_tls old =? n_tls n)) ||
  ((n_p2p n =? n_vrf old) && negb (n_vrf old =? n_vrf n)) ||
  ((n_p2p n =? n_tls old) && negb (n_tls old =? n_tls n)) ||
  ((n_vrf n =? n_tls old) && negb (n_tls old =? n_tls n)).

(* An update is a list of (old key, new key) pairs, one per kind.  The per-kind
   order is [kind_ops true]: for each kind, remove the old key if it changed,
   then insert the new one.  The removals-first order is [kind_ops false]
   followed by [set_ops]. *)
Definition kinds (old n : node) : list (N * N) :=
  [(n_cons old, n_cons n); (n_p2p old, n_p2p n); (n_vrf old, n_vrf n); (n_tls old, n_tls n)].

Fixpoint kind_ops (sets : bool) (id : N) (l : list (N * N)) : list kop :=
  match l with
  | [] => []
  | (o, b) :: r => del_if_changed (Some o) b ++ (if sets then [KSet b id] else []) ++ kind_ops sets id r
  end.
Definition set_ops (id : N) (l : list (N * N)) : list kop := map (fun p => KSet (snd p) id) l.

(* a later kind removes the new key of an earlier one *)
Fixpoint exch_b (l : list (N * N)) : bool :=
  match l with
  | [] => false
  | p :: r => existsb (fun q => (snd p =? fst q) && negb (fst q =? snd q)) r || exch_b r
  end.

Lemma exchange_kinds old n : exchange old n = exch_b (kinds old n).
Proof.
  unfold exchange. cbn [exch_b kinds existsb fst snd]. rewrite !orb_false_r, !orb_assoc. reflexivity.
Qed.

Lemma klookup_set_ops id k l : forall d,
  klookup k (set_ops id l) d = if nmem k (map snd l) then Some id else d.
Proof.
  induction l as [|[o b] r IH]; intros d; [reflexivity|].
  cbn [set_ops map snd klookup nmem]. fold (set_ops id r). rewrite IH.
  destruct (b =? k), (nmem k (map snd r)); reflexivity.
Qed.

(* a key that is not inserted ends up removed exactly if it is an old key:
   being no new key, it differs from the new key of its kind *)
Lemma klookup_kind_ops_other sets id k l : nmem k (map snd l) = false ->
  forall d, klookup k (kind_ops sets id l) d = if nmem k (map fst l) then None else d.
Proof.
  induction l as [|[o b] r IH]; intros Hk d; [reflexivity|].
  cbn [map snd nmem] in Hk. apply orb_false_iff in Hk as [Hb Hr].
  cbn [kind_ops map fst nmem]. rewrite klookup_app, klookup_del_if_changed, klookup_app.
  replace (klookup k (if sets then [KSet b id] else [])) with (fun x : option N => x)
    by (destruct sets; cbn [klookup]; rewrite ?Hb; reflexivity).
  rewrite (IH Hr). destruct (N.eqb_spec o k) as [->|_]; [|reflexivity].
  rewrite N.eqb_sym, Hb. destruct (nmem k (map fst r)); reflexivity.
Qed.

Lemma klookup_removals_first id k l d :
  klookup k (kind_ops false id l ++ set_ops id l) d =
  if nmem k (map snd l) then Some id else if nmem k (map fst l) then None else d.
Proof.
  rewrite klookup_app, klookup_set_ops. destruct (nmem k (map snd l)) eqn:E; [reflexivity|].
  apply klookup_kind_ops_other. exact E.
Qed.

Lemma old_key_removed b r : nmem b (map snd r) = false ->
  nmem b (map fst r) = existsb (fun q => (b =? fst q) && negb (fst q =? snd q)) r.
Proof.
  induction r as [|[o' b'] r IH]; intros Hb; [reflexivity|].
  cbn [map snd nmem] in Hb. apply orb_false_iff in Hb as [Hb' Hr].
  cbn [map fst snd nmem existsb]. rewrite (IH Hr). f_equal.
  destruct (N.eqb_spec o' b) as [->|Hne].
  - rewrite N.eqb_refl, N.eqb_sym, Hb'. reflexivity.
  - rewrite N.eqb_sym. apply N.eqb_neq in Hne. rewrite Hne. reflexivity.
Qed.

Lemma klookup_per_kind_head id o b r d : nmem b (map snd r) = false ->
  klookup b (kind_ops true id ((o, b) :: r)) d =
  if existsb (fun q => (b =? fst q) && negb (fst q =? snd q)) r then None else Some id.
Proof.
  intros Hb. cbn [kind_ops]. rewrite klookup_app, klookup_app. cbn [klookup]. rewrite N.eqb_refl.
  rewrite (klookup_kind_ops_other true id b r Hb), (old_key_removed b r Hb). reflexivity.
Qed.

Lemma klookup_per_kind_tail sets id k o b r d :
  exists d', klookup k (kind_ops sets id ((o, b) :: r)) d = klookup k (kind_ops sets id r) d'.
Proof. cbn [kind_ops]. rewrite !klookup_app. eauto. Qed.

Lemma klookup_per_kind_kept id k l : exch_b l = false -> nmem k (map snd l) = true ->
  forall d, klookup k (kind_ops true id l) d = Some id.
Proof.
  induction l as [|[o b] r IH]; intros Hx Hk d; [discriminate|].
  cbn [exch_b fst snd] in Hx. apply orb_false_iff in Hx as [Hx Hxr].
  destruct (nmem k (map snd r)) eqn:Er.
  - destruct (klookup_per_kind_tail true id k o b r d) as [d' ->]. apply IH; auto.
  - cbn [map snd nmem] in Hk. rewrite Er, orb_false_r in Hk. apply N.eqb_eq in Hk. subst b.
    rewrite klookup_per_kind_head, Hx by exact Er. reflexivity.
Qed.

Lemma klookup_per_kind_lost id l : has_dup (map snd l) = false -> exch_b l = true ->
  exists k, In k (map snd l) /\ forall d, klookup k (kind_ops true id l) d = None.
Proof.
  induction l as [|[o b] r IH]; intros Hd Hx; [discriminate|].
  cbn [map snd has_dup] in Hd. apply orb_false_iff in Hd as [Hb Hd].
  cbn [exch_b fst snd] in Hx. apply orb_true_iff in Hx as [Hx|Hx].
  - exists b. split; [left; reflexivity|]. intros d. rewrite klookup_per_kind_head, Hx by exact Hb. reflexivity.
  - destruct (IH Hd Hx) as (k & Hk & Hl). exists k. split; [right; exact Hk|]. intros d.
    destruct (klookup_per_kind_tail true id k o b r d) as [d' ->]. apply Hl.
Qed.

Lemma klookup_fixed ex n k d :
  klookup k (keymap_ops_fixed ex n) d =
  if nmem k (keys n) then Some (n_id n) else if nmem k (okeys keys ex) then None else d.
Proof.
  destruct ex as [old|]; [|exact (klookup_set_ops (n_id n) k (kinds n n) d)].
  replace (keymap_ops_fixed (Some old) n)
    with (kind_ops false (n_id n) (kinds old n) ++ set_ops (n_id n) (kinds old n))
    by (cbn [kind_ops kinds app]; rewrite <- !app_assoc; reflexivity).
  apply klookup_removals_first.
Qed.

Lemma klookup_faithful old n k d : exchange old n = false ->
  klookup k (keymap_ops (Some old) n) d =
  if nmem k (keys n) then Some (n_id n) else if nmem k (keys old) then None else d.
Proof.
  rewrite exchange_kinds. intros Hx.
  change (keymap_ops (Some old) n) with (kind_ops true (n_id n) (kinds old n)).
  destruct (nmem k (keys n)) eqn:E.
  - apply klookup_per_kind_kept; assumption.
  - apply (klookup_kind_ops_other true (n_id n) k (kinds old n) E).
Qed.

Lemma exchange_loses_key old n :
  has_dup (keys n) = false -> exchange old n = true ->
  exists k, In k (keys n) /\ forall d, klookup k (keymap_ops (Some old) n) d = None.
Proof. rewrite exchange_kinds. apply (klookup_per_kind_lost (n_id n) (kinds old n)). Qed.
