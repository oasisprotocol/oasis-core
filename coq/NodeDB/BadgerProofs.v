(* NodeDB/BadgerProofs.v — the badger model refines the spec.  The invariant [inv]: every root the
   metadata lists in a retained version has all its nodes visible.  It is kept by every step that
   is in the domain ([wf_step]) and satisfies the sharing conditions ([safe_step]); under it each
   operation returns the spec's class and leaves the spec's metadata, and every listed root reads
   back exactly. *)
From Verif Require Import Lib.Base NodeDB.Spec NodeDB.SpecProofs NodeDB.Badger NodeDB.StoreProofs.

Lemma aux_get_cons v r a l v' r' :
  aux_get v' r' (((v, r), a) :: l) = if (v =? v') && (r =? r') then a else aux_get v' r' l.
Proof. reflexivity. Qed.

Lemma aux_get_other v r a l v' r' : (v, r) <> (v', r') -> aux_get v' r' (((v, r), a) :: l) = aux_get v' r' l.
Proof.
  intros NE. rewrite aux_get_cons. destruct ((v =? v') && (r =? r')) eqn:E; [|reflexivity].
  apply andb_true_iff in E as [E1 E2]. apply N.eqb_eq in E1, E2. subst. congruence.
Qed.

Definition after_last (m : sdb) (v : N) : Prop :=
  match d_last m with Some l => l <= v | None => True end.

(* every root the metadata lists in a retained version has all its nodes visible at its
   version, and - as long as its version is not below the last finalized one - at every
   later timestamp as well (successors inherit the nodes) *)
Definition inv_read (d : bdb) : Prop :=
  forall v rid, d_earliest (b_meta d) <= v -> has_rid rid (roots_at (b_meta d) v) = true ->
    forall n, In n (a_reach (aux_get v rid (b_aux d))) ->
      visible n v (b_store d) = true /\
      (after_last (b_meta d) v -> forall t, v <= t -> visible n t (b_store d) = true).

Definition inv_meta (d : bdb) : Prop := d_last (b_meta d) = None -> d_earliest (b_meta d) = 0.

Definition inv (d : bdb) : Prop := inv_read d /\ inv_meta d.

Lemma inv0 : inv bdb0.
Proof. split; [intros v rid _ H; discriminate|intros _; reflexivity]. Qed.

Definition old_reach (d : bdb) (old : option (N * N)) : list N :=
  match old with
  | Some (over, orid) => if is_empty_rid orid then [] else a_reach (aux_get over orid (b_aux d))
  | None => []
  end.

(* histories in the domain of the property: versions are committed in order, and the tree layer
   passes consistent node sets (a node of the new root was written by this commit or belongs to
   the old root and was not reported removed) *)
Definition wf_step (d : bdb) (o : op) : bool :=
  match o with
  | OCommit ver typ rid old ws puts removed reach inl0 =>
      match d_last (b_meta d) with Some l => ver =? l + 1 | None => true end &&
      forallb (fun e => snd (fst e) <=? ver) (b_store d) &&
      forallb (fun n => nmem n puts || (nmem n (old_reach d old) && negb (nmem n removed))) reach
  | OFinalize ver rids => forallb (fun p => fst p <=? ver) (d_vers (b_meta d))
  | OPrune ver => true
  end.

(* the sharing conditions under which badger keeps every listed root readable *)
Definition fin_safe (d : bdb) (ver : N) (rids : list N) : bool :=
  let fin := fin_set (roots_at (b_meta d) ver) rids in
  let dels := fin_dels d ver fin in
  forallb (fun r => negb (nmem (r_id r) fin) ||
                    forallb (fun n => negb (nmem n dels)) (a_reach (aux_get ver (r_id r) (b_aux d))))
          (roots_at (b_meta d) ver).

Definition prune_safe (d : bdb) (ver : N) : bool :=
  forallb (fun r => negb (is_empty_rid (r_id r))) (lone_roots d ver) &&
  forallb (fun n =>
    forallb (fun p =>
      (fst p <=? ver) ||
      forallb (fun r => negb (nmem n (a_reach (aux_get (fst p) (r_id r) (b_aux d)))) ||
                        match best n (fst p) (b_store d) with Some (ts, _) => ver <? ts | None => false end)
              (roots_at (b_meta d) (fst p)))
      (d_vers (b_meta d)))
    (prune_dels d ver).

Definition safe_step (d : bdb) (o : op) : bool :=
  match o with
  | OCommit _ _ _ _ _ _ _ _ _ => true
  | OFinalize ver rids => fin_safe d ver rids
  | OPrune ver => prune_safe d ver
  end.

Fixpoint ok_run (d : bdb) (h : list op) : bool :=
  match h with
  | [] => true
  | o :: t => wf_step d o && safe_step d o && ok_run (snd (b_step d o)) t
  end.

Lemma ok_run_cons d o t :
  ok_run d (o :: t) = true ->
  wf_step d o = true /\ safe_step d o = true /\ ok_run (snd (b_step d o)) t = true.
Proof. cbn [ok_run]. rewrite !andb_true_iff. tauto. Qed.

Lemma wf_finalize_le d ver rids v r :
  wf_step d (OFinalize ver rids) = true -> has_rid r (roots_at (b_meta d) v) = true -> v <= ver.
Proof.
  cbn [wf_step]. rewrite forallb_forall. intros WF Hh.
  apply listed_key, in_map_iff in Hh as [p [<- Hp]]. specialize (WF p Hp). lia.
Qed.

Lemma finalize_earliest_le d ver rids m' :
  inv_meta d -> s_finalize (b_meta d) ver rids = (EOk, m') -> d_earliest (b_meta d) <= d_earliest m'.
Proof.
  intros IM SF. destruct (s_finalize_ok _ _ _ _ SF) as [_ [_ [HE _]]]. rewrite HE.
  destruct (d_last (b_meta d)) eqn:DL; [lia|]. rewrite (IM DL). lia.
Qed.

Lemma inv_store d st' :
  (forall n t, d_earliest (b_meta d) <= t -> visible n t (b_store d) = true -> visible n t st' = true) ->
  inv d -> inv (mkb (b_meta d) (b_aux d) st').
Proof.
  intros V [IR IM]. split; [|exact IM]. intros v r Hev Hh n Hn. cbn [b_meta b_aux b_store] in *.
  destruct (IR v r Hev Hh n Hn) as [A B]. split; [apply V; [exact Hev|exact A]|].
  intros AL t Ht. exact (V n t (N.le_trans _ _ _ Hev Ht) (B AL t Ht)).
Qed.

Lemma inv_commit d ver typ rid old ws puts removed reach inl0 :
  inv d -> wf_step d (OCommit ver typ rid old ws puts removed reach inl0) = true ->
  inv (snd (b_commit d ver typ rid old ws puts removed reach inl0)).
Proof.
  intros [IR IM] WF. unfold b_commit.
  destruct (s_commit (b_meta d) ver typ rid old ws) as [e m'] eqn:SC.
  destruct e; try (split; assumption).
  destruct (has_rid rid (roots_at (b_meta d) ver)) eqn:FR; [split; assumption|]. cbn [negb snd].
  destruct (s_commit_ok _ _ _ _ _ _ _ SC) as [HE [HL [_ [_ HF]]]].
  destruct (HF FR) as [[c HC] HO]. clear HF SC.
  split; [|unfold inv_meta; cbn [b_meta]; rewrite HL, HE; exact IM].
  cbn [wf_step] in WF. apply andb_true_iff in WF as [WF W3]. apply andb_true_iff in WF as [W1 W2].
  rewrite forallb_forall in W2, W3.
  unfold inv_read. cbn [b_meta b_aux b_store]. intros v r Hev Hh n Hn.
  rewrite HE in Hev. rewrite HC in Hh.
  apply committed_listed in Hh as [Hh|[-> ->]]; [| |reflexivity].
  - (* an existing root: puts never hide a node *)
    rewrite aux_get_other in Hn by (intros C; injection C as -> ->; congruence).
    destruct (IR v r Hev Hh n Hn) as [A B]. split; [apply visible_puts, A|].
    intros AL t Ht. apply visible_puts, B; [|exact Ht].
    unfold after_last in *. rewrite HL in AL. exact AL.
  - (* the new root: each node is put by this commit, above everything in the log, or comes from the old
       root, which is not below the last finalized version and so keeps its nodes from then on *)
    rewrite aux_get_cons, !N.eqb_refl in Hn. cbn [andb a_reach] in Hn.
    assert (G : forall t, ver <= t -> visible n t (write_all puts ver true (b_store d)) = true).
    { intros t Ht. specialize (W3 n Hn). apply orb_true_iff in W3 as [P|P].
      - apply visible_put_new; [apply nmem_In, P| |exact Ht].
        intros ts b HI. specialize (W2 _ HI). cbn [fst snd] in W2. lia.
      - apply andb_true_iff in P as [P _]. apply nmem_In in P. apply visible_puts.
        unfold old_reach in P. destruct old as [[over orid]|]; [|destruct P].
        destruct (is_empty_rid orid) eqn:EM; [destruct P|].
        destruct (HO eq_refl) as [HV [HH HEA]].
        (* lia sees only the facts it needs: the boolean side conditions in the context are large *)
        assert (Ho : d_earliest (b_meta d) <= over /\ over <= t) by (clear - HV HEA Hev Ht; lia).
        apply (IR over orid (proj1 Ho) HH n P); [|exact (proj2 Ho)].
        unfold after_last. destruct (d_last (b_meta d)); [clear - W1 HV; lia|exact I]. }
    split; [apply G; lia|intros _; exact G].
Qed.

Lemma inv_finalize d ver rids :
  inv d -> wf_step d (OFinalize ver rids) = true -> fin_safe d ver rids = true ->
  inv (snd (b_finalize d ver rids)).
Proof.
  intros [IR IM] WF FS. unfold b_finalize.
  destruct (s_finalize (b_meta d) ver rids) as [e m'] eqn:SF.
  destruct e; try (split; assumption). cbn [snd].
  destruct (s_finalize_ok _ _ _ _ SF) as [HL [LG [HE HR]]].
  split; [|unfold inv_meta; cbn [b_meta]; rewrite HL; discriminate].
  pose proof (finalize_earliest_le d ver rids m' IM SF) as OLDE.
  unfold inv_read. cbn [b_meta b_aux b_store]. intros v r Hev Hh n Hn.
  pose proof (s_finalize_listed _ _ _ _ v r SF Hh) as Hh'.
  destruct (IR v r (N.le_trans _ _ _ OLDE Hev) Hh' n Hn) as [A B].
  pose proof (wf_finalize_le d ver rids v r WF Hh') as Hle. clear WF.
  unfold visible. destruct (N.eq_dec v ver) as [->|NE].
  - (* a kept root of the finalized version: fin_safe keeps its nodes out of the deletions *)
    rewrite HR, N.eqb_refl in Hh. destruct (has_rid_filter_in _ _ _ Hh) as [x [HI [HX HF]]].
    assert (ND : ~ In n (fin_dels d ver (fin_set (roots_at (b_meta d) ver) rids))).
    { unfold fin_safe in FS. rewrite forallb_forall in FS. specialize (FS x HI).
      rewrite HF, HX in FS. cbn [negb orb] in FS. rewrite forallb_forall in FS.
      specialize (FS n Hn). intros C. apply nmem_In in C. rewrite C in FS. discriminate. }
    clear FS. split; [rewrite best_write_notin by exact ND; exact A|].
    intros _ t Ht. rewrite best_write_notin by exact ND. apply B; [|exact Ht].
    unfold after_last. unfold last_geb in LG. destruct (d_last (b_meta d)); [clear - LG; lia|exact I].
  - (* an earlier version: the deletions lie above it, and the step leaves it below the last finalized one *)
    assert (Hlt : v < ver) by (clear - Hle NE; lia).
    split; [rewrite best_write_before by exact Hlt; exact A|].
    unfold after_last. rewrite HL. intros AL. exfalso. clear - AL Hlt. lia.
Qed.

Lemma inv_prune d ver :
  inv d -> prune_safe d ver = true -> inv (snd (b_prune d ver)).
Proof.
  intros [IR IM] PS. unfold b_prune.
  destruct (s_prune_check (b_meta d) ver) eqn:PC; try (split; assumption).
  destruct (visit_all d ver (lone_roots d ver)); try (split; assumption). cbn [snd].
  destruct (s_prune_check_ok _ _ PC) as [l [DL [EV LT]]].
  split; [|unfold inv_meta; cbn [b_meta s_prune_do d_last]; rewrite DL; discriminate].
  unfold prune_safe in PS. apply andb_true_iff in PS as [_ PS]. rewrite forallb_forall in PS.
  unfold inv_read. cbn [b_meta b_aux b_store]. intros v r Hev Hh n Hn.
  cbn [s_prune_do d_earliest] in Hev. rewrite roots_at_prune_do in Hh.
  replace (ver =? v) with false in Hh by lia.
  destruct (IR v r ltac:(lia) Hh n Hn) as [A B].
  assert (G : forall t, v <= t ->
            best n t (write_all (prune_dels d ver) ver false (b_store d)) = best n t (b_store d)).
  { intros t Ht. destruct (in_dec N.eq_dec n (prune_dels d ver)) as [HD|HD]; [|apply best_write_notin, HD].
    (* n is deleted at the pruned timestamp: prune_safe says a newer write shadows the deletion *)
    specialize (PS n HD). rewrite forallb_forall in PS.
    pose proof (listed_key _ _ _ Hh) as K. apply in_map_iff in K as [p [Hp1 Hp2]].
    specialize (PS p Hp2). rewrite Hp1 in PS. apply orb_true_iff in PS as [PS|PS]; [lia|].
    rewrite forallb_forall in PS. destruct (has_find _ _ Hh) as [x FX].
    destruct (find_root_in _ _ _ FX) as [HI HX]. specialize (PS x HI).
    rewrite HX, (proj2 (nmem_In _ _) Hn) in PS. cbn [negb orb] in PS.
    destruct (best n v (b_store d)) as [[ts0 b0]|] eqn:B0; [|discriminate].
    apply (best_write_shadowed n v t _ _ _ _ ts0 b0 B0); lia. }
  unfold visible. split; [rewrite G by lia; exact A|].
  intros AL t Ht. rewrite G by exact Ht. exact (B AL t Ht).
Qed.

Lemma inv_step d o : inv d -> wf_step d o = true -> safe_step d o = true -> inv (snd (b_step d o)).
Proof.
  intros I W S. destruct o as [ver typ rid old ws puts removed reach inl0|ver rids|ver]; cbn [b_step].
  - apply inv_commit; assumption.
  - apply inv_finalize; assumption.
  - apply inv_prune; assumption.
Qed.

Lemma inv_readable d v rid :
  inv d -> d_earliest (b_meta d) <= v -> has_rid rid (roots_at (b_meta d) v) = true ->
  b_readable d v rid = true.
Proof.
  intros [IR _] Hev Hh. unfold b_readable, all_visible. apply forallb_forall. intros n Hn.
  unfold a_need in Hn. apply filter_In in Hn as [Hn _]. exact (proj1 (IR v rid Hev Hh n Hn)).
Qed.

Lemma inv_status d v rid :
  inv d -> s_has (b_meta d) v rid = true ->
  b_status d v rid = 1 /\ b_read d v rid = s_read (b_meta d) v rid.
Proof.
  intros I Hs. unfold b_status, b_read. rewrite Hs.
  destruct (is_empty_rid rid) eqn:EM; cbn [orb].
  - split; [reflexivity|]. destruct (s_read (b_meta d) v rid); reflexivity.
  - unfold s_has in Hs. rewrite EM in Hs. cbn [orb] in Hs. apply andb_true_iff in Hs as [H1 H2].
    apply N.leb_le in H1. rewrite (inv_readable d v rid I H1 H2).
    split; [reflexivity|]. destruct (s_read (b_meta d) v rid); reflexivity.
Qed.

Lemma visit_nodes_ok ns il t st : all_visible ns t st = true -> visit_nodes ns il t st EOk = EOk.
Proof.
  induction ns as [|n r IH]; cbn [all_visible forallb visit_nodes]; [reflexivity|].
  intros H. apply andb_true_iff in H as [H1 H2]. rewrite H1. destruct (nmem n il); apply IH; exact H2.
Qed.

Lemma visit_all_ok d ver l :
  (forall r, In r l -> visit_root d ver r = EOk) -> visit_all d ver l = EOk.
Proof.
  induction l as [|r t IH]; intros H; cbn [visit_all]; [reflexivity|].
  rewrite (H r (or_introl eq_refl)). apply IH. intros x Hx. apply H. right. exact Hx.
Qed.

Lemma b_step_refines d o :
  inv d -> safe_step d o = true ->
  fst (b_step d o) = fst (s_step (b_meta d) o) /\
  b_meta (snd (b_step d o)) = snd (s_step (b_meta d) o).
Proof.
  intros I S. destruct o as [ver typ rid old ws puts removed reach inl0|ver rids|ver]; cbn [b_step s_step].
  - unfold b_commit. destruct (s_commit (b_meta d) ver typ rid old ws) as [e m'] eqn:SC.
    assert (ER : e <> EOk -> m' = b_meta d) by (apply (s_commit_err _ _ _ _ _ _ _ _ SC)).
    destruct e; cbn [fst snd]; try (split; [reflexivity|symmetry; apply ER; discriminate]).
    destruct (has_rid rid (roots_at (b_meta d) ver)) eqn:FR; cbn [negb fst snd b_meta]; [|split; reflexivity].
    destruct (s_commit_ok _ _ _ _ _ _ _ SC) as [_ [_ [_ [HM _]]]].
    split; [reflexivity|symmetry; exact (HM FR)].
  - unfold b_finalize. destruct (s_finalize (b_meta d) ver rids) as [e m'] eqn:SF.
    assert (ER : e <> EOk -> m' = b_meta d) by (apply (s_finalize_err _ _ _ _ _ SF)).
    destruct e; cbn [fst snd b_meta]; try (split; [reflexivity|symmetry; apply ER; discriminate]).
    split; reflexivity.
  - unfold b_prune, s_prune. destruct (s_prune_check (b_meta d) ver) eqn:PC; cbn [fst snd]; try (split; reflexivity).
    rewrite visit_all_ok; [cbn [fst snd b_meta]; split; reflexivity|].
    (* the traversal of a lone root succeeds: it is not empty, and all its nodes are visible *)
    intros r HL. cbn [safe_step] in S. unfold prune_safe in S. apply andb_true_iff in S as [S _].
    rewrite forallb_forall in S. specialize (S r HL). apply negb_true_iff in S.
    unfold visit_root. rewrite S. apply visit_nodes_ok, forallb_forall. intros n Hn.
    apply filter_In in HL as [Hr _]. destruct (s_prune_check_ok _ _ PC) as [l [_ [EV _]]].
    destruct I as [IR _]. exact (proj1 (IR ver (r_id r) ltac:(lia) (in_has_rid r _ Hr) n Hn)).
Qed.

Lemma b_run_refines h : forall d, inv d -> ok_run d h = true ->
  b_meta (b_run d h) = s_run (b_meta d) h /\ inv (b_run d h).
Proof.
  induction h as [|o t IH]; intros d I OK; [split; [reflexivity|exact I]|].
  apply ok_run_cons in OK as [O1 [O2 O3]]. unfold b_run, s_run. cbn [fold_left].
  rewrite <- (proj2 (b_step_refines d o I O2)). apply IH; [apply inv_step; assumption|exact O3].
Qed.

(* after every operation of an in-domain, safe history every known root is observed either
   absent (HasRoot false) or exactly readable: never "node missing" *)
Lemma b_observe_exact h : forall d k, inv d -> ok_run d h = true ->
  forall i o, nth_error (b_observe d k h) i = Some o ->
    exists e c ea la rs, o = ((e, c), (ea, la), rs) /\
      forall p hs st, In (p, (hs, st)) rs -> st = (if hs then 1 else 0).
Proof.
  induction h as [|o t IH]; intros d k I OK i ob Hn; [destruct i; discriminate|].
  apply ok_run_cons in OK as [O1 [O2 O3]]. pose proof (inv_step d o I O1 O2) as I'.
  cbn [b_observe] in Hn. destruct (b_step d o) as [e d']. cbn [snd] in *.
  destruct i as [|i]; cbn [nth_error] in Hn; [|exact (IH _ _ I' O3 _ _ Hn)].
  injection Hn as <-. eexists _, _, _, _, _. split; [reflexivity|].
  intros p hs st HI. apply in_map_iff in HI as [q [HQ _]]. injection HQ as _ <- <-.
  destruct (s_has (b_meta d') (fst q) (snd q)) eqn:SH.
  - exact (proj1 (inv_status d' _ _ I' SH)).
  - unfold b_status. rewrite SH. reflexivity.
Qed.

(* after an in-domain, safe history from any state satisfying the invariant, every root the
   metadata reports present is read back exactly as the spec reads it *)
Lemma b_run_readable h d :
  inv d -> ok_run d h = true ->
  forall v rid, s_has (b_meta (b_run d h)) v rid = true ->
    b_status (b_run d h) v rid = 1 /\
    b_read (b_run d h) v rid = s_read (s_run (b_meta d) h) v rid.
Proof.
  intros I0 OK v rid SH. destruct (b_run_refines h d I0 OK) as [HM I].
  rewrite <- HM. exact (inv_status _ v rid I SH).
Qed.
