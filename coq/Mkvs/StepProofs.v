(* Evictions between the steps of one doInsert or doRemove descent: invisible
   when they do not touch the call stack and spare the embedded leaves of dirty
   nodes; data loss otherwise (finding F2, and the transient variant of F1). *)
From Verif Require Import Lib.Base Mkvs.Trie Mkvs.Lazy Mkvs.LazyProofs Mkvs.Step.

Lemma view_ref' t : view (ref t) = t.
Proof. destruct t; try reflexivity; apply view_ref. Qed.
Lemma view_load1 t : view (load1 t) = t.
Proof.
  destruct t as [|k v|lbl lf l r]; try reflexivity. unfold load1. rewrite view_node.
  destruct lf as [[k v]|]; now rewrite !view_ref'.
Qed.
Lemma view_deref1 p : view (deref1 p) = view p.
Proof.
  destruct p as [|t|c k v|c lbl lf l r]; try reflexivity.
  - cbn [deref1]. now rewrite view_load1, view_ref.
  - cbn [deref1]. destruct lf as [|tl|? ? ?|? ? ? ? ?]; try reflexivity.
    destruct c; [|reflexivity]. rewrite !view_node.
    destruct tl as [|k v|? [[? ?]|] ? ?]; reflexivity.
Qed.
Definition not_ref (p : ptree) : Prop := match p with PRef _ => False | _ => True end.
Lemma deref1_lf p c lbl lf l r : deref1 p = PNode c lbl lf l r -> not_ref lf.
Proof.
  destruct p as [|t|c0 k0 v0|c0 lbl0 lf0 l0 r0]; cbn [deref1]; try discriminate.
  - destruct t as [|? ?|? [[? ?]|] ? ?]; cbn [load1]; try discriminate; intros [= <- <- <- <- <-]; exact I.
  - destruct lf0 as [|tl|? ? ?|? ? ? ? ?]; try (intros [= <- <- <- <- <-]; exact I).
    destruct c0; [|discriminate]. intros [= <- <- <- <- <-].
    destruct tl as [|? ?|? [[? ?]|] ? ?]; exact I.
Qed.
Definition lf_view (lf : ptree) : option (bytes * bytes) :=
  match lf with PLeaf _ k v => Some (k, v) | _ => None end.
Lemma view_node_nr c lbl lf l r : not_ref lf ->
  view (PNode c lbl lf l r) = Node lbl (lf_view lf) (view l) (view r).
Proof. intros H. rewrite view_node. destruct lf; try reflexivity. contradiction. Qed.

Section InsertProofs.
  Variables k v : bytes.

  Definition frame_view (f : frame) (t : tree) : tree :=
    Node (f_lbl f) (lf_view (f_lf f))
         (if f_right f then view (f_sib f) else t) (if f_right f then t else view (f_sib f)).
  Fixpoint plug (fs : list frame) (t : tree) : tree :=
    match fs with [] => t | f :: r => plug r (frame_view f t) end.
  Definition frames_ok (fs : list frame) : Prop :=
    Forall (fun f => f_dead f = false /\ not_ref (f_lf f)) fs.
  Definition whole (s : istate) : tree :=
    match s with
    | IDown fs d cur => plug fs (insert d k v (view cur))
    | IUp fs res => plug fs (view res)
    | IDone res => view res
    end.

  Lemma istep_whole s : frames_ok (frames_of s) ->
    whole (istep k v s) = whole s /\ frames_ok (frames_of (istep k v s)).
  Proof.
    destruct s as [fs d cur|fs res|res]; cbn [istep frames_of]; intros Hok.
    - unfold down_step.
      replace (whole (IDown fs d cur)) with (plug fs (insert d k v (view (deref1 cur))))
        by (cbn [whole]; now rewrite view_deref1).
      destruct (deref1 cur) as [|t|c0 k0 v0|c lbl lf l r] eqn:E;
        try (cbn [whole frames_of]; rewrite view_full; auto).
      pose proof (deref1_lf _ _ _ _ _ _ E) as Hnr.
      destruct ((lcp lbl (skipn d (bits_of k)) =? length lbl)%nat &&
                negb (length (bits_of k) =? d + length lbl)%nat) eqn:C.
      + apply andb_true_iff in C as [C1 C2]. apply negb_true_iff in C2.
        rewrite (view_node_nr _ _ _ _ _ Hnr). cbn [insert]. rewrite C1, C2.
        destruct (bit (bits_of k) (d + length lbl)); cbn [whole frames_of plug frame_view f_lbl f_lf f_right f_sib];
          (split; [reflexivity|constructor; [split; [reflexivity|exact Hnr]|exact Hok]]).
      + cbn [whole frames_of]. rewrite view_full. auto.
    - destruct fs as [|f fs']; cbn [up_step whole frames_of]; [auto|].
      inversion Hok as [|? ? [Hd Hnr] Hok']; subst. rewrite Hd. split; [|exact Hok'].
      cbn [plug]. f_equal. rewrite (view_node_nr _ _ _ _ _ Hnr). unfold frame_view.
      destruct (f_right f); reflexivity.
    - auto.
  Qed.

  Lemma plug_set_sib fs : forall i p' f t,
    nth_error fs i = Some f -> view p' = view (f_sib f) -> plug (set_sib fs i p') t = plug fs t.
  Proof.
    induction fs as [|g fs IH]; intros [|i] p' f t Hn Hv; cbn in Hn; try discriminate.
    - injection Hn as ->. cbn [set_sib plug]. f_equal. unfold frame_view. cbn [f_lbl f_lf f_right f_sib].
      now rewrite Hv.
    - cbn [set_sib plug]. eapply IH; eauto.
  Qed.
  Lemma frames_ok_set_sib fs : forall i p', frames_ok fs -> frames_ok (set_sib fs i p').
  Proof.
    induction fs as [|g fs IH]; intros [|i] p' H; cbn [set_sib]; auto; inversion H; subst;
      constructor; auto. apply IH; auto.
  Qed.

  Lemma iapply_whole s e : frames_ok (frames_of s) -> legal s e -> off_path e ->
    whole (iapply k v s e) = whole s /\ frames_ok (frames_of (iapply k v s e)).
  Proof.
    intros Hok Hl Hoff. destruct e as [|i p'|p'|i]; cbn [iapply legal off_path] in *.
    - now apply istep_whole.
    - destruct Hl as (f & Hn & He). pose proof (evicts_view _ _ He) as Hv.
      destruct s as [fs d cur|fs res|res]; cbn [with_frames frames_of whole] in *.
      + split; [eapply plug_set_sib; eauto|now apply frames_ok_set_sib].
      + split; [eapply plug_set_sib; eauto|now apply frames_ok_set_sib].
      + destruct i; discriminate.
    - destruct s as [fs d cur|fs res|res]; try contradiction.
      cbn [whole frames_of]. now rewrite (evicts_view _ _ Hl).
    - contradiction.
  Qed.

  Theorem insert_eviction_off_path_invisible es : forall s,
    frames_ok (frames_of s) -> legal_run k v s es -> Forall off_path es ->
    whole (irun k v s es) = whole s.
  Proof.
    induction es as [|e r IH]; intros s Hok Hl Hoff; [reflexivity|].
    cbn [irun legal_run] in *. destruct Hl as [Hl Hr]. inversion Hoff; subst.
    destruct (iapply_whole s e Hok Hl H1) as [W F]. rewrite IH by assumption. exact W.
  Qed.

  Corollary insert_descent_correct p es res :
    legal_run k v (IDown [] 0 p) es -> Forall off_path es ->
    irun k v (IDown [] 0 p) es = IDone res -> view res = tinsert k v (view p).
  Proof.
    intros Hl Hoff E. pose proof (insert_eviction_off_path_invisible es (IDown [] 0 p) (Forall_nil _) Hl Hoff) as W.
    rewrite E in W. exact W.
  Qed.
End InsertProofs.

(* committed tree {00, 40, 80}; Insert(20): the descent holds the root and the
   node above {00, 40}; evicting the root while it is on the stack loses everything *)
Definition f2_tree : ptree := full (run [OIns [0] [1]; OIns [64] [2]; OIns [128] [3]]).
Definition f2_events_ok : list ievent := [EStep; EStep; EStep; EStep; EStep; EStep].
Definition f2_events_bad : list ievent := [EStep; EStep; EEvictPath 1; EStep; EStep; EStep; EStep].

Theorem eviction_f2_refuted :
  (* without eviction: the eager result *)
  (exists res, irun [32] [9] (IDown [] 0 f2_tree) f2_events_ok = IDone res /\
               contents (view res) = [([0], [1]); ([32], [9]); ([64], [2]); ([128], [3])]) /\
  (* evicting the (clean) root while two frames are on the stack is a legal cache event ... *)
  legal_run [32] [9] (IDown [] 0 f2_tree) f2_events_bad /\
  (* ... and the finished operation has lost the whole tree, including the new key *)
  (exists res, irun [32] [9] (IDown [] 0 f2_tree) f2_events_bad = IDone res /\ contents (view res) = []).
Proof.
  split; [|split].
  - eexists. split; vm_compute; reflexivity.
  - cbn [legal_run f2_events_bad legal]. repeat split; try exact I.
    vm_compute. eexists. split; reflexivity.
  - eexists. split; vm_compute; reflexivity.
Qed.

Definition cct (lbl : path) (lf : option (bytes * bytes)) (l r : tree) : tree :=
  fst (fst (collapse lbl lf l r false None)).

Lemma collapse_tree_indep lbl lf l r c e : fst (fst (collapse lbl lf l r c e)) = cct lbl lf l r.
Proof.
  unfold cct, collapse.
  destruct lf as [[k0 v0]|], l as [|kl vl|ll lfl l1 l2], r as [|kr vr|lr lfr r1 r2]; reflexivity.
Qed.

Definition present_t (t : tree) : bool := match t with Nil => false | _ => true end.
Lemma non_nil_view p : non_nil p = present_t (view p).
Proof.
  unfold non_nil. destruct p as [|t|c k v|c lbl lf l r]; try reflexivity.
  - cbn [deref1]. rewrite view_ref. destruct t as [|? ?|? [[? ?]|] ? ?]; reflexivity.
  - rewrite view_node. cbn [deref1]. destruct lf as [|tl|? ? ?|? ? ? ? ?]; try reflexivity.
    destruct c; reflexivity.
Qed.

(* [collapse] decided by which children are present, as [pcollapse] decides it *)
Definition merge_lbl (lbl : path) (t : tree) : tree :=
  match t with Node lbl' lf' l' r' => Node (lbl ++ lbl') lf' l' r' | _ => t end.
Lemma cct_cases lbl lf l r :
  cct lbl lf l r =
  match lf with
  | Some (k0, v0) => if negb (present_t l) && negb (present_t r) then Leaf k0 v0 else Node lbl lf l r
  | None => if negb (present_t l) || negb (present_t r)
            then merge_lbl lbl (if present_t l then l else r) else Node lbl lf l r
  end.
Proof. destruct lf as [[k0 v0]|], l, r; reflexivity. Qed.

Lemma pcollapse_view lbl lf l r : not_ref lf ->
  view (pcollapse lbl lf l r (non_nil l) (non_nil r)) = cct lbl (lf_view lf) (view l) (view r).
Proof.
  intros Hnr. unfold pcollapse. rewrite cct_cases, !non_nil_view.
  assert (forall child, view (match deref1 child with
                              | PNode c lbl' lf' l' r' => PNode false (lbl ++ lbl') lf' l' r'
                              | n => n end) = merge_lbl lbl (view child)) as Hm.
  { intros child. rewrite <- (view_deref1 child).
    destruct (deref1 child) as [|t|c0 k1 v1|c0 lbl' lf' l' r'] eqn:Ed; try reflexivity.
    - exfalso. destruct child as [|t0|? ? ?|? ? lf0 ? ?]; cbn [deref1] in Ed; try discriminate.
      + destruct t0 as [|? ?|? [[? ?]|] ? ?]; discriminate.
      + destruct lf0; try discriminate. destruct clean; discriminate.
    - pose proof (deref1_lf _ _ _ _ _ _ Ed) as Hn. now rewrite !view_node_nr by exact Hn. }
  destruct lf as [|t|c k0 v0|c lbl' lf' l' r']; try contradiction; cbn [has_leaf lf_view andb negb].
  - destruct (negb _ || negb _); [|now apply view_node_nr].
    rewrite Hm. now destruct (present_t (view l)).
  - destruct (negb _ && negb _); [reflexivity|now apply view_node_nr].
  - destruct (negb _ || negb _); [|now apply view_node_nr].
    rewrite Hm. now destruct (present_t (view l)).
Qed.

Definition frame_view_r (f : frame) (t : tree) : tree :=
  cct (f_lbl f) (lf_view (f_lf f))
      (if f_right f then view (f_sib f) else t) (if f_right f then t else view (f_sib f)).
Fixpoint plug_r (fs : list frame) (t : tree) : tree :=
  match fs with [] => t | f :: r => plug_r r (frame_view_r f t) end.
Lemma plug_r_set_sib fs : forall i p' f t,
  nth_error fs i = Some f -> view p' = view (f_sib f) -> plug_r (set_sib fs i p') t = plug_r fs t.
Proof.
  induction fs as [|g fs IH]; intros [|i] p' f t Hn Hv; cbn in Hn; try discriminate.
  - injection Hn as ->. cbn [set_sib plug_r]. f_equal. unfold frame_view_r. cbn [f_lbl f_lf f_right f_sib].
    now rewrite Hv.
  - cbn [set_sib plug_r]. eapply IH; eauto.
Qed.

Section RemoveProofs.
  Variable k : bytes.

  Definition whole_r (s : rstate) : tree :=
    match s with
    | RDown fs d cur => plug_r fs (fst (fst (remove d k (view cur))))
    | RPre0 fs d c lbl lf l r | RPre1 fs d c lbl lf l r =>
        plug_r fs (fst (fst (remove d k (Node lbl (lf_view lf) (view l) (view r)))))
    | RRet fs res => plug_r fs (view res)
    | RCol0 fs lbl lf l r | RCol1 fs lbl lf l r _ => plug_r fs (cct lbl (lf_view lf) (view l) (view r))
    | RDone res => view res
    end.
  Definition inv_r (s : rstate) : Prop :=
    frames_ok (rframes s) /\
    match s with
    | RCol0 _ _ lf _ _ => not_ref lf
    | RCol1 _ _ lf l _ lp => not_ref lf /\ lp = present_t (view l)
    | RPre0 _ d _ lbl lf _ _ | RPre1 _ d _ lbl lf _ _ =>
        not_ref lf /\ (length (bits_of k) <? d + length lbl)%nat = false
    | _ => True
    end.

  Lemma remove_node d lbl lf l r :
    fst (fst (remove d k (Node lbl lf l r))) =
    let d' := (d + length lbl)%nat in
    let kl := length (bits_of k) in
    if (kl <? d')%nat then Node lbl lf l r
    else if (kl =? d')%nat then
      cct lbl (match lf with Some (k0, v0) => if bytes_eqb k0 k then None else lf | None => None end) l r
    else if bit (bits_of k) d' then cct lbl lf l (fst (fst (remove d' k r)))
    else cct lbl lf (fst (fst (remove d' k l))) r.
  Proof.
    cbn [remove]. cbv zeta.
    destruct (length (bits_of k) <? d + length lbl)%nat; [reflexivity|].
    destruct (length (bits_of k) =? d + length lbl)%nat.
    - destruct lf as [[k0 v0]|]; [destruct (bytes_eqb k0 k)|]; apply collapse_tree_indep.
    - destruct (bit (bits_of k) (d + length lbl)).
      + destruct (remove (d + length lbl) k r) as [[r' c] e]. apply collapse_tree_indep.
      + destruct (remove (d + length lbl) k l) as [[l' c] e]. apply collapse_tree_indep.
  Qed.

  Lemma rstep_whole s : inv_r s -> whole_r (rstep k s) = whole_r s /\ inv_r (rstep k s).
  Proof.
    destruct s as [fs d cur|fs d c lbl lf l r|fs d c lbl lf l r|fs res|fs lbl lf l r|fs lbl lf l r lp|res];
      cbn [rstep]; intros [Hok Hs].
    - unfold rdown_step.
      replace (whole_r (RDown fs d cur)) with (plug_r fs (fst (fst (remove d k (view (deref1 cur))))))
        by (cbn [whole_r]; now rewrite view_deref1).
      destruct (deref1 cur) as [|t|c0 k0 v0|c lbl lf l r] eqn:E;
        try (cbn [whole_r rframes inv_r]; rewrite view_full; now repeat split).
      pose proof (deref1_lf _ _ _ _ _ _ E) as Hnr.
      rewrite (view_node_nr _ _ _ _ _ Hnr).
      destruct (length (bits_of k) <? d + length lbl)%nat eqn:Esh.
      + cbn [whole_r inv_r rframes]. rewrite remove_node. cbv zeta. rewrite Esh.
        rewrite <- (view_deref1 cur), E, (view_node_nr _ _ _ _ _ Hnr).
        now repeat split.
      + cbn [whole_r inv_r rframes]. now repeat split.
    - cbn [whole_r inv_r rframes] in *. split; [reflexivity|split; assumption].
    - cbn [whole_r inv_r rframes] in *. destruct Hs as [Hnr Esh]. unfold rdescend.
      rewrite remove_node. cbv zeta. rewrite Esh.
      destruct (length (bits_of k) =? d + length lbl)%nat.
      + cbn [whole_r inv_r rframes]. split; [|split; [exact Hok|]].
        * f_equal. f_equal. destruct lf as [| |c1 k1 v1|]; try reflexivity. cbn [lf_view].
          destruct (bytes_eqb k1 k); reflexivity.
        * destruct lf as [| |c1 k1 v1|]; try exact I; try contradiction. destruct (bytes_eqb k1 k); exact I.
      + destruct (bit (bits_of k) (d + length lbl));
          cbn [whole_r inv_r rframes plug_r]; unfold frame_view_r; cbn [f_lbl f_lf f_right f_sib];
          (split; [reflexivity|split; [constructor; [split; [reflexivity|exact Hnr]|exact Hok]|exact I]]).
    - destruct fs as [|f fs']; cbn [whole_r inv_r rframes] in *;
        [now repeat split|].
      apply Forall_cons_iff in Hok as [[Hd Hnr] Hok']. split; [|split; [exact Hok'|exact Hnr]].
      cbn [plug_r]. unfold frame_view_r. destruct (f_right f); reflexivity.
    - cbn [whole_r inv_r rframes] in *. repeat split; auto using non_nil_view.
    - cbn [whole_r inv_r rframes] in *. destruct Hs as [Hnr ->]. rewrite <- non_nil_view.
      rewrite pcollapse_view by exact Hnr. now repeat split.
    - cbn [whole_r inv_r rframes] in *. now repeat split.
  Qed.

  Lemma frames_ok_rwith s fs : frames_ok fs -> inv_r s -> inv_r (rwith_frames s fs).
  Proof. intros Hf [_ Hs]. destruct s; cbn [rwith_frames inv_r rframes] in *; split; auto; constructor. Qed.

  Lemma rapply_whole s e : inv_r s -> rlegal evicts s e ->
    whole_r (rapply k s e) = whole_r s /\ inv_r (rapply k s e).
  Proof.
    intros Hi Hl. destruct e as [|p'|p'|i p'|p'].
    2,3: destruct s; cbn [rapply rlegal] in *; try contradiction;
        pose proof (evicts_view _ _ Hl) as Hv; destruct Hi as [Hok Hs];
        cbn [whole_r inv_r rframes] in *; rewrite ?Hv; repeat split; try tauto;
        try (rewrite ?Hv; tauto).
    - now apply rstep_whole.
    - assert (rapply k s (REvictSib i p') = rwith_frames s (set_sib (rframes s) i p')) as -> by (destruct s; reflexivity).
      assert (rlegal evicts s (REvictSib i p') -> exists f, nth_error (rframes s) i = Some f /\ evicts (f_sib f) p') as HL
        by (destruct s; cbn [rlegal]; auto).
      destruct (HL Hl) as (f & Hn & He). pose proof (evicts_view _ _ He) as Hv.
      split; [|apply frames_ok_rwith; [apply frames_ok_set_sib; apply Hi|exact Hi]].
      destruct s; cbn [rwith_frames whole_r rframes] in *; try reflexivity; eapply plug_r_set_sib; eauto.
    - destruct s; cbn [rapply rlegal] in *; try contradiction.
      destruct Hi as [Hok Hs]. cbn [whole_r inv_r rframes] in *. rewrite (evicts_view _ _ Hl). repeat split; auto.
  Qed.

  Theorem remove_eviction_off_path_invisible es : forall s,
    inv_r s -> rlegal_run k evicts s es -> whole_r (rrun k s es) = whole_r s.
  Proof.
    induction es as [|e r IH]; intros s Hi Hl; [reflexivity|].
    cbn [rrun rlegal_run] in *. destruct Hl as [Hl Hr].
    destruct (rapply_whole s e Hi Hl) as [W I']. rewrite IH by assumption. exact W.
  Qed.

  Corollary remove_descent_correct p es res :
    rlegal_run k evicts (RDown [] 0 p) es -> rrun k (RDown [] 0 p) es = RDone res ->
    view res = fst (fst (tremove k (view p))).
  Proof.
    intros Hl E.
    pose proof (remove_eviction_off_path_invisible es (RDown [] 0 p) (conj (Forall_nil _) I) Hl) as W.
    rewrite E in W. exact W.
  Qed.
End RemoveProofs.

(* committed {80, 000100}; Insert(80ff0180) makes the clean leaf "80" the embedded
   leaf of a new dirty node X (the root's right child); RemoveExisting(8001), an
   ABSENT key: on the way up the root dereferences its left child (a fetch that
   evicts leaf "80" from the value cache), then its right child X, which now reads
   as nil, and collapses: "80" and "80ff0180" are gone *)
Definition f1t_tree : ptree :=
  fst (lazy_run (fun x => x) PNil
         [LIns [128] [1]; LIns [0; 1; 0] [2]; LCommit; LIns [128; 255; 1; 128] [3]]).
Definition evict_own_leaf (p : ptree) : ptree :=
  match p with
  | PNode c lbl (PLeaf true k0 v0) l r => PNode c lbl (PRef (Leaf k0 v0)) l r
  | _ => p
  end.
Definition f1t_steps (n : nat) : list revent := repeat RStep n.
(* the state in which the root has dereferenced n.Left and not yet n.Right *)
Definition f1t_mid : rstate := rrun [128; 1] (RDown [] 0 f1t_tree) (f1t_steps 12).
Definition f1t_evicted : ptree :=
  match f1t_mid with RCol1 _ _ _ _ r _ => evict_own_leaf r | _ => PNil end.

Theorem eviction_f1_transient_refuted :
  (* the fault-free operation changes nothing (the key is absent) *)
  (exists res, rrun [128; 1] (RDown [] 0 f1t_tree) (f1t_steps 14) = RDone res /\
               contents (view res) = [([0; 1; 0], [2]); ([128], [1]); ([128; 255; 1; 128], [3])]) /\
  (* the eviction is a legal cache event in that state ... *)
  (exists fs lbl lf l r lp, f1t_mid = RCol1 fs lbl lf l r lp /\ evict r f1t_evicted) /\
  (* ... and the finished operation has dropped the right subtree *)
  (exists res, rrun [128; 1] f1t_mid [REvictR f1t_evicted; RStep; RStep] = RDone res /\
               contents (view res) = [([0; 1; 0], [2])]).
Proof.
  split; [|split].
  - eexists. split; vm_compute; reflexivity.
  - assert (exists fs lbl lf l c2 lbl2 k0 v0 l2 r2 lp,
              f1t_mid = RCol1 fs lbl lf l (PNode c2 lbl2 (PLeaf true k0 v0) l2 r2) lp) as
        (fs & lbl & lf & l & c2 & lbl2 & k0 & v0 & l2 & r2 & lp & E) by (vm_compute; repeat eexists).
    exists fs, lbl, lf, l, (PNode c2 lbl2 (PLeaf true k0 v0) l2 r2), lp. split; [exact E|].
    unfold f1t_evicted. rewrite E. cbn [evict_own_leaf]. apply ev_in_lf, ev_leaf.
  - eexists. split; vm_compute; reflexivity.
Qed.
