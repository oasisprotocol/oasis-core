(* Invariants of the application model over arbitrary block histories: the pool held by the
   runtime state is always one reachable by verified commitments for the CURRENT round, so the
   pool theorems (finalize only by the rule, rank buckets, membership) apply to every Normal
   block the application emits. *)
From Verif Require Import Lib.Base Roothash.Pool Roothash.PoolSpec Roothash.PoolProofs
  Roothash.PoolInv Roothash.Verify Roothash.VerifyProofs Roothash.App Roothash.AppProofs
  Roothash.Membership.

Definition small_c (c : committee) : Prop := N.of_nat (length c) < 4294967296.
Definition ROUND_BOUND : N := 4611686018427387904.   (* 2^62 *)
Definition round_ok (st : rt_state) : Prop := rs_round st < ROUND_BOUND.
Definition committee_ok (st : rt_state) : Prop := forall c, rs_committee st = Some c -> small_c c.

Definition pool_inv (c : committee) (R : N) (p : pool) : Prop :=
  inv c R p /\ commit_rank_ok c R p /\ votes_members c p.

Definition pool_ok (st : rt_state) : Prop :=
  match rs_pool st, rs_committee st with
  | Some p, Some c => pool_inv c (next_round_of st) p
  | _, _ => True
  end.

Lemma pool_inv_new c R : pool_inv c R new_pool.
Proof. split; [apply inv_new|]. split; [apply commit_rank_new|apply votes_members_new]. Qed.

Lemma pool_inv_process c R p s t : pool_inv c R p -> pool_inv c R (fst (process c p s t)).
Proof.
  intros (A & B & C). split; [apply inv_process; exact A|].
  split; [apply commit_rank_process; exact B|apply votes_members_process; exact C].
Qed.

Lemma pool_inv_add c R p ec :
  small c -> rank_inj c R -> verified R ec -> pool_inv c R p -> pool_inv c R (fst (add c p ec)).
Proof.
  intros Hs Hi Hv (A & B & C). split; [apply inv_add; assumption|].
  split; [apply commit_rank_add; assumption|apply votes_members_add; exact C].
Qed.

Lemma next_round_small st : round_ok st -> next_round_of st = rs_round st + 1.
Proof.
  unfold round_ok, ROUND_BOUND, next_round_of, W64. intros H. apply N.mod_small. lia.
Qed.

Lemma commit_all_pool_inv round bh mm c : forall vcs p p1 code,
  small_c c -> round < ROUND_BOUND ->
  pool_inv c ((round + 1) mod W64) p ->
  commit_all round bh mm c p vcs = (p1, code) -> pool_inv c ((round + 1) mod W64) p1.
Proof.
  intros vcs p p1 code Hc Hr. revert p p1 code.
  assert (HR : (round + 1) mod W64 = round + 1).
  { apply N.mod_small. unfold ROUND_BOUND, W64 in *. lia. }
  destruct (no_wrap_premises c ((round + 1) mod W64)) as [Hs Hi].
  { rewrite HR. unfold small_c, ROUND_BOUND, W64 in *. lia. }
  induction vcs as [|vc r IH]; intros p p1 code I; cbn [commit_all].
  - intros H. injection H as <- _. exact I.
  - destruct (verify round bh mm vc) eqn:V; try (intros H; injection H as <- _; exact I).
    pose proof (verify_ok_verified _ _ _ _ V) as Hv.
    pose proof (pool_inv_add c _ p (vc_ec vc) Hs Hi Hv I) as I1.
    destruct (add c p (vc_ec vc)) as [q e]. cbn [fst] in I1.
    destruct e; try (intros H; injection H as <- _; exact I1).
    apply IH. exact I1.
Qed.

Lemma executor_commit_pool_ok H prm st vcs :
  pool_ok st -> committee_ok st -> round_ok st ->
  pool_ok (fst (fst (executor_commit H prm st vcs))).
Proof.
  intros I Hc Hr.
  destruct (executor_commit_cases H prm st vcs) as [[-> _]|(c & p & p1 & nt & _ & Ec & Ep & E & ->)]; [exact I|].
  unfold pool_ok in *. cbn. rewrite Ep, Ec in *.
  exact (commit_all_pool_inv _ _ _ _ _ _ _ _ (Hc c Ec) Hr I E).
Qed.

Lemma executor_commit_block_inv prm r0 :
  r0 < ROUND_BOUND -> forall H st vcs,
  pool_ok st /\ committee_ok st /\ rs_round st = r0 ->
  let st1 := fst (fst (executor_commit H prm st vcs)) in
  pool_ok st1 /\ committee_ok st1 /\ rs_round st1 = r0.
Proof.
  intros Hr H st vcs (I & Hc & <-). cbn zeta. split; [apply executor_commit_pool_ok; assumption|].
  destruct (executor_commit_cases H prm st vcs) as [[-> _]|(c & p & p1 & nt & _ & _ & _ & _ & ->)];
    (split; [exact Hc|reflexivity]).
Qed.

Lemma begin_block_emits prm st oc :
  let st1 := fst (begin_block prm st (Some oc)) in
  snd (begin_block prm st (Some oc)) = [EvFinalized ((rs_round st + 1) mod W64)] /\
  rs_round st1 = (rs_round st + 1) mod W64 /\ rs_htype st1 <> HNormal /\
  rs_root st1 = rs_root st /\ rs_io st1 = rp_empty prm /\ rs_msgs st1 = rp_empty prm /\
  rs_prev st1 = lookup (rs_round st) (rp_hashes prm) /\
  rs_committee st1 = oc /\
  rs_pool st1 = match oc with Some _ => Some new_pool | None => None end.
Proof.
  destruct oc as [c|]; cbn [begin_block].
  - pose proof (finalize_block_fields prm st HEpochTransition None) as F. cbn zeta in F.
    destruct (finalize_block prm st HEpochTransition None) as [s e]. cbn [fst snd] in *.
    destruct F as (_ & Fr & Ft & Fpv & _ & _ & Fp & Fe & Fh). destruct (Fh ltac:(discriminate)) as (R1 & R2 & R3).
    cbn. rewrite Ft. repeat split; try assumption; discriminate.
  - pose proof (finalize_block_fields prm st HSuspended None) as F. cbn zeta in F.
    destruct (finalize_block prm st HSuspended None) as [s e]. cbn [fst snd] in *.
    destruct F as (_ & Fr & Ft & Fpv & _ & _ & Fp & Fe & Fh). destruct (Fh ltac:(discriminate)) as (R1 & R2 & R3).
    cbn. rewrite Ft. repeat split; try assumption; discriminate.
Qed.

Lemma begin_block_pool_ok prm st ep : pool_ok (fst (begin_block prm st ep)) \/ ep = None.
Proof.
  destruct ep as [oc|]; [left|right; reflexivity].
  pose proof (begin_block_emits prm st oc) as (_ & _ & _ & _ & _ & _ & _ & C & P). unfold pool_ok. rewrite P, C.
  destruct oc; [apply pool_inv_new|exact I].
Qed.

Definition fin_count (evs : list app_event) : N :=
  N.of_nat (length (filter (fun e => match e with EvFinalized _ => true | _ => false end) evs)).

Lemma fin_count_app a b : fin_count (a ++ b) = fin_count a + fin_count b.
Proof. unfold fin_count. rewrite filter_app, app_length. lia. Qed.

Lemma tf_decide_fin_count H prm c p st timeout st1 p2 o2 ev :
  tf_decide H prm c p st timeout = (st1, p2, o2, ev) -> fin_count ev = 0.
Proof.
  intros E. apply tf_decide_spec in E as (_ & _ & _ & [(-> & _)|(rank & -> & _)]); reflexivity.
Qed.

(* a Normal block emitted by one finalization attempt: the rule held, the block carries the
   chosen commitment's roots, and that commitment is the own proposal, FOR THIS ROUND, of a
   primary worker of the committee *)
Definition normal_justified (prm : rt_params) (c : committee) (st' : rt_state) : Prop :=
  exists sc ec d,
    sc_commit sc = Some ec /\ rule c (rp_strag prm) d sc /\
    rs_root st' = lookup (ec_vote ec) (rp_roots prm) /\
    rs_io st' = lookup (ec_vote ec) (rp_ios prm) /\
    rs_msgs st' = lookup (ec_vote ec) (rp_mhs prm) /\
    ec_round ec = rs_round st' /\ ec_node ec = ec_sched ec /\
    In (ec_sched ec) (primary_nodes c).

Lemma try_finalize_pool_ok H prm c p st timeout st' evs :
  rs_pool st = Some p -> rs_committee st = Some c -> pool_ok st ->
  try_finalize H prm c p st timeout = TFOk st' evs ->
  pool_ok st' /\ rs_committee st' = Some c /\
  (fin_count evs = 1 -> rs_htype st' = HNormal -> normal_justified prm c st').
Proof.
  intros Ep Ec I Htf. unfold pool_ok in I. rewrite Ep, Ec in I.
  pose proof (deciding_keeps _ H prm c p timeout (pool_inv_process c _) I) as Ipe.
  apply try_finalize_cases in Htf as (st1 & p2 & o2 & ev & E & K).
  pose proof (tf_decide_fin_count _ _ _ _ _ _ _ _ _ _ E) as Hev0.
  apply tf_decide_spec in E as ((nt & ->) & Epr & _ & _).
  assert (Hfresh : forall e2, new_block prm (with_timeout st nt) st' e2 -> pool_ok st' /\ rs_committee st' = Some c).
  { intros e2 (_ & _ & _ & P & _ & C & _). cbn in C. rewrite Ec in C. split; [|exact C].
    unfold pool_ok. rewrite P, C. apply pool_inv_new. }
  destruct K as [(sc & ec & e2 & -> & Hc & F & ->)|[(-> & -> & ->)|(e2 & _ & F & ->)]].
  - apply finalize_normal_spec in F as (B & _ & Froot & Fio & Fm).
    split; [apply (Hfresh e2 B)|]. split; [apply (Hfresh e2 B)|]. intros _ _.
    destruct Ipe as ((Ie & _) & Icr & _).
    destruct (Icr _ _ _ (process_ok_is_highest _ _ _ _ _ _ Epr) Hc) as (K1 & K2 & K3).
    exists sc, ec, (disc (fst (deciding H prm c p timeout))). repeat split; try assumption.
    + eapply finalize_only_if_rule; [exact Ie|exact Epr].
    + destruct B as (_ & -> & _). exact K2.
    + apply (scheduler_rank_some _ _ _ _ K3).
  - split; [|split; [exact Ec|rewrite Hev0; discriminate]].
    unfold pool_ok. cbn. rewrite Ec.
    pose proof (pool_inv_process c _ _ (rp_strag prm) (snd (deciding H prm c p timeout)) Ipe) as I'.
    rewrite Epr in I'. exact I'.
  - apply fail_round_spec in F as (B & Fh & _).
    split; [apply (Hfresh e2 B)|]. split; [apply (Hfresh e2 B)|]. congruence.
Qed.

Lemma try_finalize_round_pool_ok H prm st timeout st' evs :
  pool_ok st -> try_finalize_round H prm st timeout = EndOk st' evs ->
  pool_ok st' /\ rs_committee st' = rs_committee st /\
  (fin_count evs = 1 -> rs_htype st' = HNormal ->
     exists c, rs_committee st = Some c /\ normal_justified prm c st').
Proof.
  intros I Hx. apply try_finalize_round_ok in Hx as (c & p & _ & Ec & Ep & E).
  destruct (try_finalize_pool_ok _ _ _ _ _ _ _ _ Ep Ec I E) as (A & B & J).
  split; [exact A|]. split; [congruence|]. intros Hev Hn. exists c. split; [exact Ec|]. exact (J Hev Hn).
Qed.

Lemma try_finalize_rounds H prm c p st timeout st' evs :
  round_ok st ->
  try_finalize H prm c p st timeout = TFOk st' evs ->
  fin_count evs <= 1 /\ rs_round st' = rs_round st + fin_count evs /\
  (fin_count evs = 1 -> rs_pool st' = Some new_pool /\ rs_next_timeout st' = TimeoutNever).
Proof.
  intros Hr Htf. apply try_finalize_emits in Htf as (st1 & p2 & o2 & ev & E & K).
  pose proof (tf_decide_fin_count _ _ _ _ _ _ _ _ _ _ E) as Hev0.
  apply tf_decide_spec in E as ((nt & ->) & _).
  destruct K as [(e2 & (-> & Fr & _ & Fp & Ft & _) & ->)|(_ & -> & ->)].
  - rewrite fin_count_app, Hev0. cbn. split; [lia|]. split; [|split; assumption].
    rewrite Fr. apply (next_round_small st Hr).
  - rewrite Hev0. split; [lia|]. split; [cbn; lia|discriminate].
Qed.

Lemma try_finalize_round_rounds H prm st timeout st' evs :
  round_ok st -> try_finalize_round H prm st timeout = EndOk st' evs ->
  fin_count evs <= 1 /\ rs_round st' = rs_round st + fin_count evs /\
  (fin_count evs = 1 -> rs_next_timeout st' = TimeoutNever).
Proof.
  intros Hr Hx. apply try_finalize_round_ok in Hx as (c & p & _ & _ & _ & E).
  destruct (try_finalize_rounds _ _ _ _ _ _ _ _ Hr E) as (A & B & C).
  split; [exact A|]. split; [exact B|]. intros H1. apply (C H1).
Qed.

Lemma end_block_spec H prm st fin st' evs :
  pool_ok st -> round_ok st -> (0 < H)%Z ->
  end_block H prm st fin = EndOk st' evs ->
  pool_ok st' /\ rs_committee st' = rs_committee st /\
  fin_count evs <= 1 /\ rs_round st' = rs_round st + fin_count evs /\
  (fin_count evs = 1 -> rs_htype st' = HNormal ->
     exists c, rs_committee st = Some c /\ normal_justified prm c st').
Proof.
  intros I Hr Hpos. unfold end_block.
  set (r1 := if fin then try_finalize_round H prm st false else EndOk st []).
  assert (S1 : forall s e, r1 = EndOk s e ->
            pool_ok s /\ rs_committee s = rs_committee st /\ fin_count e <= 1 /\
            rs_round s = rs_round st + fin_count e /\
            (fin_count e = 1 -> rs_next_timeout s = TimeoutNever) /\
            (fin_count e = 1 -> rs_htype s = HNormal -> exists c, rs_committee st = Some c /\ normal_justified prm c s)).
  { unfold r1. destruct fin; intros s e Hx.
    - destruct (try_finalize_round_pool_ok _ _ _ _ _ _ I Hx) as (A & B & C).
      destruct (try_finalize_round_rounds _ _ _ _ _ _ Hr Hx) as (D & E & F).
      repeat split; assumption.
    - injection Hx as <- <-. cbn. repeat split; try assumption; try lia; try reflexivity. }
  destruct r1 as [st1 e1|cd]; [|discriminate].
  destruct (S1 st1 e1 eq_refl) as (A & B & C & D & E & F).
  destruct ((rs_next_timeout st1 =? H)%Z && negb (H =? TimeoutNever)%Z) eqn:Ec.
  - (* the round timer fired: the first attempt emitted nothing *)
    assert (H0 : fin_count e1 = 0).
    { destruct (N.eq_dec (fin_count e1) 1) as [H1|H1]; [|lia].
      apply E in H1. rewrite H1 in Ec. unfold TimeoutNever in Ec. lia. }
    destruct (try_finalize_round H prm st1 true) as [st2 e2|cd] eqn:E2; [|discriminate].
    intros Hx. injection Hx as <- <-.
    assert (Hr1 : round_ok st1) by (unfold round_ok in *; lia).
    destruct (try_finalize_round_pool_ok _ _ _ _ _ _ A E2) as (A2 & B2 & C2).
    destruct (try_finalize_round_rounds _ _ _ _ _ _ Hr1 E2) as (D2 & E2' & _).
    rewrite fin_count_app, H0. repeat split; try assumption; try congruence; try lia.
    rewrite <- B. exact C2.
  - intros Hx. injection Hx as <- <-. repeat split; assumption.
Qed.

Definition block_ok (st : rt_state) (b : ablock) : Prop :=
  rs_round st + 2 < ROUND_BOUND /\ (0 < ab_height b)%Z /\
  (forall c, ab_epoch b = Some (Some c) -> small_c c).

Lemma begin_block_spec prm st ep :
  pool_ok st -> committee_ok st -> rs_round st + 2 < ROUND_BOUND ->
  (forall c, ep = Some (Some c) -> small_c c) ->
  let st1 := fst (begin_block prm st ep) in
  let e := snd (begin_block prm st ep) in
  pool_ok st1 /\ committee_ok st1 /\ fin_count e <= 1 /\ rs_round st1 = rs_round st + fin_count e /\
  (fin_count e = 1 -> rs_htype st1 <> HNormal /\ rs_root st1 = rs_root st /\ rs_io st1 = rp_empty prm /\
                      rs_msgs st1 = rp_empty prm /\ rs_prev st1 = lookup (rs_round st) (rp_hashes prm)).
Proof.
  intros I Hc Hr Hsm. cbn zeta.
  split; [destruct (begin_block_pool_ok prm st ep) as [P| ->]; [exact P|exact I]|].
  destruct ep as [oc|].
  - pose proof (begin_block_emits prm st oc) as (-> & Fr & Fh & R1 & R2 & R3 & Fpv & C & _).
    rewrite N.mod_small in Fr by (unfold ROUND_BOUND, W64 in *; lia).
    split; [intros c Hx; rewrite C in Hx; apply Hsm; rewrite Hx; reflexivity|].
    split; [cbn; lia|]. split; [rewrite Fr; reflexivity|]. intros _. repeat split; assumption.
  - cbn. repeat split; try assumption; try lia; intros; lia.
Qed.

Lemma app_block_spec prm st b :
  pool_ok st -> committee_ok st -> block_ok st b ->
  let st' := fst (app_block prm st b) in
  let o := snd (app_block prm st b) in
  pool_ok st' /\ committee_ok st' /\
  fin_count (bo_begin o) <= 1 /\ fin_count (bo_end o) <= 1 /\
  rs_round st' = rs_round st + fin_count (bo_begin o) + fin_count (bo_end o) /\
  (fin_count (bo_end o) = 1 -> rs_htype st' = HNormal ->
     exists c, rs_committee st' = Some c /\ normal_justified prm c st').
Proof.
  intros I Hc (Hr & Hpos & Hsm). cbn zeta. unfold app_block.
  pose proof (begin_block_spec prm st (ab_epoch b) I Hc Hr Hsm) as B. cbn zeta in B.
  destruct (begin_block prm st (ab_epoch b)) as [st1 eb]. cbn [fst snd] in B.
  destruct B as (I1 & Hc1 & Bc & Br & _).
  assert (Hr1 : round_ok st1) by (unfold round_ok; lia).
  pose proof (run_txs_keeps prm _ (executor_commit_block_inv prm (rs_round st1) Hr1)
                (ab_height b) (ab_txs b) st1 false (conj I1 (conj Hc1 eq_refl))) as (I2 & Hc2 & Rr2).
  destruct (run_txs (ab_height b) prm st1 (ab_txs b) false) as [[st2 codes] fin]. cbn [fst] in I2, Hc2, Rr2.
  assert (Hr2 : round_ok st2) by (unfold round_ok; lia).
  destruct (end_block (ab_height b) prm st2 fin) as [s e|cd] eqn:Ee; cbn [fst snd bo_begin bo_end].
  - destruct (end_block_spec _ _ _ _ _ _ I2 Hr2 Hpos Ee) as (A & B' & C & D & E).
    split; [exact A|]. split; [intros c Hx; apply Hc2; rewrite <- B'; exact Hx|].
    split; [exact Bc|]. split; [exact C|]. split; [lia|].
    intros H1 Hn. destruct (E H1 Hn) as (c & Hcc & J). exists c. split; [congruence|exact J].
  - assert (F0 : fin_count (@nil app_event) = 0) by reflexivity. rewrite F0.
    split; [exact I2|]. split; [exact Hc2|]. split; [exact Bc|]. split; [lia|]. split; [lia|].
    intros Hx. lia.
Qed.

Fixpoint history_ok (st_round : N) (bs : list ablock) : Prop :=
  match bs with
  | [] => True
  | b :: r => st_round + 2 < ROUND_BOUND /\ (0 < ab_height b)%Z /\
              (forall c, ab_epoch b = Some (Some c) -> small_c c) /\
              (forall d, d <= 2 -> history_ok (st_round + d) r)
  end.

Lemma app_states_prefix prm bs rest : forall st,
  pool_ok st -> committee_ok st -> history_ok (rs_round st) (bs ++ rest) ->
  pool_ok (app_states prm st bs) /\ committee_ok (app_states prm st bs) /\
  history_ok (rs_round (app_states prm st bs)) rest.
Proof.
  unfold app_states. induction bs as [|b r IH]; intros st I Hc Hh; cbn [fold_left app] in *; [auto|].
  destruct Hh as (H1 & H2 & H3 & H4).
  pose proof (app_block_spec prm st b I Hc (conj H1 (conj H2 H3))) as S. cbn zeta in S.
  destruct S as (A & B & C & D & E & _). apply IH; try assumption.
  rewrite E, <- N.add_assoc. apply H4. lia.
Qed.

Lemma app_states_inv prm bs st :
  pool_ok st -> committee_ok st -> history_ok (rs_round st) bs ->
  pool_ok (app_states prm st bs) /\ committee_ok (app_states prm st bs).
Proof.
  intros I Hc Hh. rewrite <- (app_nil_r bs) in Hh.
  destruct (app_states_prefix prm bs [] st I Hc Hh) as (A & B & _). split; assumption.
Qed.

Lemma pool_ok_new prm round root : pool_ok (new_runtime prm round root) /\ committee_ok (new_runtime prm round root).
Proof. split; [exact I|]. intros c H. discriminate H. Qed.

(* over every history: a Normal block emitted in EndBlock is justified by the rule *)
Theorem normal_block_only_if_rule_history prm bs b round root :
  history_ok round (bs ++ [b]) ->
  let st := app_states prm (new_runtime prm round root) bs in
  let st' := fst (app_block prm st b) in
  let o := snd (app_block prm st b) in
  fin_count (bo_end o) = 1 -> rs_htype st' = HNormal ->
  exists c, rs_committee st' = Some c /\ normal_justified prm c st'.
Proof.
  intros Hh. cbn zeta. destruct (pool_ok_new prm round root) as [P Q].
  destruct (app_states_prefix prm bs [b] _ P Q Hh) as (I & Hc & H1 & H2 & H3 & _).
  apply (app_block_spec prm _ b I Hc (conj H1 (conj H2 H3))).
Qed.

Theorem rounds_increase_by_one_per_block prm bs : forall st,
  pool_ok st -> committee_ok st -> history_ok (rs_round st) bs ->
  rs_round (app_states prm st bs) =
  rs_round st + fold_right (fun o acc => fin_count (bo_begin o) + fin_count (bo_end o) + acc) 0 (app_run prm st bs).
Proof.
  unfold app_states. induction bs as [|b r IH]; intros st I Hc Hh; cbn [fold_left app_run fold_right]; [lia|].
  destruct Hh as (H1 & H2 & H3 & H4).
  pose proof (app_block_spec prm st b I Hc (conj H1 (conj H2 H3))) as S. cbn zeta in S.
  destruct (app_block prm st b) as [st1 o] eqn:E. cbn [fst snd] in *.
  destruct S as (A & B & C & D & Er & _). cbn [fold_right].
  rewrite IH; try assumption; [rewrite Er; lia|].
  rewrite Er, <- N.add_assoc. apply H4. lia.
Qed.

Lemma stale_commit_rejected H prm st vcs vc :
  In vc vcs -> vc_round vc <> next_round_of st ->
  snd (fst (executor_commit H prm st vcs)) <> 0 /\ fst (fst (executor_commit H prm st vcs)) = st.
Proof.
  intros Hin Hne.
  assert (Hcode : snd (fst (executor_commit H prm st vcs)) <> 0).
  { intros E0. destruct (executor_commit_cases H prm st vcs) as [(_ & _ & Hnil)|(c & p & p1 & nt & _ & _ & _ & E & _)].
    - rewrite (Hnil E0) in Hin. destruct Hin.
    - apply commit_all_ok in E as [F _]. rewrite Forall_forall in F.
      apply (F vc) in Hin. apply verify_ok_header in Hin as (_ & _ & Rr & _). exact (Hne Rr). }
  split; [exact Hcode|]. apply executor_commit_all_or_nothing. exact Hcode.
Qed.

(* after a block was emitted (failed round or not) a commitment made for the round that just
   ended cannot enter the pool of the next round, and that pool starts empty *)
Theorem no_stale_commit_after_block H prm c p st timeout st' evs vcs vc :
  round_ok st ->
  try_finalize H prm c p st timeout = TFOk st' evs -> fin_count evs = 1 ->
  In vc vcs -> vc_round vc = next_round_of st ->
  rs_pool st' = Some new_pool /\
  snd (fst (executor_commit H prm st' vcs)) <> 0 /\ fst (fst (executor_commit H prm st' vcs)) = st'.
Proof.
  intros Hr Htf H1 Hin Hv.
  destruct (try_finalize_rounds _ _ _ _ _ _ _ _ Hr Htf) as (_ & Rr & Hp).
  destruct (Hp H1) as [Hpool _]. rewrite H1 in Rr.
  split; [exact Hpool|]. apply stale_commit_rejected with (vc := vc); [exact Hin|].
  rewrite Hv. unfold next_round_of. rewrite Rr.
  unfold round_ok, ROUND_BOUND in Hr. rewrite !N.mod_small by (unfold W64; lia). lia.
Qed.
