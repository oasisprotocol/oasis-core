(* The size estimate: the bound the chunkers rely on (a chunk is closed by the
   first key that lifts the estimate to the chunk size), the sequential chunker
   as iterated [next_run], and the proof builder port's estimate as the sum
   over its included set. *)
From Verif Require Import Lib.Base Mkvs.Trie Ckpt.Model Ckpt.Proofs Ckpt.Stack.
Local Open Scope nat_scope.

Definition afull (a : aent) : N := snd (fst a).
Definition amarg (a : aent) : N := snd a.
Definition msum (l : list aent) : N := fold_right (fun a s => (amarg a + s)%N) 0%N l.
(* estimate of a fresh builder after visiting exactly the keys of [r] (consecutive keys) *)
Definition run_est (r : list aent) : N :=
  match r with [] => 0%N | a :: rest => (afull a + msum rest)%N end.

Lemma take_more_bound size l : forall acc,
  let k := length (take_more size acc l) in
  (1 <= k -> (acc + msum (firstn (k - 1) l) < size)%N) /\
  (k < length l -> (size <= acc + msum (firstn k l))%N).
Proof.
  induction l as [|[[e f] m] r IH]; intros acc; cbn [take_more].
  - cbn. split; lia.
  - destruct (N.ltb_spec acc size) as [Hlt|Hge]; cbn [length].
    + specialize (IH (acc + m)%N). cbn zeta in IH. destruct IH as [IH1 IH2].
      set (k := length (take_more size (acc + m) r)) in *. split.
      * intros _. destruct k as [|k'].
        { cbn. unfold msum. cbn. lia. }
        { replace (S (S k') - 1) with (S k') by lia. cbn [firstn msum fold_right]. fold (msum (firstn k' r)).
          unfold amarg at 1. cbn [snd]. replace (S k' - 1) with k' in IH1 by lia.
          specialize (IH1 ltac:(lia)). lia. }
      * intros Hk. cbn [firstn msum fold_right]. fold (msum (firstn k r)). unfold amarg at 1. cbn [snd].
        specialize (IH2 ltac:(lia)). lia.
    + split; [lia|]. intros _. cbn. lia.
Qed.

(* one chunk: [n] keys are visited; before the last one the estimate was below
   the chunk size (else the chunk would have been closed earlier), and unless
   the keys ran out the estimate has reached the chunk size *)
Theorem next_run_bound_l size l :
  let n := length (next_run size l) in
  (2 <= n -> (run_est (firstn (n - 1) l) < size)%N) /\
  (n < length l -> (size <= run_est (firstn n l))%N) /\
  (l <> [] -> 1 <= n).
Proof.
  destruct l as [|[[e f] m] r]; cbn [next_run length].
  - cbn. repeat split; try lia. congruence.
  - pose proof (take_more_bound size r f) as [B1 B2]. cbn zeta in *.
    set (k := length (take_more size f r)) in *. repeat split.
    + intros Hk. replace (S k - 1) with (S (k - 1)) by lia. cbn [firstn run_est]. unfold afull. cbn [fst snd].
      apply B1. lia.
    + intros Hk. cbn [firstn run_est]. unfold afull. cbn [fst snd]. apply B2. lia.
    + lia.
Qed.

(* what one more key adds is at most the cost of its own root-to-leaf path *)
Lemma annot_marg_le t : forall A a, In a (annot A t) -> (A + amarg a <= afull a)%N.
Proof.
  induction t as [|k v|lbl lf l IHl r IHr]; intros A a Hin; cbn [annot] in Hin.
  - destruct Hin.
  - destruct Hin as [<-|[]]. unfold amarg, afull. cbn. lia.
  - set (c := node_cost lbl lf) in *.
    assert (forall a, In a (annot_lf (A + c) lf ++ annot (A + c) l ++ annot (A + c) r) ->
            (A + c + amarg a <= afull a)%N) as Hall.
    { intros a0 Ha. rewrite !in_app_iff in Ha. destruct Ha as [Ha|[Ha|Ha]]; auto.
      destruct lf as [[k v]|]; cbn in Ha; [|tauto]. destruct Ha as [<-|[]]. unfold amarg, afull. cbn. lia. }
    destruct (annot_lf (A + c) lf ++ annot (A + c) l ++ annot (A + c) r) as [|[[e f] m] rest]; [destruct Hin|].
    cbn [bump] in Hin. destruct Hin as [<-|Hin].
    + specialize (Hall (e, f, m) (or_introl eq_refl)). unfold amarg, afull in *. cbn [fst snd] in *. lia.
    + specialize (Hall a (or_intror Hin)). lia.
Qed.

(* ... with equality for the first key below a node *)
Lemma annot_first u : forall B a rest, annot B u = a :: rest -> afull a = (B + amarg a)%N.
Proof.
  induction u as [|k v|lbl lf l IHl r IHr]; intros B a rest E; cbn [annot] in E.
  - discriminate.
  - injection E as <- <-. reflexivity.
  - set (c := node_cost lbl lf) in *.
    destruct (annot_lf (B + c) lf ++ annot (B + c) l ++ annot (B + c) r) as [|[[e f] m] rest0] eqn:El; [discriminate|].
    cbn [bump] in E. injection E as <- <-. unfold afull, amarg. cbn [fst snd].
    destruct lf as [[k v]|]; cbn [annot_lf app] in El.
    + injection El as <- <- <- _. lia.
    + destruct (annot (B + c) l) as [|a1 r1] eqn:E1; cbn [app] in El.
      * specialize (IHr _ _ _ El). unfold afull, amarg in IHr. cbn [fst snd] in IHr. lia.
      * injection El as -> _. specialize (IHl _ _ _ E1). unfold afull, amarg in IHl. cbn [fst snd] in IHl. lia.
Qed.

(* the bound: the estimate of a chunk is below chunk size + the cost of the
   root-to-leaf path of its last key (a one-key chunk costs exactly that path) *)
Theorem chunk_size_bound_l size A s d :
  let l := skipn d (annot A s) in
  let n := length (next_run size l) in
  forall a, nth_error l (n - 1) = Some a -> 1 <= n ->
  (n = 1 -> run_est (firstn n l) = afull a) /\
  (2 <= n -> (run_est (firstn n l) < size + afull a)%N).
Proof.
  intros l n a Ha Hn. pose proof (next_run_bound_l size l) as (B1 & _ & _). fold n in B1.
  assert (In a (annot A s)) as Hin.
  { apply nth_error_In in Ha. unfold l in Ha. rewrite <- (firstn_skipn d (annot A s)). apply in_or_app. now right. }
  pose proof (annot_marg_le s A a Hin) as Hm.
  destruct l as [|a0 rest] eqn:El; [destruct (n - 1); discriminate|]. split.
  - intros E1. rewrite E1 in *. cbn in Ha. injection Ha as <-. cbn. unfold msum. cbn. lia.
  - intros H2. specialize (B1 H2).
    destruct n as [|[|n']]; try lia. replace (S (S n') - 1) with (S n') in * by lia.
    cbn [nth_error] in Ha. cbn [firstn run_est] in *.
    assert (msum (firstn (S n') rest) = (msum (firstn n' rest) + amarg a)%N) as Es.
    { clear - Ha. revert rest Ha. induction n' as [|n' IH]; intros [|x rest] Ha; cbn in Ha; try discriminate.
      - injection Ha as ->. cbn. lia.
      - specialize (IH rest Ha). cbn [firstn msum fold_right] in *. fold (msum (firstn (S n') rest)).
        fold (msum (firstn n' rest)) in *. rewrite IH. lia. }
    change (match rest with [] => [] | a1 :: l0 => a1 :: firstn n' l0 end) with (firstn (S n') rest).
    rewrite Es. lia.
Qed.

Lemma runs_aux_unfold size l : forall cur acc,
  runs_aux size cur acc l =
  (rev cur ++ take_more size acc l) ::
  match skipn (length (take_more size acc l)) l with
  | [] => []
  | (e, f, _) :: r' => runs_aux size [e] f r'
  end.
Proof.
  induction l as [|[[e f] m] r IH]; intros cur acc; cbn [runs_aux take_more].
  - cbn. now rewrite app_nil_r.
  - destruct (N.ltb acc size).
    + rewrite IH. cbn [rev length skipn]. rewrite <- app_assoc. reflexivity.
    + cbn [length skipn]. now rewrite app_nil_r.
Qed.

Fixpoint iter_runs (fuel : nat) (size : N) (l : list aent) : list (list entry) :=
  match fuel, l with
  | _, [] => []
  | O, _ => []
  | S f, _ => next_run size l :: iter_runs f size (skipn (length (next_run size l)) l)
  end.

Lemma runs_aux_iter size : forall fuel e f m r, length r < fuel ->
  runs_aux size [e] f r = iter_runs fuel size ((e, f, m) :: r).
Proof.
  induction fuel as [|fuel IH]; intros e f m r Hl; [lia|].
  rewrite runs_aux_unfold. cbn [iter_runs next_run rev app length skipn]. f_equal.
  destruct (skipn (length (take_more size f r)) r) as [|[[e' f'] m'] r'] eqn:Es; [destruct fuel; reflexivity|].
  apply IH. assert (length (skipn (length (take_more size f r)) r) <= length r) as Hle
    by (rewrite skipn_length; lia). rewrite Es in Hle. cbn in Hle. lia.
Qed.

Theorem seq_runs_iter_l size t :
  contents t <> [] -> seq_runs size t = iter_runs (length (contents t)) size (annot 0 t).
Proof.
  intros Hne. unfold seq_runs. rewrite <- (annot_length 0%N t).
  destruct (annot 0%N t) as [|[[e f] m] r] eqn:Ea.
  - exfalso. apply Hne. rewrite <- (annot_entries t 0%N), Ea. reflexivity.
  - apply runs_aux_iter. cbn. lia.
Qed.

Lemma path_eqb_eq a : forall b, path_eqb a b = true <-> a = b.
Proof.
  induction a as [|x a IH]; intros [|y b]; cbn [path_eqb]; split; try congruence; try reflexivity.
  - intros E. apply andb_true_iff in E as [E1 E2]. apply Bool.eqb_prop in E1. apply IH in E2. congruence.
  - intros [= -> ->]. rewrite Bool.eqb_reflx. cbn. now apply IH.
Qed.

Lemma lf_eqb_eq a b : lf_eqb a b = true <-> a = b.
Proof.
  destruct a as [[k v]|], b as [[k' v']|]; cbn [lf_eqb]; split; try congruence; try reflexivity.
  - intros E. apply andb_true_iff in E as [E1 E2]. apply bytes_eqb_eq in E1, E2. congruence.
  - intros [= -> ->]. rewrite !bytes_eqb_refl. reflexivity.
Qed.

Lemma tree_eqb_eq a : forall b, tree_eqb a b = true <-> a = b.
Proof.
  induction a as [|k v|lbl lf l IHl r IHr]; intros [|k' v'|lbl' lf' l' r']; cbn [tree_eqb];
    split; try congruence; try reflexivity.
  - intros E. apply andb_true_iff in E as [E1 E2]. apply bytes_eqb_eq in E1, E2. congruence.
  - intros [= -> ->]. rewrite !bytes_eqb_refl. reflexivity.
  - intros E. repeat (apply andb_true_iff in E as [E ?]).
    apply path_eqb_eq in E. apply lf_eqb_eq in H1. apply IHl in H0. apply IHr in H. congruence.
  - intros [= -> -> -> ->]. rewrite (proj2 (path_eqb_eq lbl' lbl') eq_refl), (proj2 (lf_eqb_eq lf' lf') eq_refl),
      (proj2 (IHl l') eq_refl), (proj2 (IHr r') eq_refl). reflexivity.
Qed.

Lemma mem_tree_in n l : existsb (tree_eqb n) l = true <-> In n l.
Proof.
  rewrite existsb_exists. split.
  - intros (x & Hin & E). apply tree_eqb_eq in E. now subst.
  - intros Hin. exists n. split; [assumption|]. now apply tree_eqb_eq.
Qed.

Definition nsize_sum (l : list tree) : N := fold_right (fun n s => (node_size n + s)%N) 0%N l.

Definition pb_ok (pb : pbuilder) : Prop := NoDup (inc pb) /\ psize pb = nsize_sum (inc pb) /\ ~ In Nil (inc pb).

Lemma include_nonnil n pb : n <> Nil ->
  include n pb = if existsb (tree_eqb n) (inc pb) then pb else mkpb (n :: inc pb) (psize pb + node_size n).
Proof. destruct n; [congruence|reflexivity..]. Qed.

Lemma include_ok n pb : pb_ok pb ->
  pb_ok (include n pb) /\
  (forall m, In m (inc (include n pb)) <-> In m (inc pb) \/ (m = n /\ n <> Nil)).
Proof.
  intros Hok. destruct (nil_or_not n) as [->|Hn].
  { split; [exact Hok|]. intros m. cbn. tauto. }
  rewrite include_nonnil by exact Hn. destruct Hok as (Hnd & Hs & Hnil).
  destruct (existsb (tree_eqb n) (inc pb)) eqn:E.
  - apply mem_tree_in in E. split; [repeat split; assumption|]. intros m. split; [auto|].
    intros [?|[-> _]]; assumption.
  - assert (~ In n (inc pb)) as Hni by (rewrite <- mem_tree_in; congruence).
    split.
    + repeat split; cbn [inc psize]; [now constructor|rewrite Hs; apply N.add_comm|].
      intros [?|?]; [congruence|auto].
    + intros m. cbn [inc In]. split; [intros [<-|?]; auto|]. intros [?|[-> _]]; auto.
Qed.

Lemma include_fold_ok ns : forall pb0, pb_ok pb0 ->
  let pb := fold_left (fun pb n => include n pb) ns pb0 in
  pb_ok pb /\ forall m, In m (inc pb) <-> In m (inc pb0) \/ (In m ns /\ m <> Nil).
Proof.
  induction ns as [|n ns IH]; intros pb0 Hok; cbn [fold_left].
  - split; [assumption|]. intros m. cbn. tauto.
  - destruct (include_ok n pb0 Hok) as [Hok1 Hin1]. destruct (IH _ Hok1) as [Hok2 Hin2].
    split; [assumption|]. intros m. rewrite Hin2, Hin1. cbn [In]. split.
    + intros [[?|[-> ?]]|[? ?]]; auto.
    + intros [?|[[<-|?] ?]]; auto.
Qed.

(* After any sequence of Include calls the estimate is the sum of
   1 + len(serialized) over the DISTINCT included nodes.  An internal node's
   serialization contains its inline leaf, and that leaf is a node of its own
   when it was visited: it is then counted twice (proof.go:190-199). *)
Theorem pb_size_is_sum_l ns :
  let pb := fold_left (fun pb n => include n pb) ns (mkpb [] 0%N) in
  NoDup (inc pb) /\ psize pb = nsize_sum (inc pb) /\
  forall m, In m (inc pb) <-> (In m ns /\ m <> Nil).
Proof.
  destruct (include_fold_ok ns (mkpb [] 0%N)) as [(Hnd & Hs & _) Hin].
  { split; [cbn; constructor|]. split; [reflexivity|intros []]. }
  cbn zeta. split; [assumption|]. split; [assumption|]. intros m. rewrite Hin. cbn [inc In]. tauto.
Qed.

Example double_count_of_inline_leaf lbl k v l r :
  let n := Node lbl (Some (k, v)) l r in
  psize (include (Leaf k v) (include n (mkpb [] 0%N))) = (node_cost lbl (Some (k, v)) + leaf_cost k v)%N.
Proof. cbn. lia. Qed.
