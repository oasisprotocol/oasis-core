(* Sorted association lists keyed by byte strings: the abstract ordered map.
   A sorted list is determined by its lookups ([sorted_ext_get]), and
   [al_set] / [al_del] are characterised by the lookups of their result
   ([al_get_set], [al_get_del]); the membership forms follow. *)
From Verif Require Import Lib.Base Mkvs.Trie Mkvs.BitsProofs.

Lemma key_lt_neq a b : key_lt a b -> fst a <> fst b.
Proof. apply bytes_cmp_lt_neq. Qed.

Lemma sorted_cons_lt x y l : sorted (y :: l) -> key_lt x y -> Forall (key_lt x) (y :: l).
Proof.
  intros [Hy _] Hxy. constructor; [exact Hxy|]. eapply Forall_impl; [|exact Hy].
  intros a. exact (bytes_cmp_lt_trans _ _ _ Hxy).
Qed.

Lemma sorted_app a b :
  sorted a -> sorted b -> (forall x y, In x a -> In y b -> key_lt x y) -> sorted (a ++ b).
Proof.
  induction a as [|x a IH]; cbn [app sorted]; intros Ha Hb Hab; [exact Hb|].
  destruct Ha as [Hx Ha]. split.
  - apply Forall_app. split; [exact Hx|]. apply Forall_forall. intros y Hy. apply Hab; cbn; auto.
  - apply IH; auto. intros; apply Hab; cbn; auto.
Qed.

Lemma sorted_app_inv a b :
  sorted (a ++ b) -> sorted a /\ sorted b /\ (forall x y, In x a -> In y b -> key_lt x y).
Proof.
  induction a as [|x a IH]; cbn [app sorted]; intros H.
  - repeat split; auto. intros ? ? [].
  - destruct H as [Hx H]. apply IH in H as (Ha & Hb & Hab).
    apply Forall_app in Hx as [Hxa Hxb]. repeat split; auto.
    intros u y [<-|Hu] Hy; [|auto]. rewrite Forall_forall in Hxb. auto.
Qed.

Lemma al_get_some_in k l v : al_get k l = Some v -> In (k, v) l.
Proof.
  induction l as [|[k0 v0] l IH]; cbn [al_get]; [discriminate|].
  destruct (bytes_eqb k0 k) eqn:E.
  - apply bytes_eqb_eq in E. subst. intros [= ->]. cbn; auto.
  - intros H. right. auto.
Qed.
Lemma al_get_notin k l : (forall v, ~ In (k, v) l) -> al_get k l = None.
Proof.
  intros H. destruct (al_get k l) as [v|] eqn:E; [|reflexivity].
  apply al_get_some_in in E. exfalso. eapply H; eauto.
Qed.
Lemma al_get_lt_none k v l : Forall (key_lt (k, v)) l -> al_get k l = None.
Proof.
  intros Hx. apply al_get_notin. intros v' Hin. rewrite Forall_forall in Hx.
  exact (key_lt_neq _ _ (Hx _ Hin) eq_refl).
Qed.

Lemma in_sorted_get k v l : sorted l -> (In (k, v) l <-> al_get k l = Some v).
Proof.
  intros Hs. split; [|apply al_get_some_in].
  induction l as [|[k0 v0] l IH]; cbn [In al_get sorted] in *; [tauto|]. destruct Hs as [Hx Hs].
  intros [[= -> ->]|Hin].
  - now rewrite bytes_eqb_refl.
  - destruct (bytes_eqb k0 k) eqn:E; [|auto]. apply bytes_eqb_eq in E. subst k0.
    rewrite Forall_forall in Hx. now apply Hx, key_lt_neq in Hin.
Qed.

Lemma sorted_key_unique l k v1 v2 : sorted l -> In (k, v1) l -> In (k, v2) l -> v1 = v2.
Proof. intros Hs H1 H2. apply (in_sorted_get _ _ _ Hs) in H1, H2. congruence. Qed.

Lemma sorted_ext l1 l2 :
  sorted l1 -> sorted l2 -> (forall e, In e l1 <-> In e l2) -> l1 = l2.
Proof.
  revert l2; induction l1 as [|x l1 IH]; intros l2 H1 H2 E.
  - destruct l2 as [|y l2]; [reflexivity|]. exfalso. apply (E y). cbn; auto.
  - destruct l2 as [|y l2]; [exfalso; apply (E x); cbn; auto|].
    cbn [sorted] in H1, H2. destruct H1 as [Hx H1], H2 as [Hy H2].
    rewrite Forall_forall in Hx, Hy.
    assert (x = y) as ->.
    { destruct (proj1 (E x) (or_introl eq_refl)) as [E1|E1]; [auto|].
      destruct (proj2 (E y) (or_introl eq_refl)) as [E2|E2]; [auto|].
      specialize (Hx _ E2). specialize (Hy _ E1). unfold key_lt in *.
      rewrite bytes_cmp_antisym, Hx in Hy. discriminate. }
    f_equal. apply IH; auto. intros e; split; intros He.
    + destruct (proj1 (E e) (or_intror He)) as [<-|]; [|auto]. now apply Hx, key_lt_neq in He.
    + destruct (proj2 (E e) (or_intror He)) as [<-|]; [|auto]. now apply Hy, key_lt_neq in He.
Qed.

Lemma sorted_ext_get l1 l2 :
  sorted l1 -> sorted l2 -> (forall k, al_get k l1 = al_get k l2) -> l1 = l2.
Proof.
  intros H1 H2 E. apply sorted_ext; auto. intros [k v].
  rewrite !in_sorted_get by assumption. now rewrite E.
Qed.

Lemma al_get_set k' k v l :
  al_get k' (al_set k v l) = if bytes_eqb k k' then Some v else al_get k' l.
Proof.
  induction l as [|[k0 v0] l IH]; cbn [al_set al_get]; [reflexivity|].
  destruct (bytes_cmp k k0) eqn:C; cbn [al_get]; [|reflexivity|].
  - apply bytes_cmp_eq in C. subst k0. destruct (bytes_eqb k k'); reflexivity.
  - rewrite IH. destruct (bytes_eqb k0 k') eqn:E; [|reflexivity].
    apply bytes_eqb_eq in E. subst k'. now rewrite bytes_eqb_cmp, C.
Qed.

Lemma al_set_Forall (P : bytes * bytes -> Prop) k v l :
  P (k, v) -> Forall P l -> Forall P (al_set k v l).
Proof.
  intros Hk. induction 1 as [|[k0 v0] l Hx Hl IH]; cbn [al_set]; [auto|].
  destruct (bytes_cmp k k0); auto.
Qed.

Lemma al_set_sorted k v l : sorted l -> sorted (al_set k v l).
Proof.
  induction l as [|[k0 v0] l IH]; cbn [al_set sorted]; intros Hs; [auto|].
  destruct (bytes_cmp k k0) eqn:C; cbn [sorted].
  - apply bytes_cmp_eq in C. subst k0. exact Hs.
  - split; [now apply sorted_cons_lt|exact Hs].
  - destruct Hs as [Hx Hs]. split; [|auto]. apply al_set_Forall; [|exact Hx]. now apply bytes_cmp_gt_lt.
Qed.

Lemma al_set_in k v l e :
  sorted l -> (In e (al_set k v l) <-> e = (k, v) \/ (fst e <> k /\ In e l)).
Proof.
  intros Hs. destruct e as [k' v']. cbn [fst].
  rewrite (in_sorted_get k' v' l Hs), in_sorted_get, al_get_set by now apply al_set_sorted.
  destruct (bytes_eqb k k') eqn:E; [apply bytes_eqb_eq in E|apply bytes_eqb_neq in E];
    intuition congruence.
Qed.

Lemma al_get_del k' k l :
  sorted l -> al_get k' (al_del k l) = if bytes_eqb k k' then None else al_get k' l.
Proof.
  induction l as [|[k0 v0] l IH]; cbn [al_del]; intros Hs; [now destruct (bytes_eqb k k')|].
  destruct (bytes_cmp k k0) eqn:C.
  - apply bytes_cmp_eq in C. subst k0. cbn [al_get].
    destruct (bytes_eqb k k') eqn:E; [|reflexivity].
    apply bytes_eqb_eq in E. subst k'. exact (al_get_lt_none k v0 l (proj1 Hs)).
  - destruct (bytes_eqb k k') eqn:E; [|reflexivity]. apply bytes_eqb_eq in E. subst k'.
    apply (al_get_lt_none k v0). now apply sorted_cons_lt.
  - cbn [al_get]. rewrite IH by apply Hs. destruct (bytes_eqb k0 k') eqn:E; [|reflexivity].
    apply bytes_eqb_eq in E. subst k'. now rewrite bytes_eqb_cmp, C.
Qed.

Lemma al_del_Forall (P : bytes * bytes -> Prop) k l : Forall P l -> Forall P (al_del k l).
Proof.
  induction 1 as [|[k0 v0] l Hx Hl IH]; cbn [al_del]; [auto|]. destruct (bytes_cmp k k0); auto.
Qed.

Lemma al_del_sorted k l : sorted l -> sorted (al_del k l).
Proof.
  induction l as [|[k0 v0] l IH]; cbn [al_del sorted]; intros Hs; [auto|].
  destruct Hs as [Hx Hs]. destruct (bytes_cmp k k0); cbn [sorted]; auto using al_del_Forall.
Qed.

Lemma al_del_in k l e :
  sorted l -> (In e (al_del k l) <-> fst e <> k /\ In e l).
Proof.
  intros Hs. destruct e as [k' v']. cbn [fst].
  rewrite (in_sorted_get k' v' l Hs), in_sorted_get, al_get_del by auto using al_del_sorted.
  destruct (bytes_eqb k k') eqn:E; [apply bytes_eqb_eq in E|apply bytes_eqb_neq in E];
    intuition congruence.
Qed.

Lemma al_del_absent k l : sorted l -> al_get k l = None -> al_del k l = l.
Proof.
  intros Hs Hn. apply sorted_ext_get; auto using al_del_sorted. intros k'.
  rewrite al_get_del by assumption. destruct (bytes_eqb k k') eqn:E; [|reflexivity].
  apply bytes_eqb_eq in E. now subst k'.
Qed.
