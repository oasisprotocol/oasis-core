(* Proofs about the reward / commission model (Ledger/Rewards.v). Both
   add_reward and transfer_from_common credit the pool with the delegators'
   part and then deposit the commission for the entity; each is characterised
   once by the result record of every branch, and the theorems are read off. *)
From Verif Require Import Lib.Base Ledger.SharePool Ledger.SharePoolProofs Ledger.SharePoolSeq Ledger.Rewards.

Lemma compute_commission_some cd rate q com rest :
  compute_commission cd rate q = Some (com, rest) -> com + rest = q /\ com = q * rate / cd.
Proof.
  unfold compute_commission. destruct (q <? q * rate / cd) eqn:L; [discriminate|].
  intros H. injection H as <- <-. split; [lia|reflexivity].
Qed.

Lemma reward_amount_zero_balance rd factor scale att : reward_amount rd 0 factor scale att = 0.
Proof.
  unfold reward_amount. destruct att as [[num den]|]; rewrite ?N.mul_0_l, ?div0_l; reflexivity.
Qed.

(* p' is p after [rest] was added to its balance without shares and [com]
   was then deposited for m shares; no deposit is made for a zero commission *)
Definition credited (p : pool) (rest com m : N) (p' : pool) : Prop :=
  p' = mkPool (bal p + rest + com) (tsh p + m) /\
  (com = 0 /\ m = 0 \/ com <> 0 /\ shares_for_stake (mkPool (bal p + rest) (tsh p)) com = Some m).

Lemma credited_prorata p rest com m p' : credited p rest com m p' -> tsh p <> 0 ->
  m * (bal p + rest) <= com * tsh p.
Proof. intros [_ [[-> ->]|[_ E]]] S0; [lia|]. apply (sfs_bounds _ _ _ E S0). Qed.

Lemma credited_price p rest com m p' : credited p rest com m p' -> price_le p p'.
Proof.
  intros H. pose proof (credited_prorata _ _ _ _ _ H) as L. destruct H as [-> _].
  apply (price_le_mint _ _ (rest + com) m); cbn [bal tsh]; [lia|reflexivity|].
  intros S0. specialize (L S0). nia.
Qed.

(* every holder keeps at least its part of balance + rest: the deposit of the
   commission takes nothing from the others *)
Lemma credited_worth p rest com m p' u : credited p rest com m p' ->
  worth (mkPool (bal p + rest) (tsh p)) u <= worth p' u.
Proof.
  intros H. pose proof (credited_prorata _ _ _ _ _ H) as L. destruct H as [-> _].
  apply worth_mono_price.
  - apply (price_le_mint _ _ com m); [reflexivity|reflexivity|exact L].
  - cbn [tsh]. lia.
Qed.

Lemma credited_no_loss p rest com m p' u : credited p rest com m p' -> worth p u <= worth p' u.
Proof.
  intros H. apply (N.le_trans _ (worth (mkPool (bal p + rest) (tsh p)) u)); [|apply (credited_worth _ _ _ _ _ _ H)].
  apply worth_mono_bal; cbn [bal tsh]; lia.
Qed.

Definition applied (rd cd : N) (a : racct) (common factor scale rate : N) (att : option (N * N)) (r : rres)
  : Prop :=
  exists com rest m p',
    let q := reward_amount rd (bal (rapool a)) factor scale att in
    q <> 0 /\ q <= common /\ compute_commission cd rate q = Some (com, rest) /\ com + rest = q /\
    credited (rapool a) rest com m p' /\
    r = mkRR COk (mkRA p' (raself a + m)) (common - q) q com m.

(* skipped (no reward or common pool too small) or commission above the total *)
Definition untouched (rd : N) (a : racct) (common factor scale : N) (att : option (N * N)) (r : rres) : Prop :=
  exists c, r = mkRR c a common 0 0 0 /\
    (c = COk -> reward_amount rd (bal (rapool a)) factor scale att = 0 \/
                common < reward_amount rd (bal (rapool a)) factor scale att).

Lemma add_reward_cases rd cd a common factor scale rate att :
  let r := add_reward rd cd a common factor scale rate att in
  untouched rd a common factor scale att r \/ applied rd cd a common factor scale rate att r.
Proof.
  intros r. subst r. unfold add_reward, untouched.
  set (q := reward_amount rd (bal (rapool a)) factor scale att).
  destruct (N.eqb_spec q 0) as [Q0|Q0]; [left; exists COk; split; [reflexivity|left; exact Q0]|].
  destruct (N.ltb_spec common q) as [Lc|Lc]; [left; exists COk; split; [reflexivity|right; exact Lc]|].
  destruct (compute_commission cd rate q) as [[com rest]|] eqn:EC.
  2:{ left. exists CInsufficient. split; [reflexivity|discriminate]. }
  pose proof (compute_commission_some _ _ _ _ _ EC) as [Hsum _].
  right. exists com, rest. unfold applied. fold q.
  destruct (N.eqb_spec com 0) as [C0|C0].
  - exists 0, (mkPool (bal (rapool a) + rest + com) (tsh (rapool a) + 0)).
    repeat split; try assumption; [left; split; [exact C0|reflexivity]|].
    rewrite C0, !N.add_0_r. replace rest with q by lia. reflexivity.
  - (* the pool has a balance (else q = 0), so the deposit cannot fail *)
    destruct (shares_for_stake (mkPool (bal (rapool a) + rest) (tsh (rapool a))) com) as [m|] eqn:ES.
    2:{ apply sfs_none in ES as [_ Hz]. cbn [bal] in Hz. exfalso. apply Q0. unfold q.
        replace (bal (rapool a)) with 0 by lia. apply reward_amount_zero_balance. }
    rewrite (deposit_eq _ _ _ _ m ES) by lia. cbn [rcode rpool rdst rsrc rret bal tsh].
    exists m, (mkPool (bal (rapool a) + rest + com) (tsh (rapool a) + m)).
    repeat split; try assumption; [right; split; assumption|]. f_equal. lia.
Qed.

Lemma reward_split_conserves_l rd cd a common factor scale rate att :
  let r := add_reward rd cd a common factor scale rate att in
  rrcom r <= rrq r /\ rrq r <= common /\
  rrcommon r = common - rrq r /\
  bal (rapool (rracct r)) = bal (rapool a) + (rrq r - rrcom r) + rrcom r /\
  bal (rapool (rracct r)) + rrcommon r = bal (rapool a) + common /\
  tsh (rapool (rracct r)) = tsh (rapool a) + rrminted r /\
  raself (rracct r) = raself a + rrminted r /\
  (rrcode r <> COk -> rracct r = a /\ rrcommon r = common).
Proof.
  intros r. subst r.
  destruct (add_reward_cases rd cd a common factor scale rate att)
    as [(c & -> & _)|(com & rest & m & p' & Q0 & Qc & _ & Hs & [-> _] & ->)];
    cbn [rrcom rrq rrcommon rracct rapool raself rrminted rrcode bal tsh]; repeat split; try lia; congruence.
Qed.

Lemma reward_raises_price_l rd cd a common factor scale rate att :
  price_le (rapool a) (rapool (rracct (add_reward rd cd a common factor scale rate att))).
Proof.
  destruct (add_reward_cases rd cd a common factor scale rate att)
    as [(c & -> & _)|(com & rest & m & p' & _ & _ & _ & _ & Hcr & ->)]; cbn [rracct rapool].
  - apply price_le_refl.
  - exact (credited_price _ _ _ _ _ Hcr).
Qed.

Lemma commission_is_ordinary_deposit_l rd cd a common factor scale rate att :
  let r := add_reward rd cd a common factor scale rate att in
  tsh (rapool a) <> 0 ->
  (* at most pro rata at the price after the delegators' part was added *)
  rrminted r * (bal (rapool a) + (rrq r - rrcom r)) <= rrcom r * tsh (rapool a) /\
  worth (rapool (rracct r)) (rrminted r) <= rrcom r /\
  (cd <> 0 -> rrcom r * cd <= rrq r * rate).
Proof.
  intros r S0. subst r.
  destruct (add_reward_cases rd cd a common factor scale rate att)
    as [(c & -> & _)|(com & rest & m & p' & _ & _ & EC & Hs & Hcr & ->)];
    cbn [rrcom rrq rracct rapool rrminted].
  - unfold worth. rewrite stake_zero by lia. repeat split; lia.
  - pose proof (credited_prorata _ _ _ _ _ Hcr S0) as L. destruct Hcr as [-> _].
    replace (reward_amount rd (bal (rapool a)) factor scale att - com) with rest by lia.
    split; [exact L|]. split.
    + rewrite worth_mk. apply minted_worth_le. exact L.
    + intros _. apply compute_commission_some in EC as [_ ->]. apply div_mul_le.
Qed.

Lemma reward_holders_never_lose_l rd cd a common factor scale rate att u :
  let r := add_reward rd cd a common factor scale rate att in
  worth (rapool a) u <= worth (rapool (rracct r)) u /\
  worth (rapool a) (raself a) <= worth (rapool (rracct r)) (raself (rracct r)).
Proof.
  intros r. subst r.
  destruct (add_reward_cases rd cd a common factor scale rate att)
    as [(c & -> & _)|(com & rest & m & p' & _ & _ & _ & _ & Hcr & ->)]; cbn [rracct rapool raself].
  - split; lia.
  - split; [exact (credited_no_loss _ _ _ _ _ _ Hcr)|].
    apply (N.le_trans _ (worth p' (raself a))); [exact (credited_no_loss _ _ _ _ _ _ Hcr)|].
    apply worth_mono_u. lia.
Qed.

Lemma reward_is_machine_ops_l rd cd st ent common factor scale rate att :
  let a := mkRA (mpool st) (dsh (dget ent (mdel st))) in
  let r := add_reward rd cd a common factor scale rate att in
  let ops := reward_ops rd cd (mpool st) common factor scale rate att ent in
  rrcode r = COk ->
  mpool (mfinal st ops) = rapool (rracct r) /\
  dsh (dget ent (mdel (mfinal st ops))) = raself (rracct r) /\
  (forall d, d <> ent -> Forall (passive d) ops /\ dget d (mdel (mfinal st ops)) = dget d (mdel st)) /\
  Forall (actor_in (N.eqb ent)) ops.
Proof.
  intros a r ops. subst r ops. unfold reward_ops.
  destruct (add_reward_cases rd cd a common factor scale rate att)
    as [(c & -> & Hwhy)|(com & rest & m & p' & Q0 & Qc & EC & _ & [-> Hm] & ->)];
    cbn [a rapool raself rrcode rracct] in *.
  - intros ->. set (q := reward_amount rd (bal (mpool st)) factor scale att) in *.
    destruct (N.eqb_spec q 0); [|destruct (N.ltb_spec common q); [|destruct (Hwhy eq_refl); lia]];
      rewrite mfinal_nil; repeat split; constructor.
  - intros _. set (q := reward_amount rd (bal (mpool st)) factor scale att) in *.
    destruct (N.eqb_spec q 0); [contradiction|]. destruct (N.ltb_spec common q); [lia|].
    rewrite EC, mfinal_cons. set (st1 := mnext st (OReward rest)).
    destruct Hm as [[-> ->]|[C0 ES]].
    + cbn [N.eqb]. rewrite mfinal_nil, !N.add_0_r. repeat split; repeat constructor.
    + destruct (N.eqb_spec com 0); [contradiction|]. rewrite mfinal_cons, mfinal_nil.
      rewrite (mnext_deposit_ok st1 ent com m ES). cbn [deposited st1 mnext mstep fst mpool mdel bal tsh].
      rewrite dget_aset_same. cbn [dsh].
      split; [reflexivity|]. split; [reflexivity|]. split.
      * intros d Hd. split; [repeat constructor; cbn [passive]; congruence|].
        apply dget_aset_other. exact Hd.
      * repeat constructor. cbn [actor_in]. apply N.eqb_refl.
Qed.

Fixpoint sumbal (l : list racct) : N :=
  match l with [] => 0 | a :: r => bal (rapool a) + sumbal r end.

Definition no_worse (a a' : racct) : Prop :=
  price_le (rapool a) (rapool a') /\
  (forall u, worth (rapool a) u <= worth (rapool a') u) /\
  worth (rapool a) (raself a) <= worth (rapool a') (raself a').

Lemma no_worse_refl a : no_worse a a.
Proof. unfold no_worse, price_le. repeat split; lia. Qed.

Lemma no_worse_map_fst (l : list (racct * N)) : Forall2 (fun x a' => no_worse (fst x) a') l (map fst l).
Proof. induction l as [|x r IH]; cbn [map]; constructor; [apply no_worse_refl|exact IH]. Qed.

Lemma add_reward_no_worse rd cd a common factor scale rate att :
  no_worse a (rracct (add_reward rd cd a common factor scale rate att)).
Proof.
  split; [apply reward_raises_price_l|]. split.
  - intros u. apply reward_holders_never_lose_l.
  - apply (reward_holders_never_lose_l rd cd a common factor scale rate att 0).
Qed.

Lemma add_rewards_loop_spec rd cd factor scale accts : forall common,
  let '(c, out, cm) := add_rewards_loop rd cd accts common factor scale in
  Forall2 (fun x a' => no_worse (fst x) a') accts out /\
  (c = COk -> sumbal out + cm = sumbal (map fst accts) + common).
Proof.
  destruct scale as [sc|].
  2:{ intros common. destruct accts; cbn [add_rewards_loop]; split; try (intros _; reflexivity); apply no_worse_map_fst. }
  induction accts as [|[a rate] rest IH]; intros common; cbn [add_rewards_loop].
  - split; [constructor|intros _; reflexivity].
  - pose proof (reward_split_conserves_l rd cd a common factor sc rate None) as (_ & _ & _ & _ & Hc & _).
    pose proof (add_reward_no_worse rd cd a common factor sc rate None) as Hw.
    set (r := add_reward rd cd a common factor sc rate None) in *.
    destruct (rrcode r); try (split; [apply (no_worse_map_fst ((a, rate) :: rest))|discriminate]).
    specialize (IH (rrcommon r)). destruct (add_rewards_loop rd cd rest (rrcommon r) factor (Some sc)) as [[c out] cm].
    destruct IH as [F Hs]. split; [constructor; [exact Hw|exact F]|].
    intros Hok. specialize (Hs Hok). cbn [sumbal map fst]. lia.
Qed.

Lemma add_rewards_conserves_l rd cd accts common factor scale :
  let '(c, out, cm) := add_rewards rd cd accts common factor scale in
  Forall2 (fun x a' => no_worse (fst x) a') accts out /\
  (c = COk -> sumbal out + cm = sumbal (map fst accts) + common) /\
  (c <> COk -> cm = common).
Proof.
  unfold add_rewards. pose proof (add_rewards_loop_spec rd cd factor scale accts common) as H.
  destruct (add_rewards_loop rd cd accts common factor scale) as [[c out] cm].
  destruct H as [F Hs]. split; [exact F|]. split.
  - intros ->. apply Hs. reflexivity.
  - destruct c; [intros Hn; contradiction| |]; intros _; reflexivity.
Qed.

Example ex_reward :
  add_reward 100000000 100000 (mkRA (mkPool 1000 300) 100) 5000 2000000 50 20000 None
  = mkRR COk (mkRA (mkPool 2000 333) 133) 4000 1000 200 33.
Proof. vm_compute. reflexivity. Qed.
Example ex_reward_att :
  add_reward 100000000 100000 (mkRA (mkPool 1000 300) 100) 5000 2000000 50 20000 (Some (1, 3))
  = mkRR COk (mkRA (mkPool 1333 315) 115) 4667 333 66 15.
Proof. vm_compute. reflexivity. Qed.
Example ex_reward_skip_poor :
  rrq (add_reward 100000000 100000 (mkRA (mkPool 1000 300) 100) 999 2000000 50 20000 None) = 0.
Proof. vm_compute. reflexivity. Qed.
Example ex_reward_rate_over :
  rrcode (add_reward 100000000 100000 (mkRA (mkPool 1000 300) 100) 5000 2000000 50 100100 None) = CInsufficient.
Proof. vm_compute. reflexivity. Qed.
Example ex_reward_big :
  rrminted (add_reward 100000000 100000 (mkRA (mkPool (2^128+1) (2^127)) 5) (2^200) 3 7 33333 None) = 11909762076029396415187180375303.
Proof. vm_compute. reflexivity. Qed.
Example ex_rate : current_rate 10 [(0, 5); (10, 7); (11, 9)] = Some 7 /\ current_rate 3 [(5, 1)] = None /\
  active_scale 30 [(30, 1000); (40, 500)] = Some 500 /\ active_scale 40 [(30, 1000); (40, 500)] = None.
Proof. vm_compute. repeat split; reflexivity. Qed.

(* the result in each branch: nothing moved (t = 0, or the commission cannot
   be computed); a liquid transfer; or, escrowed, the split t = com + rest with
   the commission either deposited or, when the pool is still dead (no
   balance, shares outstanding), left in the general balance *)
Lemma tfc_cases cd a common amount escrow rate :
  let t := N.min common amount in
  let p := tapool a in
  let r := transfer_from_common cd a common amount escrow rate in
  (exists c, (t = 0 \/ c <> COk) /\ r = mkTR c a common 0 0 0) \/
  (t <> 0 /\ escrow = false /\ r = mkTR COk (mkTA (tagen a + t) p (taself a)) (common - t) t 0 0) \/
  (t <> 0 /\ escrow = true /\ exists com rest,
     com + rest = t /\ (tsh p <> 0 -> com = t * rate / cd) /\ (tsh p = 0 -> com = t) /\
     ((com <> 0 /\ bal p + rest = 0 /\ tsh p <> 0 /\
       r = mkTR COk (mkTA (tagen a + com) (mkPool (bal p + rest) (tsh p)) (taself a)) (common - t) t com 0) \/
      (exists m p', credited p rest com m p' /\
       r = mkTR COk (mkTA (tagen a) p' (taself a + m)) (common - t) t com m))).
Proof.
  intros t p r. subst r. unfold transfer_from_common. fold t p.
  destruct (N.eqb_spec t 0) as [T0|T0]; [left; exists COk; split; [left; exact T0|reflexivity]|].
  destruct escrow; cbn [negb]; [|right; left; repeat split; assumption].
  destruct (if tsh p =? 0 then Some (t, 0) else compute_commission cd rate t) as [[com rest]|] eqn:EC.
  2:{ left. exists CInsufficient. split; [right; discriminate|reflexivity]. }
  assert (Hcc : com + rest = t /\ (tsh p <> 0 -> com = t * rate / cd) /\ (tsh p = 0 -> com = t)).
  { destruct (N.eqb_spec (tsh p) 0) as [S0|S0].
    - injection EC as <- <-. repeat split; lia.
    - apply compute_commission_some in EC. repeat split; try lia; tauto. }
  right. right. split; [exact T0|]. split; [reflexivity|]. exists com, rest.
  destruct Hcc as (Hsum & Hs1 & Hs0). split; [exact Hsum|]. split; [exact Hs1|]. split; [exact Hs0|].
  cbn [bal tsh]. replace (tagen a + t - rest) with (tagen a + com)
    by (rewrite <- Hsum, N.add_assoc, N.add_sub; reflexivity).
  destruct (N.eqb_spec com 0) as [C0|C0]; cbn [orb].
  { right. exists 0, (mkPool (bal p + rest + com) (tsh p + 0)).
    split; [split; [reflexivity|left; split; [exact C0|reflexivity]]|].
    rewrite C0, !N.add_0_r. destruct ((bal p + rest =? 0) && negb (tsh p =? 0)); reflexivity. }
  destruct ((bal p + rest =? 0) && negb (tsh p =? 0)) eqn:Dead.
  { left. split; [exact C0|]. split; [lia|]. split; [lia|reflexivity]. }
  (* not dead: the deposit of the commission, made from tagen a + com, succeeds *)
  destruct (shares_for_stake (mkPool (bal p + rest) (tsh p)) com) as [m|] eqn:ES;
    [|apply sfs_none in ES; cbn [bal tsh] in ES; lia].
  rewrite (deposit_eq _ _ _ _ m ES) by apply N.le_add_l. cbn [rcode rsrc rpool rdst bal tsh].
  right. exists m, (mkPool (bal p + rest + com) (tsh p + m)).
  split; [split; [reflexivity|right; split; assumption]|].
  rewrite N.add_sub. reflexivity.
Qed.

Lemma tfc_spec cd a common amount escrow rate :
  let r := transfer_from_common cd a common amount escrow rate in
  let t := N.min common amount in
  (* nothing moved, nothing changed *)
  ((t = 0 \/ trcode r <> COk) -> tracct r = a /\ trcommon r = common /\ trmoved r = 0) /\
  (trcode r = COk -> t <> 0 ->
     trmoved r = t /\ trcommon r = common - t /\
     (* conservation *)
     tagen (tracct r) + bal (tapool (tracct r)) + trcommon r = tagen a + bal (tapool a) + common /\
     tsh (tapool (tracct r)) = tsh (tapool a) + trminted r /\
     taself (tracct r) = taself a + trminted r /\
     (escrow = false -> tracct r = mkTA (tagen a + t) (tapool a) (taself a)) /\
     (escrow = true ->
        trcom r <= t /\
        (* the entity receives exactly the commission share unless the pool has NO shares *)
        (tsh (tapool a) <> 0 -> trcom r = t * rate / cd) /\
        (tsh (tapool a) = 0 -> trcom r = t) /\
        (* the non-commission part goes to the pool balance, without shares *)
        bal (tapool a) + (t - trcom r) <= bal (tapool (tracct r)) /\
        (* the commission is either deposited (shares at most pro rata) or, for a
           pool that is still dead, left in the general balance *)
        ((tagen (tracct r) = tagen a /\ bal (tapool (tracct r)) = bal (tapool a) + t /\
          (tsh (tapool a) <> 0 ->
           trminted r * (bal (tapool a) + (t - trcom r)) <= trcom r * tsh (tapool a))) \/
         (tagen (tracct r) = tagen a + trcom r /\ trminted r = 0 /\
          bal (tapool a) = 0 /\ t - trcom r = 0 /\ tsh (tapool a) <> 0 /\
          bal (tapool (tracct r)) = 0)))).
Proof.
  intros r t. subst r.
  assert (Ht : t <= common) by (unfold t; lia).
  pose proof (tfc_cases cd a common amount escrow rate) as C. cbv zeta in C. fold t in C.
  (* [lia] must not look into the minimum and the quotient *)
  clearbody t. set (k := t * rate / cd) in *. clearbody k.
  (* in each branch every clause is linear arithmetic over the fields of the result *)
  destruct C as [(c & Hc & ->)|[(T0 & -> & ->)|(T0 & -> & com & rest & Hsum & Hs1 & Hs0 & C)]].
  - cbn [trcode tracct trcommon trmoved]. split; [repeat split|]. intros -> T0. destruct Hc; contradiction.
  - cbn [trcode tracct trcommon trmoved trminted tagen tapool taself]. split; [intros [H|H]; contradiction|].
    intros _ _. repeat split; lia.
  - destruct C as [(C0 & B0 & S0 & ->)|(m & p' & Hcr & ->)];
      cbn [trcode tracct trcommon trmoved trminted trcom tagen tapool taself bal tsh];
      (split; [intros [H|H]; contradiction|]); intros _ _.
    + repeat split; lia.
    + pose proof (credited_prorata _ _ _ _ _ Hcr) as Hm. destruct Hcr as [-> _]. cbn [bal tsh].
      replace (t - com) with rest by lia. repeat split; lia.
Qed.

Lemma tfc_holders_get_noncommission_l cd a common amount escrow rate u :
  let r := transfer_from_common cd a common amount escrow rate in
  price_le (tapool a) (tapool (tracct r)) /\
  worth (tapool a) u <= worth (tapool (tracct r)) u /\
  (trcode r = COk -> escrow = true -> tsh (tapool a) <> 0 ->
   u * (bal (tapool a) + (trmoved r - trcom r)) / tsh (tapool a) <= worth (tapool (tracct r)) u).
Proof.
  (* the last clause compares with the worth in the pool credited with the non-commission part *)
  intros r. subst r. rewrite <- worth_mk.
  destruct (tfc_cases cd a common amount escrow rate)
    as [(c & _ & ->)|[(_ & -> & ->)|(_ & -> & com & rest & Hsum & _ & _ & C)]].
  - cbn [tracct tapool trmoved trcom]. split; [apply price_le_refl|]. split; [lia|].
    intros _ _ _. apply worth_mono_bal; cbn [bal tsh]; lia.
  - cbn [tracct tapool]. split; [apply price_le_refl|]. split; [lia|discriminate].
  - destruct C as [(_ & _ & _ & ->)|(m & p' & Hcr & ->)]; cbn [tracct tapool trmoved trcom];
      replace (N.min common amount - com) with rest by lia.
    + split; [apply (price_le_mint _ _ rest 0); cbn [bal tsh]; lia|].
      split; [apply worth_mono_bal; cbn [bal tsh]; lia|lia].
    + split; [exact (credited_price _ _ _ _ _ Hcr)|]. split; [exact (credited_no_loss _ _ _ _ _ _ Hcr)|].
      intros _ _ _. exact (credited_worth _ _ _ _ _ _ Hcr).
Qed.

(* the scenario of a pool slashed to zero: 200 shares outstanding, reward 100
   with 20% commission: 80 revive the pool for all holders, 20 are deposited
   for the entity at the new price (50 shares); with 100% commission the pool
   stays dead and the commission stays liquid; no shares: all commission *)
Example ex_tfc_dead_pool :
  transfer_from_common 100000 (mkTA 0 (mkPool 0 200) 50) 1000 100 true 20000
  = mkTR COk (mkTA 0 (mkPool 100 250) 100) 900 100 20 50 /\
  transfer_from_common 100000 (mkTA 0 (mkPool 0 200) 50) 1000 100 true 100000
  = mkTR COk (mkTA 100 (mkPool 0 200) 50) 900 100 100 0 /\
  transfer_from_common 100000 (mkTA 7 (mkPool 0 0) 0) 1000 100 true 20000
  = mkTR COk (mkTA 7 (mkPool 100 100) 100) 900 100 100 100 /\
  transfer_from_common 100000 (mkTA 7 (mkPool 300 100) 10) 60 100 true 50000
  = mkTR COk (mkTA 7 (mkPool 360 109) 19) 0 60 30 9 /\
  transfer_from_common 100000 (mkTA 7 (mkPool 300 100) 10) 60 100 false 50000
  = mkTR COk (mkTA 67 (mkPool 300 100) 10) 0 60 0 0.
Proof. vm_compute. repeat split; reflexivity. Qed.
