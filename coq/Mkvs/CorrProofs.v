(* The correspondence runner of C02 (histories WITH commit markers) is the
   model of the theorems: commits do not change the tree, the root reported at
   a commit is [root_hash] of the current tree. *)
From Verif Require Import Lib.Base Mkvs.Trie Mkvs.BitsProofs Mkvs.TrieProofs Mkvs.Corr.

Fixpoint cops_strip (ops : list cop) : list op :=
  match ops with
  | [] => []
  | CIns k v :: r => OIns k v :: cops_strip r
  | CRem k :: r => ORem k :: cops_strip r
  | CCommit :: r => cops_strip r
  | CCommitKnown _ :: r => cops_strip r
  end.

Lemma c02_go_tree tab ops : forall t,
  snd (c02_go tab t ops) = fold_left apply_op (cops_strip ops) t.
Proof.
  induction ops as [|[k v|k| |e] r IH]; intros t; cbn [c02_go cops_strip fold_left]; auto;
    try apply IH.
  - specialize (IH t). destruct (c02_go tab t r) as [hs t']. exact IH.
  - unfold commit_known. destruct (bytes_eqb (root_hash (tab_H tab) t) e);
      specialize (IH t); destruct (c02_go tab t r) as [hs t']; exact IH.
Qed.

Lemma c02_go_last_root tab ops : forall t,
  fst (c02_go tab t (ops ++ [CCommit])) =
  fst (c02_go tab t ops) ++ [root_hash (tab_H tab) (snd (c02_go tab t ops))].
Proof.
  induction ops as [|[k v|k| |e] r IH]; intros t; cbn [c02_go app fst snd]; auto.
  - specialize (IH t). destruct (c02_go tab t (r ++ [CCommit])) as [hs t'].
    destruct (c02_go tab t r) as [hs0 t0]. cbn [fst snd] in *. now rewrite IH.
  - unfold commit_known. destruct (bytes_eqb (root_hash (tab_H tab) t) e);
      specialize (IH t); destruct (c02_go tab t (r ++ [CCommit])) as [hs t'];
      destruct (c02_go tab t r) as [hs0 t0]; cbn [fst snd] in *; now rewrite IH.
Qed.

Theorem batching_irrelevant tab ops1 ops2 :
  Forall op_valid (cops_strip ops1) -> Forall op_valid (cops_strip ops2) ->
  contents (snd (c02_go tab Nil ops1)) = contents (snd (c02_go tab Nil ops2)) ->
  snd (c02_go tab Nil ops1) = snd (c02_go tab Nil ops2) /\
  last (fst (c02_go tab Nil (ops1 ++ [CCommit]))) [] = last (fst (c02_go tab Nil (ops2 ++ [CCommit]))) [].
Proof.
  intros V1 V2 E. rewrite !c02_go_tree in *. fold (run (cops_strip ops1)) in *. fold (run (cops_strip ops2)) in *.
  destruct (root_depends_only_on_contents _ _ V1 V2 E) as (Et & _ & _).
  split; [exact Et|]. rewrite !c02_go_last_root, !last_last, !c02_go_tree.
  fold (run (cops_strip ops1)). fold (run (cops_strip ops2)). now rewrite Et.
Qed.

(* Histories with FAILED operations (extension of C02's quantifier:
   faults).  An operation that returns an error must leave the tree unchanged;
   in the functional model this is true by construction ([FFailed] is the
   identity) — the content of this extension is on the implementation side,
   where the harness injects node database read errors, retries the operation
   and compares with the fault-free twin.  Stated here so that the model of a
   faulted history is explicit. *)
Inductive fop := FOk (o : op) | FFailed (o : op).
Definition apply_fop (t : tree) (f : fop) : tree :=
  match f with FOk o => apply_op t o | FFailed _ => t end.
Definition run_f (fs : list fop) : tree := fold_left apply_fop fs Nil.
Definition succeeded (fs : list fop) : list op :=
  flat_map (fun f => match f with FOk o => [o] | FFailed _ => [] end) fs.

Lemma failed_op_leaves_tree t o : apply_fop t (FFailed o) = t.
Proof. reflexivity. Qed.

Lemma run_f_succeeded fs : forall t, fold_left apply_fop fs t = fold_left apply_op (succeeded fs) t.
Proof.
  induction fs as [|[o|o] r IH]; intros t; cbn [fold_left succeeded flat_map app]; auto;
    try apply IH.
Qed.

Theorem root_depends_only_on_contents_with_faults fs1 fs2 :
  Forall op_valid (succeeded fs1) -> Forall op_valid (succeeded fs2) ->
  contents (run_f fs1) = contents (run_f fs2) ->
  run_f fs1 = run_f fs2 /\ forall H, root_hash H (run_f fs1) = root_hash H (run_f fs2).
Proof.
  unfold run_f. rewrite !run_f_succeeded. intros V1 V2 E.
  destruct (root_depends_only_on_contents _ _ V1 V2 E) as (Et & _ & Eh). auto.
Qed.

Lemma commit_known_tree H e t : fst (commit_known H e t) = t.
Proof. unfold commit_known. destruct (bytes_eqb (root_hash H t) e); reflexivity. Qed.
Lemma commit_known_ok H t : commit_known H (root_hash H t) t = (t, Some (snd (commit H t))).
Proof. unfold commit_known, commit. now rewrite bytes_eqb_refl. Qed.
Lemma commit_known_bad H e t : e <> root_hash H t -> snd (commit_known H e t) = None.
Proof.
  intros Hne. unfold commit_known. destruct (bytes_eqb (root_hash H t) e) eqn:E; [|reflexivity].
  apply bytes_eqb_eq in E. congruence.
Qed.

(* removing every (failed or successful) CommitKnown / Commit marker from a
   history changes neither the final tree nor, hence, any later root *)
Theorem commit_known_is_identity_on_tree tab ops :
  snd (c02_go tab Nil ops) = run (cops_strip ops).
Proof. apply c02_go_tree. Qed.

Fixpoint drop_known (ops : list cop) : list cop :=
  match ops with
  | [] => []
  | CCommitKnown _ :: r => drop_known r
  | o :: r => o :: drop_known r
  end.
Lemma strip_drop_known ops : cops_strip (drop_known ops) = cops_strip ops.
Proof. induction ops as [|[k v|k| |e] r IH]; cbn [drop_known cops_strip]; congruence. Qed.

Theorem failed_commit_known_leaves_tree tab ops :
  snd (c02_go tab Nil (drop_known ops)) = snd (c02_go tab Nil ops) /\
  last (fst (c02_go tab Nil (drop_known ops ++ [CCommit]))) [] = last (fst (c02_go tab Nil (ops ++ [CCommit]))) [].
Proof.
  rewrite !c02_go_last_root, !last_last, !c02_go_tree, strip_drop_known. auto.
Qed.
