(* Proofs about the share-pool model (Ledger/SharePool.v): API-level rounding
   directions, fairness towards other holders, share-price monotonicity and
   the pro-rata slash split. The operation-sequence theorems are in
   Ledger/SharePoolSeq.v. *)
From Verif Require Import Lib.Base Ledger.SharePool.

(* [x / 0 = 0] in N, so the model's zero special cases agree with the closed
   forms and most facts about floor division need no side condition on the
   divisor. *)
Lemma div0_l a : 0 / a = 0.
Proof. destruct a; reflexivity. Qed.

Lemma div0_r a : a / 0 = 0.
Proof. destruct a; reflexivity. Qed.

Lemma div_mul_le a b : a / b * b <= a.
Proof.
  destruct (N.eq_dec b 0) as [->|H]; [lia|]. rewrite N.mul_comm. apply N.mul_div_le. exact H.
Qed.

Lemma div_mul_gt a b : b <> 0 -> a < (a / b + 1) * b.
Proof.
  intros H. rewrite N.add_1_r, N.mul_comm. apply N.mul_succ_div_gt. lia.
Qed.

Lemma mul_le_cancel_l a b c : a <> 0 -> a * b <= a * c -> b <= c.
Proof. intros H L. apply N.mul_le_mono_pos_l in L; lia. Qed.

Lemma div_le_mono a b c : a <= b -> a / c <= b / c.
Proof.
  intros H. destruct (N.eq_dec c 0) as [->|Hc]; [rewrite !div0_r; lia|].
  apply N.div_le_mono; assumption.
Qed.

Lemma div_le_cross a b c d : d <> 0 -> a * d <= c * b -> a / b <= c / d.
Proof.
  intros Hd H. apply N.div_le_lower_bound; [exact Hd|].
  destruct (N.eq_dec b 0) as [->|Hb]; [rewrite div0_r; lia|].
  apply (mul_le_cancel_l b); [exact Hb|]. pose proof (div_mul_le a b) as L. nia.
Qed.

Lemma le_add_div x y p q : q <> 0 -> q * x <= q * y + p -> x <= y + p / q.
Proof.
  intros Hq H. rewrite <- (N.div_add_l y q p Hq). apply N.div_le_lower_bound; [exact Hq|]. lia.
Qed.

(* m shares minted for a at a price not below B/S are worth at most a afterwards *)
Lemma minted_worth_le m B a S : m * B <= a * S -> m * (B + a) / (S + m) <= a.
Proof.
  intros H. destruct (N.eq_dec (S + m) 0) as [Z|Z]; [rewrite Z, div0_r; lia|].
  apply N.div_le_upper_bound; [exact Z|]. nia.
Qed.

Lemma sfs_zero_shares p a : tsh p = 0 -> shares_for_stake p a = Some a.
Proof. intros H. unfold shares_for_stake. rewrite H. reflexivity. Qed.

Lemma sfs_none p a : shares_for_stake p a = None <-> (tsh p <> 0 /\ bal p = 0).
Proof.
  unfold shares_for_stake. destruct (N.eqb_spec (tsh p) 0) as [E1|E1].
  - split; [discriminate|tauto].
  - destruct (N.eqb_spec (bal p) 0) as [E2|E2].
    + split; [intros _; split; assumption|reflexivity].
    + split; [discriminate|tauto].
Qed.

Lemma sfs_some p a m : shares_for_stake p a = Some m ->
  (tsh p = 0 /\ m = a) \/ (tsh p <> 0 /\ bal p <> 0 /\ m = a * tsh p / bal p).
Proof.
  unfold shares_for_stake. destruct (tsh p =? 0) eqn:E1.
  - intros H. injection H as <-. left. lia.
  - destruct (bal p =? 0) eqn:E2; [discriminate|]. intros H. injection H as <-. right. lia.
Qed.

Lemma sfs_bounds p a m : shares_for_stake p a = Some m -> tsh p <> 0 ->
  bal p <> 0 /\ m * bal p <= a * tsh p /\ a * tsh p < (m + 1) * bal p.
Proof.
  intros H Hs. destruct (sfs_some _ _ _ H) as [[E _]|[_ [Hb ->]]]; [contradiction|].
  split; [exact Hb|]. split; [apply div_mul_le|apply div_mul_gt; exact Hb].
Qed.

Lemma stake_div p s : stake_for_shares p s = s * bal p / tsh p.
Proof.
  unfold stake_for_shares.
  destruct (N.eqb_spec s 0) as [->|_]; [rewrite N.mul_0_l, div0_l; reflexivity|].
  destruct (N.eqb_spec (bal p) 0) as [->|_]; [rewrite N.mul_0_r, div0_l; reflexivity|].
  destruct (N.eqb_spec (tsh p) 0) as [->|_]; [rewrite div0_r|]; reflexivity.
Qed.

Lemma worth_mk b s u : worth (mkPool b s) u = u * b / s.
Proof. apply stake_div. Qed.

Lemma stake_zero p s : s = 0 \/ bal p = 0 \/ tsh p = 0 -> stake_for_shares p s = 0.
Proof.
  intros H. unfold stake_for_shares.
  destruct (s =? 0) eqn:E1; [reflexivity|]. destruct (bal p =? 0) eqn:E2; [reflexivity|].
  destruct (tsh p =? 0) eqn:E3; [reflexivity|]. lia.
Qed.

Lemma stake_le_cross p s : stake_for_shares p s * tsh p <= s * bal p.
Proof. rewrite stake_div. apply div_mul_le. Qed.

Lemma stake_le_bal p s : s <= tsh p -> stake_for_shares p s <= bal p.
Proof.
  intros H. destruct (N.eq_dec (tsh p) 0) as [H0|H0]; [rewrite stake_zero by lia; lia|].
  pose proof (stake_le_cross p s) as L. apply (mul_le_cancel_l (tsh p)); [exact H0|]. nia.
Qed.

Lemma stake_all p : tsh p <> 0 -> stake_for_shares p (tsh p) = bal p.
Proof. intros H. rewrite stake_div, N.mul_comm. apply N.div_mul. exact H. Qed.

(* cross-multiplied price comparison bal/tsh <= bal'/tsh'; a pool without
   shares has no price *)
Definition price_le (p p' : pool) : Prop := tsh p <> 0 -> bal p * tsh p' <= bal p' * tsh p.

Lemma price_le_refl p : price_le p p.
Proof. unfold price_le. lia. Qed.

(* the two shapes of update: a units come in for m new shares at a price not
   below the pool's; w units go out for s shares at a price not above it *)
Lemma price_le_mint p p' a m : bal p' = bal p + a -> tsh p' = tsh p + m ->
  (tsh p <> 0 -> m * bal p <= a * tsh p) -> price_le p p'.
Proof. unfold price_le. intros -> -> H S0. specialize (H S0). nia. Qed.

Lemma price_le_burn p p' w s : bal p' + w = bal p -> tsh p' + s = tsh p ->
  w * tsh p <= s * bal p -> price_le p p'.
Proof. unfold price_le. intros <- <- H _. nia. Qed.

Lemma worth_mono_price p p' u :
  price_le p p' -> (tsh p' = 0 -> u = 0 \/ tsh p = 0) -> worth p u <= worth p' u.
Proof.
  intros H Hz. unfold worth.
  destruct (N.eq_dec (tsh p') 0) as [Hs'|Hs']; [rewrite (stake_zero p) by (specialize (Hz Hs'); tauto); lia|].
  destruct (N.eq_dec (tsh p) 0) as [Hs|Hs]; [rewrite (stake_zero p) by lia; lia|].
  rewrite !stake_div. apply div_le_cross; [exact Hs'|]. specialize (H Hs). nia.
Qed.

Lemma worth_mono_bal p p' u : tsh p' = tsh p -> bal p <= bal p' -> worth p u <= worth p' u.
Proof.
  intros Hs Hb. apply worth_mono_price.
  - apply (price_le_mint _ _ (bal p' - bal p) 0); lia.
  - lia.
Qed.

Lemma worth_mono_u p u v : u <= v -> worth p u <= worth p v.
Proof. intros H. unfold worth. rewrite !stake_div. apply div_le_mono. nia. Qed.

Definition orphan (p : pool) : Prop := tsh p = 0 /\ bal p <> 0.

Lemma sfs_prorata p a m : shares_for_stake p a = Some m -> ~ orphan p -> m * bal p <= a * tsh p.
Proof.
  intros H Hno. destruct (N.eq_dec (tsh p) 0) as [Hs|Hs]; [unfold orphan in Hno; nia|].
  apply (sfs_bounds _ _ _ H Hs).
Qed.

Lemma deposit_eq p dst src a m : shares_for_stake p a = Some m -> a <= src ->
  deposit p dst src a = mkRes COk (mkPool (bal p + a) (tsh p + m)) (dst + m) (src - a) m.
Proof. intros E L. unfold deposit. rewrite E. destruct (N.ltb_spec src a); [lia|reflexivity]. Qed.

Lemma deposit_ok_spec p dst src a :
  rcode (deposit p dst src a) = COk ->
  exists m, deposit p dst src a
            = mkRes COk (mkPool (bal p + a) (tsh p + m)) (dst + m) (src - a) m
    /\ a <= src /\ shares_for_stake p a = Some m.
Proof.
  unfold deposit. destruct (shares_for_stake p a) as [m|] eqn:E; [|discriminate].
  destruct (src <? a) eqn:L; [discriminate|]. intros _. exists m. repeat split. lia.
Qed.

Lemma deposit_mints_at_most_prorata_l p dst src a :
  let r := deposit p dst src a in
  rcode r = COk ->
  rpool r = mkPool (bal p + a) (tsh p + rret r) /\
  rdst r = dst + rret r /\ rsrc r + a = src /\
  (tsh p = 0 -> rret r = a) /\
  (tsh p <> 0 -> bal p <> 0 /\ rret r * bal p <= a * tsh p /\ a * tsh p < (rret r + 1) * bal p) /\
  (~ orphan p -> rret r * bal p <= a * tsh p /\ worth (rpool r) (rret r) <= a).
Proof.
  intros r H. destruct (deposit_ok_spec _ _ _ _ H) as [m [E [Ha Hm]]].
  subst r. rewrite E. cbn [rpool rdst rsrc rret].
  split; [reflexivity|]. split; [reflexivity|]. split; [lia|].
  split. { intros Hs. destruct (sfs_some _ _ _ Hm) as [[_ ->]|[Hs' _]]; [reflexivity|contradiction]. }
  split. { intros Hs. apply sfs_bounds; assumption. }
  intros Hno. pose proof (sfs_prorata _ _ _ Hm Hno) as Hle.
  split; [exact Hle|]. rewrite worth_mk. apply minted_worth_le. exact Hle.
Qed.

(* the orphan-balance case (shares = 0, balance > 0): the depositor gets
   shares 1:1 and owns the whole pool, i.e. takes the orphan balance *)
Lemma deposit_orphan_l p dst src a :
  tsh p = 0 -> a <= src -> a <> 0 ->
  let r := deposit p dst src a in
  rcode r = COk /\ rret r = a /\ rpool r = mkPool (bal p + a) a /\
  worth (rpool r) (rret r) = bal p + a.
Proof.
  intros Hs Ha Hn r. subst r. rewrite (deposit_eq _ _ _ _ a (sfs_zero_shares _ _ Hs) Ha).
  cbn [rcode rret rpool]. rewrite Hs, N.add_0_l. repeat split.
  apply (stake_all (mkPool (bal p + a) a)). exact Hn.
Qed.

Lemma deposit_fails_exactly_l p dst src a :
  let r := deposit p dst src a in
  (rcode r = CInvalidArgument <-> (tsh p <> 0 /\ bal p = 0)) /\
  (rcode r = CInsufficient <-> (~ (tsh p <> 0 /\ bal p = 0) /\ src < a)) /\
  (rcode r <> COk -> rpool r = p /\ rdst r = dst /\ rsrc r = src /\ rret r = 0).
Proof.
  intros r. subst r. unfold deposit. pose proof (sfs_none p a) as Hn.
  destruct (shares_for_stake p a) as [m|].
  - assert (~ (tsh p <> 0 /\ bal p = 0)) by (intros Hc; apply Hn in Hc; discriminate).
    destruct (N.ltb_spec src a); cbn [rcode rpool rdst rsrc rret];
      repeat split; try discriminate; try lia; tauto.
  - assert (tsh p <> 0 /\ bal p = 0) by (apply Hn; reflexivity).
    cbn [rcode rpool rdst rsrc rret]. repeat split; try discriminate; tauto.
Qed.

Lemma withdraw_ok_eq p dst src s : s <= src -> s <= tsh p ->
  withdraw p dst src s =
  mkRes COk (mkPool (bal p - stake_for_shares p s) (tsh p - s)) (dst + stake_for_shares p s)
        (src - s) (stake_for_shares p s).
Proof.
  intros H1 H2. unfold withdraw. destruct (src <? s) eqn:L1; [lia|].
  destruct (tsh p <? s) eqn:L2; [lia|].
  (* the third failure of the code cannot happen *)
  pose proof (stake_le_bal p s H2) as Hle.
  destruct (bal p <? stake_for_shares p s) eqn:L3; [lia|]. reflexivity.
Qed.

Lemma withdraw_ok_iff p dst src s :
  rcode (withdraw p dst src s) = COk <-> (s <= src /\ s <= tsh p).
Proof.
  split; [|intros [H1 H2]; rewrite (withdraw_ok_eq _ _ _ _ H1 H2); reflexivity].
  unfold withdraw. destruct (N.ltb_spec src s); [discriminate|].
  destruct (N.ltb_spec (tsh p) s); [discriminate|]. lia.
Qed.

Lemma withdraw_pays_at_most_prorata_l p dst src s :
  let r := withdraw p dst src s in
  rcode r = COk ->
  rret r = worth p s /\
  rret r * tsh p <= s * bal p /\
  (tsh p <> 0 -> s * bal p < (rret r + 1) * tsh p) /\
  rret r <= bal p /\ s <= tsh p /\ s <= src /\
  rpool r = mkPool (bal p - rret r) (tsh p - s) /\
  rdst r = dst + rret r /\ rsrc r = src - s.
Proof.
  intros r H. apply withdraw_ok_iff in H as [H1 H2]. subst r.
  rewrite (withdraw_ok_eq _ _ _ _ H1 H2). cbn [rret rpool rdst rsrc]. unfold worth.
  split; [reflexivity|]. split; [apply stake_le_cross|].
  split; [intros Hs; rewrite stake_div; apply div_mul_gt; exact Hs|].
  split; [apply stake_le_bal; exact H2|]. repeat split; assumption.
Qed.

Lemma withdraw_fails_exactly_l p dst src s :
  let r := withdraw p dst src s in
  (rcode r <> COk <-> (src < s \/ tsh p < s)) /\
  (src < s -> rcode r = CInsufficient /\ rpool r = p /\ rdst r = dst /\ rsrc r = src /\ rret r = 0) /\
  (* the partial failure of the code (holder's shares already reduced) needs
     a holder with more shares than the pool's total *)
  (s <= src -> tsh p < s -> rcode r = CInsufficient /\ rpool r = p /\ rdst r = dst /\ rsrc r = src - s).
Proof.
  intros r. subst r. split; [rewrite withdraw_ok_iff; lia|]. unfold withdraw. split.
  - intros L. destruct (N.ltb_spec src s); [|lia]. repeat split.
  - intros L0 L. destruct (N.ltb_spec src s); [lia|]. destruct (N.ltb_spec (tsh p) s); [|lia]. repeat split.
Qed.

Lemma others_never_lose_l p dst src x u :
  (rcode (deposit p dst src x) = COk -> worth p u <= worth (rpool (deposit p dst src x)) u) /\
  (rcode (withdraw p dst src x) = COk -> u + x <= tsh p ->
   worth p u <= worth (rpool (withdraw p dst src x)) u).
Proof.
  split.
  - intros H. destruct (deposit_ok_spec _ _ _ _ H) as [m [-> [_ Hm]]]. cbn [rpool].
    apply worth_mono_price; [|cbn [tsh]; lia].
    apply (price_le_mint _ _ x m); [reflexivity|reflexivity|]. intros Hs. apply (sfs_bounds _ _ _ Hm Hs).
  - intros H Hu. apply withdraw_ok_iff in H as [H1 H2]. rewrite (withdraw_ok_eq _ _ _ _ H1 H2). cbn [rpool].
    pose proof (stake_le_bal p x H2) as Lb.
    apply worth_mono_price; [|cbn [tsh]; lia].
    apply (price_le_burn _ _ (stake_for_shares p x) x); cbn [bal tsh]; [lia|lia|apply stake_le_cross].
Qed.

Lemma slash_take_le b amount total : slash_take b amount total <= b.
Proof. unfold slash_take. destruct (total =? 0); lia. Qed.

(* the slash of one pool of balance b <= T: the floor of b*amount/T, capped at b *)
Lemma slash_take_spec b amount T : T <> 0 -> b <= T ->
  slash_take b amount T * T <= b * amount /\
  (amount <= T -> slash_take b amount T = b * amount / T /\ b * amount < (slash_take b amount T + 1) * T) /\
  (T <= amount -> slash_take b amount T = b).
Proof.
  intros HT Hb. unfold slash_take. destruct (N.eqb_spec T 0) as [|_]; [contradiction|].
  pose proof (div_mul_le (b * amount) T) as L. pose proof (div_mul_gt (b * amount) T HT) as G.
  set (x := b * amount / T) in *.
  split; [nia|]. split.
  - intros Ha. assert (x <= b) by nia. rewrite N.min_r by assumption. split; [reflexivity|exact G].
  - intros Ha. assert (b <= x) by nia. lia.
Qed.

(* x of b and y of d are floors of the same fraction am/T: equal parts up to one unit *)
Lemma same_fraction x y b d am T : T <> 0 -> x * T <= b * am -> d * am < (y + 1) * T ->
  x * d <= (y + 1) * b.
Proof.
  intros HT H1 H2. apply (mul_le_cancel_l T); [exact HT|].
  assert (d * (x * T) <= d * (b * am)) by (apply N.mul_le_mono_l; exact H1).
  assert (b * (d * am) <= b * ((y + 1) * T)) by (apply N.mul_le_mono_l, N.lt_le_incl; exact H2). lia.
Qed.

Lemma slash_same_fraction_l ba bd amount :
  let '(ta, td) := slash_pools ba bd amount in
  ta <= ba /\ td <= bd /\ ta + td <= amount /\
  (* both are the floor of the same fraction amount/(ba+bd) of their pool, capped *)
  (amount <= ba + bd -> ba + bd <> 0 ->
     ta = ba * amount / (ba + bd) /\ td = bd * amount / (ba + bd) /\
     ta * (ba + bd) <= ba * amount < (ta + 1) * (ba + bd) /\
     td * (ba + bd) <= bd * amount < (td + 1) * (ba + bd) /\
     amount <= ta + td + 1) /\
  (ba + bd <= amount -> ta = ba /\ td = bd) /\
  (* same fraction of both pools up to one base unit each *)
  ta * bd <= (td + 1) * ba /\ td * ba <= (ta + 1) * bd.
Proof.
  unfold slash_pools. set (T := ba + bd).
  destruct (N.eq_dec T 0) as [HT|HT].
  { assert (ba = 0 /\ bd = 0) as [-> ->] by lia. unfold slash_take. replace (T =? 0) with true by lia. repeat split; lia. }
  destruct (slash_take_spec ba amount T HT) as (Fa & Ea & Aa); [lia|].
  destruct (slash_take_spec bd amount T HT) as (Fd & Ed & Ad); [lia|].
  set (ta := slash_take ba amount T) in *. set (td := slash_take bd amount T) in *.
  split; [apply slash_take_le|]. split; [apply slash_take_le|].
  (* cleared before lia: zify expands every quotient in the context *)
  split. { clear Ea Ed. apply (mul_le_cancel_l T); [exact HT|]. unfold T in *. lia. }
  split. { intros Ha _. destruct (Ea Ha) as [Ea1 Ea2]. destruct (Ed Ha) as [Ed1 Ed2].
           repeat split; try assumption. clear Ea Ed Ea1 Ed1.
           assert (X : T * amount < T * (ta + td + 2)) by (unfold T in *; lia).
           apply N.mul_lt_mono_pos_l in X; lia. }
  split. { intros Ha. split; [exact (Aa Ha)|exact (Ad Ha)]. }
  destruct (N.le_gt_cases T amount) as [Hc|Hc].
  - rewrite (Aa Hc), (Ad Hc). clear Ea Ed. lia.
  - destruct (Ea (N.lt_le_incl _ _ Hc)) as [_ Ea2]. destruct (Ed (N.lt_le_incl _ _ Hc)) as [_ Ed2].
    split; [exact (same_fraction ta td ba bd amount T HT Fa Ed2)|exact (same_fraction td ta bd ba amount T HT Fd Ea2)].
Qed.

Lemma slash_price ba sa bd amount :
  price_le (mkPool (ba - fst (slash_pools ba bd amount)) sa) (mkPool ba sa).
Proof.
  unfold price_le. cbn [bal tsh]. intros _. apply N.mul_le_mono_r. lia.
Qed.
