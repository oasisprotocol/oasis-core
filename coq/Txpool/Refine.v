(* With the stop constant U64MAX the bookkeeping layer produces exactly the
   observations of the reference layer. *)
From Verif Require Import Lib.Base Txpool.Model Txpool.Ops Txpool.Inv.

Definition eqv (s s' : st) : Prop := erase s = erase s'.

Lemma eqv_mk c t sn sc m m' : eqv (mkSt c t sn sc m) (mkSt c t sn sc m').
Proof. reflexivity. Qed.

Lemma eqv_inv s s' : eqv s s' -> exists c t sn sc m m', s = mkSt c t sn sc m /\ s' = mkSt c t sn sc m'.
Proof.
  destruct s as [c t sn sc m], s' as [c' t' sn' sc' m']. unfold eqv, erase, set_maxh. cbn.
  intros H. injection H as -> -> -> ->. repeat eexists.
Qed.

Lemma eqv_erase s : eqv s (erase s).
Proof. reflexivity. Qed.

Lemma set_maxh_eqv s l : eqv (set_maxh s l) s.
Proof. reflexivity. Qed.

Lemma eqv_refl s : eqv s s. Proof. reflexivity. Qed.
Lemma eqv_sym s s' : eqv s s' -> eqv s' s. Proof. unfold eqv. auto. Qed.
Lemma eqv_trans a b c : eqv a b -> eqv b c -> eqv a c. Proof. unfold eqv. congruence. Qed.

(* rewrites two eqv states as one record with two heaps *)
Ltac split_eqv H :=
  apply eqv_inv in H; destruct H as (?c & ?t & ?sn & ?sc & ?m & ?m' & -> & ->).

Lemma drop_cong P a s s' : eqv s s' -> eqv (drop P a s) (drop P a s').
Proof.
  intros H. split_eqv H. unfold drop. cbn [txs set_txs set_maxh set_senders senders].
  destruct (has_sender a t && _); reflexivity.
Qed.

Lemma is_ready_cong s s' u : eqv s s' -> is_ready s u = is_ready s' u.
Proof. intros H. split_eqv H. reflexivity. Qed.

Lemma insert_cong u s s' : eqv s s' -> eqv (b_insert u s) (b_insert u s').
Proof.
  intros H. unfold b_insert. rewrite (is_ready_cong s s' u H). split_eqv H.
  destruct (is_ready _ u); reflexivity.
Qed.

Lemma replace_cong u o s s' : eqv s s' -> eqv (b_replace u o s) (b_replace u o s').
Proof.
  intros H. split_eqv H. unfold b_replace. cbn [maxh txs set_txs set_maxh].
  destruct (nmem (tid o) m), (nmem (tid o) m'); reflexivity.
Qed.

Lemma eqv_txs s s' : eqv s s' -> txs s = txs s'.
Proof. intros H. split_eqv H. reflexivity. Qed.
Lemma eqv_cap s s' : eqv s s' -> cap s = cap s'.
Proof. intros H. split_eqv H. reflexivity. Qed.
Lemma eqv_senders s s' : eqv s s' -> senders s = senders s'.
Proof. intros H. split_eqv H. reflexivity. Qed.
Lemma eqv_sched s s' : eqv s s' -> sched s = sched s'.
Proof. intros H. split_eqv H. reflexivity. Qed.

Lemma set_senders_cong s s' l : eqv s s' -> eqv (set_senders s l) (set_senders s' l).
Proof. intros H. split_eqv H. reflexivity. Qed.

Lemma add_cong u q e s s' : eqv s s' ->
  fst (b_add u q e s) = fst (b_add u q e s') /\ eqv (snd (b_add u q e s)) (snd (b_add u q e s')).
Proof.
  intros H. unfold b_add.
  rewrite <- (eqv_txs _ _ H), <- (eqv_senders _ _ H).
  destruct (find_id (tid u) (txs s)); [auto|].
  (* the sender's entry is created in both states alike *)
  set (M := match aget _ _ with Some c => (c, s) | None => _ end).
  set (M' := match aget _ _ with Some c => (c, s') | None => _ end).
  assert (fst M = fst M' /\ eqv (snd M) (snd M')) as [Hc H1]
    by (unfold M, M'; destruct (aget _ _); cbn [fst snd]; auto using set_senders_cong).
  destruct M as [c s1], M' as [c' s1']. cbn [fst snd] in Hc, H1. subst c'.
  destruct (tseq u <? c); [auto|].
  rewrite <- (eqv_txs _ _ H1).
  destruct (get_seq (tsender u) (tseq u) (txs s1)) as [old|].
  - destruct (tprio u <=? tprio old); [auto|]. cbn [fst snd]. split; [reflexivity|].
    apply replace_cong. exact H1.
  - pose proof (insert_cong u s1 s1' H1) as Hi.
    rewrite <- (eqv_txs _ _ Hi), <- (eqv_cap _ _ Hi).
    destruct (_ <=? _); [auto|].
    destruct (find_id e (txs (b_insert u s1))) as [low|]; [|auto].
    destruct (forallb _ _); [|auto]. cbn [fst snd]. split; [reflexivity|].
    unfold b_remove. apply drop_cong. exact Hi.
Qed.

Lemma forward_cong a q s s' : eqv s s' -> eqv (b_forward a q s) (b_forward a q s').
Proof.
  intros H. unfold b_forward. rewrite <- (eqv_senders _ _ H).
  destruct (aget a (senders s)) as [c|]; [|exact H].
  destruct (q <=? c); [exact H|].
  pose proof (set_senders_cong s s' (aset a q (senders s)) H) as H1.
  pose proof (drop_cong (fun t => tseq t <? q) a _ _ H1) as H2.
  rewrite <- (eqv_txs _ _ H2).
  destruct (head a (txs _)) as [f|]; [|exact H2].
  (* pushing the head changes the heap only *)
  destruct (negb _ && _); destruct (negb _ && _); exact H2.
Qed.

Lemma used_cong i s s' : eqv s s' -> eqv (b_used i s) (b_used i s').
Proof.
  intros H. unfold b_used. rewrite <- (eqv_txs _ _ H).
  destruct (find_id i (txs s)) as [t|]; [|exact H].
  unfold b_remove. pose proof (drop_cong (fun u => tid u =? tid t) (tsender t) _ _ H) as H1.
  destruct (tseq t <? U64MAX); [apply forward_cong|]; exact H1.
Qed.

Lemma clear_cong s s' : eqv s s' -> eqv (b_clear s) (b_clear s').
Proof. intros H. split_eqv H. reflexivity. Qed.

Lemma restore_eqv a q s : eqv (b_restore a q s) s.
Proof.
  destruct (restore_fields a q s) as (F1 & F2 & F3 & F4).
  unfold eqv, erase, set_maxh. rewrite F1, F2, F3, F4. reflexivity.
Qed.

Lemma restore_fold_eqv l s : eqv (fold_left (fun acc e => b_restore (fst e) (snd e) acc) l s) s.
Proof.
  apply (fold_left_invariant (fun acc => eqv acc s)); [|apply eqv_refl].
  intros acc e H. eapply eqv_trans; [apply restore_eqv|exact H].
Qed.

Lemma set_sched_cong s s' l : eqv s s' -> eqv (set_sched s l) (set_sched s' l).
Proof. intros H. split_eqv H. reflexivity. Qed.

Lemma reset_cong s s' : eqv s s' -> eqv (b_reset s) (set_sched s' []).
Proof.
  intros H. unfold b_reset. apply set_sched_cong.
  eapply eqv_trans; [apply restore_fold_eqv|exact H].
Qed.

Lemma ready_cong s s' : eqv s s' -> ready s = ready s'.
Proof. intros H. split_eqv H. reflexivity. Qed.

Lemma heap_txs_ready s : Inv s -> filter (fun u => nmem (tid u) (maxh s)) (txs s) = ready s.
Proof. intros HI. unfold ready. apply filter_ext_in. intros u Hu. apply (i_mem s HI u Hu). Qed.

Lemma b_r_schedule_one i s : Inv s ->
  match b_schedule_one U64MAX i s with
  | Some s1 => exists s1', r_schedule_one i s = Some s1' /\ eqv s1 s1'
  | None => r_schedule_one i s = None
  end.
Proof.
  intros HI. unfold b_schedule_one, r_schedule_one. rewrite (heap_txs_ready s HI).
  destruct (nmem i (maxh s)) eqn:Em; cbn [negb].
  - apply nmem_In in Em. destruct (i_sub s HI i Em) as [t [Ht He]].
    rewrite (find_id_unique i (txs s) t (i_ids s HI) Ht He).
    assert (In t (ready s)) as Hr.
    { unfold ready. apply filter_In. split; [exact Ht|]. rewrite <- (i_mem s HI t Ht). apply nmem_In. congruence. }
    assert (find_id i (ready s) = Some t) as Hf.
    { apply find_id_unique; auto. unfold ready. apply NoDup_map_filter. apply HI. }
    rewrite Hf. unfold max_prio_in.
    destruct (forallb (fun u => tprio u <=? tprio t) (ready s)); cbn [negb]; [|reflexivity].
    eexists. split; [reflexivity|]. destruct s. reflexivity.
  - destruct (find_id i (ready s)) as [t|] eqn:Hf; [|reflexivity]. exfalso.
    apply find_id_some in Hf as [Hin He]. unfold ready in Hin. apply filter_In in Hin as [Ht Hr].
    rewrite <- (i_mem s HI t Ht), He, Em in Hr. discriminate.
Qed.

Lemma r_schedule_one_cong i s s' : eqv s s' ->
  match r_schedule_one i s, r_schedule_one i s' with
  | Some a, Some b => eqv a b
  | None, None => True
  | _, _ => False
  end.
Proof.
  intros H. unfold r_schedule_one. rewrite <- (ready_cong s s' H), <- (eqv_sched s s' H).
  destruct (find_id i (ready s)) as [t|]; [|exact I].
  destruct (negb _); [exact I|]. apply set_sched_cong. exact H.
Qed.

Lemma b_r_schedule_picks picks : forall s s', Inv s -> eqv s s' ->
  match b_schedule_picks U64MAX picks s with
  | Some s1 => exists s1', r_schedule_picks picks s' = Some s1' /\ eqv s1 s1' /\ Inv s1
  | None => r_schedule_picks picks s' = None
  end.
Proof.
  induction picks as [|i r IH]; cbn [b_schedule_picks r_schedule_picks]; intros s s' HI He.
  - exists s'. auto.
  - pose proof (b_r_schedule_one i s HI) as H1. pose proof (r_schedule_one_cong i s s' He) as H2.
    destruct (b_schedule_one U64MAX i s) as [s1|] eqn:Eb.
    + destruct H1 as [s1' [Hr Hq]]. rewrite Hr in H2.
      destruct (r_schedule_one i s') as [s1''|]; [|contradiction].
      apply IH; [eapply schedule_one_inv; eauto|eapply eqv_trans; eauto].
    + rewrite H1 in H2. destruct (r_schedule_one i s'); [contradiction|reflexivity].
Qed.

Lemma maxh_nil_ready s : Inv s ->
  (match maxh s with [] => true | _ => false end) = (match ready s with [] => true | _ => false end).
Proof.
  intros HI. pose proof (inv_maxh_ready s HI) as H.
  destruct (maxh s) as [|j m], (ready s) as [|t r]; try reflexivity; exfalso.
  - destruct (H (tid t)) as [_ H2]. apply H2. left. reflexivity.
  - destruct (H j) as [H1 _]. apply H1. left. reflexivity.
Qed.

Lemma schedule_refines lim picks s s' : Inv s -> eqv s s' ->
  fst (b_schedule U64MAX lim picks s) = fst (r_schedule lim picks s') /\
  eqv (snd (b_schedule U64MAX lim picks s)) (snd (r_schedule lim picks s')).
Proof.
  intros HI He. unfold b_schedule, r_schedule.
  destruct (_ <? _); [auto|].
  pose proof (b_r_schedule_picks picks s s' HI He) as H.
  destruct (b_schedule_picks U64MAX picks s) as [s1|].
  - destruct H as [s1' [Hr [Hq HI1]]]. rewrite Hr.
    rewrite (maxh_nil_ready s1 HI1), (ready_cong s1 s1' Hq).
    destruct (_ || _); auto.
  - rewrite H. auto.
Qed.

Lemma b_step_cong STOP STOP' s s' o : eqv s s' ->
  match o with
  | OSchedule _ _ | OReset => True
  | _ => fst (b_step STOP s o) = fst (b_step STOP' s' o) /\
         eqv (snd (b_step STOP s o)) (snd (b_step STOP' s' o))
  end.
Proof.
  intros H. destruct o; cbn [b_step fst snd]; auto using add_cong, used_cong, forward_cong, clear_cong.
Qed.

Lemma step_refines s s' o : Inv s -> eqv s s' ->
  fst (b_step U64MAX s o) = fst (r_step s' o) /\ eqv (snd (b_step U64MAX s o)) (snd (r_step s' o)).
Proof.
  intros HI He. pose proof (b_step_cong U64MAX 0 s s' o He) as Hc.
  destruct o as [t q e|lim picks| |i|a q|]; cbn [r_step];
    try (destruct (b_step 0 s' _) as [c1 s1]; cbn [fst snd] in *;
         split; [apply Hc|]; eapply eqv_trans; [apply Hc|apply eqv_erase]).
  - apply schedule_refines; assumption.
  - cbn [b_step fst snd]. split; [reflexivity|apply reset_cong; exact He].
Qed.

Lemma observe_cong c s s' : eqv s s' -> observe c s = observe c s'.
Proof. intros H. unfold observe. rewrite (eqv_txs s s' H). reflexivity. Qed.

Lemma run_obs_refines ops : forall s s',
  Forall op_ok ops -> sched_nodup s -> Inv s -> eqv s s' ->
  run_obs (b_step U64MAX) s ops = run_obs r_step s' ops.
Proof.
  induction ops as [|o r IH]; cbn [run_obs]; intros s s' Hok HK HI He; [reflexivity|].
  inversion Hok as [|x xs Ho Hr]; subst.
  destruct (step_refines s s' o HI He) as [H1 H2].
  pose proof (step_sched_nodup s o HK) as HK1. pose proof (step_inv s o Ho HK HI) as HI1.
  destruct (b_step U64MAX s o) as [c1 s1]. destruct (r_step s' o) as [c2 s2]. cbn [fst snd] in *.
  subst c2. rewrite (observe_cong c1 s1 s2 H2). f_equal. apply IH; assumption.
Qed.
