(* NodeDB/PathBadgerProofs.v — witnesses and first facts about the pathbadger model. *)
From Verif Require Import Lib.Base NodeDB.Spec NodeDB.PathBadger.

Fixpoint p_accepted (d : pdb) (h : list pop) : bool :=
  match h with
  | [] => true
  | o :: t => eclass_eqb (fst (p_step d o)) EOk && p_accepted (snd (p_step d o)) t
  end.

(* the known finding C06:pathbadger-pipelined-child-of-nonzero-seqno-candidate-misread, recorded
   from the real backend: two candidates of version 2 (the second one holds pending sequence
   number 1, its nodes live in the pending key space of version 2), a child of the SECOND one is
   committed for version 3 before version 2 is finalized: the child is accepted and listed, but
   its inherited nodes are looked up under the child's own sequence number 0, i.e. in the
   finalized key space, where they are not (yet): unreadable until Finalize(2) relocates them *)
Definition h_pipe : list pop :=
  [PCommit 2 1 2 None [(2, 1)] [] [];
   PCommit 2 1 3 None [(3, 1); (6, 1)] [((2, 1), 2); ((2, 2), 3)] [];
   PCommit 3 1 3 (Some (2, 3)) [] [((2, 1), 2); ((2, 2), 3)] []].

Definition h_pipe_spec : list op :=
  [OCommit 2 1 2 None [(2, 1)] [] [] [] [];
   OCommit 2 1 3 None [(3, 1); (6, 1)] [] [] [] [];
   OCommit 3 1 3 (Some (2, 3)) [] [] [] [] []].

Lemma pathbadger_pipelined_nonzero_seqno_refuted_l :
  p_accepted pdb0 h_pipe = true /\
  p_has (p_run pdb0 h_pipe) 3 3 = true /\ p_status (p_run pdb0 h_pipe) 3 3 = 2 /\
  s_read (s_run sdb0 h_pipe_spec) 3 3 = Some [(3, 1); (6, 1)] /\
  (* the parent itself and, once version 2 is finalized with it, the child read back *)
  p_status (p_run pdb0 h_pipe) 2 3 = 1 /\
  p_status (p_run pdb0 (h_pipe ++ [PFinalize 2 [3]])) 3 3 = 1 /\
  (* a child of the FIRST candidate (sequence number 0) is readable at once *)
  p_status (p_run pdb0 [PCommit 2 1 3 None [(3, 1); (6, 1)] [((2, 1), 2); ((2, 2), 3)] [];
                        PCommit 2 1 2 None [(2, 1)] [] [];
                        PCommit 3 1 3 (Some (2, 3)) [] [((2, 1), 2); ((2, 2), 3)] []]) 3 3 = 1.
Proof. vm_compute. repeat split; reflexivity. Qed.

(* the same rule as Spec.s_prune_check *)
Lemma p_prune_rule d v d' :
  p_prune d v = (EOk, d') ->
  exists l, p_last d = Some l /\ v = p_earliest d /\ v < l /\ p_earliest d' = v + 1 /\ p_last d' = Some l.
Proof.
  unfold p_prune. destruct (p_last d) as [l|]; [|discriminate].
  destruct (l <? v) eqn:E1; [discriminate|].
  destruct (negb (v =? p_earliest d)) eqn:E2; [discriminate|].
  destruct (v =? l) eqn:E3; [discriminate|].
  intros H. injection H as <-. exists l. cbn [p_earliest p_last].
  apply N.ltb_ge in E1. apply negb_false_iff in E2. apply N.eqb_eq in E2. apply N.eqb_neq in E3.
  repeat split; try reflexivity; [exact E2|lia].
Qed.

(* Finalize never lists a root it was not asked to keep: after a successful Finalize(v) every
   root-node key of version v is a requested one that existed before (commit faf4b05) *)
Lemma p_finalize_rootkeys d v rids d' r :
  p_finalize d v rids = (EOk, d') ->
  has_rootkey d' v r = true -> nmem r rids = true /\ has_rootkey d v r = true.
Proof.
  unfold p_finalize. destruct rids as [|r0 rs]; [discriminate|].
  destruct (p_last_geb d v); [discriminate|].
  destruct (match p_last d with Some l => negb (l + 1 =? v) | None => false end); [discriminate|].
  destruct (has_dup_type d v (r0 :: rs) []); [discriminate|].
  destruct (negb (forallb _ (r0 :: rs))); [discriminate|].
  match goal with |- (if ?c then _ else _) = _ -> _ => destruct c; [discriminate|] end.
  intros H. injection H as <-. unfold has_rootkey. cbn [p_rootkeys].
  rewrite !existsb_exists. intros [k [HI HE]]. apply filter_In in HI as [HI HF].
  unfold vr_eqb in HE. cbn [fst snd] in HE. apply andb_true_iff in HE as [E1 E2].
  apply N.eqb_eq in E1. apply N.eqb_eq in E2. destruct k as [kv kr]. cbn [fst snd] in *. subst kv kr.
  rewrite N.eqb_refl in HF. cbn [negb orb] in HF. split; [exact HF|].
  exists (v, r). split; [exact HI|]. unfold vr_eqb. cbn [fst snd]. rewrite !N.eqb_refl. reflexivity.
Qed.
