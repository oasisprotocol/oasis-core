(* decode (encode n) = Ok (n, length (encode n)) for well-formed nodes. *)
From Verif Require Import Lib.Base Decode.GoSlice Decode.GoSliceFacts Decode.Node Decode.NodeProofs
  Gen.DecodeConsts.

Lemma le16v_app a b : 2 <= glen a -> le16v (a ++ b) = le16v a.
Proof.
  intros H. unfold le16v. destruct a as [|x [|y a]]; cbn in H; try lia. reflexivity.
Qed.

(* On an encoded input the length checks and the tests of the leading kind byte are decided:
   [exec] is [step] with the branch taken chosen by computation and [glia] where they can. *)
Ltac decide_by c b := replace c with b by (cbn [app nth N.to_nat]; glia).
Ltac exec :=
  lazymatch goal with
  | |- _ ((if ?c then _ else _) _) => first [decide_by c false | decide_by c true | destruct c eqn:?]
  | |- _ => step
  end.

Lemma depth_rt lbl rest s : lbl < 65536 -> depth_unmarshal (put16 lbl ++ rest) s = (Ok (lbl, 2), s).
Proof.
  intros Hl. symmetry. unfold depth_unmarshal. do 3 exec.
  rewrite le16v_sl, le16v_put16 by (assumption || glia). reflexivity.
Qed.

Definition wf_key (k : bytes) : Prop := glen k < 65536.

Lemma glen_key_marshal k : glen (key_marshal k) = 2 + glen k.
Proof. unfold key_marshal. glia. Qed.
#[export] Hint Rewrite glen_key_marshal : glen.

Lemma key_rt k rest s : wf_key k ->
  key_sized_unmarshal (key_marshal k ++ rest) s = (Ok (k, 2 + glen k), s + glen k).
Proof.
  unfold wf_key. intros Hk. symmetry. unfold key_sized_unmarshal, key_marshal. rewrite <- app_assoc.
  do 3 exec. rewrite le16v_sl, le16v_put16 by (assumption || glia). do 2 exec.
  - do 2 exec. rewrite sl_at, gcopy_zeros by glia. reflexivity.
  - destruct k; [rewrite glen_nil, !N.add_0_r; reflexivity|rewrite glen_cons in *; lia].
Qed.

Definition wf_leaf (l : leaf) : Prop := glen (lkey l) < 65536 /\ glen (lvalue l) < 4294967296.

Lemma glen_leaf_marshal l : glen (leaf_marshal l) = 7 + glen (lkey l) + glen (lvalue l).
Proof. unfold leaf_marshal. glia. Qed.
#[export] Hint Rewrite glen_leaf_marshal : glen.

Lemma leaf_rt l rest s : wf_leaf l ->
  leaf_sized_unmarshal (leaf_marshal l ++ rest) s
  = (Ok (l, 7 + glen (lkey l) + glen (lvalue l)), s + glen (lkey l) + glen (lvalue l)).
Proof.
  destruct l as [k v]. unfold wf_leaf. cbn [lkey lvalue]. intros [Hk Hv]. symmetry.
  unfold leaf_sized_unmarshal, leaf_marshal. cbn [lkey lvalue]. rewrite <- !app_assoc.
  do 4 exec.
  rewrite sl_tail, bind_unfold, key_rt by (assumption || glia). cbv beta iota.
  (* the value length and the value lie behind the prefix byte and the key *)
  rewrite (app_assoc [PrefixLeafNode]). do 2 exec. rewrite sl_at by glia. exec.
  rewrite le32v_put32 by assumption.
  rewrite (app_assoc _ (put32 _)). do 3 exec. rewrite sl_at, gcopy_zeros by glia.
  replace (1 + (2 + glen k) + ValueLengthSize + glen v) with (7 + glen k + glen v) by golia. reflexivity.
Qed.

Definition wf_ohash (o : option bytes) : Prop :=
  match o with Some h => glen h = 32 /\ hash_is_empty h = false | None => True end.
Definition wf_oleaf (o : option leaf) : Prop :=
  match o with Some l => wf_leaf l | None => True end.
Definition wf_inode (n : inode) : Prop :=
  ilbl n < 65536 /\ glen (ilabel n) = depth_to_bytes (ilbl n) /\
  wf_oleaf (ileaf n) /\ wf_ohash (ileft n) /\ wf_ohash (iright n).

Lemma index_mid a x b i : i = glen a -> index (a ++ x :: b) i = Ok x.
Proof.
  intros ->. rewrite index_ok by glia.
  rewrite nth_N_app_r by lia. replace (glen a - glen a) with 0 by lia. reflexivity.
Qed.

Lemma ileaf_rt pre lf post s : wf_oleaf lf ->
  inode_leaf (pre ++ leaf_or_nil lf ++ post) (glen pre) s
  = (Ok (lf, glen pre + glen (leaf_or_nil lf)), s + oleaf_size lf).
Proof.
  intros Hwf. unfold inode_leaf. destruct lf as [l|]; cbn [leaf_or_nil oleaf_size wf_oleaf] in *.
  - unfold leaf_marshal at 1. unfold PrefixLeafNode, PrefixNilNode. cbn [app].
    rewrite index_mid by reflexivity. rewrite bind_lift_ok.
    change (0 =? 2) with false. cbn iota.
    unfold slice_from. rewrite slice_ok by glia.
    rewrite bind_lift_ok.
    change (0 :: (key_marshal (lkey l) ++ put32 (glen (lvalue l)) ++ lvalue l) ++ post)
      with (leaf_marshal l ++ post).
    rewrite sl_tail by glia.
    rewrite bind_unfold, wrap_unfold, leaf_rt by exact Hwf.
    cbn [ret]. unfold leaf_size.
    rewrite glen_leaf_marshal. unfold ret. f_equal. lia.
  - unfold PrefixNilNode. cbn [app]. rewrite index_mid by reflexivity. rewrite bind_lift_ok.
    change (2 =? 2) with true. unfold ret. change (glen [2]) with 1. rewrite N.add_0_r. reflexivity.
Qed.

Definition dec_hash (h : bytes) : option bytes := if hash_is_empty h then None else Some h.

Lemma dec_hash_or_empty o : wf_ohash o -> dec_hash (hash_or_empty o) = o.
Proof.
  destruct o as [h|]; cbn [wf_ohash hash_or_empty]; unfold dec_hash.
  - intros [_ ->]. reflexivity.
  - intros _. reflexivity.
Qed.

Lemma hashes_rt_full pre hl hr lbl label lf s :
  glen hl = 32 -> glen hr = 32 ->
  inode_hashes (pre ++ hl ++ hr) lbl label lf (glen pre) s
  = (Ok (mkInode lbl label lf (dec_hash hl) (dec_hash hr), glen pre + 64), s).
Proof.
  intros Hl Hr. unfold inode_hashes, hash_unmarshal. unfold HashSize.
  assert (glen (pre ++ hl ++ hr) = glen pre + 64) as Hlen by (rewrite !glen_app; lia).
  rewrite Hlen.
  destruct (glen pre + 32 * 2 <=? glen pre + 64) eqn:H1; [|lia].
  rewrite slice_ok by lia. rewrite bind_lift_ok.
  rewrite (sl_at pre hl hr) by lia.
  rewrite bind_unfold, wrap_unfold. rewrite Hl. change (negb (32 =? 32)) with false. cbn [ret].
  rewrite slice_ok by lia. rewrite bind_lift_ok.
  replace (pre ++ hl ++ hr) with ((pre ++ hl) ++ hr ++ []) by (rewrite app_nil_r, app_assoc; reflexivity).
  rewrite (sl_at (pre ++ hl) hr []) by (rewrite glen_app; lia).
  rewrite bind_unfold, wrap_unfold. rewrite Hr. change (negb (32 =? 32)) with false. cbn [ret].
  unfold dec_hash, ret. replace (glen pre + 32 + 32) with (glen pre + 64) by lia. reflexivity.
Qed.

Lemma hashes_rt_compact data lbl label lf s :
  inode_hashes data lbl label lf (glen data) s = (Ok (mkInode lbl label lf None None, glen data), s).
Proof.
  unfold inode_hashes. unfold HashSize.
  destruct (glen data + 32 * 2 <=? glen data) eqn:H1; [lia|]. reflexivity.
Qed.

Lemma glen_leaf_or_nil lf : 1 <= glen (leaf_or_nil lf).
Proof.
  destruct lf; cbn [leaf_or_nil]; [unfold leaf_marshal; rewrite glen_app|]; cbn; lia.
Qed.

(* the common prefix of the three encodings: decoding up to the hashes *)
Lemma inode_prefix_rt n tailb s : wf_inode n ->
  inode_sized_unmarshal
    ([PrefixInternalNode] ++ depth_marshal (ilbl n) ++ ilabel n ++ leaf_or_nil (ileaf n) ++ tailb) s
  = inode_hashes
      ([PrefixInternalNode] ++ depth_marshal (ilbl n) ++ ilabel n ++ leaf_or_nil (ileaf n) ++ tailb)
      (ilbl n) (ilabel n) (ileaf n)
      (3 + glen (ilabel n) + glen (leaf_or_nil (ileaf n)))
      (s + glen (ilabel n) + oleaf_size (ileaf n)).
Proof.
  destruct n as [lbl label lf l r]. unfold wf_inode. cbn [ilbl ilabel ileaf ileft iright].
  intros (Hlbl & Hlab & Hlf & _ & _).
  unfold depth_marshal, PrefixInternalNode. cbn [app].
  set (data := 1 :: put16 lbl ++ label ++ leaf_or_nil lf ++ tailb).
  pose proof (glen_leaf_or_nil lf) as Hln.
  assert (glen data = 3 + glen label + glen (leaf_or_nil lf) + glen tailb) as Hlen.
  { unfold data. rewrite glen_cons, !glen_app, glen_put16. lia. }
  unfold inode_sized_unmarshal, slice_from. unfold DepthSize, PrefixInternalNode.
  rewrite !Hlen.
  destruct (3 + glen label + glen (leaf_or_nil lf) + glen tailb <? 1 + 2 + 1) eqn:H1; [lia|].
  rewrite index_ok by lia. rewrite bind_lift_ok.
  change (nth (N.to_nat 0) data 0) with 1. change (negb (1 =? 1)) with false. cbn iota.
  rewrite slice_ok by lia. rewrite bind_lift_ok.
  assert (sl data (0 + 1) (3 + glen label + glen (leaf_or_nil lf) + glen tailb)
          = put16 lbl ++ label ++ leaf_or_nil lf ++ tailb) as ->
    by (apply (sl_tail [1]); glia).
  rewrite bind_unfold, wrap_unfold, depth_rt by exact Hlbl.
  rewrite <- Hlab.
  destruct (3 + glen label + glen (leaf_or_nil lf) + glen tailb <? 0 + 1 + 2 + glen label) eqn:H2; [lia|].
  rewrite bind_alloc. rewrite slice_ok by lia. rewrite bind_lift_ok.
  assert (sl data (0 + 1 + 2) (0 + 1 + 2 + glen label) = label) as Hsl.
  { unfold data. change (1 :: put16 lbl ++ label ++ leaf_or_nil lf ++ tailb)
      with ((1 :: put16 lbl) ++ label ++ leaf_or_nil lf ++ tailb).
    apply sl_at; cbn; lia. }
  rewrite Hsl, gcopy_zeros.
  destruct (3 + glen label + glen (leaf_or_nil lf) + glen tailb <=? 0 + 1 + 2 + glen label) eqn:H3; [lia|].
  rewrite bind_unfold.
  assert (data = (1 :: put16 lbl ++ label) ++ leaf_or_nil lf ++ tailb) as Hd2.
  { unfold data. cbn [app]. rewrite <- !app_assoc. reflexivity. }
  assert (0 + 1 + 2 + glen label = glen (1 :: put16 lbl ++ label)) as Hp.
  { rewrite glen_cons, glen_app, glen_put16. lia. }
  rewrite Hp. rewrite Hd2 at 1. rewrite ileaf_rt by exact Hlf.
  cbv beta iota. rewrite <- Hp.
  f_equal; lia.
Qed.

Lemma glen_inode_prefix n tailb :
  glen ([PrefixInternalNode] ++ depth_marshal (ilbl n) ++ ilabel n ++ leaf_or_nil (ileaf n) ++ tailb)
  = 3 + glen (ilabel n) + glen (leaf_or_nil (ileaf n)) + glen tailb.
Proof. unfold depth_marshal. rewrite !glen_app, glen_put16. cbn. lia. Qed.

(* MarshalBinary *)
Lemma inode_rt_full n s : wf_inode n ->
  inode_sized_unmarshal (inode_marshal n) s
  = (Ok (n, glen (inode_marshal n)), s + glen (ilabel n) + oleaf_size (ileaf n)).
Proof.
  intros Hwf. unfold inode_marshal.
  rewrite (inode_prefix_rt n (hash_or_empty (ileft n) ++ hash_or_empty (iright n)) s Hwf).
  destruct Hwf as (_ & _ & _ & Hl & Hr).
  assert (forall o, wf_ohash o -> glen (hash_or_empty o) = 32) as H32.
  { intros [h|]; cbn; [tauto|reflexivity]. }
  rewrite glen_inode_prefix. rewrite glen_app, !H32 by assumption.
  set (pre := [PrefixInternalNode] ++ depth_marshal (ilbl n) ++ ilabel n ++ leaf_or_nil (ileaf n)).
  assert ([PrefixInternalNode] ++ depth_marshal (ilbl n) ++ ilabel n ++ leaf_or_nil (ileaf n)
            ++ hash_or_empty (ileft n) ++ hash_or_empty (iright n)
          = pre ++ hash_or_empty (ileft n) ++ hash_or_empty (iright n)) as Hd.
  { unfold pre. rewrite <- !app_assoc. reflexivity. }
  rewrite Hd.
  assert (3 + glen (ilabel n) + glen (leaf_or_nil (ileaf n)) = glen pre) as Hp.
  { unfold pre, depth_marshal. rewrite !glen_app, glen_put16. cbn. lia. }
  rewrite Hp. rewrite hashes_rt_full by (apply H32; assumption).
  rewrite !dec_hash_or_empty by assumption.
  destruct n as [n1 n2 n3 n4 n5]; cbn [ilbl ilabel ileaf ileft iright].
  cbn [ilabel ileaf] in Hp. rewrite <- Hp. repeat f_equal; lia.
Qed.

(* CompactMarshalBinaryV0: no hash pointers *)
Lemma inode_rt_compact_v0 n s : wf_inode n -> ileft n = None -> iright n = None ->
  inode_sized_unmarshal (inode_compact_marshal_v0 n) s
  = (Ok (n, glen (inode_compact_marshal_v0 n)), s + glen (ilabel n) + oleaf_size (ileaf n)).
Proof.
  intros Hwf Hl Hr. unfold inode_compact_marshal_v0.
  pose proof (inode_prefix_rt n [] s Hwf) as H. rewrite !app_nil_r in H. rewrite H.
  pose proof (glen_inode_prefix n []) as Hg. rewrite !app_nil_r in Hg. cbn [glen length] in Hg.
  replace (3 + glen (ilabel n) + glen (leaf_or_nil (ileaf n)))
    with (glen ([PrefixInternalNode] ++ depth_marshal (ilbl n) ++ ilabel n ++ leaf_or_nil (ileaf n)))
    by (rewrite Hg; unfold glen; cbn; lia).
  rewrite hashes_rt_compact. destruct n as [n1 n2 n3 n4 n5]; cbn [ilbl ilabel ileaf ileft iright] in *. subst. reflexivity.
Qed.

(* CompactMarshalBinaryV1: neither hash pointers nor the leaf *)
Lemma inode_rt_compact_v1 n s : wf_inode n -> ileft n = None -> iright n = None -> ileaf n = None ->
  inode_sized_unmarshal (inode_compact_marshal_v1 n) s
  = (Ok (n, glen (inode_compact_marshal_v1 n)), s + glen (ilabel n)).
Proof.
  intros Hwf Hl Hr Hlf.
  pose proof (inode_rt_compact_v0 n s Hwf Hl Hr) as H.
  unfold inode_compact_marshal_v0, inode_compact_marshal_v1 in *. rewrite Hlf in H.
  cbn [leaf_or_nil oleaf_size] in H. rewrite H. f_equal. lia.
Qed.

Lemma node_rt n s :
  match n with NLeaf l => wf_leaf l | NInternal i => wf_inode i end ->
  fst (node_unmarshal (node_marshal n) s) = Ok n.
Proof.
  destruct n as [l|i]; intros Hwf; unfold node_unmarshal, node_marshal.
  - rewrite glen_leaf_marshal. destruct (1 <? 7 + glen (lkey l) + glen (lvalue l)) eqn:H1; [|lia].
    rewrite index_ok by glia. rewrite bind_lift_ok.
    unfold leaf_marshal at 1. cbn [app N.to_nat nth]. rewrite N.eqb_refl.
    rewrite bind_unfold. rewrite <- (app_nil_r (leaf_marshal l)). rewrite leaf_rt by exact Hwf.
    reflexivity.
  - pose proof (inode_rt_full i s Hwf) as H.
    assert (4 <= glen (inode_marshal i)) as Hl.
    { unfold inode_marshal. rewrite glen_inode_prefix. pose proof (glen_leaf_or_nil (ileaf i)). lia. }
    destruct (1 <? glen (inode_marshal i)) eqn:H1; [|lia].
    rewrite index_ok by lia. rewrite bind_lift_ok.
    unfold inode_marshal at 1 2. cbn [app N.to_nat nth].
    change (PrefixInternalNode =? PrefixLeafNode) with false. rewrite N.eqb_refl. cbn iota.
    rewrite bind_unfold. fold (inode_marshal i) in *.
    change (PrefixInternalNode :: depth_marshal (ilbl i) ++ ilabel i ++ leaf_or_nil (ileaf i)
              ++ hash_or_empty (ileft i) ++ hash_or_empty (iright i)) with (inode_marshal i).
    rewrite H. reflexivity.
Qed.

(* non-vacuity of the well-formedness conditions *)
Example wf_example :
  wf_inode (mkInode 12 [171; 192] (Some (mkLeaf [171; 192] [1; 2; 3])) (Some (repeat 7 32)) None)
  /\ fst (run (inode_sized_unmarshal (inode_marshal
        (mkInode 12 [171; 192] (Some (mkLeaf [171; 192] [1; 2; 3])) (Some (repeat 7 32)) None))))
     = Ok (mkInode 12 [171; 192] (Some (mkLeaf [171; 192] [1; 2; 3])) (Some (repeat 7 32)) None, 81).
Proof.
  split; [|vm_compute; reflexivity].
  unfold wf_inode, wf_oleaf, wf_leaf, wf_ohash. cbn [ilbl ilabel ileaf ileft iright lkey lvalue].
  repeat apply conj; [vm_compute; reflexivity..|exact I].
Qed.
