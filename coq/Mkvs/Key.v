(* Byte-wise port of node.Key (go/storage/mkvs/node/key.go): the functions the
   real code runs on packed byte strings.  Definitions only; the relation to the
   bit-list functions of Trie.v is in Mkvs/KeyProofs.v and Mkvs/KeyLift.v.
   Depth is a uint16 in the code; bit lengths here are unbounded N (keys of
   8192 bytes and more are outside the stated bounds).  Where Go would panic
   on an out-of-range index the model reads 0 / ignores the write; the callers
   in the model never do that on well-formed trees. *)
From Verif Require Import Lib.Base Mkvs.Trie.

Definition nthb (k : bytes) (i : N) : N := nth (N.to_nat i) k 0.
Definition blen (k : bytes) : N := N.of_nat (length k).
Definition nrange (n : N) : list N := map N.of_nat (seq 0 (N.to_nat n)).

(* byte arithmetic: uint8 shifts *)
Definition shl8 (x s : N) : N := (x * 2 ^ s) mod 256.
Definition shr8 (x s : N) : N := x / 2 ^ s.

(* Depth.ToBytes, depth.go:16 *)
Definition to_bytes (d : N) : N := d / 8 + (if d mod 8 =? 0 then 0 else 1).

(* Key.BitLength, key.go:86 *)
Definition k_bitlen (k : bytes) : N := 8 * blen k.

(* Key.GetBit, key.go:91 *)
Definition k_getbit (k : bytes) (b : N) : bool :=
  negb (N.land (nthb k (b / 8)) (2 ^ (7 - b mod 8)) =? 0).

(* make(Key, n) followed by copy(dst, k): zero padded / truncated *)
Definition take_pad (n : N) (k : bytes) : bytes :=
  firstn (N.to_nat n) (k ++ repeat 0 (N.to_nat n)).

Fixpoint upd_nat (k : bytes) (i : nat) (f : N -> N) : bytes :=
  match k, i with
  | [], _ => []
  | x :: r, O => f x :: r
  | x :: r, S i' => x :: upd_nat r i' f
  end.
Definition upd (k : bytes) (i : N) (f : N -> N) : bytes := upd_nat k (N.to_nat i) f.

(* Key.Split, key.go:115-141 *)
Definition k_split (k : bytes) (sp kl : N) : bytes * bytes :=
  let pl := to_bytes sp in
  let sl := to_bytes (kl - sp) in
  let p0 := take_pad pl k in
  let p := if sp mod 8 =? 0 then p0
           else upd p0 (pl - 1) (fun x => N.land x (shl8 255 (8 - sp mod 8))) in
  let s := map (fun i =>
              let a := shl8 (nthb k (i + sp / 8)) (sp mod 8) in
              if negb (sp mod 8 =? 0) && negb (i + sp / 8 + 1 =? blen k)
              then N.lor a (shr8 (nthb k (i + sp / 8 + 1)) (8 - sp mod 8))
              else a) (nrange sl) in
  (p, s).

(* Key.Merge, key.go:148-172 *)
Definition k_merge (k : bytes) (kl : N) (k2 : bytes) (k2l : N) : bytes :=
  let klb := to_bytes kl in
  let nl := to_bytes (kl + k2l) in
  map (fun j =>
         let base := if j <? klb then nthb k j else 0 in
         let c1 := if negb (kl mod 8 =? 0) && (0 <? klb) && (klb <=? j + 1) && (j + 1 - klb <? blen k2)
                   then shr8 (nthb k2 (j + 1 - klb)) (kl mod 8) else 0 in
         let c2 := if (klb <=? j) && (j - klb <? blen k2)
                   then shl8 (nthb k2 (j - klb)) ((8 - kl mod 8) mod 8) else 0 in
         N.lor (N.lor base c1) c2) (nrange nl).

(* Key.AppendBit, key.go:177-188 *)
Definition k_appendbit (k : bytes) (kl : N) (v : bool) : bytes :=
  let nk := take_pad (to_bytes (kl + 1)) k in
  let m := shr8 128 (kl mod 8) in
  upd nk (kl / 8) (fun x => if v then N.lor x m else N.land x (255 - m)).

(* Key.CommonPrefixLen, key.go:194-221 *)
Fixpoint eq_prefix_bytes (a b : bytes) : nat :=
  match a, b with
  | x :: a', y :: b' => if x =? y then S (eq_prefix_bytes a' b') else O
  | _, _ => O
  end.
Definition lz8 (x : N) : N := if x =? 0 then 8 else 7 - N.log2 x.   (* bits.LeadingZeros8 *)
Definition k_cpl (k : bytes) (kbl : N) (k2 : bytes) (k2bl : N) : N :=
  let i := N.of_nat (eq_prefix_bytes k k2) in
  let bl := i * 8 + (if negb (i =? blen k) && negb (i =? blen k2)
                     then lz8 (N.lxor (nthb k i) (nthb k2 i)) else 0) in
  N.min (N.min bl kbl) k2bl.

(* Key.Compare = bytes.Compare = Lib.Base.bytes_cmp *)
