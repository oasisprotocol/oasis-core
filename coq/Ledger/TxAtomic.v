(* C05/C08: the staking and governance-deposit transaction handlers of
   Ledger/Ops.v are "validate first, write last": a handler that returns a
   failure has written nothing, so a failed transaction leaves either the
   untouched state (authentication failed) or exactly the state right after
   authenticate-and-pay (fee moved to the accumulator, nonce + 1). *)
From Verif Require Import Lib.Base Ledger.SharePool Ledger.State Ledger.Ops.

(* case analysis on the scrutinee of the first [if] / option match / pair match of the goal *)
Ltac tcase :=
  match goal with
  | |- context [if ?c then _ else _] => destruct c eqn:?
  | |- context [match ?c with Some _ => _ | None => _ end] => destruct c eqn:?
  | |- context [let '(_, _) := ?c in _] => destruct c eqn:?
  end.
Ltac tdone := cbn [fst snd]; intros; first [reflexivity | congruence].

Lemma leaf_fail_unchanged p s signer b g :
  fst (exec_leaf p s signer b g) <> ROk -> snd (exec_leaf p s signer b g) = s.
Proof.
  destruct b; cbn [exec_leaf];
    unfold transfer, burn, burn_impl, transfer_impl, add_escrow, reclaim_escrow, allow_op, withdraw_op,
      gov_submit, withdraw_hooked, qmove;
    repeat tcase; tdone.
Qed.

Lemma withdraw_self_noop_l p s a amt ok g :
  (fst (withdraw_op p s a a amt g) <> ROk /\ snd (withdraw_op p s a a amt g) = s) /\
  (fst (withdraw_hooked p s a a amt ok g) <> ROk /\ snd (withdraw_hooked p s a a amt ok g) = s).
Proof.
  unfold withdraw_op, withdraw_hooked. rewrite N.eqb_refl.
  split; repeat (tcase; [cbn [fst snd]; split; [discriminate|reflexivity]|]);
    cbn [fst snd]; split; first [discriminate | reflexivity].
Qed.

(* [BOther]: governance vote, amend commission schedule, other apps *)
Lemma other_never_writes p s signer ok g : snd (exec_body p s signer (BOther ok) g) = s.
Proof. cbn [exec_body exec_leaf]. repeat (tcase; try tdone). Qed.

Lemma tx_fail_leaves_post_auth_state_l p s signer b g :
  fst (exec_body p s signer b g) <> ROk -> snd (exec_body p s signer b g) = s.
Proof.
  destruct b; try exact (leaf_fail_unchanged p s signer _ g).
  cbn [exec_body]. tcase; [tdone|]. apply leaf_fail_unchanged.
Qed.

Definition post_auth (p : params) (s : state) (signer nonce_ fee : N) : state :=
  snd (auth p s signer nonce_ fee).

Lemma auth_fail_leaves_state_l p s signer n fee :
  fst (auth p s signer n fee) <> ROk -> snd (auth p s signer n fee) = s.
Proof. unfold auth, qmove. repeat (tcase; try tdone). Qed.

Lemma auth_ok_effect_l p s signer n fee :
  fst (auth p s signer n fee) = ROk ->
  let a := acct s signer in
  nonce a = n /\ fee <= general a /\
  post_auth p s signer n fee =
    set_acct signer (with_nonce (with_general a (general a - fee)) ((nonce a + 1) mod two64))
             (with_feeacc s (fee_acc s + fee)).
Proof.
  unfold post_auth, auth, qmove.
  tcase; [tdone|].
  destruct (N.eqb_spec (nonce (acct s signer)) n) as [En|_]; cbn [negb]; [|tdone].
  tcase; [tdone|]. tcase; [tdone|].
  intros _. split; [exact En|]. split; [lia|reflexivity].
Qed.

Lemma failed_tx_after_auth_l p s signer n fee g1 g2 b :
  fst (auth p s signer n fee) = ROk ->
  fst (exec_tx p s signer n fee g1 g2 b) <> ROk ->
  snd (exec_tx p s signer n fee g1 g2 b) = post_auth p s signer n fee.
Proof.
  unfold exec_tx, post_auth.
  destruct (auth p s signer n fee) as [r s1]. cbn [fst snd]. intros ->.
  destruct (negb g1); cbn [fst snd]; [reflexivity|].
  apply tx_fail_leaves_post_auth_state_l.
Qed.

Lemma failed_tx_effect_staking_l p s signer n fee g1 g2 b :
  fst (exec_tx p s signer n fee g1 g2 b) <> ROk ->
  snd (exec_tx p s signer n fee g1 g2 b) = s \/
  snd (exec_tx p s signer n fee g1 g2 b) = post_auth p s signer n fee.
Proof.
  intros H. pose proof (failed_tx_after_auth_l p s signer n fee g1 g2 b) as A.
  pose proof (auth_fail_leaves_state_l p s signer n fee) as F.
  unfold exec_tx in *. destruct (auth p s signer n fee) as [[] s1]; cbn [fst snd] in *;
    [right; apply A; [reflexivity|exact H] | left; apply F; discriminate ..].
Qed.
