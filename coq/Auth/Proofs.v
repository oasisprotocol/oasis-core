(* C09 -- proofs about Auth/Model.v.  No hypotheses on the abstract pieces of
   [cfg]: hash, signature predicate, decoders, ledger are arbitrary.
   Domain separation: the heads of the registered contexts are pairwise prefix-incomparable,
   so a preimage determines its context, then (lengths given) suffix, chain context and message
   ([preimage_inj]).  Delivery: one walk through [deliver] ([deliver_cases]: authenticated with
   [auth_facts], or not and the nonces are untouched); per step and account the trace gains
   nothing, or the current nonce while the nonce moves to its successor ([step_cases]); one
   induction then gives trace and final nonce together ([trace_counts]), of which the nonce
   theorems are projections. *)
From Verif Require Import Lib.Base Auth.Model.

Lemma is_prefix_true a b : is_prefix a b = true -> exists t, b = a ++ t.
Proof.
  revert b; induction a as [|x a IH]; intros b Hp.
  - exists b; reflexivity.
  - destruct b as [|y b]; cbn [is_prefix] in Hp; [discriminate|].
    apply andb_true_iff in Hp as [Hxy Hp]. apply N.eqb_eq in Hxy. subst y.
    destruct (IH _ Hp) as [t ->]. exists t; reflexivity.
Qed.

Lemma app_eq_comparable (a b x y : bytes) : a ++ x = b ++ y -> comparable a b = true.
Proof.
  revert b; induction a as [|u a IH]; intros b Heq.
  - reflexivity.
  - destruct b as [|v b].
    + unfold comparable. cbn [is_prefix]. apply orb_true_r.
    + cbn [app] in Heq. injection Heq as -> Heq. apply IH in Heq.
      unfold comparable in *. cbn [is_prefix]. rewrite N.eqb_refl. exact Heq.
Qed.

Lemma opt_segment_inj (on : bool) (p x1 x2 r1 r2 : bytes) :
  length x1 = length x2 ->
  (if on then p ++ x1 else []) ++ r1 = (if on then p ++ x2 else []) ++ r2 ->
  (on = true -> x1 = x2) /\ r1 = r2.
Proof.
  intros Hl. destruct on; cbn [app].
  - rewrite <- !app_assoc. intros H. apply app_inv_head in H.
    destruct (app_inv_len _ _ _ _ Hl H) as [-> ->]. split; reflexivity.
  - intros ->. split; [discriminate|reflexivity].
Qed.

Lemma NoDup_map_inj_on {A B} (f : A -> B) (l : list A) :
  (forall x y, In x l -> In y l -> f x = f y -> x = y) -> NoDup l -> NoDup (map f l).
Proof.
  induction l as [|a l IH]; intros Hinj Hnd; cbn [map]; [constructor|].
  inversion Hnd as [|? ? Hni Hnd']; subst. constructor.
  - intros Hin. apply in_map_iff in Hin as [y [Hy Hin]].
    assert (y = a) by (apply Hinj; [right; exact Hin|left; reflexivity|exact Hy]).
    subst y. contradiction.
  - apply IH; [|exact Hnd']. intros x y Hx Hy. apply Hinj; right; assumption.
Qed.

Section DomSep.
  Variable SEP : bytes.

  Lemma raw_context_head c d h : exists t, raw_context SEP c d h = head SEP c ++ t.
  Proof.
    destruct c as [[b ch] [[sfx mx]|]]; unfold raw_context, head, cbase, cdyn, cchain; cbn [fst snd].
    - exists (d ++ (if ch then SEP ++ h else [])). rewrite <- !app_assoc. reflexivity.
    - destruct ch.
      + exists h. cbn [app]. rewrite <- !app_assoc. reflexivity.
      + exists []. cbn [app]. rewrite !app_nil_r. reflexivity.
  Qed.

  Lemma prefix_free_in l c1 c2 :
    prefix_free_b SEP l = true -> In c1 l -> In c2 l ->
    c1 = c2 \/ comparable (head SEP c1) (head SEP c2) = false.
  Proof.
    induction l as [|c r IH]; intros Hpf H1 H2; [contradiction|].
    cbn [prefix_free_b] in Hpf. apply andb_true_iff in Hpf as [Hall Hr].
    rewrite forallb_forall in Hall.
    destruct H1 as [->|H1], H2 as [->|H2].
    - left; reflexivity.
    - right. specialize (Hall _ H2). apply negb_true_iff in Hall. exact Hall.
    - right. specialize (Hall _ H1). apply negb_true_iff in Hall.
      unfold comparable in *. rewrite orb_comm. exact Hall.
    - apply IH; assumption.
  Qed.

  Lemma preimage_inj l c1 c2 d1 d2 h1 h2 m1 m2 :
    prefix_free_b SEP l = true -> In c1 l -> In c2 l ->
    length d1 = length d2 -> length h1 = length h2 ->
    signing_preimage SEP c1 d1 h1 m1 = signing_preimage SEP c2 d2 h2 m2 ->
    c1 = c2 /\ m1 = m2 /\ (cdyn c1 <> None -> d1 = d2) /\ (cchain c1 = true -> h1 = h2).
  Proof.
    intros Hpf H1 H2 Hd Hh Heq.
    assert (Hc : c1 = c2).
    { destruct (prefix_free_in _ _ _ Hpf H1 H2) as [E|Hnc]; [exact E|].
      exfalso. unfold signing_preimage in Heq.
      destruct (raw_context_head c1 d1 h1) as [t1 E1].
      destruct (raw_context_head c2 d2 h2) as [t2 E2].
      rewrite E1, E2, <- !app_assoc in Heq.
      apply app_eq_comparable in Heq. congruence. }
    subst c2. split; [reflexivity|].
    unfold signing_preimage, raw_context in Heq. rewrite <- !app_assoc in Heq.
    apply app_inv_head in Heq.
    assert (Hdyn : (cdyn c1 <> None -> d1 = d2) /\
                   (if cchain c1 then SEP ++ h1 else []) ++ m1 = (if cchain c1 then SEP ++ h2 else []) ++ m2).
    { destruct (cdyn c1) as [[sfx mx]|].
      - destruct (opt_segment_inj true sfx _ _ _ _ Hd Heq) as [E R]. split; [intros _; apply E; reflexivity|exact R].
      - split; [intros X; contradiction|exact Heq]. }
    destruct Hdyn as [Ed Hrest]. destruct (opt_segment_inj _ _ _ _ _ _ Hh Hrest) as [Eh Em].
    split; [exact Em|]. split; assumption.
  Qed.

  Definition collision (Hf : bytes -> bytes) : Prop := exists x y, x <> y /\ Hf x = Hf y.

  Lemma digest_eq_cases (Hf : bytes -> bytes) x y : Hf x = Hf y -> x = y \/ collision Hf.
  Proof.
    intros H. destruct (bytes_eq_dec x y) as [E|NE]; [left; exact E|].
    right. exists x, y. split; assumption.
  Qed.

  Lemma digest_domain_separation (Hf : bytes -> bytes) l c1 c2 d1 d2 h1 h2 m1 m2 :
    prefix_free_b SEP l = true -> In c1 l -> In c2 l ->
    length d1 = length d2 -> length h1 = length h2 ->
    Hf (signing_preimage SEP c1 d1 h1 m1) = Hf (signing_preimage SEP c2 d2 h2 m2) ->
    (c1 = c2 /\ m1 = m2 /\ (cdyn c1 <> None -> d1 = d2) /\ (cchain c1 = true -> h1 = h2))
    \/ collision Hf.
  Proof.
    intros Hpf H1 H2 Hd Hh Heq.
    destruct (digest_eq_cases _ _ _ Heq) as [E|Hc]; [left|right; exact Hc].
    eapply preimage_inj; eassumption.
  Qed.
End DomSep.

Lemma nonce_in_aset_same a v ns : nonce_in (aset a v ns) a = v.
Proof. unfold nonce_in. rewrite aget_aset_same. reflexivity. Qed.
Lemma nonce_in_aset_other a a' v ns : a' <> a -> nonce_in (aset a v ns) a' = nonce_in ns a'.
Proof. intros Hne. unfold nonce_in. rewrite aget_aset_other by exact Hne. reflexivity. Qed.

Section DeliverProofs.
  Context {L Raw : Type}.
  Variable C : cfg L Raw.

  Lemma post_spec ns l raw e t b :
    nonces (fst (post C ns l raw e t b)) = ns /\ exists o, snd (post C ns l raw e t b) = RPost b o.
  Proof.
    unfold post.
    destruct (gas_size_ok C l raw t); cbn [negb].
    2:{ split; [reflexivity|eexists; reflexivity]. }
    destruct (gas_price_ok C t); cbn [negb].
    2:{ split; [reflexivity|eexists; reflexivity]. }
    destruct (exec C l (e_pk e) t) as [l' ok]. split; [reflexivity|eexists; reflexivity].
  Qed.

  Lemma decode_cases raw :
    match decode C raw with
    | DRej r => authenticated r = false /\ exec_reached r = false
    | DTx e t => dec_env C raw = Some e /\ verify C e = true /\ dec_tx C (e_blob e) = Some t
    end.
  Proof.
    unfold decode.
    destruct ((0 <? max_tx_size C) && (max_tx_size C <? raw_len C raw)); [split; reflexivity|].
    destruct (dec_env C raw) as [e|]; [|split; reflexivity].
    destruct (verify C e) eqn:Hv; cbn [negb]; [|split; reflexivity].
    destruct (dec_tx C (e_blob e)) as [t|] eqn:Ht; [|split; reflexivity].
    destruct (bytes_eqb (t_method t) []); [split; reflexivity|].
    destruct (is_system C (t_method t)); [split; reflexivity|].
    destruct (has_app C (t_method t)); cbn [negb]; [|split; reflexivity].
    repeat split; assumption.
  Qed.

  Lemma verify_true e :
    verify C e = true ->
    blen (e_sig e) = 64 /\
    (allow_small_A C || negb (small_order_A C (e_pk e))) = true /\
    (allow_small_R C || negb (small_order_R C (e_sig e))) = true /\
    exists rc, prepare (SEP C) (txc C) None (chain C) = Some rc /\
               sig_ok C (e_pk e) (hashf C (rc ++ e_blob e)) (e_sig e) = true.
  Proof.
    unfold verify. intros Hv.
    apply andb_true_iff in Hv as [Hv Hs]. apply andb_true_iff in Hv as [Hv HR].
    apply andb_true_iff in Hv as [Hv HA]. apply andb_true_iff in Hv as [Hlen _].
    apply N.eqb_eq in Hlen.
    destruct (prepare (SEP C) (txc C) None (chain C)) as [rc|]; [|discriminate].
    repeat split; try assumption. exists rc. split; [reflexivity|exact Hs].
  Qed.

  Record auth_facts (s s' : state L) (raw : Raw) (e : envelope) (t : tx) : Prop := {
    af_env : dec_env C raw = Some e;
    af_verify : verify C e = true;
    af_tx : dec_tx C (e_blob e) = Some t;
    af_nonce : t_nonce t = nonce_of s (addr_of C (e_pk e));
    af_signer : nonce_of s' (addr_of C (e_pk e)) = (nonce_of s (addr_of C (e_pk e)) + 1) mod U64;
    af_others : forall a, a <> addr_of C (e_pk e) -> nonce_of s' a = nonce_of s a
  }.

  Lemma deliver_cases s raw :
    (authenticated (snd (deliver C s raw)) = true /\
       exists e t, auth_facts s (fst (deliver C s raw)) raw e t)
    \/ (authenticated (snd (deliver C s raw)) = false /\
        nonces (fst (deliver C s raw)) = nonces s /\
        ((forall m, is_critical C m = false) ->
           fst (deliver C s raw) = s /\ exec_reached (snd (deliver C s raw)) = false)).
  Proof.
    unfold deliver. pose proof (decode_cases raw) as Hd.
    destruct (decode C raw) as [r|e t].
    - right. destruct Hd as [X1 X2]. cbn [fst snd].
      split; [exact X1|]. split; [reflexivity|]. intros _; split; [reflexivity|exact X2].
    - destruct (is_critical C (t_method t)) eqn:Hcrit.
      + right. destruct (post_spec (nonces s) (rest s) raw e t false) as [Hn [o Ho]].
        rewrite Ho. split; [reflexivity|]. split; [exact Hn|].
        intros Hall. rewrite Hall in Hcrit. discriminate.
      + cbv zeta.
        (* every combination but "all four checks pass" is a rejection that returns [s] *)
        destruct (reserved C (addr_of C (e_pk e))), (nonce_of s (addr_of C (e_pk e)) =? t_nonce t) eqn:Hnon,
                 (fee_ok C (rest s) (addr_of C (e_pk e)) (fee_of t)),
                 (fee_move_ok C (rest s) (addr_of C (e_pk e)) (fee_of t)); cbn [negb];
          try (right; cbn [fst snd]; repeat split; reflexivity).
        left.
        match goal with |- context [post C ?ns ?l raw e t true] =>
          destruct (post_spec ns l raw e t true) as [Hn [o Ho]] end.
        rewrite Ho. split; [reflexivity|].
        exists e, t. destruct Hd as [H1 [H2 H3]]. apply N.eqb_eq in Hnon.
        split; try assumption.
        * symmetry; exact Hnon.
        * unfold nonce_of at 1. rewrite Hn. apply nonce_in_aset_same.
        * intros a Hne. unfold nonce_of at 1. rewrite Hn. apply nonce_in_aset_other. exact Hne.
  Qed.

  Lemma auth_facts_info s s' raw e t :
    auth_facts s s' raw e t -> auth_info C raw = Some (addr_of C (e_pk e), t_nonce t).
  Proof. intros [H1 _ H3 _ _ _]. unfold auth_info. rewrite H1, H3. reflexivity. Qed.

  Lemma of_addr_app a x y : of_addr a (x ++ y) = of_addr a x ++ of_addr a y.
  Proof. unfold of_addr. rewrite filter_app, map_app. reflexivity. Qed.

  Lemma trace_app s x y : trace C s (x ++ y) = trace C s x ++ trace C (run C s x) y.
  Proof.
    revert s; induction x as [|o r IH]; intros s; [reflexivity|].
    cbn [app trace run fold_left]. rewrite IH, <- app_assoc. reflexivity.
  Qed.

  Lemma step_cases s o a :
    (of_addr a (trace C s [o]) = [] /\ nonce_of (step C s o) a = nonce_of s a)
    \/ (of_addr a (trace C s [o]) = [nonce_of s a] /\
        nonce_of (step C s o) a = (nonce_of s a + 1) mod U64 /\
        exists raw, o = OTx raw /\ authenticated (snd (deliver C s raw)) = true).
  Proof.
    destruct o as [raw|g|]; [|left; split; reflexivity..].
    cbn [trace step]. rewrite app_nil_r.
    destruct (deliver_cases s raw) as [[Ha [e [t Hf]]]|[Ha [Hn _]]].
    - rewrite Ha, (auth_facts_info _ _ _ _ _ Hf). unfold of_addr. cbn [filter fst].
      destruct Hf as [_ _ _ Hnon Hsig Hoth].
      destruct (N.eqb_spec (addr_of C (e_pk e)) a) as [<-|Hne].
      + right. rewrite Hnon. split; [reflexivity|]. split; [exact Hsig|]. exists raw. split; [reflexivity|exact Ha].
      + left. split; [reflexivity|]. apply Hoth. congruence.
    - left. rewrite Ha. unfold nonce_of. rewrite Hn. split; reflexivity.
  Qed.

  Definition wf (s : state L) : Prop := forall a, nonce_of s a < U64.

  Lemma u64_pos : 0 < U64. Proof. reflexivity. Qed.

  Lemma step_wf s o : wf s -> wf (step C s o).
  Proof.
    intros Hwf a. destruct (step_cases s o a) as [[_ ->]|[_ [-> _]]]; [apply Hwf|].
    apply N.mod_lt. discriminate.
  Qed.

  Lemma run_wf s ops : wf s -> wf (run C s ops).
  Proof. exact (fold_left_invariant wf (step C) step_wf ops s). Qed.

  Lemma nonce_monotone s o :
    ((forall raw, o <> OTx raw) -> nonces (step C s o) = nonces s) /\
    (forall raw a, o = OTx raw ->
       nonce_of (step C s o) a = nonce_of s a
       \/ (authenticated (snd (deliver C s raw)) = true /\
           nonce_of (step C s o) a = (nonce_of s a + 1) mod U64)).
  Proof.
    split.
    - intros Hno. destruct o as [raw|g|]; [destruct (Hno raw eq_refl)|reflexivity..].
    - intros raw a ->.
      destruct (step_cases s (OTx raw) a) as [[_ E]|[_ [E [raw' [X A]]]]]; [left; exact E|right].
      injection X as <-. split; assumption.
  Qed.

  Lemma succ_mod_add n i : ((n + 1) mod U64 + N.of_nat i) mod U64 = (n + N.of_nat (S i)) mod U64.
  Proof. rewrite N.add_mod_idemp_l by discriminate. f_equal. lia. Qed.

  (* The nonce map is total (a missing account record reads as nonce 0, state.go
     Account()), so REMOVING an account record would be a nonce write to 0; no
     operation of the model does that. *)
  Lemma trace_counts s ops a :
    wf s ->
    exists k, of_addr a (trace C s ops)
                = map (fun i => (nonce_of s a + N.of_nat i) mod U64) (seq 0 k) /\
              nonce_of (run C s ops) a = (nonce_of s a + N.of_nat k) mod U64.
  Proof.
    revert s; induction ops as [|o r IH]; intros s Hwf.
    - exists O. split; [reflexivity|]. cbn [run fold_left N.of_nat].
      rewrite N.add_0_r, N.mod_small by apply Hwf. reflexivity.
    - destruct (IH _ (step_wf s o Hwf)) as [k [Ht Hn]].
      change (o :: r) with ([o] ++ r) at 1. rewrite trace_app, of_addr_app.
      change (run C s [o]) with (step C s o). change (run C s (o :: r)) with (run C (step C s o) r).
      rewrite Ht, Hn.
      destruct (step_cases s o a) as [[-> ->]|[-> [-> _]]]; [exists k; split; reflexivity|].
      exists (S k). cbn [seq map app N.of_nat]. rewrite <- seq_shift, map_map. split.
      + f_equal.
        * rewrite N.add_0_r, N.mod_small by apply Hwf. reflexivity.
        * apply map_ext. intros i. apply succ_mod_add.
      + apply succ_mod_add.
  Qed.

  Lemma trace_consecutive s ops a :
    wf s ->
    exists k, of_addr a (trace C s ops)
              = map (fun i => (nonce_of s a + N.of_nat i) mod U64) (seq 0 k).
  Proof. intros Hwf. destruct (trace_counts s ops a Hwf) as [k [H _]]. exists k. exact H. Qed.

  Lemma run_nonce_count s ops a :
    wf s ->
    nonce_of (run C s ops) a
      = (nonce_of s a + N.of_nat (length (of_addr a (trace C s ops)))) mod U64.
  Proof.
    intros Hwf. destruct (trace_counts s ops a Hwf) as [k [-> ->]].
    rewrite map_length, seq_length. reflexivity.
  Qed.

  Lemma nonce_never_decreases s ops a :
    wf s ->
    nonce_of s a + N.of_nat (length (of_addr a (trace C s ops))) < U64 ->
    nonce_of s a <= nonce_of (run C s ops) a.
  Proof.
    intros Hwf Hb. rewrite (run_nonce_count s ops a Hwf), N.mod_small by exact Hb. lia.
  Qed.

  Lemma consecutive_inj n0 i j :
    N.of_nat i < U64 -> N.of_nat j < U64 ->
    (n0 + N.of_nat i) mod U64 = (n0 + N.of_nat j) mod U64 -> i = j.
  Proof.
    intros Hi Hj Heq.
    pose proof (N.div_mod' (n0 + N.of_nat i) U64) as Di.
    pose proof (N.div_mod' (n0 + N.of_nat j) U64) as Dj.
    rewrite Heq in Di.
    set (qi := (n0 + N.of_nat i) / U64) in *.
    set (qj := (n0 + N.of_nat j) / U64) in *.
    set (r := (n0 + N.of_nat j) mod U64) in *.
    unfold U64 in *. lia.
  Qed.

  Lemma consecutive_NoDup n0 k :
    N.of_nat k <= U64 -> NoDup (map (fun i => (n0 + N.of_nat i) mod U64) (seq 0 k)).
  Proof.
    intros Hk. apply NoDup_map_inj_on; [|apply seq_NoDup].
    intros x y Hx Hy. apply in_seq in Hx, Hy. apply consecutive_inj; lia.
  Qed.

  Lemma no_replay s ops a :
    wf s -> N.of_nat (length (of_addr a (trace C s ops))) <= U64 ->
    NoDup (of_addr a (trace C s ops)).
  Proof.
    intros Hwf Hlen. destruct (trace_consecutive s ops a Hwf) as [k Hk].
    rewrite Hk in *. rewrite map_length, seq_length in Hlen.
    apply consecutive_NoDup. exact Hlen.
  Qed.

  Lemma same_content_never_twice s o1 o2 o3 raw raw2 :
    wf s ->
    auth_info C raw2 = auth_info C raw ->
    authenticated (snd (deliver C (run C s o1) raw)) = true ->
    authenticated (snd (deliver C (run C s (o1 ++ OTx raw :: o2)) raw2)) = true ->
    exists a, U64 < N.of_nat (length (of_addr a (trace C s (o1 ++ OTx raw :: o2 ++ OTx raw2 :: o3)))).
  Proof.
    intros Hwf Hsame A1 A2.
    destruct (deliver_cases (run C s o1) raw) as [[_ [e [t Hf]]]|[X _]]; [|congruence].
    pose proof (auth_facts_info _ _ _ _ _ Hf) as Hi.
    pose proof Hi as Hi2. rewrite <- Hsame in Hi2.
    set (a := addr_of C (e_pk e)) in *. exists a.
    apply N.lt_nge. intros Hle. pose proof (no_replay s _ a Hwf Hle) as Hnd.
    replace (o1 ++ OTx raw :: o2 ++ OTx raw2 :: o3)
      with ((o1 ++ OTx raw :: o2) ++ OTx raw2 :: o3) in Hnd
      by (rewrite <- app_assoc; reflexivity).
    rewrite trace_app in Hnd. rewrite (trace_app s o1) in Hnd.
    cbn [trace] in Hnd. rewrite A1, A2, Hi, Hi2 in Hnd.
    rewrite !of_addr_app in Hnd.
    assert (Hone : of_addr a [(a, t_nonce t)] = [t_nonce t]).
    { unfold of_addr. cbn [filter fst]. rewrite N.eqb_refl. reflexivity. }
    rewrite !Hone in Hnd.
    rewrite <- !app_assoc in Hnd. cbn [app] in Hnd.
    apply NoDup_remove_2 in Hnd. apply Hnd.
    apply in_or_app. right. apply in_or_app. right. left. reflexivity.
  Qed.

  Lemma executes_only_if_authentic s raw :
    (forall m, is_critical C m = false) ->
    fst (deliver C s raw) <> s \/ exec_reached (snd (deliver C s raw)) = true ->
    exists e t rc,
      dec_env C raw = Some e /\ dec_tx C (e_blob e) = Some t /\
      prepare (SEP C) (txc C) None (chain C) = Some rc /\
      blen (e_sig e) = 64 /\
      sig_ok C (e_pk e) (hashf C (rc ++ e_blob e)) (e_sig e) = true /\
      t_nonce t = nonce_of s (addr_of C (e_pk e)) /\
      nonce_of (fst (deliver C s raw)) (addr_of C (e_pk e))
        = (nonce_of s (addr_of C (e_pk e)) + 1) mod U64 /\
      (forall a', a' <> addr_of C (e_pk e) -> nonce_of (fst (deliver C s raw)) a' = nonce_of s a').
  Proof.
    intros Hnc Heff.
    destruct (deliver_cases s raw) as [[_ [e [t [He Hv Ht Hnon Hsig Hoth]]]]|[_ [_ Hs]]].
    - destruct (verify_true e Hv) as [Hlen [_ [_ [rc [Hp Hok]]]]].
      exists e, t, rc. repeat split; assumption.
    - exfalso. destruct (Hs Hnc) as [Hs1 Hs2]. destruct Heff as [Hne|Hex]; [contradiction|congruence].
  Qed.

  Lemma rejected_has_no_effect s raw :
    (forall m, is_critical C m = false) ->
    authenticated (snd (deliver C s raw)) = false ->
    fst (deliver C s raw) = s /\ exec_reached (snd (deliver C s raw)) = false.
  Proof.
    intros Hnc Hna. destruct (deliver_cases s raw) as [[Ha _]|[_ [_ Hs]]]; [congruence|].
    apply Hs. exact Hnc.
  Qed.

  Lemma small_order_key_never_authenticated s raw :
    allow_small_A C = false ->
    authenticated (snd (deliver C s raw)) = true ->
    exists e, dec_env C raw = Some e /\ small_order_A C (e_pk e) = false /\
              (allow_small_R C = false -> small_order_R C (e_sig e) = false).
  Proof.
    intros Hopt Ha. destruct (deliver_cases s raw) as [[_ [e [t [He Hv _ _ _ _]]]]|[X _]]; [|congruence].
    destruct (verify_true e Hv) as [_ [HA [HR _]]]. exists e. split; [exact He|].
    rewrite Hopt in HA. split; [apply negb_true_iff; exact HA|].
    intros HoR. rewrite HoR in HR. apply negb_true_iff. exact HR.
  Qed.

  Lemma restart_is_identity s : step C s ORestart = s.
  Proof. reflexivity. Qed.

  Definition Forgery (rc : bytes) (e e' : envelope) : Prop :=
    sig_ok C (e_pk e') (hashf C (rc ++ e_blob e')) (e_sig e') = true /\
    (e_pk e', hashf C (rc ++ e_blob e'), e_sig e')
      <> (e_pk e, hashf C (rc ++ e_blob e), e_sig e).

  Lemma bit_flip_rejected_or_forgery s1 raw s2 raw' :
    authenticated (snd (deliver C s1 raw)) = true ->
    authenticated (snd (deliver C s2 raw')) = false
    \/ exists e e' t' rc,
         dec_env C raw = Some e /\ dec_env C raw' = Some e' /\
         dec_tx C (e_blob e') = Some t' /\
         prepare (SEP C) (txc C) None (chain C) = Some rc /\
         t_nonce t' = nonce_of s2 (addr_of C (e_pk e')) /\
         (e' = e \/ Forgery rc e e' \/ collision (hashf C)).
  Proof.
    intros A1.
    destruct (deliver_cases s2 raw') as [[_ [e' [t' [E2 V2 T2 N2 _ _]]]]|[A2 _]]; [right|left; exact A2].
    destruct (deliver_cases s1 raw) as [[_ [e [t [E1 V1 _ _ _ _]]]]|[X _]]; [|congruence].
    destruct (verify_true _ V1) as [_ [_ [_ [rc [Hp _]]]]].
    destruct (verify_true _ V2) as [_ [_ [_ [rc' [Hp' S2]]]]].
    rewrite Hp in Hp'. injection Hp' as <-.
    exists e, e', t', rc. repeat split; try assumption.
    (* the signed triples differ: a forgery; they agree: same envelope, or two blobs with one digest *)
    assert (D : forall x y : bytes * bytes * bytes, {x = y} + {x <> y}) by (repeat decide equality).
    destruct (D (e_pk e', hashf C (rc ++ e_blob e'), e_sig e') (e_pk e, hashf C (rc ++ e_blob e), e_sig e))
      as [ET|NT]; [|right; left; split; [exact S2|exact NT]].
    injection ET as Epk Eh Esg.
    destruct (digest_eq_cases _ _ _ Eh) as [Eb|Hc]; [left|right; right; exact Hc].
    apply app_inv_head in Eb. destruct e, e'. cbn in *. subst. reflexivity.
  Qed.
End DeliverProofs.

Section MempoolProofs.
  Context {L Raw : Type}.
  Variable C : cfg L Raw.
  Variable check_exec_ok : L -> bytes -> tx -> bool.

  Lemma checktx_erasure (m : @mstate L) (ops : list (@mop L Raw)) :
    ds (mrun C check_exec_ok m ops) = run C (ds m) (deliver_ops ops).
  Proof.
    revert m; induction ops as [|o r IH]; intros m; [reflexivity|].
    cbn [mrun fold_left]. fold (mrun C check_exec_ok (mstep C check_exec_ok m o) r).
    rewrite IH. destruct o as [o'|raw|]; cbn [mstep ds deliver_ops run fold_left]; reflexivity.
  Qed.

  (* in particular the nonces the delivery path sees, and the trace of
     authenticated transactions, do not depend on interleaved CheckTx calls *)
  Lemma checktx_keeps_delivery_nonces (m : @mstate L) (raw : Raw) a :
    nonce_of (ds (mstep C check_exec_ok m (MCheck raw))) a = nonce_of (ds m) a.
  Proof. reflexivity. Qed.

  Lemma checktx_own_state (s : state L) raw :
    snd (check_tx C check_exec_ok s raw) = false /\ fst (check_tx C check_exec_ok s raw) = s
    \/ exists e t, dec_env C raw = Some e /\ verify C e = true /\ dec_tx C (e_blob e) = Some t /\
         (is_critical C (t_method t) = false -> t_nonce t = nonce_of s (addr_of C (e_pk e))) /\
         nonces (fst (check_tx C check_exec_ok s raw))
           = aset (addr_of C (e_pk e)) ((nonce_of s (addr_of C (e_pk e)) + 1) mod U64) (nonces s).
  Proof.
    unfold check_tx. pose proof (decode_cases C raw) as Hd.
    destruct (decode C raw) as [r|e t]; [left; split; reflexivity|].
    cbv zeta.
    match goal with |- context [if negb ?b then _ else _] => destruct b eqn:Hpre end; cbn [negb];
      [|left; split; reflexivity].
    (* unless every check passes the state is returned as it was *)
    destruct (gas_size_ok C (rest s) raw t), (gas_price_ok C t), (check_exec_ok (rest s) (e_pk e) t),
             (fee_move_ok C (rest s) (addr_of C (e_pk e)) (fee_of t)); cbn [negb];
      try (left; split; reflexivity).
    right. exists e, t. destruct Hd as [H1 [H2 H3]].
    repeat split; try assumption.
    intros Hc. rewrite Hc in Hpre.
    apply andb_true_iff in Hpre as [Hpre _]. apply andb_true_iff in Hpre as [_ Hn].
    apply N.eqb_eq in Hn. symmetry. exact Hn.
  Qed.
End MempoolProofs.
