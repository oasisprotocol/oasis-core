(* C05: the executable invariant [inv_b] decides [Inv]. *)
From Verif Require Import Lib.Base Ledger.SharePool Ledger.State Ledger.Ops Ledger.ConserveMap Ledger.Conserve.

Section NoDupB.
  Context {K : Type} (keq : K -> K -> bool).
  Context (keq_spec : forall a b, keq a b = true <-> a = b).

  Lemma existsb_keq_in x (l : list K) : existsb (keq x) l = true <-> In x l.
  Proof.
    rewrite existsb_exists. split.
    - intros (y & Hy & E). apply keq_spec in E. subst y. exact Hy.
    - intros H. exists x. split; [exact H|]. apply keq_spec. reflexivity.
  Qed.

  Lemma nodupb_spec (l : list K) : nodupb keq l = true <-> NoDup l.
  Proof.
    induction l as [|x r IH]; cbn [nodupb].
    - split; [constructor|reflexivity].
    - rewrite andb_true_iff, negb_true_iff, IH. split.
      + intros [H1 H2]. constructor; [|exact H2].
        intros Hin. apply existsb_keq_in in Hin. congruence.
      + intros H. inversion H as [|y ys Hn Hr]; subst. split; [|exact Hr].
        destruct (existsb (keq x) r) eqn:E; [|reflexivity].
        apply existsb_keq_in in E. contradiction.
  Qed.
End NoDupB.

Lemma outside_escrows s e : ~ In e (escrows s) ->
  acct s e = acct0 /\ dsum e s = 0 /\ bsum e s = 0.
Proof.
  unfold escrows. intros H. rewrite !in_app_iff in H. split; [|split].
  - unfold acct. rewrite (mget_none_notin N.eqb N.eqb_eq); [reflexivity|]. tauto.
  - apply (gsum_notin fst). tauto.
  - apply (gsum_notin (fun k : k3 => fst (fst k))). tauto.
Qed.

Lemma shares_ok_all s :
  forallb (shares_ok_b s) (escrows s) = true <->
  (forall e, tsh (active (acct s e)) = dsum e s) /\ (forall e, tsh (debonding (acct s e)) = bsum e s).
Proof.
  rewrite forallb_forall. unfold shares_ok_b. split.
  - intros H.
    enough (H' : forall e, tsh (active (acct s e)) = dsum e s /\ tsh (debonding (acct s e)) = bsum e s)
      by (split; intros e; apply H').
    intros e. destruct (in_dec N.eq_dec e (escrows s)) as [Hin|Hout].
    + apply H, andb_true_iff in Hin. rewrite !N.eqb_eq in Hin. exact Hin.
    + destruct (outside_escrows s e Hout) as (-> & -> & ->). split; reflexivity.
  - intros [HA HD] e _. rewrite HA, HD, !N.eqb_refl. reflexivity.
Qed.

Lemma inv_b_correct_l s : inv_b s = true <-> Inv s.
Proof.
  unfold inv_b, Inv, WF, keys.
  rewrite !andb_true_iff, (nodupb_spec N.eqb N.eqb_eq), (nodupb_spec k2_eqb k2_eqb_spec),
    (nodupb_spec k3_eqb k3_eqb_spec), shares_ok_all, N.eqb_eq.
  tauto.
Qed.

(* so a failing evaluation on a dump is a counterexample to the invariant *)
Lemma inv_b_false_l s : inv_b s = false -> ~ Inv s.
Proof. intros H I. apply inv_b_correct_l in I. congruence. Qed.

Example inv_b_example : inv_b ex_s0 = true /\ inv_b (run ex_p ex_s0 ex_ops) = true.
Proof. split; vm_compute; reflexivity. Qed.
