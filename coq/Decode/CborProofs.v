(* The recogniser is total with linear fuel, consumes at most the input and
   never reports a nesting deeper than the configured bound. *)
From Verif Require Import Lib.Base Decode.Cbor Gen.MiscConsts.

Lemma gen_cbor_profile_expected :
  decOptions_IndefLength_IndefLengthForbidden = true /\ decOptions_TagsMd_TagsForbidden = true /\
  decOptions_DupMapKey_DupMapKeyEnforcedAPF = true /\ decOptions_MaxNestedLevels = 32 /\
  decOptions_MaxArrayElements = 10000000 /\ decOptions_MaxMapPairs = 10000000 /\
  maxMessageSize = 67108864.
Proof. repeat split; reflexivity. Qed.

Ltac ifs := repeat match goal with
  | H : context [if ?c then _ else _] |- _ => destruct c eqn:?
  end.

Lemma head_spec data off t ai val off' :
  valid_head data off = WOk (t, ai, val, off') -> off < off' /\ off' <= dlen data.
Proof.
  unfold valid_head. intros H. ifs; try discriminate; injection H as <- <- <- <-; lia.
Qed.

Lemma head_no_fuel data off : valid_head data off <> WFuel.
Proof. unfold valid_head. repeat match goal with |- context [if ?c then _ else _] => destruct c end; discriminate. Qed.

Definition item_post (data : bytes) (off depth : N) (r : wres (N * N)) : Prop :=
  match r with
  | WOk (off', d) => off < off' /\ off' <= dlen data /\ depth <= d /\ d <= decOptions_MaxNestedLevels
  | WErr _ => True
  | WFuel => False
  end.
Definition items_post (data : bytes) (off maxd : N) (r : wres (N * N)) : Prop :=
  match r with
  | WOk (off', d) => off <= off' /\ off' <= dlen data /\ maxd <= d /\ d <= decOptions_MaxNestedLevels
  | WErr _ => True
  | WFuel => False
  end.

Lemma valid_spec : forall f,
  (forall data off depth, off <= dlen data -> (N.to_nat (2 * (dlen data - off) + 1) <= f)%nat ->
     depth <= decOptions_MaxNestedLevels -> item_post data off depth (valid_item f data off depth)) /\
  (forall n data off depth maxd, off <= dlen data -> (N.to_nat (2 * (dlen data - off) + 2) <= f)%nat ->
     depth <= decOptions_MaxNestedLevels -> maxd <= decOptions_MaxNestedLevels ->
     items_post data off maxd (valid_items f n data off depth maxd)).
Proof.
  induction f as [|f [IHi IHs]]; split.
  - intros; lia.
  - intros; lia.
  - intros data off depth Hoff Hf Hd. cbn [valid_item].
    destruct (valid_head data off) as [[[[t ai] val] off1]|e|] eqn:Hh;
      [|exact I|exfalso; eapply head_no_fuel; exact Hh].
    apply head_spec in Hh. destruct Hh as [Ho1 Ho2].
    destruct ((t =? 2) || (t =? 3)).
    { destruct (ai =? 31); [destruct decOptions_IndefLength_IndefLengthForbidden; exact I|].
      destruct (two63 <=? val); [exact I|].
      destruct (dlen data - off1 <? val) eqn:E; [exact I|]. cbn. lia. }
    destruct ((t =? 4) || (t =? 5)).
    { destruct (decOptions_MaxNestedLevels <? depth + 1) eqn:En; [exact I|].
      destruct (ai =? 31); [exact I|].
      destruct (two63 <=? val); [exact I|].
      destruct ((t =? 4) && (decOptions_MaxArrayElements <? val)); [exact I|].
      destruct ((t =? 5) && (decOptions_MaxMapPairs <? val)); [exact I|].
      specialize (IHs (if t =? 5 then 2 * val else val) data off1 (depth + 1) (depth + 1)
                    ltac:(lia) ltac:(lia) ltac:(lia) ltac:(lia)).
      destruct (valid_items f (if t =? 5 then 2 * val else val) data off1 (depth + 1) (depth + 1))
        as [[o d]|e|]; cbn in *; try exact I; try contradiction. lia. }
    destruct (t =? 6); [exact I|]. cbn. lia.
  - intros n data off depth maxd Hoff Hf Hd Hm. cbn [valid_items].
    destruct (n =? 0); [cbn; lia|].
    specialize (IHi data off depth Hoff ltac:(lia) Hd).
    destruct (valid_item f data off depth) as [[o d]|e|]; cbn in IHi; try exact I; try contradiction.
    specialize (IHs (n - 1) data o depth (N.max maxd d) ltac:(lia) ltac:(lia) Hd ltac:(lia)).
    destruct (valid_items f (n - 1) data o depth (N.max maxd d)) as [[o2 d2]|e|]; cbn in *;
      try exact I; try contradiction. lia.
Qed.

(* the fuel 2*len+2 bounds the number of recursive calls: linear time *)
Lemma cbor_valid_spec data : item_post data 0 0 (valid_item (cbor_fuel data) data 0 0).
Proof.
  apply (proj1 (valid_spec (cbor_fuel data))); unfold cbor_fuel, decOptions_MaxNestedLevels; lia.
Qed.

Lemma cbor_recognizer_total_l : forall data, cbor_valid data <> WFuel.
Proof.
  intros data. unfold cbor_valid. destruct (dlen data =? 0); [discriminate|].
  intros E. pose proof (cbor_valid_spec data) as H. rewrite E in H. exact H.
Qed.

Lemma cbor_recognizer_bounded_l : forall data off d,
  cbor_valid data = WOk (off, d) ->
  0 < off /\ off <= dlen data /\ d <= decOptions_MaxNestedLevels.
Proof.
  intros data off d. unfold cbor_valid. destruct (dlen data =? 0); [discriminate|].
  intros E. pose proof (cbor_valid_spec data) as H. rewrite E in H. cbn in H. lia.
Qed.

(* examples: a huge declared array / string is rejected by running out of input,
   nesting 33 deep is rejected, indefinite lengths and tags are rejected *)
Example cbor_examples :
  wres_class (cbor_valid [155; 255; 255; 255; 255; 255; 255; 255; 255]) = C_OVERFLOW /\
  wres_class (cbor_valid [154; 0; 152; 150; 129]) = C_ARRAY /\
  wres_class (cbor_valid [154; 0; 152; 150; 128; 1]) = C_UEOF /\
  wres_class (cbor_valid [91; 0; 0; 0; 1; 0; 0; 0; 0]) = C_UEOF /\
  wres_class (cbor_valid [159; 255]) = C_INDEF /\
  wres_class (cbor_valid [192; 0]) = C_TAG /\
  wres_class (cbor_valid (repeat 129 32 ++ [0])) = 0 /\
  wres_class (cbor_valid (repeat 129 33 ++ [0])) = C_NESTED /\
  cbor_valid [162; 1; 2; 1; 3; 255] = WOk (5, 1).
Proof. repeat apply conj; vm_compute; reflexivity. Qed.
