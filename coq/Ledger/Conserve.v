(* C05: conservation of supply and consistency of the share bookkeeping for
   the ledger model of State.v / Ops.v.

   [Inv] = well-formedness [WF] (distinct keys, share totals = sums of the
   delegations) + recorded supply = [buckets]. Every primitive update of
   State.v is a step of the relation [Delta] (well formed, buckets changed by
   up - down); an operation of Ops.v is the chain of the steps of its state
   term, which gives [Keep] for every operation but burn. [step_inv] collects
   them: one operation keeps [Inv] and lowers the supply by exactly [burned];
   the statements about runs, block boundaries and genesis follow from it.
   [tcase] is the case-analysis tactic of TxAtomic.v. *)
From Verif Require Import Lib.Base Ledger.SharePool Ledger.SharePoolProofs Ledger.State Ledger.Ops
  Ledger.ConserveMap Ledger.TxAtomic.

Lemma move_conserves_l dst src n d' s' :
  qmove dst src n = Some (d', s') -> d' + s' = dst + src /\ d' = dst + n /\ s' + n = src.
Proof.
  unfold qmove. destruct (src <? n) eqn:E; [discriminate|].
  intros [= <- <-]. lia.
Qed.

Lemma move_fail_unchanged_l dst src n : qmove dst src n = None <-> src < n.
Proof. unfold qmove. destruct (src <? n) eqn:E; split; intros H; try discriminate; try reflexivity; lia. Qed.

Lemma move_alias_l x n : (qmove_alias x n = None <-> x < n) /\ (n <= x -> qmove_alias x n = Some x).
Proof.
  unfold qmove_alias. destruct (x <? n) eqn:E; split; try split; intros H; try discriminate; try reflexivity; try lia.
  f_equal. lia.
Qed.

Lemma move_all_l dst src : qmove_all dst src = Some (dst + src, 0).
Proof. unfold qmove_all, qmove. rewrite N.ltb_irrefl. f_equal. f_equal. lia. Qed.

Lemma move_up_to_l dst src n d' s' a :
  qmove_up_to dst src n = (d', s', a) -> a = N.min src n /\ d' = dst + a /\ s' + a = src /\ d' + s' = dst + src.
Proof. unfold qmove_up_to. intros [= <- <- <-]. lia. Qed.

Definition WF (s : state) : Prop :=
  NoDup (keys (accts s)) /\ NoDup (keys (deleg s)) /\ NoDup (keys (debdeleg s)) /\
  (forall e, tsh (active (acct s e)) = dsum e s) /\
  (forall e, tsh (debonding (acct s e)) = bsum e s).

Definition Inv (s : state) : Prop := WF s /\ total_supply s = buckets s.

Definition funds (x : account) : N := general x + bal (active x) + bal (debonding x).

(* [Delta s s' up down]: s' is well formed, holds [up - down] more than s, same recorded supply.
   Every update below is a step [Delta s0 s u d -> Delta s0 (update s) (u + ..) (d + ..)], so that an
   operation is followed by applying the steps in the order its state term is written; what went
   up is compared with what went down once, at the end. *)
Definition Delta (s s' : state) (up down : N) : Prop :=
  WF s' /\ buckets s' + down = buckets s + up /\ total_supply s' = total_supply s.

Definition Keep (s s' : state) : Prop := Delta s s' 0 0.

Lemma delta_refl s : WF s -> Delta s s 0 0.
Proof. intros H. split; [exact H|split; lia]. Qed.

Lemma delta_weaken s s' u d u' d' : Delta s s' u d -> u + d' = u' + d -> Delta s s' u' d'.
Proof. intros (W & B & T) H. split; [exact W|split; lia]. Qed.

Lemma delta_keep s s' u d : Delta s s' u d -> u = d -> Keep s s'.
Proof. intros D H. apply (delta_weaken _ _ _ _ _ _ D). lia. Qed.

Lemma keep_trans s s1 s2 : Keep s s1 -> Keep s1 s2 -> Keep s s2.
Proof. intros (W1 & B1 & T1) (W2 & B2 & T2). split; [exact W2|split; lia]. Qed.

Lemma keep_inv s s' : Inv s -> Keep s s' -> Inv s' /\ total_supply s' = total_supply s.
Proof. intros [W E] (W' & B & T). split; [split; [exact W'|lia]|exact T]. Qed.

Lemma acct_set_acct a x s e : acct (set_acct a x s) e = if e =? a then x else acct s e.
Proof.
  unfold acct, set_acct. cbn [accts].
  destruct (N.eqb_spec e a) as [->|Hne].
  - rewrite (mget_mset_same N.eqb N.eqb_eq). reflexivity.
  - rewrite (mget_mset_other N.eqb N.eqb_eq) by exact Hne. reflexivity.
Qed.

Lemma acct_upd_same a f s : acct (upd_acct a f s) a = f (acct s a).
Proof. unfold upd_acct. rewrite acct_set_acct, N.eqb_refl. reflexivity. Qed.

Lemma acct_upd_other a f s e : e <> a -> acct (upd_acct a f s) e = acct s e.
Proof.
  intros H. unfold upd_acct. rewrite acct_set_acct.
  destruct (N.eqb_spec e a); [contradiction|reflexivity].
Qed.

Lemma sum_set_acct (g : account -> N) a x s : g acct0 = 0 -> NoDup (keys (accts s)) ->
  msum (fun _ y => g y) (mset N.eqb a x (accts s)) + g (acct s a) = msum (fun _ y => g y) (accts s) + g x.
Proof.
  intros H0 Hnd.
  pose proof (msum_mset N.eqb N.eqb_eq (fun _ y => g y) a x (accts s) Hnd) as H.
  unfold fo in H. unfold acct. destruct (mget N.eqb a (accts s)); [exact H|rewrite H0; exact H].
Qed.

(* [put s e x dl db]: account x stored at e together with new delegation tables; [set_acct] and the
   four share updates of State.v all have this form *)
Definition put (s : state) (e : N) (x : account) (dl : list (k2 * N)) (db : list (k3 * N)) : state :=
  mkSt (mset N.eqb e x (accts s)) dl db (total_supply s) (common_pool s)
       (last_block_fees s) (gov_deposits s) (fee_acc s) (vq_done s).

(* the change of the share totals of e has to be the change of the sums delegated into e *)
Lemma put_step s0 s u d e x dl db :
  NoDup (keys dl) -> NoDup (keys db) ->
  (forall e', gsum fst e' dl + (if e =? e' then tsh (active (acct s e)) else 0)
              = dsum e' s + (if e =? e' then tsh (active x) else 0)) ->
  (forall e', gsum (fun k : k3 => fst (fst k)) e' db + (if e =? e' then tsh (debonding (acct s e)) else 0)
              = bsum e' s + (if e =? e' then tsh (debonding x) else 0)) ->
  Delta s0 s u d -> Delta s0 (put s e x dl db) (u + funds x) (d + funds (acct s e)).
Proof.
  intros Nl Nb Hl Hb ((N1 & N2 & N3 & HA & HD) & B & T).
  assert (Hacct : forall e', acct (put s e x dl db) e' = if e =? e' then x else acct s e').
  { intros e'. rewrite N.eqb_sym. apply (acct_set_acct e x s e'). }
  split; [|split; [|exact T]].
  - repeat split.
    + apply (nodup_mset N.eqb N.eqb_eq). exact N1.
    + exact Nl.
    + exact Nb.
    + intros e'. rewrite Hacct. specialize (Hl e'). specialize (HA e').
      change (dsum e' (put s e x dl db)) with (gsum fst e' dl).
      destruct (N.eqb_spec e e') as [E|_]; [subst e'|]; lia.
    + intros e'. rewrite Hacct. specialize (Hb e'). specialize (HD e').
      change (bsum e' (put s e x dl db)) with (gsum (fun k : k3 => fst (fst k)) e' db).
      destruct (N.eqb_spec e e') as [E|_]; [subst e'|]; lia.
  - pose proof (sum_set_acct general e x s eq_refl N1).
    pose proof (sum_set_acct (fun y => bal (active y)) e x s eq_refl N1).
    pose proof (sum_set_acct (fun y => bal (debonding y)) e x s eq_refl N1).
    unfold buckets, sum_general, sum_active, sum_debonding, funds, live_lbf in *.
    cbn [put accts common_pool gov_deposits fee_acc vq_done last_block_fees]. lia.
Qed.

Lemma set_acct_step s0 s u d a x :
  tsh (active x) = tsh (active (acct s a)) -> tsh (debonding x) = tsh (debonding (acct s a)) ->
  Delta s0 s u d -> Delta s0 (set_acct a x s) (u + funds x) (d + funds (acct s a)).
Proof.
  intros Ea Ed D. pose proof D as ((_ & N2 & N3 & _) & _).
  apply (put_step s0 s u d a x (deleg s) (debdeleg s) N2 N3); [intros e'; rewrite Ea; reflexivity| |exact D].
  intros e'. rewrite Ed. reflexivity.
Qed.

Lemma set_acct_neutral_step s0 s u d a x :
  general x = general (acct s a) -> active x = active (acct s a) -> debonding x = debonding (acct s a) ->
  Delta s0 s u d -> Delta s0 (set_acct a x s) u d.
Proof.
  intros Eg Ea Ed D.
  eapply delta_weaken; [apply set_acct_step; [rewrite Ea; reflexivity|rewrite Ed; reflexivity|exact D]|].
  unfold funds. rewrite Eg, Ea, Ed. lia.
Qed.

Lemma add_general_step s0 s u d a n : Delta s0 s u d -> Delta s0 (add_general a n s) (u + n) d.
Proof.
  intros D. eapply delta_weaken; [apply set_acct_step; [reflexivity|reflexivity|exact D]|].
  unfold funds. cbn [with_general general active debonding]. lia.
Qed.

Lemma sub_general_step s0 s u d a n :
  n <= general (acct s a) -> Delta s0 s u d -> Delta s0 (sub_general a n s) u (d + n).
Proof.
  intros Hle D. eapply delta_weaken; [apply set_acct_step; [reflexivity|reflexivity|exact D]|].
  unfold funds. cbn [with_general general active debonding]. lia.
Qed.

Lemma add_active_bal_step s0 s u d a n : Delta s0 s u d -> Delta s0 (add_active_bal a n s) (u + n) d.
Proof.
  intros D. eapply delta_weaken; [apply set_acct_step; [reflexivity|reflexivity|exact D]|].
  unfold funds. cbn [with_active general active debonding bal]. lia.
Qed.

Lemma sub_active_bal_step s0 s u d a n :
  n <= bal (active (acct s a)) -> Delta s0 s u d -> Delta s0 (sub_active_bal a n s) u (d + n).
Proof.
  intros Hle D. eapply delta_weaken; [apply set_acct_step; [reflexivity|reflexivity|exact D]|].
  unfold funds. cbn [with_active general active debonding bal]. lia.
Qed.

Lemma add_deb_bal_step s0 s u d a n : Delta s0 s u d -> Delta s0 (add_deb_bal a n s) (u + n) d.
Proof.
  intros D. eapply delta_weaken; [apply set_acct_step; [reflexivity|reflexivity|exact D]|].
  unfold funds. cbn [with_debonding general active debonding bal]. lia.
Qed.

Lemma sub_deb_bal_step s0 s u d a n :
  n <= bal (debonding (acct s a)) -> Delta s0 s u d -> Delta s0 (sub_deb_bal a n s) u (d + n).
Proof.
  intros Hle D. eapply delta_weaken; [apply set_acct_step; [reflexivity|reflexivity|exact D]|].
  unfold funds. cbn [with_debonding general active debonding bal]. lia.
Qed.

(* also for from = to *)
Lemma move_general_step s0 s u d from to n :
  n <= general (acct s from) -> Delta s0 s u d ->
  Delta s0 (sub_general from n (add_general to n s)) (u + n) (d + n).
Proof.
  intros Hle D. apply sub_general_step; [|apply add_general_step; exact D].
  unfold add_general. destruct (N.eq_dec from to) as [->|Hne].
  - rewrite acct_upd_same. cbn [with_general general]. lia.
  - rewrite acct_upd_other by exact Hne. exact Hle.
Qed.

Lemma with_common_step s0 s u d v :
  Delta s0 s u d -> Delta s0 (with_common s v) (u + v) (d + common_pool s).
Proof.
  intros (W & B & T). split; [exact W|split; [|exact T]].
  unfold buckets, sum_general, sum_active, sum_debonding, live_lbf in *. cbn. lia.
Qed.

Lemma with_gov_step s0 s u d v :
  Delta s0 s u d -> Delta s0 (with_gov s v) (u + v) (d + gov_deposits s).
Proof.
  intros (W & B & T). split; [exact W|split; [|exact T]].
  unfold buckets, sum_general, sum_active, sum_debonding, live_lbf in *. cbn. lia.
Qed.

Lemma with_feeacc_step s0 s u d v :
  Delta s0 s u d -> Delta s0 (with_feeacc s v) (u + v) (d + fee_acc s).
Proof.
  intros (W & B & T). split; [exact W|split; [|exact T]].
  unfold buckets, sum_general, sum_active, sum_debonding, live_lbf in *. cbn. lia.
Qed.

Lemma with_lbf_step s0 s u d v b :
  Delta s0 s u d -> Delta s0 (with_lbf s v b) (u + if b then 0 else v) (d + live_lbf s).
Proof.
  intros (W & B & T). split; [exact W|split; [|exact T]].
  unfold buckets, sum_general, sum_active, sum_debonding, live_lbf in *. cbn. destruct b; lia.
Qed.

Lemma dsum_set_deleg e d v s e' : NoDup (keys (deleg s)) ->
  dsum e' (set_deleg e d v s) + (if e =? e' then dget s e d else 0)
  = dsum e' s + (if e =? e' then v else 0).
Proof.
  intros Hnd. unfold dsum. cbn [set_deleg deleg]. destruct (N.eqb_spec v 0) as [->|_].
  - pose proof (gsum_mdel k2_eqb k2_eqb_spec fst (e, d) (deleg s) e' Hnd) as H.
    cbn [fst] in H. destruct (e =? e'); rewrite ?N.add_0_r in *; exact H.
  - exact (gsum_mset k2_eqb k2_eqb_spec fst (e, d) v (deleg s) e' Hnd).
Qed.

Lemma nodup_set_deleg e d v s : NoDup (keys (deleg s)) -> NoDup (keys (deleg (set_deleg e d v s))).
Proof.
  intros H. cbn [set_deleg deleg]. destruct (v =? 0).
  - apply (nodup_mdel k2_eqb k2_eqb_spec). exact H.
  - apply (nodup_mset k2_eqb k2_eqb_spec). exact H.
Qed.

Lemma dget_le_dsum s e d : dget s e d <= dsum e s.
Proof. exact (vget_le_gsum k2_eqb k2_eqb_spec fst (e, d) (deleg s)). Qed.

Lemma bget_le_bsum s e d ep : bget s e d ep <= bsum e s.
Proof. exact (vget_le_gsum k3_eqb k3_eqb_spec (fun k => fst (fst k)) (e, d, ep) (debdeleg s)). Qed.

(* the active share total of e becomes t and the delegation (e,d) becomes v, by the same amount *)
Lemma active_shares_step s0 s u d e dl (t v : N) :
  t + dget s e dl = tsh (active (acct s e)) + v ->
  Delta s0 s u d ->
  Delta s0 (set_deleg e dl v (upd_acct e (fun x => with_active x (mkPool (bal (active x)) t)) s)) u d.
Proof.
  intros Ht D. pose proof D as ((_ & N2 & N3 & _) & _).
  eapply delta_weaken.
  - apply (put_step s0 s u d e (with_active (acct s e) (mkPool (bal (active (acct s e))) t))
             (deleg (set_deleg e dl v s)) (debdeleg s)); [apply nodup_set_deleg; exact N2|exact N3| | |exact D].
    + intros e'. pose proof (dsum_set_deleg e dl v s e' N2). cbn [with_active active tsh].
      change (gsum fst e' (deleg (set_deleg e dl v s))) with (dsum e' (set_deleg e dl v s)).
      destruct (e =? e'); lia.
    + reflexivity.
  - unfold funds. cbn [with_active general active debonding bal]. lia.
Qed.

Lemma mint_active_step s0 s u d e dl m : Delta s0 s u d -> Delta s0 (mint_active e dl m s) u d.
Proof. apply active_shares_step. lia. Qed.

Lemma burn_active_step s0 s u d e dl m :
  m <= dget s e dl -> Delta s0 s u d -> Delta s0 (burn_active e dl m s) u d.
Proof.
  intros Hle D. pose proof D as ((_ & _ & _ & HA & _) & _).
  pose proof (dget_le_dsum s e dl) as Hd. specialize (HA e).
  apply active_shares_step; [lia|exact D].
Qed.

(* [db]: the debonding table with the entry (e,d,ep) set to v, or dropped for v = 0 *)
Lemma deb_shares_step s0 s u d e dl ep (t v : N) db :
  NoDup (keys db) ->
  (forall e', gsum (fun k : k3 => fst (fst k)) e' db + (if e =? e' then bget s e dl ep else 0)
              = bsum e' s + (if e =? e' then v else 0)) ->
  t + bget s e dl ep = tsh (debonding (acct s e)) + v ->
  Delta s0 s u d ->
  Delta s0 (put s e (with_debonding (acct s e) (mkPool (bal (debonding (acct s e))) t)) (deleg s) db) u d.
Proof.
  intros Nb Hb Ht D. pose proof D as ((_ & N2 & _) & _).
  eapply delta_weaken.
  - apply put_step; [exact N2|exact Nb|reflexivity| |exact D].
    intros e'. specialize (Hb e'). cbn [with_debonding debonding tsh]. destruct (e =? e'); lia.
  - unfold funds. cbn [with_debonding general active debonding bal]. lia.
Qed.

Lemma mint_deb_step s0 s u d e dl ep m : Delta s0 s u d -> Delta s0 (mint_deb e dl ep m s) u d.
Proof.
  intros D. pose proof D as ((_ & _ & N3 & _) & _).
  apply (deb_shares_step s0 s u d e dl ep _ (bget s e dl ep + m)); [| |lia|exact D].
  - apply (nodup_mset k3_eqb k3_eqb_spec). exact N3.
  - intros e'. exact (gsum_mset k3_eqb k3_eqb_spec (fun k => fst (fst k)) (e, dl, ep) _ (debdeleg s) e' N3).
Qed.

Lemma burn_deb_step s0 s u d e dl ep m :
  m = bget s e dl ep -> Delta s0 s u d -> Delta s0 (burn_deb e dl ep m s) u d.
Proof.
  intros -> D. pose proof D as ((_ & _ & N3 & _ & HD) & _).
  pose proof (bget_le_bsum s e dl ep) as Hle. specialize (HD e).
  apply (deb_shares_step s0 s u d e dl ep _ 0); [| |lia|exact D].
  - apply (nodup_mdel k3_eqb k3_eqb_spec). exact N3.
  - intros e'. pose proof (gsum_mdel k3_eqb k3_eqb_spec (fun k => fst (fst k)) (e, dl, ep) (debdeleg s) e' N3) as H.
    cbn [fst] in H. destruct (e =? e'); rewrite ?N.add_0_r in *; exact H.
Qed.

(* a failing branch returns the state it was given *)
Ltac failb := cbn [snd fst]; first [apply delta_refl; assumption | assumption].

Lemma auth_keep p s signer n fee : WF s -> Keep s (snd (auth p s signer n fee)).
Proof.
  intros W. unfold auth, qmove.
  repeat (tcase; [failb|]). cbn [snd].
  eapply delta_keep.
  - apply set_acct_step, with_feeacc_step, delta_refl, W; reflexivity.
  - change (acct (with_feeacc s (fee_acc s + fee)) signer) with (acct s signer).
    unfold funds. cbn [with_nonce with_general general active debonding]. lia.
Qed.

Lemma general_le_buckets s a : general (acct s a) <= buckets s.
Proof.
  unfold buckets, sum_general.
  assert (general (acct s a) <= msum (fun _ x => general x) (accts s)); [|lia].
  unfold acct. destruct (mget N.eqb a (accts s)) as [x|] eqn:E; [|cbn; lia].
  exact (mget_le_msum N.eqb N.eqb_eq (fun _ y => general y) a x (accts s) E).
Qed.

(* burn: buckets and recorded supply both drop by the amount *)
Lemma burn_impl_inv p s from amt :
  Inv s ->
  Inv (snd (burn_impl p s from amt)) /\
  total_supply s = total_supply (snd (burn_impl p s from amt))
                   + (match fst (burn_impl p s from amt) with ROk => amt | _ => 0 end).
Proof.
  intros [W E]. unfold burn_impl.
  repeat (tcase; [cbn [snd fst]; rewrite N.add_0_r; split; [split; assumption|reflexivity]|]).
  cbn [snd fst].
  assert (Ha : amt <= general (acct s from)) by (apply N.ltb_ge; assumption).
  assert (Hts : amt <= total_supply s).
  { rewrite E. exact (N.le_trans _ _ _ Ha (general_le_buckets s from)). }
  destruct (sub_general_step s s 0 0 from amt Ha (delta_refl s W)) as (W1 & B1 & T1).
  rewrite (proj2 (N.ltb_ge _ _) Hts).
  split; [split; [exact W1|]|]; cbn [with_supply total_supply]; [|clear -Hts; lia].
  change (buckets (with_supply (sub_general from amt s) (total_supply s - amt)))
    with (buckets (sub_general from amt s)). clear -E B1 Hts. lia.
Qed.

Lemma transfer_impl_keep p s from to amt : WF s -> Keep s (snd (transfer_impl p s from to amt)).
Proof.
  intros W. unfold transfer_impl, qmove.
  tcase; [failb|]. tcase.
  - tcase; [failb|]. cbn [snd].
    apply set_acct_neutral_step, delta_refl, W; reflexivity.
  - repeat (tcase; [failb|]). cbn [snd].
    eapply delta_keep; [apply move_general_step, delta_refl, W; apply N.ltb_ge; assumption|reflexivity].
Qed.

Lemma add_escrow_keep p s from escrow amt g : WF s -> Keep s (snd (add_escrow p s from escrow amt g)).
Proof.
  intros W. unfold add_escrow.
  repeat (tcase; [failb|]). destruct (shares_for_stake _ amt) as [m|]; [|failb].
  repeat (tcase; [failb|]). cbn [snd].
  eapply delta_keep.
  - apply mint_active_step, add_active_bal_step, sub_general_step, delta_refl, W. apply N.ltb_ge. assumption.
  - reflexivity.
Qed.

Lemma reclaim_keep p s to escrow shares epoch g : WF s -> Keep s (snd (reclaim_escrow p s to escrow shares epoch g)).
Proof.
  intros W. unfold reclaim_escrow.
  repeat (tcase; [failb|]). destruct (shares_for_stake _ _) as [m|]; [|failb]. cbn [snd].
  eapply delta_keep.
  - apply mint_deb_step, add_deb_bal_step, burn_active_step, sub_active_bal_step, delta_refl, W;
      apply N.ltb_ge; assumption.
  - reflexivity.
Qed.

Lemma allow_keep p s addr benef neg amt g : WF s -> Keep s (snd (allow_op p s addr benef neg amt g)).
Proof.
  intros W. unfold allow_op.
  repeat (tcase; [failb|]). cbn zeta.
  repeat (tcase; [failb|]). cbn [snd].
  apply set_acct_neutral_step, delta_refl, W; reflexivity.
Qed.

Lemma withdraw_keep p s to from amt g : WF s -> Keep s (snd (withdraw_op p s to from amt g)).
Proof.
  intros W. unfold withdraw_op, qmove.
  repeat (tcase; [failb|]). destruct (aget to _) as [cur|]; [|failb].
  repeat (tcase; [failb|]). cbn zeta.
  repeat (tcase; [failb|]). cbn [snd]. unfold upd_acct at 1.
  eapply delta_keep.
  - apply set_acct_neutral_step, move_general_step, delta_refl, W; [reflexivity..|apply N.ltb_ge; assumption].
  - reflexivity.
Qed.

Lemma withdraw_hooked_keep p s to from amt ok g : WF s -> Keep s (snd (withdraw_hooked p s to from amt ok g)).
Proof.
  intros W. unfold withdraw_hooked, qmove.
  repeat (tcase; [failb|]). cbn [snd].
  eapply delta_keep; [apply move_general_step, delta_refl, W; apply N.ltb_ge; assumption|reflexivity].
Qed.

Lemma gov_submit_keep p s from dep b1 b2 g : WF s -> Keep s (snd (gov_submit p s from dep b1 b2 g)).
Proof.
  intros W. unfold gov_submit.
  repeat (tcase; [failb|]). cbn [snd].
  eapply delta_keep.
  - apply with_gov_step, sub_general_step, delta_refl, W. apply N.ltb_ge. assumption.
  - change (gov_deposits (sub_general from dep s)) with (gov_deposits s). ring.
Qed.

(* [Delta s0 s 0 left]: s holds [left] less than s0, the amount still to be handed out *)
Lemma pay_voters_owed voters : forall s0 s left share s' left',
  pay_voters s left share voters = Some (s', left') -> Delta s0 s 0 left -> Delta s0 s' 0 left'.
Proof.
  induction voters as [|v r IH]; intros s0 s left share s' left' H D; cbn [pay_voters] in H.
  - injection H as <- <-. exact D.
  - destruct (left <? share) eqn:E; [discriminate|].
    apply (IH _ _ _ _ _ _ H). eapply delta_weaken; [apply add_general_step, D|lia].
Qed.

(* the pending fees leave the books at once and come back as they are handed out *)
Lemma fees_vq_keep p s pr n vs : WF s -> Keep s (snd (fees_vq p s pr n vs)).
Proof.
  intros W. unfold fees_vq.
  destruct (vq_done s) eqn:Hvq; [failb|].
  set (lbf := last_block_fees s).
  assert (D0 : Delta s (with_lbf s lbf true) 0 lbf).
  { eapply delta_weaken; [apply with_lbf_step, delta_refl, W|]. unfold live_lbf. rewrite Hvq. lia. }
  destruct (lbf =? 0) eqn:E0; [cbn [snd]; apply (delta_keep _ _ _ _ D0); lia|].
  tcase; [failb|]. cbn zeta.
  set (next_total := _ * N.of_nat (length vs)). set (share_vote := if _ =? 0 then 0 else _ / _ - _).
  clearbody next_total share_vote.
  match goal with |- Keep s (snd match ?x with _ => _ end) => set (step1 := x) end.
  assert (H1 : forall s1 left1, step1 = Some (s1, left1) -> Delta s s1 0 left1).
  { subst step1. intros s1 left1. destruct pr as [pa|]; repeat tcase; intros [= <- <-]; try exact D0.
    eapply delta_weaken; [apply add_general_step, D0|lia]. }
  destruct step1 as [[s1 left1]|]; [specialize (H1 _ _ eq_refl)|failb].
  match goal with |- Keep s (snd match ?x with _ => _ end) => set (step2 := x) end.
  assert (H2 : forall s2 left2, step2 = Some (s2, left2) -> Delta s s2 0 left2).
  { subst step2. intros s2 left2. tcase; [intros [= <- <-]; exact H1|].
    intros E. exact (pay_voters_owed _ _ _ _ _ _ _ E H1). }
  destruct step2 as [[s2 left2]|]; [specialize (H2 _ _ eq_refl)|failb]. cbn [snd].
  eapply delta_keep; [apply with_common_step, H2|lia].
Qed.

Lemma fees_p_keep p s pr : WF s -> Keep s (snd (fees_p p s pr)).
Proof.
  intros W. unfold fees_p.
  destruct (vq_done s) eqn:Hvq; [|failb]. cbn [negb].
  assert (Hl : live_lbf s = 0) by (unfold live_lbf; rewrite Hvq; reflexivity).
  tcase; [cbn [snd]; eapply delta_keep; [apply with_lbf_step, delta_refl, W|rewrite Hl; reflexivity]|].
  repeat (tcase; [failb|]). cbn [snd].
  set (s1 := with_feeacc (with_lbf s _ false) _).
  assert (D1 : Keep s s1).
  { eapply delta_keep; [apply with_feeacc_step, with_lbf_step, delta_refl, W|cbn; lia]. }
  match goal with |- Keep s (with_feeacc (with_common ?x _) 0) => set (s2 := x) end.
  assert (D2 : Keep s s2).
  { subst s2. destruct pr as [pa|]; [tcase|]; try exact D1.
    eapply delta_keep; [apply with_feeacc_step, add_general_step, D1|cbn; lia]. }
  eapply delta_keep; [apply with_feeacc_step, with_common_step, D2|cbn; lia].
Qed.

Lemma fee_disbursement_conserves_l p s pr n vs :
  Inv s ->
  (Inv (snd (fees_vq p s pr n vs)) /\ total_supply (snd (fees_vq p s pr n vs)) = total_supply s) /\
  (Inv (snd (fees_p p s pr)) /\ total_supply (snd (fees_p p s pr)) = total_supply s).
Proof.
  intros I. split.
  - apply keep_inv; [exact I|apply fees_vq_keep; exact (proj1 I)].
  - apply keep_inv; [exact I|apply fees_p_keep; exact (proj1 I)].
Qed.

Lemma fees_vq_zero_weights_l p s pr n vs :
  vq_done s = false -> p_w_vote p + p_w_next p = 0 -> n <> 0 ->
  snd (fees_vq p s pr n vs) = with_common (with_lbf s (last_block_fees s) true) (common_pool s + last_block_fees s)
  /\ fst (fees_vq p s pr n vs) = ROk.
Proof.
  intros Hv Hw Hn. unfold fees_vq. rewrite Hv, Hw. cbn [N.eqb].
  destruct (last_block_fees s =? 0) eqn:E0.
  - apply N.eqb_eq in E0. cbn [fst snd]. split; [|reflexivity].
    rewrite E0, N.add_0_r. destruct s; reflexivity.
  - destruct (n =? 0) eqn:En; [apply N.eqb_eq in En; contradiction|].
    change (0 =? 0) with true. cbn iota. rewrite N.mul_0_l. change (0 =? 0) with true. cbn iota.
    destruct pr; cbn [fst snd]; split; reflexivity.
Qed.

Lemma slash_keep s addr amount : WF s -> Keep s (snd (slash s addr amount)).
Proof.
  intros W. unfold slash, slash_pools.
  set (a := acct s addr).
  pose proof (slash_take_le (bal (active a)) amount (bal (active a) + bal (debonding a))) as Ha.
  pose proof (slash_take_le (bal (debonding a)) amount (bal (active a) + bal (debonding a))) as Hd.
  tcase; [failb|]. cbn [snd].
  eapply delta_keep.
  - apply sub_deb_bal_step; [|apply sub_active_bal_step, with_common_step, delta_refl, W; exact Ha].
    unfold sub_active_bal. rewrite acct_upd_same. exact Hd.
  - lia.
Qed.

Lemma reward_one_keep s addr rate q s' : WF s -> reward_one s addr rate q = Some s' -> Keep s s'.
Proof.
  intros W. unfold reward_one, commission.
  tcase; [intros [= <-]; apply delta_refl, W|].
  tcase; [intros [= <-]; apply delta_refl, W|].
  tcase; [discriminate|].
  (* [lia] below must not see the quotient *)
  set (com := q * rate / commission_den) in *. clearbody com.
  match goal with |- context [if q - com =? 0 then s else ?x] => set (s1 := if q - com =? 0 then s else x) end.
  assert (D1 : Keep s s1).
  { subst s1. tcase; [apply delta_refl, W|].
    eapply delta_keep; [apply add_active_bal_step, with_common_step, delta_refl, W|lia]. }
  tcase; [intros [= <-]; exact D1|].
  destruct (shares_for_stake _ com) as [m|]; [|discriminate].
  tcase; [discriminate|]. intros [= <-].
  eapply delta_keep; [apply mint_active_step, add_active_bal_step, with_common_step, D1|lia].
Qed.

Lemma rewards_loop_keep factor scale who : forall s s', WF s -> rewards_loop s factor scale who = Some s' -> Keep s s'.
Proof.
  induction who as [|[addr rate] r IH]; intros s s' W; cbn [rewards_loop].
  - intros [= <-]. apply delta_refl, W.
  - destruct (reward_one s addr rate _) as [s1|] eqn:E; [|discriminate].
    intros H. pose proof (reward_one_keep _ _ _ _ _ W E) as K1.
    exact (keep_trans _ _ _ K1 (IH _ _ (proj1 K1) H)).
Qed.

Lemma add_rewards_keep s scale factor who : WF s -> Keep s (snd (add_rewards s scale factor who)).
Proof.
  intros W. unfold add_rewards. destruct scale as [sc|]; [|failb].
  destruct (rewards_loop s factor sc who) as [s1|] eqn:E; [|failb].
  exact (rewards_loop_keep _ _ _ _ _ W E).
Qed.

Lemma add_reward_single_keep s scale factor num den addr rate :
  WF s -> Keep s (snd (add_reward_single s scale factor num den addr rate)).
Proof.
  intros W. unfold add_reward_single. destruct scale as [sc|]; [|failb].
  tcase; [failb|].
  destruct (reward_one s addr rate _) as [s1|] eqn:E; [|failb].
  exact (reward_one_keep _ _ _ _ _ W E).
Qed.

Lemma debond_one_keep s k s' : WF s -> debond_one s k = Some s' -> Keep s s'.
Proof.
  intros W. unfold debond_one. destruct k as [[e d] ep].
  destruct (mget k3_eqb (e, d, ep) (debdeleg s)) as [sh|] eqn:E; [|intros [= <-]; apply delta_refl, W].
  repeat (tcase; [discriminate|]). intros [= <-].
  eapply delta_keep.
  - apply add_general_step, burn_deb_step; [|apply sub_deb_bal_step, delta_refl, W; lia].
    change (bget (sub_deb_bal e _ s) e d ep) with (bget s e d ep). unfold bget. rewrite E. reflexivity.
  - lia.
Qed.

Lemma debond_list_keep ks : forall s s', WF s -> debond_list s ks = Some s' -> Keep s s'.
Proof.
  induction ks as [|k r IH]; intros s s' W; cbn [debond_list].
  - intros [= <-]. apply delta_refl, W.
  - destruct (debond_one s k) as [s1|] eqn:E; [|discriminate].
    intros H. pose proof (debond_one_keep _ _ _ W E) as K1.
    exact (keep_trans _ _ _ K1 (IH _ _ (proj1 K1) H)).
Qed.

Lemma debond_all_keep s ep : WF s -> Keep s (snd (debond_all s ep)).
Proof.
  intros W. unfold debond_all.
  destruct (debond_list s (expired_queue s ep)) as [s1|] eqn:E; [|failb].
  exact (debond_list_keep _ _ _ W E).
Qed.

Lemma gov_reclaim_keep s to amount : WF s -> Keep s (snd (gov_reclaim s to amount)).
Proof.
  intros W. unfold gov_reclaim. tcase; [failb|]. cbn [snd].
  eapply delta_keep; [apply with_gov_step, add_general_step, delta_refl, W|].
  change (gov_deposits (add_general to amount s)) with (gov_deposits s). lia.
Qed.

Lemma gov_discard_keep s amount : WF s -> Keep s (snd (gov_discard s amount)).
Proof.
  intros W. unfold gov_discard. tcase; [failb|]. cbn [snd].
  eapply delta_keep; [apply with_gov_step, with_common_step, delta_refl, W|].
  change (gov_deposits (with_common s (common_pool s + amount))) with (gov_deposits s). lia.
Qed.

Lemma transfer_from_common_keep s to amount rate esc : WF s -> Keep s (snd (transfer_from_common s to amount rate esc)).
Proof.
  intros W. unfold transfer_from_common.
  set (moved := N.min (common_pool s) amount).
  tcase; [failb|].
  set (s1 := add_general to moved (with_common s (common_pool s - moved))).
  assert (K1 : Keep s s1).
  { eapply delta_keep; [apply add_general_step, with_common_step, delta_refl, W|]. subst moved. lia. }
  destruct esc; cbn [negb]; [|exact K1].
  match goal with |- Keep s (snd match ?x with _ => _ end) => destruct x as [[com rest]|] end; [|failb].
  tcase; [failb|].
  match goal with |- context [active (acct ?x to)] => set (s2 := x) end.
  assert (K2 : Keep s s2).
  { subst s2. tcase; [exact K1|].
    eapply delta_keep; [apply add_active_bal_step, sub_general_step, K1; lia|lia]. }
  tcase; [exact K2|].
  destruct (shares_for_stake (active (acct s2 to)) com) as [m|]; [|failb].
  tcase; [failb|]. cbn [snd].
  eapply delta_keep; [apply mint_active_step, add_active_bal_step, sub_general_step, K2; lia|lia].
Qed.

Lemma keep_body p s s' b r : Inv s -> Keep s s' -> burned_body p b r = 0 ->
  Inv s' /\ total_supply s = total_supply s' + burned_body p b r.
Proof. intros I K ->. destruct (keep_inv _ _ I K) as [I' T]. split; [exact I'|lia]. Qed.

Lemma exec_leaf_inv p s signer b g : Inv s ->
  Inv (snd (exec_leaf p s signer b g)) /\
  total_supply s = total_supply (snd (exec_leaf p s signer b g)) + burned_body p b (fst (exec_leaf p s signer b g)).
Proof.
  intros I. pose proof (proj1 I) as W.
  pose proof (burn_impl_inv p s signer) as B.
  destruct b; cbn [exec_leaf]; try (apply keep_body; [exact I| |reflexivity]).
  - unfold transfer. repeat (tcase; [apply keep_body; [exact I|failb|reflexivity]|]).
    cbn [burned_body]. destruct (to =? p_burn_addr p); [exact (B amt I)|].
    destruct (keep_inv _ _ I (transfer_impl_keep p s signer to amt W)) as [I' T].
    split; [exact I'|]. rewrite T. destruct (fst _); rewrite N.add_0_r; reflexivity.
  - unfold burn. repeat (tcase; [apply keep_body; [exact I|failb|reflexivity]|]). exact (B amt I).
  - apply add_escrow_keep, W.
  - apply reclaim_keep, W.
  - apply allow_keep, W.
  - apply withdraw_keep, W.
  - apply gov_submit_keep, W.
  - repeat (tcase; [failb|]). failb.
  - apply withdraw_hooked_keep, W.
  - failb.
Qed.

Lemma burned_b_fail p b r : r <> ROk -> burned_b p b r = 0.
Proof.
  intros H. destruct b as [| | | | | | | | |c inner]; cbn [burned_b]; destruct r; try congruence;
    try reflexivity; destruct inner; reflexivity.
Qed.

Lemma exec_body_inv p s signer b g : Inv s ->
  Inv (snd (exec_body p s signer b g)) /\
  total_supply s = total_supply (snd (exec_body p s signer b g)) + burned_b p b (fst (exec_body p s signer b g)).
Proof.
  intros I. destruct b; try exact (exec_leaf_inv p s signer _ g I).
  cbn [exec_body]. tcase; [|exact (exec_leaf_inv p s caller b true I)].
  cbn [fst snd]. rewrite burned_b_fail, N.add_0_r by discriminate. split; [exact I|reflexivity].
Qed.

Lemma exec_tx_inv p s signer n fee g1 g2 b : Inv s ->
  Inv (snd (exec_tx p s signer n fee g1 g2 b)) /\
  total_supply s = total_supply (snd (exec_tx p s signer n fee g1 g2 b))
                   + burned p (OTx signer n fee g1 g2 b) (fst (exec_tx p s signer n fee g1 g2 b)).
Proof.
  intros I. unfold exec_tx. cbn [burned].
  pose proof (auth_keep p s signer n fee (proj1 I)) as K.
  destruct (auth p s signer n fee) as [r s1]. cbn [snd] in K.
  destruct (keep_inv _ _ I K) as [I1 T1].
  assert (F : forall r', r' <> ROk -> Inv s1 /\ total_supply s = total_supply s1 + burned_b p b r').
  { intros r' Hr. rewrite burned_b_fail by exact Hr. split; [exact I1|lia]. }
  destruct r; [tcase|..]; try (cbn [fst snd]; apply F; discriminate).
  destruct (exec_body_inv p s1 signer b g2 I1) as [I2 T2]. split; [exact I2|lia].
Qed.

Lemma step_inv p s o : Inv s ->
  Inv (snd (step p s o)) /\ total_supply s = total_supply (snd (step p s o)) + burned p o (fst (step p s o)).
Proof.
  intros I. pose proof (proj1 I) as W.
  assert (HK : forall s', Keep s s' -> Inv s' /\ total_supply s = total_supply s' + 0).
  { intros s' K. destruct (keep_inv _ _ I K) as [I' T]. split; [exact I'|lia]. }
  destruct o; cbn [step burned]; [apply exec_tx_inv, I|apply HK..].
  - apply fees_vq_keep, W.
  - apply add_reward_single_keep, W.
  - apply add_rewards_keep, W.
  - apply slash_keep, W.
  - apply fees_p_keep, W.
  - apply debond_all_keep, W.
  - apply gov_reclaim_keep, W.
  - apply gov_discard_keep, W.
  - apply transfer_from_common_keep, W.
Qed.

Lemma op_preserves_inv_l p s o : Inv s -> Inv (snd (step p s o)).
Proof. intros I. exact (proj1 (step_inv p s o I)). Qed.

(* runs: each operation carries the parameters in force when it runs; a run under fixed
   parameters is the special case *)
Lemma run_params_preserves_inv_l ops : forall s, Inv s -> Inv (run_params s ops).
Proof. apply fold_left_invariant. intros s po. apply op_preserves_inv_l. Qed.

Lemma supply_run_params_l ops : forall s, Inv s ->
  total_supply s = total_supply (run_params s ops) + burned_run_params s ops.
Proof.
  unfold run_params. induction ops as [|[p o] r IH]; intros s I; cbn [fold_left burned_run_params]; [lia|].
  cbn [fst snd]. destruct (step_inv p s o I) as [I1 T1].
  destruct (step p s o) as [c s1]. cbn [fst snd] in *.
  specialize (IH s1 I1). lia.
Qed.

Lemma run_fixed_params p ops : forall s,
  run p s ops = run_params s (map (pair p) ops) /\
  burned_run p s ops = burned_run_params s (map (pair p) ops).
Proof.
  unfold run, run_params. induction ops as [|o r IH]; intros s; [split; reflexivity|].
  cbn [map fold_left burned_run burned_run_params fst snd].
  destruct (step p s o) as [c s1]. cbn [snd]. destruct (IH s1) as [-> ->]. split; reflexivity.
Qed.

Lemma run_preserves_inv_l p ops s : Inv s -> Inv (run p s ops).
Proof. rewrite (proj1 (run_fixed_params p ops s)). apply run_params_preserves_inv_l. Qed.

Lemma supply_run_l p ops s : Inv s ->
  total_supply s = total_supply (run p s ops) + burned_run p s ops.
Proof. destruct (run_fixed_params p ops s) as [-> ->]. apply supply_run_params_l. Qed.

Lemma run_rc_snd p ops : forall s, snd (run_rc p s ops) = run p s ops.
Proof.
  unfold run. induction ops as [|o r IH]; intros s; cbn [run_rc fold_left]; [reflexivity|].
  destruct (step p s o) as [c s1] eqn:E. specialize (IH s1).
  destruct (run_rc p s1 r) as [cs s2]. cbn [snd] in *. exact IH.
Qed.

Lemma supply_monotone_l p ops s : Inv s -> total_supply (run p s ops) <= total_supply s.
Proof. intros I. pose proof (supply_run_l p ops s I). lia. Qed.

Lemma run_prefix_inv_l p ops1 ops2 s : Inv s -> Inv (run p s ops1) /\ Inv (run p s (ops1 ++ ops2)).
Proof. intros I. split; apply run_preserves_inv_l; exact I. Qed.

(* block boundary: after a successful end-of-block fee disbursement the
   accumulator is empty and the persisted last-block-fees value is live, so
   the invariant is literally the equation of the statement *)
Definition boundary (s : state) : Prop := fee_acc s = 0 /\ vq_done s = false.

Lemma boundary_equation_l s : Inv s -> boundary s ->
  total_supply s = sum_general s + sum_active s + sum_debonding s + common_pool s
                   + gov_deposits s + last_block_fees s
  /\ (forall e, tsh (active (acct s e)) = dsum e s)
  /\ (forall e, tsh (debonding (acct s e)) = bsum e s).
Proof.
  intros [(N1 & N2 & N3 & HA & HD) E] [F V]. split; [|split; assumption].
  unfold buckets, live_lbf in E. rewrite V, F in E. lia.
Qed.

Lemma fees_p_boundary p s pr : fst (fees_p p s pr) = ROk -> boundary (snd (fees_p p s pr)).
Proof.
  unfold boundary, fees_p.
  tcase; [cbn [fst]; discriminate|].
  destruct (fee_acc s =? 0) eqn:E0; [intros _; apply N.eqb_eq in E0; cbn; split; [exact E0|reflexivity]|].
  tcase; [cbn [fst]; discriminate|].
  tcase; [cbn [fst]; discriminate|].
  intros _. cbn [snd]. split; [reflexivity|].
  destruct pr as [pa|]; [tcase|]; reflexivity.
Qed.

Lemma block_boundary_l p s ops pr : Inv s ->
  fst (step p (run p s ops) (OFeesP pr)) = ROk ->
  let s' := run p s (ops ++ [OFeesP pr]) in Inv s' /\ boundary s'.
Proof.
  intros I H. cbn zeta. split; [apply run_preserves_inv_l; exact I|].
  unfold run. rewrite fold_left_app. cbn [fold_left]. fold (run p s ops).
  cbn [step] in *. exact (fees_p_boundary p _ pr H).
Qed.

(* genesis-like state: any account table with consistent share totals and a
   recorded supply equal to the sum (what InitChain checks, genesis.go) *)
Lemma inv_genesis_l accs dl db cp lbf gov :
  let s := mkSt accs dl db (msum (fun _ x => general x) accs + msum (fun _ x => bal (active x)) accs
                            + msum (fun _ x => bal (debonding x)) accs + cp + gov + lbf) cp lbf gov 0 false in
  WF s -> Inv s.
Proof.
  cbn zeta. intros W. split; [exact W|].
  unfold buckets, sum_general, sum_active, sum_debonding, live_lbf. cbn. lia.
Qed.

Definition ex_p := mkParams 10 10 0 8 false false 1 2 1 1 [100; 101; 102; 103] 100.
Definition ex_s0 : state :=
  mkSt [(1, mkAcct 500 0 (mkPool 1000 1000) (mkPool 100 100) []);
        (2, mkAcct 300 0 (mkPool 0 0) (mkPool 0 0) []);
        (3, mkAcct 50 0 (mkPool 0 0) (mkPool 0 0) [])]
       [((1, 1), 600); ((1, 2), 400)]
       [((1, 3, 5), 100)]
       11957 10000 7 0 0 false.
(* one block: last block's fees paid out, proposer reward, a slash, transfers,
   a burn, reclaim (starts debonding), escrow, a failing self-transfer, an
   allowance and a withdrawal, a governance deposit, end-of-block fees, the
   debonding completion of epoch 5, the rejected proposal's deposit discarded *)
Definition ex_ops : list op :=
  [OFeesVQ (Some 1) 1 [1]; ORewardSingle (Some 2000000) 1 1 1 1 5000; OSlash 1 110;
   OTx 2 0 5 true true (BTransfer 4 100); OTx 2 1 3 true true (BBurn 20);
   OTx 2 2 2 true true (BReclaim 1 100 5);
   OTx 3 0 1 true true (BAddEscrow 1 30); OTx 4 0 0 true true (BTransfer 4 200);
   OTx 4 1 0 true true (BAllow 2 false 50); OTx 2 3 0 true true (BWithdraw 4 40);
   OTx 2 4 0 true true (BGovSubmit 100 true true);
   OFeesP (Some 1); ODebondAll 5; OGovDiscard 100].

Example ex_inv : Inv ex_s0.
Proof.
  split; [|vm_compute; reflexivity].
  unfold WF. repeat split.
  1-3: cbn; repeat constructor; cbn; intuition discriminate.
  all: intros e; unfold acct, dsum, bsum, ex_s0; cbn [accts deleg debdeleg mget msum fst snd].
  all: destruct (1 =? e); [reflexivity|]; destruct (2 =? e); [reflexivity|]; destruct (3 =? e); reflexivity.
Qed.

Example ex_run :
  fst (run_rc ex_p ex_s0 ex_ops) = [ROk; ROk; ROk; ROk; ROk; ROk; ROk; RFail 3; ROk; ROk; ROk; ROk; ROk; ROk]
  /\ total_supply (run ex_p ex_s0 ex_ops) = 11937
  /\ burned_run ex_p ex_s0 ex_ops = 20
  /\ common_pool (run ex_p ex_s0 ex_ops) = 10189
  /\ debdeleg (run ex_p ex_s0 ex_ops) = [((1, 2, 6), 101)]
  /\ fee_acc (run ex_p ex_s0 ex_ops) = 0 /\ vq_done (run ex_p ex_s0 ex_ops) = false.
Proof. vm_compute. repeat split; reflexivity. Qed.

(* the conclusion of the theorems on this history, by the theorems *)
Example ex_final_inv : Inv (run ex_p ex_s0 ex_ops).
Proof. apply run_preserves_inv_l. exact ex_inv. Qed.
