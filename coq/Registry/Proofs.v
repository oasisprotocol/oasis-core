(* Nodes and entities of Verif.Registry.Model (property C17).  [step_view]
   gives the result of every transaction-layer operation as explicit field
   updates of the state; every invariant and authority proof of the area
   starts from it.  Here: what an accepted registerNode has checked; the key
   map and nodes-by-entity index mirror the node records ([Inv_index]: with
   the per-kind SetNode order broken by exactly the accepted updates that
   exchange keys, kept by every history with the removals-first order); stake
   claims mirror entities and nodes ([Inv_reg]); who may change a node or
   entity record; rejections leave the state alone; entity removal. *)
From Verif Require Import Lib.Base Registry.Model Registry.Lemmas.

Definition IDS (nodes : list (N * node)) : Prop :=
  forall id n, aget id nodes = Some n -> n_id n = id.
Definition KM_ok (nodes : list (N * node)) (km : list (N * N)) : Prop :=
  forall k id, aget k km = Some id <-> exists n, aget id nodes = Some n /\ In k (keys n).
Definition BE_ok (nodes : list (N * node)) (be : list (N * N)) : Prop :=
  forall e id, pmem (e, id) be = true <-> exists n, aget id nodes = Some n /\ n_ent n = e.

Lemma ids_set nodes n : IDS nodes -> IDS (aset (n_id n) n nodes).
Proof.
  intros H id m. rewrite aget_aset. destruct (N.eqb_spec (n_id n) id); [congruence|apply H].
Qed.
Lemma ids_del nodes id : IDS nodes -> IDS (adel id nodes).
Proof.
  intros H id' m. rewrite aget_adel. destruct (id =? id'); [discriminate|apply H].
Qed.

(* [KM_ok] is [indexes keys] *)
Definition indexes (kf : node -> list N) (nodes : list (N * node)) (ix : list (N * N)) : Prop :=
  forall k id, aget k ix = Some id <-> exists n, aget id nodes = Some n /\ In k (kf n).

Lemma okeys_mem kf k x : nmem k (okeys kf x) = true <-> exists m, x = Some m /\ In k (kf m).
Proof.
  destruct x as [m|]; cbn [okeys]; rewrite nmem_In.
  - split; [eauto|]. intros (m' & [= <-] & H). exact H.
  - split; [intros []|]. intros (m' & [=] & _).
Qed.

(* The record of [id] is replaced by [new] (insertion, update or removal) and
   the index is brought up to date: the keys of [new] point to [id], the other
   keys of the replaced record are gone.  The keys of [new] must not belong to
   another node. *)
Lemma indexes_update kf nodes ix id new nodes' ix' :
  indexes kf nodes ix ->
  (forall id', aget id' nodes' = if id =? id' then new else aget id' nodes) ->
  (forall k, aget k ix' = if nmem k (okeys kf new) then Some id
                          else if nmem k (okeys kf (aget id nodes)) then None else aget k ix) ->
  (forall k id', In k (okeys kf new) -> aget k ix = Some id' -> id' = id) ->
  indexes kf nodes' ix'.
Proof.
  intros H Hn Hx Hg k id'. rewrite Hx, Hn.
  destruct (nmem k (okeys kf new)) eqn:En.
  - pose proof (proj1 (nmem_In _ _) En) as Hk. apply okeys_mem in En as (n & -> & Hkn). split.
    + intros [= <-]. rewrite N.eqb_refl. eauto.
    + intros (m & Hm & Hkm). destruct (N.eqb_spec id id') as [->|Hne]; [reflexivity|].
      f_equal. symmetry. apply (Hg k id' Hk). apply H. eauto.
  - assert (Hnew : ~ exists m, new = Some m /\ In k (kf m)) by (rewrite <- okeys_mem, En; discriminate).
    destruct (nmem k (okeys kf (aget id nodes))) eqn:Eo.
    + split; [discriminate|]. intros (m & Hm & Hk). exfalso.
      destruct (N.eqb_spec id id') as [<-|Hne]; [apply Hnew; eauto|]. apply Hne.
      apply okeys_mem in Eo as (o & Ho & Hko).
      assert (A : aget k ix = Some id) by (apply H; eauto).
      assert (B : aget k ix = Some id') by (apply H; eauto). congruence.
    + destruct (N.eqb_spec id id') as [<-|Hne]; [|apply H]. split.
      * intros Hk. apply H in Hk. apply okeys_mem in Hk. congruence.
      * intros Hk. contradiction.
Qed.

(* [BE_ok] is [PF_ok (fun id => id)] *)
Definition PF_ok (f : N -> N) (nodes : list (N * node)) (l : list (N * N)) : Prop :=
  forall e id, pmem (e, f id) l = true <-> exists n, aget id nodes = Some n /\ n_ent n = e.
(* claim code 0 is the entity claim *)
Definition EC_ok (ents : list (N * entity)) (l : list (N * N)) : Prop :=
  forall e, pmem (e, 0) l = true <-> exists ent, aget e ents = Some ent.

Lemma pf_set f nodes l n :
  (forall a b, f a = f b -> a = b) -> PF_ok f nodes l ->
  (forall old, aget (n_id n) nodes = Some old -> n_ent old = n_ent n) ->
  PF_ok f (aset (n_id n) n nodes) (padd (n_ent n, f (n_id n)) l).
Proof.
  intros Hinj Hbe Hold e id'. rewrite pmem_padd, aget_aset, (Hbe e id').
  destruct (N.eqb_spec (n_id n) id') as [<-|Hne]; split.
  - intros [[= ->]|(m & Hm & <-)]; [eauto|]. rewrite (Hold _ Hm). eauto.
  - intros (m & [= <-] & <-). left. reflexivity.
  - intros [[= _ E]|H]; [|exact H]. apply Hinj in E. congruence.
  - intros H. right. exact H.
Qed.

Lemma pf_remove f nodes l n id :
  (forall a b, f a = f b -> a = b) -> IDS nodes -> PF_ok f nodes l -> aget id nodes = Some n ->
  PF_ok f (adel id nodes) (pdel (n_ent n, f (n_id n)) l).
Proof.
  intros Hinj Hids Hbe Hn e id'. rewrite pmem_pdel, aget_adel, (Hbe e id'), (Hids _ _ Hn).
  destruct (N.eqb_spec id id') as [<-|Hne]; split.
  - intros [Hne (m & Hm & He)]. exfalso. apply Hne. congruence.
  - intros (m & [=] & _).
  - intros [_ H]. exact H.
  - intros H. split; [|exact H]. intros [= _ E]. apply Hinj in E. congruence.
Qed.

Lemma pf_other_add f nodes l e0 c :
  (forall id, c <> f id) -> PF_ok f nodes l -> PF_ok f nodes (padd (e0, c) l).
Proof.
  intros Hc H e id. rewrite pmem_padd, <- (H e id). split; [|tauto].
  intros [[= _ E]|E]; [|exact E]. destruct (Hc id). congruence.
Qed.
Lemma pf_other_del f nodes l e0 c :
  (forall id, c <> f id) -> PF_ok f nodes l -> PF_ok f nodes (pdel (e0, c) l).
Proof.
  intros Hc H e id. rewrite pmem_pdel, <- (H e id). split; [tauto|].
  intros E. split; [|exact E]. intros [= _ E']. destruct (Hc id). congruence.
Qed.

Lemma ec_set ents l e : EC_ok ents l -> EC_ok (aset (e_id e) e ents) (padd (e_id e, 0) l).
Proof.
  intros H e'. rewrite pmem_padd, aget_aset, (H e').
  destruct (N.eqb_spec (e_id e) e') as [E|Hne].
  - split; [eauto|]. intros _. left. congruence.
  - split; [|tauto]. intros [E|E]; [congruence|exact E].
Qed.
Lemma ec_del ents l x : EC_ok ents l -> EC_ok (adel x ents) (pdel (x, 0) l).
Proof.
  intros H e'. rewrite pmem_pdel, aget_adel, (H e').
  destruct (N.eqb_spec x e') as [E|Hne].
  - split; [|intros [ent Hent]; discriminate]. intros [Hn _]. exfalso. apply Hn. congruence.
  - split; [tauto|]. intros E. split; [congruence|exact E].
Qed.
Lemma ec_other_add ents l e0 c : c <> 0 -> EC_ok ents l -> EC_ok ents (padd (e0, c) l).
Proof.
  intros Hc H e. rewrite pmem_padd, <- (H e). split; [|tauto].
  intros [E|E]; [congruence|exact E].
Qed.
Lemma ec_other_del ents l e0 c : c <> 0 -> EC_ok ents l -> EC_ok ents (pdel (e0, c) l).
Proof.
  intros Hc H e. rewrite pmem_pdel, <- (H e). split; [tauto|].
  intros E. split; [congruence|exact E].
Qed.

Definition Inv_index (s : state) : Prop :=
  IDS (s_nodes s) /\ KM_ok (s_nodes s) (s_keymap s) /\ BE_ok (s_nodes s) (s_byent s).

(* node registrations mirrored in nodes-by-entity and in the stake claims, for either SetNode order *)
Definition Inv_reg (s : state) : Prop :=
  IDS (s_nodes s) /\
  PF_ok (fun x => x) (s_nodes s) (s_byent s) /\
  PF_ok (fun x => x + 1) (s_nodes s) (s_claims s) /\
  EC_ok (s_ents s) (s_claims s).

(* operations of the transaction layer, plus the one input of the environment:
   the roothash application suspending a runtime *)
Definition tx_op (o : op) : bool :=
  match o with
  | TRegEntity _ _ _ _ | TDeregEntity _ | TRegNode _ _ _ _ | TEpoch _
  | TRegRuntime _ _ | LSuspendRt _ | TUnfreeze _ _ | LFreeze _ _ => true
  | LSetEntity _ | LSetNode _ | LRemoveNode _ | LSetRtOwner _ _ | LRemoveRtOwner _ _ => false
  end.

Definition no_exchange (s : state) (o : op) : Prop :=
  match o with
  | TRegNode _ n _ _ => forall old, aget (n_id n) (s_nodes s) = Some old -> exchange old n = false
  | _ => True
  end.

Lemma Inv_st0 : Inv_index st0.
Proof.
  unfold Inv_index, IDS, KM_ok, BE_ok, st0; cbn. repeat split; try discriminate.
  all: intros [n [H _]]; discriminate.
Qed.
Lemma Inv_reg_st0 : Inv_reg st0.
Proof.
  unfold Inv_reg, IDS, PF_ok, EC_ok, st0; cbn. repeat split; try discriminate.
  all: intros [n H]; first [discriminate H | destruct H as [H _]; discriminate H].
Qed.

Ltac if_ok H :=
  repeat match type of H with
         | (if ?c then _ else _) = COk =>
             let E := fresh "E" in
             destruct c eqn:E;
             [first [discriminate H | exfalso; rewrite H in E; cbn in E; discriminate E]|]
         end.

Lemma code_is_ok_true c : code_is_ok c = true -> c = COk.
Proof. destruct c; cbn; congruence. Qed.

(* the check compares the keys in the order consensus, P2P, TLS, VRF *)
Lemma has_dup_keys n :
  has_dup [n_cons n; n_p2p n; n_tls n; n_vrf n] = false -> has_dup (keys n) = false.
Proof.
  unfold keys. cbn [has_dup nmem]. rewrite (N.eqb_sym (n_vrf n) (n_tls n)).
  destruct (n_p2p n =? n_cons n), (n_tls n =? n_cons n), (n_vrf n =? n_cons n),
    (n_tls n =? n_p2p n), (n_vrf n =? n_p2p n), (n_tls n =? n_vrf n); intros H; (reflexivity || discriminate H).
Qed.

Lemma verify_args_ok maxexp s ent n signers ok :
  verify_register_node_args maxexp s ent n signers ok = COk ->
  ok = true /\ nmem (n_id n) (e_nodes ent) = true /\
  (forall k, In k (n_id n :: keys n) -> In k signers) /\
  (forall k, In k (keys n) -> dup_subkey s n k = false) /\
  has_dup (keys n) = false /\
  is_only_signed_by signers [n_id n; n_cons n; n_vrf n; n_tls n; n_p2p n] = true /\
  (0 <? maxexp) && (s_epoch s + maxexp <? n_exp n) = false /\
  node_rts_check s n = COk /\ n_roles n <> 0.
Proof.
  unfold verify_register_node_args. intros H. if_ok H.
  apply negb_false_iff in E, E1, E2, E4, E5, E6, E7, E8, E11.
  apply orb_false_iff in E9 as [E9 Ev]. apply orb_false_iff in E9 as [E9 Et].
  apply orb_false_iff in E9 as [Ec Ep]. apply N.eqb_neq in E0.
  repeat split; auto.
  - intros k Hk. unfold is_signed_by in *. cbn [In keys] in Hk.
    apply nmem_In. intuition (subst; assumption).
  - intros k Hk. cbn [In keys] in Hk. intuition (subst; assumption).
  - apply has_dup_keys. exact E10.
  - apply code_is_ok_true. exact E4.
Qed.

Lemma verify_node_update_ok epoch cur n :
  verify_node_update epoch cur n = COk ->
  n_ent cur = n_ent n /\ n_cons cur = n_cons n /\
  (epoch <= n_exp cur ->
   (forall r, In r (n_rts cur) -> In r (n_rts n)) /\ N.land (n_roles n) (n_roles cur) <> 0).
Proof.
  unfold verify_node_update. intros H. if_ok H.
  apply negb_false_iff in E0, E1. apply N.eqb_eq in E0, E1. split; [exact E0|]. split; [exact E1|].
  intros Hact. apply N.ltb_ge in Hact. rewrite Hact in H. if_ok H.
  apply negb_false_iff in E2, E3. split.
  - intros r Hr. rewrite forallb_forall in E2. apply nmem_In, E2, Hr.
  - unfold has_role in E3. apply negb_true_iff, N.eqb_neq in E3. exact E3.
Qed.

Lemma reg_node_checks_passed maxexp s txs n signers ok :
  reg_node_check maxexp s txs n signers ok = COk ->
  exists ent, aget (n_ent n) (s_ents s) = Some ent /\
    verify_register_node_args maxexp s ent n signers ok = COk /\ txs = n_id n /\
    admission_check s n (n_rts n) = COk /\ s_epoch s < n_exp n /\
    forall cur, aget (n_id n) (s_nodes s) = Some cur ->
      verify_node_update (s_epoch s) cur n = COk /\ exists st, aget (n_id n) (s_status s) = Some st.
Proof.
  unfold reg_node_check. intros H.
  destruct (aget (n_ent n) (s_ents s)) as [ent|]; [|discriminate]. exists ent.
  destruct (verify_register_node_args maxexp s ent n signers ok); try discriminate.
  if_ok H. apply negb_false_iff in E, E0. apply N.eqb_eq in E. apply N.leb_gt in E1.
  repeat split; auto using code_is_ok_true.
  all: rewrite H0 in H; destruct (verify_node_update (s_epoch s) cur n); try discriminate; try reflexivity.
  destruct (aget (n_id n) (s_status s)) as [st|]; [eauto|discriminate].
Qed.

Lemma reg_node_ok maxexp s txs n signers ok :
  reg_node_check maxexp s txs n signers ok = COk ->
  (exists ent, aget (n_ent n) (s_ents s) = Some ent /\ nmem (n_id n) (e_nodes ent) = true) /\
  ok = true /\ txs = n_id n /\
  (forall k, In k (n_id n :: keys n) -> In k signers) /\
  (forall k, In k (keys n) -> dup_subkey s n k = false) /\
  has_dup (keys n) = false /\
  (forall cur, aget (n_id n) (s_nodes s) = Some cur -> n_ent cur = n_ent n /\ n_cons cur = n_cons n) /\
  s_epoch s < n_exp n.
Proof.
  intros H. apply reg_node_checks_passed in H as (ent & He & EV & Ht & _ & Hexp & Hcur).
  apply verify_args_ok in EV as (Hok & Hmem & Hs & Hd & Hdup & _).
  repeat split; eauto; destruct (Hcur _ H) as [EU _]; apply verify_node_update_ok in EU; tauto.
Qed.

Lemma dup_subkey_own s n k id :
  IDS (s_nodes s) -> KM_ok (s_nodes s) (s_keymap s) ->
  dup_subkey s n k = false -> aget k (s_keymap s) = Some id -> id = n_id n.
Proof.
  intros Hids Hkm Hd Hk. unfold dup_subkey, node_by_subkey in Hd. rewrite Hk in Hd.
  apply Hkm in Hk as (m & Hm & _). rewrite Hm in Hd.
  apply negb_false_iff, N.eqb_eq in Hd. rewrite <- (Hids _ _ Hm). exact Hd.
Qed.

Lemma no_key_two_nodes s id1 id2 n1 n2 k :
  Inv_index s -> aget id1 (s_nodes s) = Some n1 -> aget id2 (s_nodes s) = Some n2 ->
  In k (keys n1) -> In k (keys n2) -> id1 = id2.
Proof.
  intros (_ & Hkm & _) H1 H2 K1 K2.
  assert (A : aget k (s_keymap s) = Some id1) by (apply Hkm; eauto).
  assert (B : aget k (s_keymap s) = Some id2) by (apply Hkm; eauto). congruence.
Qed.

Lemma found_under_each_key s id n k :
  Inv_index s -> aget id (s_nodes s) = Some n -> In k (keys n) -> node_by_subkey s k = Some n.
Proof.
  intros (_ & Hkm & _) H1 K1. unfold node_by_subkey.
  assert (A : aget k (s_keymap s) = Some id) by (apply Hkm; eauto). rewrite A. exact H1.
Qed.

Lemma subkey_resolves_to_holder s k n :
  Inv_index s -> node_by_subkey s k = Some n ->
  In k (keys n) /\ aget (n_id n) (s_nodes s) = Some n.
Proof.
  intros (Hids & Hkm & _) H. unfold node_by_subkey in H.
  destruct (aget k (s_keymap s)) as [id|] eqn:E; [|discriminate].
  apply Hkm in E as [m [Hm Hk]]. rewrite Hm in H. injection H as <-.
  rewrite (Hids _ _ Hm). auto.
Qed.

Lemma byent_mirror s e :
  BE_ok (s_nodes s) (s_byent s) ->
  (has_entity_nodes s e = true <-> exists id n, aget id (s_nodes s) = Some n /\ n_ent n = e).
Proof.
  intros Hbe. unfold has_entity_nodes. rewrite has_fst_spec. split.
  - intros [id H]. apply Hbe in H as [n Hn]. eauto.
  - intros [id [n Hn]]. exists id. apply Hbe. eauto.
Qed.

Lemma entity_nodes_mirror s e :
  Inv_index s ->
  (has_entity_nodes s e = true <-> exists id n, aget id (s_nodes s) = Some n /\ n_ent n = e).
Proof. intros (_ & _ & Hbe). apply byent_mirror, Hbe. Qed.

(* the state a stored node registration leaves, before suspended runtimes are resumed
   (transactions.go:341-419) *)
Definition registered (addr : N -> N) (fixed : bool) (s : state) (n : node) : state :=
  with_status
    (with_nthr (set_node addr fixed (aget (n_id n) (s_nodes s)) n
                  (with_claims s (padd (n_ent n, n_id n + 1) (s_claims s))))
               (aset (n_id n) (node_kinds n) (s_nthr s)))
    (reg_status s n).

(* computes the fields of an explicitly updated state *)
Ltac fields :=
  cbn [fst snd s_ents s_nodes s_byent s_addr s_keymap s_rtown s_claims s_epoch s_rts s_susp s_rtclaims
       s_nthr s_status with_ents with_nodes with_byent with_addr with_keymap with_rtown with_claims
       with_epoch with_rts with_susp with_rtclaims with_nthr with_status set_node remove_node registered] in *.

Section Step.
  Variable addr : N -> N.
  Variable fixed : bool.
  Variables maxexp debond : N.
  Notation stp := (step addr fixed maxexp debond).

  (* The tables a fold or a case analysis of the model writes are given as
     values, with the defining equation for those who need it: every result
     is [s] under explicit field updates, so that what an operation leaves
     alone is left alone by computation. *)
  Inductive step_kind (s : state) : op -> code * state -> Prop :=
  | sk_same o c : step_kind s o (c, s)
  | sk_reg_entity txs e ds ok :
      reg_entity_check txs e ds ok = COk ->
      step_kind s (TRegEntity txs e ds ok)
        (COk, with_ents (with_claims s (padd (e_id e, 0) (s_claims s))) (aset (e_id e) e (s_ents s)))
  | sk_dereg_entity txs :
      dereg_entity_check s txs = COk ->
      step_kind s (TDeregEntity txs)
        (COk, with_ents (with_claims s (pdel (txs, 0) (s_claims s))) (adel txs (s_ents s)))
  | sk_reg_node txs n signers ok rts susp :
      reg_node_check maxexp s txs n signers ok = COk ->
      fold_left resume_one (n_rts n) (registered addr fixed s n)
      = with_susp (with_rts (registered addr fixed s n) rts) susp ->
      step_kind s (TRegNode txs n signers ok) (COk, with_susp (with_rts (registered addr fixed s n) rts) susp)
  | sk_epoch e st :
      fold_left (mark_one e) (sorted_ids s) (with_epoch s e) = with_status (with_epoch s e) st ->
      step_kind s (TEpoch e)
        (COk, fold_left (epoch_one addr debond e) (sorted_ids s) (with_status (with_epoch s e) st))
  | sk_reg_runtime caller rt cl rts susp own :
      reg_runtime_check s caller rt = COk ->
      reg_runtime_apply s rt = with_rtown (with_susp (with_rts (with_rtclaims s cl) rts) susp) own ->
      step_kind s (TRegRuntime caller rt)
        (COk, with_rtown (with_susp (with_rts (with_rtclaims s cl) rts) susp) own)
  | sk_suspend r rt :
      aget r (s_rts s) = Some rt ->
      step_kind s (LSuspendRt r) (COk, with_susp (with_rts s (adel r (s_rts s))) (aset r rt (s_susp s)))
  | sk_unfreeze txs id st :
      unfreeze_check s txs id = COk -> aget id (s_status s) = Some st ->
      step_kind s (TUnfreeze txs id)
        (COk, with_status s (aset id (mkStatus (st_expired st) 0 (st_inelig st)) (s_status s)))
  | sk_freeze id e st :
      aget id (s_status s) = Some st ->
      step_kind s (LFreeze id e)
        (COk, with_status s (aset id (mkStatus (st_expired st) e (st_inelig st)) (s_status s))).

  Lemma resume_fold_shape l s :
    exists rts susp, fold_left resume_one l s = with_susp (with_rts s rts) susp.
  Proof.
    apply fold_left_invariant.
    - intros a r (rts & susp & ->). unfold resume_one.
      destruct (aget r (s_susp (with_susp (with_rts s rts) susp))); eexists; eexists; reflexivity.
    - exists (s_rts s), (s_susp s). destruct s; reflexivity.
  Qed.

  Lemma mark_fold_shape e l s : exists st, fold_left (mark_one e) l s = with_status s st.
  Proof.
    apply fold_left_invariant.
    - intros a id (st & ->). unfold mark_one. destruct (aget id (s_nodes (with_status s st))) as [n|]; [|eauto].
      destruct (aget id (s_status (with_status s st))); [|eauto]. destruct (n_exp n <? e); eexists; reflexivity.
    - exists (s_status s). destruct s; reflexivity.
  Qed.

  Lemma reg_runtime_apply_eq s rt :
    reg_runtime_apply s rt =
    let ex := any_runtime s (r_id rt) in
    let susp := match aget (r_id rt) (s_rts s) with
                | Some _ => false
                | None => match aget (r_id rt) (s_susp s) with Some _ => true | None => false end
                end in
    with_rtown
      (with_susp
         (with_rts
            (with_rtclaims s
               match rt_acct rt with
               | Some a =>
                   match ex with
                   | Some old => match rt_acct old with
                                 | Some b => if b =? a then padd (a, r_id rt) (s_rtclaims s)
                                             else pdel (b, r_id rt) (padd (a, r_id rt) (s_rtclaims s))
                                 | None => padd (a, r_id rt) (s_rtclaims s)
                                 end
                   | None => padd (a, r_id rt) (s_rtclaims s)
                   end
               | None => s_rtclaims s
               end)
            (if susp then s_rts s else aset (r_id rt) rt (s_rts s)))
         (if susp then aset (r_id rt) rt (s_susp s) else s_susp s))
      match ex with
      | None => padd (r_ent rt, r_id rt) (s_rtown s)
      | Some old => if r_ent old =? r_ent rt then s_rtown s
                    else padd (r_ent rt, r_id rt) (pdel (r_ent old, r_id rt) (s_rtown s))
      end.
  Proof.
    unfold reg_runtime_apply, any_runtime.
    destruct (rt_acct rt) as [a|]; destruct (aget (r_id rt) (s_rts s)) as [old|];
      [| destruct (aget (r_id rt) (s_susp s)) as [old|] | | destruct (aget (r_id rt) (s_susp s)) as [old|]];
      try destruct (r_ent old =? r_ent rt); try destruct (rt_acct old) as [b|]; try destruct (b =? a);
      destruct s; reflexivity.
  Qed.

  Lemma step_view s o : tx_op o = true -> step_kind s o (stp s o).
  Proof.
    destruct o; try discriminate; intros _; cbn [step].
    - destruct (reg_entity_check txs e dsigner sig_ok) eqn:E; try apply sk_same. apply sk_reg_entity, E.
    - destruct (dereg_entity_check s txs) eqn:E; try apply sk_same. apply sk_dereg_entity, E.
    - destruct (reg_node_check maxexp s txs n dsigners sig_ok) eqn:E; try apply sk_same.
      destruct (resume_fold_shape (n_rts n) (registered addr fixed s n)) as (rts & susp & Er).
      change (step_kind s (TRegNode txs n dsigners sig_ok)
                (COk, fold_left resume_one (n_rts n) (registered addr fixed s n))).
      rewrite Er. apply sk_reg_node; assumption.
    - unfold epoch_change. destruct (mark_fold_shape e (sorted_ids s) (with_epoch s e)) as (st & Em).
      rewrite Em. apply sk_epoch, Em.
    - destruct (reg_runtime_check s caller rt) eqn:E; try apply sk_same.
      rewrite reg_runtime_apply_eq. cbv zeta. apply sk_reg_runtime; [exact E|apply reg_runtime_apply_eq].
    - destruct (aget r (s_rts s)) eqn:E; [apply sk_suspend, E|apply sk_same].
    - destruct (unfreeze_check s txs id) eqn:E; try apply sk_same.
      destruct (aget id (s_status s)) eqn:Es; [apply sk_unfreeze; assumption|apply sk_same].
    - destruct (aget id (s_status s)) eqn:Es; [apply sk_freeze, Es|apply sk_same].
  Qed.

  Lemma run_invariant (P : state -> Prop) :
    (forall s o, tx_op o = true -> P s -> P (snd (stp s o))) ->
    forall ops s, P s -> forallb tx_op ops = true -> P (run addr fixed maxexp debond ops s).
  Proof.
    intros Hstep ops. induction ops as [|o r IH]; intros s H Htx; [exact H|].
    cbn [forallb] in Htx. apply andb_true_iff in Htx as [Ho Hr]. apply IH; auto.
  Qed.

  Lemma epoch_one_cases e s id :
    epoch_one addr debond e s id = s \/
    exists n, aget id (s_nodes s) = Some n /\
      epoch_one addr debond e s id =
      with_nthr (with_claims (remove_node addr n s) (pdel (n_ent n, n_id n + 1) (s_claims s)))
                (adel (n_id n) (s_nthr s)).
  Proof.
    unfold epoch_one. destruct (aget id (s_nodes s)) as [n|]; [|auto].
    destruct ((n_exp n <? e) && (n_exp n + debond <? e)); eauto.
  Qed.

  Lemma epoch_fold_invariant (P : state -> Prop) e :
    (forall s id n, P s -> aget id (s_nodes s) = Some n ->
       P (with_nthr (with_claims (remove_node addr n s) (pdel (n_ent n, n_id n + 1) (s_claims s)))
                    (adel (n_id n) (s_nthr s)))) ->
    forall l s, P s -> P (fold_left (epoch_one addr debond e) l s).
  Proof.
    intros Hrm. apply fold_left_invariant. intros s id H.
    destruct (epoch_one_cases e s id) as [->|(n & Hn & ->)]; eauto.
  Qed.

  Lemma epoch_fold_ents e l s : s_ents (fold_left (epoch_one addr debond e) l s) = s_ents s.
  Proof.
    apply (epoch_fold_invariant (fun s' => s_ents s' = s_ents s)); [|reflexivity].
    intros s' id n H _. exact H.
  Qed.

  Lemma epoch_one_nodes e s id0 id :
    IDS (s_nodes s) ->
    aget id (s_nodes (epoch_one addr debond e s id0)) =
    match aget id (s_nodes s) with
    | Some n => if (n_exp n <? e) && (n_exp n + debond <? e) && (id0 =? id) then None else Some n
    | None => None
    end.
  Proof.
    intros Hids. unfold epoch_one.
    destruct (aget id0 (s_nodes s)) as [m|] eqn:Em;
      [destruct ((n_exp m <? e) && (n_exp m + debond <? e)) eqn:Ec|]; fields;
      rewrite ?(Hids _ _ Em), ?aget_adel; destruct (N.eqb_spec id0 id) as [<-|Hne]; rewrite ?Em, ?Ec;
      try reflexivity; destruct (aget id (s_nodes s)); rewrite ?andb_false_r; reflexivity.
  Qed.

  Lemma epoch_fold_nodes e l : forall s id,
    IDS (s_nodes s) ->
    aget id (s_nodes (fold_left (epoch_one addr debond e) l s)) =
    match aget id (s_nodes s) with
    | Some n => if (n_exp n <? e) && (n_exp n + debond <? e) && nmem id l then None else Some n
    | None => None
    end.
  Proof.
    induction l as [|id0 r IH]; intros s id Hids; cbn [fold_left nmem].
    - destruct (aget id (s_nodes s)); [rewrite andb_false_r|]; reflexivity.
    - rewrite IH, (epoch_one_nodes e s id0 id Hids).
      + destruct (aget id (s_nodes s)) as [n|]; [|reflexivity].
        destruct ((n_exp n <? e) && (n_exp n + debond <? e)) eqn:R, (id0 =? id); cbn [andb orb];
          rewrite ?R; reflexivity.
      + destruct (epoch_one_cases e s id0) as [->|(n & _ & ->)]; [exact Hids|]. fields. apply ids_del, Hids.
  Qed.

  Lemma epoch_nodes e s st id :
    IDS (s_nodes s) ->
    aget id (s_nodes (fold_left (epoch_one addr debond e) (sorted_ids s) (with_status (with_epoch s e) st))) =
    match aget id (s_nodes s) with
    | Some n => if (n_exp n <? e) && (n_exp n + debond <? e) then None else Some n
    | None => None
    end.
  Proof.
    intros Hids. rewrite epoch_fold_nodes by exact Hids. fields.
    destruct (aget id (s_nodes s)) as [n|] eqn:En; [|reflexivity].
    replace (nmem id (sorted_ids s)) with true; [rewrite andb_true_r; reflexivity|].
    symmetry. apply nmem_In, In_nsort. apply aget_In in En. apply (in_map fst) in En. exact En.
  Qed.

  Lemma epoch_nodes_cases e s st id :
    IDS (s_nodes s) ->
    let s' := fold_left (epoch_one addr debond e) (sorted_ids s) (with_status (with_epoch s e) st) in
    aget id (s_nodes s') = aget id (s_nodes s) \/
    exists n, aget id (s_nodes s) = Some n /\ aget id (s_nodes s') = None /\ n_exp n + debond < e.
  Proof.
    intros Hids. cbn zeta. rewrite (epoch_nodes e s st id Hids).
    destruct (aget id (s_nodes s)) as [n|]; [|auto].
    destruct ((n_exp n <? e) && (n_exp n + debond <? e)) eqn:E; [|auto].
    right. exists n. apply andb_true_iff in E as [_ E]. apply N.ltb_lt in E. auto.
  Qed.

  Lemma step_ids s o : tx_op o = true -> IDS (s_nodes s) -> IDS (s_nodes (snd (stp s o))).
  Proof.
    intros Htx H. destruct (step_view s o Htx); try exact H; fields.
    - apply ids_set, H.
    - intros id n Hn. destruct (epoch_nodes_cases e s st id H) as [E|(m & _ & E & _)];
        cbn zeta in E; rewrite E in Hn; [exact (H _ _ Hn)|discriminate].
  Qed.

  Lemma km_set_node nodes km n :
    KM_ok nodes km ->
    (forall k id, In k (keys n) -> aget k km = Some id -> id = n_id n) ->
    (fixed = true \/ forall old, aget (n_id n) nodes = Some old -> exchange old n = false) ->
    KM_ok (aset (n_id n) n nodes)
          (kapply_all ((if fixed then keymap_ops_fixed else keymap_ops) (aget (n_id n) nodes) n) km).
  Proof.
    intros H Hg Hx.
    apply (indexes_update keys nodes km (n_id n) (Some n)); [exact H|intros; apply aget_aset| |exact Hg].
    intros k. rewrite aget_kapply_all. destruct fixed; [apply klookup_fixed|].
    destruct Hx as [Hx|Hx]; [discriminate|].
    destruct (aget (n_id n) nodes) as [old|]; [apply klookup_faithful, Hx; reflexivity|].
    apply (klookup_fixed None).
  Qed.

  Lemma km_remove_node nodes km n id :
    KM_ok nodes km -> aget id nodes = Some n ->
    KM_ok (adel id nodes) (kapply_all [KDel (n_cons n); KDel (n_p2p n); KDel (n_tls n); KDel (n_vrf n)] km).
  Proof.
    intros H Hn.
    apply (indexes_update keys nodes km id None); [exact H|intros; apply aget_adel| |intros k id' []].
    intros k. rewrite aget_kapply_all, Hn. cbn [okeys keys nmem klookup].
    destruct (n_cons n =? k), (n_p2p n =? k), (n_vrf n =? k), (n_tls n =? k); reflexivity.
  Qed.

  Lemma step_inv s o :
    tx_op o = true -> Inv_index s -> (fixed = true \/ no_exchange s o) -> Inv_index (snd (stp s o)).
  Proof.
    intros Htx Hinv. destruct (step_view s o Htx); intros Hx; try exact Hinv; fields.
    - apply reg_node_ok in H as (_ & _ & _ & _ & Hd & _ & Hcur & _).
      destruct Hinv as (Hids & Hkm & Hbe). split; [apply ids_set, Hids|]. split.
      + apply km_set_node; [exact Hkm| |exact Hx].
        intros k id Hk. apply (dup_subkey_own s n k id Hids Hkm), Hd, Hk.
      + apply (pf_set (fun x => x)); [auto|exact Hbe|]. intros old Ho. apply Hcur, Ho.
    - apply epoch_fold_invariant; [|exact Hinv]. clear. intros s id n (Hids & Hkm & Hbe) Hn.
      pose proof (Hids _ _ Hn) as <-. unfold Inv_index. fields. split; [apply ids_del, Hids|]. split.
      + apply km_remove_node; assumption.
      + apply (pf_remove (fun x => x)); auto.
  Qed.

  Lemma step_reg s o : tx_op o = true -> Inv_reg s -> Inv_reg (snd (stp s o)).
  Proof.
    assert (succ_inj : forall a b, a + 1 = b + 1 -> a = b) by (intros; lia).
    intros Htx Hinv. destruct (step_view s o Htx); try exact Hinv; unfold Inv_reg; fields.
    - destruct Hinv as (Hids & Hbe & Hnc & Hec). split; [exact Hids|]. split; [exact Hbe|]. split.
      + apply pf_other_add; [intros id; lia|exact Hnc].
      + apply ec_set, Hec.
    - destruct Hinv as (Hids & Hbe & Hnc & Hec). split; [exact Hids|]. split; [exact Hbe|]. split.
      + apply pf_other_del; [intros id; lia|exact Hnc].
      + apply ec_del, Hec.
    - apply reg_node_ok in H as (_ & _ & _ & _ & _ & _ & Hcur & _).
      assert (Hent : forall old, aget (n_id n) (s_nodes s) = Some old -> n_ent old = n_ent n)
        by (intros old Ho; apply Hcur, Ho).
      destruct Hinv as (Hids & Hbe & Hnc & Hec). split; [apply ids_set, Hids|]. split; [|split].
      + apply (pf_set (fun x => x)); auto.
      + apply (pf_set (fun x => x + 1)); [exact succ_inj|exact Hnc|exact Hent].
      + apply ec_other_add; [lia|exact Hec].
    - apply epoch_fold_invariant; [|exact Hinv]. clear -succ_inj. intros s id n (Hids & Hbe & Hnc & Hec) Hn.
      pose proof (Hids _ _ Hn) as <-. unfold Inv_reg. fields. split; [apply ids_del, Hids|]. split; [|split].
      + apply (pf_remove (fun x => x)); auto.
      + apply (pf_remove (fun x => x + 1)); [exact succ_inj|exact Hids|exact Hnc|exact Hn].
      + apply ec_other_del; [lia|exact Hec].
  Qed.

  Lemma run_reg ops s : Inv_reg s -> forallb tx_op ops = true ->
    Inv_reg (run addr fixed maxexp debond ops s).
  Proof. apply run_invariant, step_reg. Qed.

  Lemma reg_claims_mirror s e c :
    Inv_reg s ->
    (pmem (e, c) (s_claims s) = true <->
     (c = 0 /\ exists ent, aget e (s_ents s) = Some ent) \/
     (exists id n, c = id + 1 /\ aget id (s_nodes s) = Some n /\ n_ent n = e)).
  Proof.
    intros (_ & _ & Hnc & Hec). destruct (N.eq_dec c 0) as [->|Hc].
    - rewrite (Hec e). split; [intros H; left; auto|].
      intros [[_ H]|[id [n [H _]]]]; [exact H|lia].
    - replace c with (c - 1 + 1) at 1 by lia. rewrite (Hnc e (c - 1)). split.
      + intros [n Hn]. right. exists (c - 1), n. split; [lia|exact Hn].
      + intros [[H _]|[id [n [H Hn]]]]; [congruence|].
        assert (id = c - 1) by lia. subst id. eauto.
  Qed.

  Lemma byent_mirror_hist ops e :
    forallb tx_op ops = true ->
    (has_entity_nodes (run addr fixed maxexp debond ops st0) e = true <->
     exists id n, aget id (s_nodes (run addr fixed maxexp debond ops st0)) = Some n /\ n_ent n = e).
  Proof. intros H. apply byent_mirror, run_reg; [exact Inv_reg_st0|exact H]. Qed.

  Lemma claims_mirror_hist ops e c :
    forallb tx_op ops = true ->
    (pmem (e, c) (s_claims (run addr fixed maxexp debond ops st0)) = true <->
     (c = 0 /\ exists ent, aget e (s_ents (run addr fixed maxexp debond ops st0)) = Some ent) \/
     (exists id n, c = id + 1 /\
                   aget id (s_nodes (run addr fixed maxexp debond ops st0)) = Some n /\ n_ent n = e)).
  Proof. intros H. apply reg_claims_mirror, run_reg; [exact Inv_reg_st0|exact H]. Qed.

  Lemma reject_unchanged s o c s' : stp s o = (c, s') -> c <> COk -> s' = s.
  Proof.
    destruct (tx_op o) eqn:Htx.
    - destruct (step_view s o Htx); intros [= <- <-] Hc; congruence.
    - destruct o; try discriminate; cbn [step]; try destruct (aget id (s_nodes s));
        intros [= <- <-] Hc; congruence.
  Qed.

  Lemma reg_node_rejected s txs n signers ok :
    reg_node_check maxexp s txs n signers ok <> COk ->
    fst (stp s (TRegNode txs n signers ok)) <> COk /\ snd (stp s (TRegNode txs n signers ok)) = s.
  Proof.
    intros Hc. cbn [step]. destruct (reg_node_check maxexp s txs n signers ok);
      cbn [fst snd]; try (split; [discriminate|reflexivity]). contradiction.
  Qed.

  Lemma missing_signature_rejected s txs n signers ok k :
    In k (n_id n :: keys n) -> ~ In k signers ->
    fst (stp s (TRegNode txs n signers ok)) <> COk /\ snd (stp s (TRegNode txs n signers ok)) = s.
  Proof.
    intros Hk Hn. apply reg_node_rejected. intros EC.
    apply reg_node_ok in EC as (_ & _ & _ & Hs & _). apply Hn, Hs, Hk.
  Qed.

  Lemma wrong_tx_signer_rejected s txs n signers ok :
    txs <> n_id n -> fst (stp s (TRegNode txs n signers ok)) <> COk /\ snd (stp s (TRegNode txs n signers ok)) = s.
  Proof.
    intros Hne. apply reg_node_rejected. intros EC.
    apply reg_node_ok in EC as (_ & _ & Ht & _). congruence.
  Qed.

  Lemma not_in_entity_list_rejected s txs n signers ok :
    (forall ent, aget (n_ent n) (s_ents s) = Some ent -> ~ In (n_id n) (e_nodes ent)) ->
    fst (stp s (TRegNode txs n signers ok)) <> COk /\ snd (stp s (TRegNode txs n signers ok)) = s.
  Proof.
    intros Hne. apply reg_node_rejected. intros EC.
    apply reg_node_ok in EC as ((ent & He & Hm) & _). apply (Hne _ He), nmem_In, Hm.
  Qed.

  Lemma authority_node s o s' id :
    tx_op o = true -> IDS (s_nodes s) -> stp s o = (COk, s') ->
    aget id (s_nodes s') <> aget id (s_nodes s) ->
    (exists txs n signers,
        o = TRegNode txs n signers true /\ n_id n = id /\ txs = id /\
        (forall k, In k (id :: keys n) -> In k signers) /\
        (exists ent, aget (n_ent n) (s_ents s) = Some ent /\ In id (e_nodes ent)) /\
        (forall cur, aget id (s_nodes s) = Some cur -> n_ent cur = n_ent n /\ n_cons cur = n_cons n) /\
        aget id (s_nodes s') = Some n)
    \/ (exists e n, o = TEpoch e /\ aget id (s_nodes s) = Some n /\
                    aget id (s_nodes s') = None /\ n_exp n + debond < e).
  Proof.
    intros Htx Hids H. apply (f_equal snd) in H. cbn [snd] in H. subst s'.
    destruct (step_view s o Htx); fields; intros Hch;
      try (exfalso; apply Hch; reflexivity).
    - rewrite aget_aset in *. destruct (N.eqb_spec (n_id n) id) as [E|Hne]; [|exfalso; apply Hch; reflexivity].
      apply reg_node_ok in H as ((ent & He & Hm) & -> & Ht & Hs & _ & _ & Hcur & _).
      left. exists txs, n, signers. rewrite <- E. repeat split; auto; try (apply Hcur; assumption).
      exists ent. split; [exact He|]. apply nmem_In, Hm.
    - destruct (epoch_nodes_cases e s st id Hids) as [E|(n & Hn & E & Hexp)]; cbn zeta in E.
      + exfalso. apply Hch, E.
      + right. exists e, n. auto.
  Qed.

  Lemma authority_entity s o s' e :
    tx_op o = true -> stp s o = (COk, s') -> aget e (s_ents s') <> aget e (s_ents s) ->
    (exists ent, o = TRegEntity e ent e true /\ e_id ent = e /\ ~ has_dup (e_nodes ent) = true /\
                 aget e (s_ents s') = Some ent)
    \/ (o = TDeregEntity e /\ has_entity_nodes s e = false /\ has_entity_runtimes s e = false /\
        aget e (s_ents s') = None).
  Proof.
    intros Htx H. apply (f_equal snd) in H. cbn [snd] in H. subst s'.
    destruct (step_view s o Htx); fields; rewrite ?epoch_fold_ents; intros Hch;
      try (exfalso; apply Hch; reflexivity).
    - rewrite aget_aset in *. destruct (N.eqb_spec (e_id e0) e) as [E|Hne]; [|exfalso; apply Hch; reflexivity].
      unfold reg_entity_check in H. if_ok H.
      apply negb_false_iff in E0, E1, E3. apply N.eqb_eq in E1, E3. subst.
      left. exists e0. repeat split; auto. rewrite E2. discriminate.
    - rewrite aget_adel in *. destruct (N.eqb_spec txs e) as [E|Hne]; [|exfalso; apply Hch; reflexivity].
      unfold dereg_entity_check in H. if_ok H. subst. right. auto.
  Qed.

  Lemma entity_not_removable_while_owning_nodes s e id n :
    Inv_index s -> aget id (s_nodes s) = Some n -> n_ent n = e ->
    stp s (TDeregEntity e) = (CEntityHasNodes, s).
  Proof.
    intros Hinv Hn He. cbn [step]. unfold dereg_entity_check.
    rewrite (proj2 (entity_nodes_mirror s e Hinv)) by eauto. reflexivity.
  Qed.

  Lemma entity_not_removable_while_owning_runtimes s e rt :
    pmem (e, rt) (s_rtown s) = true -> has_entity_nodes s e = false ->
    stp s (TDeregEntity e) = (CEntityHasRuntimes, s).
  Proof.
    intros Hr Hn. cbn [step]. unfold dereg_entity_check, has_entity_runtimes. rewrite Hn.
    rewrite (proj2 (has_fst_spec e (s_rtown s))) by eauto. reflexivity.
  Qed.

  Lemma step_entity_const s o id n n' :
    tx_op o = true -> IDS (s_nodes s) ->
    aget id (s_nodes s) = Some n -> aget id (s_nodes (snd (stp s o))) = Some n' ->
    n_ent n' = n_ent n.
  Proof.
    intros Htx Hids Hn. destruct (step_view s o Htx); fields; intros Hn';
      try congruence.
    - rewrite aget_aset in Hn'. destruct (N.eqb_spec (n_id n0) id) as [E|Hne]; [|congruence].
      injection Hn' as <-. apply reg_node_ok in H as (_ & _ & _ & _ & _ & _ & Hcur & _).
      symmetry. apply Hcur. rewrite E. exact Hn.
    - destruct (epoch_nodes_cases e s st id Hids) as [E|(m & _ & E & _)];
        cbn zeta in E; rewrite E in Hn'; congruence.
  Qed.

  (* the record of [id] exists after every operation of the history *)
  Fixpoint exists_throughout (id : N) (ops : list op) (s : state) : Prop :=
    match ops with
    | [] => True
    | o :: r => (exists m, aget id (s_nodes (snd (stp s o))) = Some m) /\
                exists_throughout id r (snd (stp s o))
    end.

  Lemma entity_const_hist ops : forall s id n n',
    forallb tx_op ops = true -> IDS (s_nodes s) ->
    aget id (s_nodes s) = Some n -> exists_throughout id ops s ->
    aget id (s_nodes (run addr fixed maxexp debond ops s)) = Some n' ->
    n_ent n' = n_ent n.
  Proof.
    induction ops as [|o r IH]; intros s id n n' Htx Hids Hn Hex Hn'.
    - cbn in Hn'. congruence.
    - cbn [forallb] in Htx. apply andb_true_iff in Htx as [Ho Hr].
      destruct Hex as [[m Hm] Hex]. unfold run in Hn'. cbn [fold_left] in Hn'.
      rewrite (IH _ id m n' Hr (step_ids s o Ho Hids) Hm Hex Hn').
      eapply step_entity_const; eauto.
  Qed.
End Step.

Section Reg.
  Variable addr : N -> N.
  Variables maxexp debond : N.

  Lemma inv_with_epoch s e : Inv_index s -> Inv_index (with_epoch s e).
  Proof. intros H. exact H. Qed.

  Fixpoint no_exchange_run (ops : list op) (s : state) : Prop :=
    match ops with
    | [] => True
    | o :: r => no_exchange s o /\ no_exchange_run r (snd (step addr false maxexp debond s o))
    end.

  Lemma run_inv_no_exchange ops : forall s,
    Inv_index s -> forallb tx_op ops = true -> no_exchange_run ops s ->
    Inv_index (run addr false maxexp debond ops s).
  Proof.
    induction ops as [|o r IH]; intros s Hinv Htx Hx; [exact Hinv|].
    cbn [forallb] in Htx. apply andb_true_iff in Htx as [Ho Hr]. destruct Hx as [Hx1 Hx2].
    apply IH; auto. apply step_inv; auto.
  Qed.

  (* with the per-kind SetNode order, an accepted update that exchanges keys
     always breaks the invariant: the side condition of [run_inv_no_exchange] is exact *)
  Lemma exchange_breaks_inv s txs n signers ok old :
    Inv_index s -> aget (n_id n) (s_nodes s) = Some old -> exchange old n = true ->
    fst (step addr false maxexp debond s (TRegNode txs n signers ok)) = COk ->
    ~ Inv_index (snd (step addr false maxexp debond s (TRegNode txs n signers ok))).
  Proof.
    intros Hinv Hold Hx Hok Hinv'. cbn [step] in Hok, Hinv'.
    destruct (reg_node_check maxexp s txs n signers ok) eqn:EC; try discriminate.
    apply reg_node_ok in EC as (_ & _ & _ & _ & _ & Hdup & _ & _).
    destruct (exchange_loses_key old n Hdup Hx) as [k [Hk Hl]].
    change (Inv_index (fold_left resume_one (n_rts n) (registered addr false s n))) in Hinv'.
    destruct (resume_fold_shape (n_rts n) (registered addr false s n)) as (rts & susp & Er). rewrite Er in Hinv'.
    pose proof (found_under_each_key _ (n_id n) n k Hinv') as F. unfold node_by_subkey in F. fields.
    rewrite aget_kapply_all, Hold, Hl in F. specialize (F (aget_aset_same _ _ _) Hk). discriminate F.
  Qed.

  Lemma run_inv_fixed ops s :
    Inv_index s -> forallb tx_op ops = true -> Inv_index (run addr true maxexp debond ops s).
  Proof. apply run_invariant. intros s' o Htx H. apply step_inv; auto. Qed.
End Reg.

(* the refutation witness: an update that exchanges P2P and TLS *)
Definition wit_ops : list op :=
  [TRegEntity 1 (mkEnt 1 [4]) 1 true;
   TRegNode 4 (mkNode 4 1 8 9 10 11 2 8 []) [4; 9; 8; 11; 10] true].
Definition wit_op : op := TRegNode 4 (mkNode 4 1 8 11 10 9 2 8 []) [4; 11; 8; 9; 10] true.

Lemma Inv_index_refuted_l (addr : N -> N) :
  exists s o, Inv_index s /\ tx_op o = true /\
              fst (step addr false 5 2 s o) = COk /\
              ~ Inv_index (snd (step addr false 5 2 s o)).
Proof.
  assert (Hinv : Inv_index (run addr false 5 2 wit_ops st0)).
  { apply run_inv_no_exchange; [exact Inv_st0|reflexivity|].
    cbn [no_exchange_run wit_ops no_exchange]. split; [exact I|]. split; [|exact I].
    intros old H. vm_compute in H. discriminate. }
  assert (Hok : fst (step addr false 5 2 (run addr false 5 2 wit_ops st0) wit_op) = COk)
    by (vm_compute; reflexivity).
  exists (run addr false 5 2 wit_ops st0), wit_op.
  split; [exact Hinv|]. split; [reflexivity|]. split; [exact Hok|].
  apply (exchange_breaks_inv addr 5 2 _ _ _ _ _ (mkNode 4 1 8 9 10 11 2 8 []) Hinv);
    [vm_compute; reflexivity|reflexivity|exact Hok].
Qed.

(* the same update under the reordered SetNode keeps the invariant: non-vacuity
   of the hypotheses of the positive theorems *)
Example exchange_ok_when_fixed (addr : N -> N) :
  Inv_index (run addr true 5 2 (wit_ops ++ [wit_op]) st0) /\
  node_by_subkey (run addr true 5 2 (wit_ops ++ [wit_op]) st0) 11 = Some (mkNode 4 1 8 11 10 9 2 8 []).
Proof.
  split; [apply run_inv_fixed; [exact Inv_st0|reflexivity]|vm_compute; reflexivity].
Qed.

Example no_exchange_history_nonvacuous (addr : N -> N) :
  let ops := wit_ops ++ [TRegNode 4 (mkNode 4 1 8 12 13 14 3 8 []) [4; 12; 8; 14; 13] true; TEpoch 6] in
  no_exchange_run addr 5 2 ops st0 /\ forallb tx_op ops = true /\
  s_nodes (run addr false 5 2 (wit_ops ++ [TRegNode 4 (mkNode 4 1 8 12 13 14 3 8 []) [4; 12; 8; 14; 13] true]) st0)
  = [(4, mkNode 4 1 8 12 13 14 3 8 [])].
Proof.
  cbn zeta. split; [|split; [reflexivity|vm_compute; reflexivity]].
  cbn [no_exchange_run app wit_ops no_exchange]. repeat split.
  - intros old H. vm_compute in H. discriminate.
  - intros old H. vm_compute in H. injection H as <-. vm_compute. reflexivity.
Qed.

(* non-vacuity: an expired node still held during debonding re-registers under
   its own entity (accepted) and under another entity that lists it (rejected) *)
Example reregistration_examples (addr : N -> N) :
  let pre := [TRegEntity 1 (mkEnt 1 [4]) 1 true; TRegEntity 2 (mkEnt 2 [4]) 2 true;
              TRegNode 4 (mkNode 4 1 8 9 10 11 2 8 []) [4; 9; 8; 11; 10] true; TEpoch 3] in
  fst (step addr true 5 2 (run addr true 5 2 pre st0) (TRegNode 4 (mkNode 4 1 8 9 10 11 7 8 []) [4; 9; 8; 11; 10] true)) = COk /\
  fst (step addr true 5 2 (run addr true 5 2 pre st0) (TRegNode 4 (mkNode 4 2 8 9 10 11 7 8 []) [4; 9; 8; 11; 10] true)) = CNodeUpdateNotAllowed /\
  exists_throughout addr true 5 2 4 [TRegNode 4 (mkNode 4 1 8 9 10 11 7 8 []) [4; 9; 8; 11; 10] true]
                    (run addr true 5 2 pre st0).
Proof.
  cbn zeta. split; [vm_compute; reflexivity|]. split; [vm_compute; reflexivity|].
  cbn [exists_throughout]. split; [|exact I]. eexists. vm_compute. reflexivity.
Qed.
