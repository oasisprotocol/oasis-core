(* Facts about the GoSlice primitives, and the notion the decoder proofs are stated with:
   [outcome ok err out] says that a run did not panic, that [ok] holds of its value and final
   allocation counter, [err] of its error class and counter.  [safe P b s] is the instance
   "at most [b] bytes allocated from [s], [P] of the value"; [step] executes one statement of a
   decoder under such a goal. *)
From Verif Require Import Lib.Base Decode.GoSlice.

Lemma glen_nil : glen [] = 0.
Proof. reflexivity. Qed.

Lemma glen_cons x a : glen (x :: a) = 1 + glen a.
Proof. unfold glen. cbn [length]. lia. Qed.

Lemma glen_app a b : glen (a ++ b) = glen a + glen b.
Proof. unfold glen. rewrite app_length. lia. Qed.

Lemma glen_sl a i j : i <= j -> j <= glen a -> glen (sl a i j) = j - i.
Proof.
  unfold glen, sl. intros Hij Hj.
  rewrite firstn_length, skipn_length. lia.
Qed.

Lemma glen_zeros n : glen (zeros n) = n.
Proof. unfold glen, zeros. rewrite repeat_length. lia. Qed.

Lemma glen_gcopy dst src : glen (gcopy dst src) = glen dst.
Proof.
  unfold glen, gcopy. rewrite app_length, firstn_length, skipn_length. lia.
Qed.

Lemma glen_put16 x : glen (put16 x) = 2.
Proof. reflexivity. Qed.
Lemma glen_put32 x : glen (put32 x) = 4.
Proof. reflexivity. Qed.

(* the layout constants of a format are made visible to [lia] through this unfold database *)
Create HintDb goconsts.
Ltac golia := autounfold with goconsts in *; lia.

Ltac glia := autorewrite with glen; golia.
#[export] Hint Rewrite glen_nil glen_cons glen_app glen_zeros glen_gcopy glen_put16 glen_put32 : glen.
#[export] Hint Rewrite glen_sl using glia : glen.

Lemma slice_ok a i j : i <= j -> j <= glen a -> slice a i j = Ok (sl a i j).
Proof.
  intros Hij Hj. unfold slice.
  destruct ((i <=? j) && (j <=? glen a)) eqn:E; [reflexivity|lia].
Qed.

Lemma slice_from_ok a i : i <= glen a -> slice_from a i = Ok (sl a i (glen a)).
Proof. intros H. unfold slice_from. apply slice_ok; lia. Qed.

Lemma slice_not_ok a i j : ~ (i <= j /\ j <= glen a) -> slice a i j = Panic.
Proof.
  intros H. unfold slice.
  destruct ((i <=? j) && (j <=? glen a)) eqn:E; [exfalso; apply H; lia|reflexivity].
Qed.

Lemma index_ok a i : i < glen a -> index a i = Ok (nth (N.to_nat i) a 0).
Proof.
  intros H. unfold index, glen in *.
  destruct (nth_error a (N.to_nat i)) eqn:E.
  - f_equal. symmetry. apply nth_error_nth. exact E.
  - apply nth_error_None in E. lia.
Qed.

Lemma index_panic a i : glen a <= i -> index a i = Panic.
Proof.
  intros H. unfold index, glen in *.
  destruct (nth_error a (N.to_nat i)) eqn:E; [|reflexivity].
  assert (nth_error a (N.to_nat i) <> None) as Hn by congruence.
  apply nth_error_Some in Hn. lia.
Qed.

(* [r] succeeds on every slice of at least [w] bytes; the integer reads all have the form of
   [guarded_reads].  [le16] and [le32], whose values the node formats depend on, get them named
   below. *)
Definition reads (w : N) (r : bytes -> res N) : Prop := forall b, w <= glen b -> exists v, r b = Ok v.

Lemma guarded_reads w (g : bytes -> N) : reads w (fun b => if glen b <? w then Panic else Ok (g b)).
Proof. intros b H. exists (g b). destruct (glen b <? w) eqn:E; [lia|reflexivity]. Qed.

#[export] Hint Extern 0 (reads _ _) => exact (guarded_reads _ _) : reads.

Definition le16v (b : bytes) : N := nth 0 b 0 + 256 * nth 1 b 0.
Definition le32v (b : bytes) : N :=
  nth 0 b 0 + 256 * nth 1 b 0 + 65536 * nth 2 b 0 + 16777216 * nth 3 b 0.

Lemma le16_ok b : 2 <= glen b -> le16 b = Ok (le16v b).
Proof. intros H. unfold le16. destruct (glen b <? 2) eqn:E; [lia|reflexivity]. Qed.

Lemma le32_ok b : 4 <= glen b -> le32 b = Ok (le32v b).
Proof. intros H. unfold le32. destruct (glen b <? 4) eqn:E; [lia|reflexivity]. Qed.

Lemma gcopy_exact dst src : length dst = length src -> gcopy dst src = src.
Proof.
  intros H. unfold gcopy. rewrite H, firstn_all, skipn_all2 by lia. apply app_nil_r.
Qed.

(* make([]byte, n) followed by copy from a source of n bytes *)
Lemma gcopy_zeros src : gcopy (zeros (glen src)) src = src.
Proof.
  apply gcopy_exact. unfold zeros, glen. rewrite repeat_length. lia.
Qed.

Lemma gcopy_zeros_sl a i n : i + n <= glen a -> gcopy (zeros n) (sl a i (i + n)) = sl a i (i + n).
Proof.
  intros H. rewrite <- (gcopy_zeros (sl a i (i + n))) at 2. rewrite glen_sl by lia.
  f_equal. f_equal. lia.
Qed.

Lemma sl_sl a i j i2 j2 :
  i <= j -> j <= glen a -> i2 <= j2 -> j2 <= j - i ->
  sl (sl a i j) i2 j2 = sl a (i + i2) (i + j2).
Proof.
  intros H1 H2 H3 H4. unfold sl, glen in *.
  rewrite skipn_firstn_comm, firstn_firstn, skipn_skipn.
  f_equal; [lia|]. f_equal. lia.
Qed.

Lemma sl_app_l a b n : n = glen a -> sl (a ++ b) 0 n = a.
Proof.
  intros ->. unfold sl, glen. cbn [skipn N.to_nat].
  replace (N.to_nat (N.of_nat (length a) - 0)) with (length a + 0)%nat by lia.
  rewrite firstn_app_2. cbn [firstn]. apply app_nil_r.
Qed.

Lemma sl_shift a b i j : glen a <= i -> sl (a ++ b) i j = sl b (i - glen a) (j - glen a).
Proof.
  intros H. unfold sl, glen in *.
  rewrite skipn_app, skipn_all2 by lia. cbn [app].
  f_equal; [lia|]. f_equal. lia.
Qed.

Lemma sl_app_r a b i j : i = glen a -> sl (a ++ b) i j = sl b 0 (j - i).
Proof. intros ->. rewrite sl_shift by lia. f_equal. lia. Qed.

Lemma sl_all a : sl a 0 (glen a) = a.
Proof.
  unfold sl, glen. cbn [skipn N.to_nat].
  replace (N.to_nat (N.of_nat (length a) - 0)) with (length a) by lia.
  apply firstn_all.
Qed.

Lemma sl_at a b c i j : i = glen a -> j = glen a + glen b -> sl (a ++ b ++ c) i j = b.
Proof.
  intros -> ->. rewrite sl_app_r by reflexivity. apply sl_app_l. lia.
Qed.

Lemma sl_tail a b i j : i = glen a -> j = glen a + glen b -> sl (a ++ b) i j = b.
Proof.
  intros -> ->. rewrite sl_app_r by reflexivity.
  replace (glen a + glen b - glen a) with (glen b) by lia. apply sl_all.
Qed.

Lemma sl_cons x a i j : 1 <= i -> sl (x :: a) i j = sl a (i - 1) (j - 1).
Proof.
  intros H. change (x :: a) with ([x] ++ a). rewrite sl_shift by (cbn; lia).
  reflexivity.
Qed.

Lemma nth_N_cons x a i : 1 <= i -> nth (N.to_nat i) (x :: a) 0 = nth (N.to_nat (i - 1)) a 0.
Proof.
  intros H. replace (N.to_nat i) with (S (N.to_nat (i - 1))) by lia. reflexivity.
Qed.

Lemma nth_N_app_r a b i : glen a <= i ->
  nth (N.to_nat i) (a ++ b) 0 = nth (N.to_nat (i - glen a)) b 0.
Proof.
  intros H. unfold glen in *. rewrite app_nth2 by lia. f_equal. lia.
Qed.

Lemma le16v_sl data n : 2 <= n -> n <= glen data -> le16v (sl data 0 n) = le16v data.
Proof.
  intros H2 Hn. unfold le16v, sl, glen in *. cbn [skipn N.to_nat].
  rewrite N.sub_0_r.
  destruct data as [|a [|b r]]; cbn [length] in *; try lia.
  replace (N.to_nat n) with (S (S (N.to_nat n - 2))) by lia. reflexivity.
Qed.

Lemma le16v_put16 x rest : x < 65536 -> le16v (put16 x ++ rest) = x.
Proof.
  intros H. unfold le16v, put16. cbn [app nth].
  rewrite (N.mod_small (x / 256) 256) by (apply N.div_lt_upper_bound; lia).
  pose proof (N.div_mod x 256). lia.
Qed.

(* little-endian digits of [x]: three divisions by 256 *)
Lemma base256 x a b c q1 q2 q3 : x = 256 * q1 + a -> q1 = 256 * q2 + b -> q2 = 256 * q3 + c ->
  a + 256 * b + 256 * 256 * c + 256 * 256 * 256 * q3 = x.
Proof. lia. Qed.

Lemma le32v_put32 x : x < 4294967296 -> le32v (put32 x) = x.
Proof.
  intros H. unfold le32v, put32. cbn [nth].
  rewrite (N.mod_small (x / 16777216) 256) by (apply N.div_lt_upper_bound; lia).
  change 16777216 with (256 * 256 * 256). change 65536 with (256 * 256).
  rewrite <- !N.div_div by discriminate.
  eapply base256; apply N.div_mod'.
Qed.

Lemma bind_unfold {A B} (m : M A) (f : A -> M B) s :
  bind m f s = match m s with
               | (Ok a, s') => f a s'
               | (Err e, s') => (Err e, s')
               | (Panic, s') => (Panic, s')
               end.
Proof. reflexivity. Qed.

Lemma wrap_unfold {A} c (m : M A) s :
  wrap c m s = match m s with (Err e, s') => (Err (c + e), s') | x => x end.
Proof. reflexivity. Qed.

Lemma bind_lift_ok {A B} (a : A) (f : A -> M B) s : bind (lift (Ok a)) f s = f a s.
Proof. reflexivity. Qed.
Lemma bind_ret {A B} (a : A) (f : A -> M B) s : bind (ret a) f s = f a s.
Proof. reflexivity. Qed.
Lemma bind_alloc {B} n (f : bytes -> M B) s : bind (alloc n) f s = f (zeros n) (s + n).
Proof. reflexivity. Qed.
Lemma bind_fail {A B} e (f : A -> M B) s : bind (fail e) f s = (Err e, s).
Proof. reflexivity. Qed.

Lemma bind_assoc {A B C} (m : M A) (g : A -> M B) (f : B -> M C) s :
  bind (bind m g) f s = bind m (fun x => bind (g x) f) s.
Proof. unfold bind. destruct (m s) as [[a|e|] s']; reflexivity. Qed.

Definition outcome {A} (ok : A -> N -> Prop) (err : N -> N -> Prop) (out : res A * N) : Prop :=
  match out with
  | (Ok a, s') => ok a s'
  | (Err e, s') => err e s'
  | (Panic, _) => False
  end.

Lemma outcome_no_panic {A} ok err (out : res A * N) : outcome ok err out -> fst out <> Panic.
Proof. destruct out as [[a|e|] s']; cbn; [discriminate|discriminate|tauto]. Qed.

Lemma outcome_ok {A} ok err (out : res A * N) a s' : outcome ok err out -> out = (Ok a, s') -> ok a s'.
Proof. intros H ->. exact H. Qed.

Lemma outcome_not_err {A} ok err (out : res A * N) e :
  outcome ok err out -> (forall s', ~ err e s') -> fst out <> Err e.
Proof.
  destruct out as [[a|e'|] s']; cbn; intros H Hn E; [discriminate| |tauto].
  injection E as ->. exact (Hn _ H).
Qed.

Lemma outcome_alloc {A} ok err (out : res A * N) (b : N) :
  outcome ok err out -> (forall a s', ok a s' -> s' <= b) -> (forall e s', err e s' -> s' <= b) ->
  snd out <= b.
Proof. destruct out as [[a|e|] s']; cbn; intros H Hok Herr; [exact (Hok _ _ H)|exact (Herr _ _ H)|tauto]. Qed.

Lemma outcome_weaken {A} (ok ok' : A -> N -> Prop) (err err' : N -> N -> Prop) out :
  outcome ok err out -> (forall a s', ok a s' -> ok' a s') -> (forall e s', err e s' -> err' e s') ->
  outcome ok' err' out.
Proof. destruct out as [[a|e|] s']; cbn; auto. Qed.

(* a call [m] inside a computation: the continuation runs from any Ok outcome of [m], an
   error of [m] is the error of the whole *)
Lemma outcome_bind {A B} (ok : A -> N -> Prop) err (ok' : B -> N -> Prop) (err' : N -> N -> Prop)
  (m : M A) (f : A -> M B) s :
  outcome ok err (m s) ->
  (forall a s1, ok a s1 -> outcome ok' err' (f a s1)) ->
  (forall e s1, err e s1 -> err' e s1) ->
  outcome ok' err' (bind m f s).
Proof. unfold bind. destruct (m s) as [[a|e|] s1]; cbn; auto. Qed.

Lemma outcome_wrap {A} (ok : A -> N -> Prop) err (err' : N -> N -> Prop) c (m : M A) s :
  outcome ok err (m s) -> (forall e s1, err e s1 -> err' (c + e) s1) -> outcome ok err' (wrap c m s).
Proof. unfold wrap. destruct (m s) as [[a|e|] s1]; cbn; auto. Qed.

Lemma outcome_bind_wrap {A B} (ok : A -> N -> Prop) err (ok' : B -> N -> Prop) (err' : N -> N -> Prop)
  c (m : M A) (f : A -> M B) s :
  outcome ok err (m s) ->
  (forall a s1, ok a s1 -> outcome ok' err' (f a s1)) ->
  (forall e s1, err e s1 -> err' (c + e) s1) ->
  outcome ok' err' (bind (wrap c m) f s).
Proof. unfold bind, wrap. destruct (m s) as [[a|e|] s1]; cbn; auto. Qed.

Definition safe {A} (P : A -> Prop) (b s : N) : res A * N -> Prop :=
  outcome (fun a s' => s' <= s + b /\ P a) (fun _ s' => s' <= s + b).
Definition anyv {A} : A -> Prop := fun _ => True.

Lemma safe_alloc {A} (P : A -> Prop) b s out : safe P b s out -> snd out <= s + b.
Proof. intros H. apply (outcome_alloc _ _ _ _ H); cbn; tauto. Qed.

Lemma safe_fail {A} (P : A -> Prop) b s s1 e : s1 <= s + b -> safe P b s (fail e s1).
Proof. cbn. lia. Qed.
Lemma safe_err {A} (P : A -> Prop) b s s1 e : s1 <= s + b -> safe P b s (Err e, s1).
Proof. cbn. lia. Qed.
Lemma safe_ret {A} (P : A -> Prop) b s s1 (a : A) : s1 <= s + b -> P a -> safe P b s (ret a s1).
Proof. cbn. tauto. Qed.

(* a call to a sub-parser from counter s1 inside a computation started at s *)
Lemma safe_bind {A B} (Q : A -> Prop) (P : B -> Prop) (m : M A) (f : A -> M B) b1 b s s1 :
  safe Q b1 s1 (m s1) -> s1 + b1 <= s + b ->
  (forall a s2, Q a -> s2 <= s1 + b1 -> safe P b s (f a s2)) ->
  safe P b s (bind m f s1).
Proof.
  intros Hm Hle Hf. eapply outcome_bind; [exact Hm| |]; cbn.
  - intros a s2 [H1 H2]. apply Hf; assumption.
  - intros e s2 H. lia.
Qed.

Lemma safe_rebase {A} (Q P : A -> Prop) b1 b s s1 (out : res A * N) :
  safe Q b1 s1 out -> s1 + b1 <= s + b -> (forall a, Q a -> P a) -> safe P b s out.
Proof.
  intros H Hle HQ. eapply outcome_weaken; [exact H| |]; cbn.
  - intros a s' [H1 H2]. split; [lia|auto].
  - intros e s' H1. lia.
Qed.

(* binary.LittleEndian.UintNN(data[off:]) and copy(arr[:], data[off:]): what is done with
   [data[off:]] cannot fail on [w] bytes and allocates nothing *)
Definition total_on {A} (w : N) (g : bytes -> M A) : Prop :=
  forall d s, w <= glen d -> exists v, g d s = (Ok v, s).

Lemma lift_total w r : reads w r -> total_on w (fun d => lift (r d)).
Proof. intros R d s H. destruct (R d H) as [v E]. exists v. unfold lift. rewrite E. reflexivity. Qed.

Lemma ret_total {A} (h : bytes -> A) : total_on 0 (fun d => ret (h d)).
Proof. intros d s _. exists (h d). reflexivity. Qed.
#[export] Hint Resolve lift_total ret_total : reads.

Lemma safe_slice_from {A B} (P : B -> Prop) b s s1 w (g : bytes -> M A) a i (f : A -> M B) :
  total_on w g -> i + w <= glen a -> (forall v, safe P b s (f v s1)) ->
  safe P b s (bind (bind (lift (slice_from a i)) g) f s1).
Proof.
  intros T H Hf. rewrite bind_assoc, slice_from_ok by lia. rewrite bind_lift_ok, bind_unfold.
  destruct (T (sl a i (glen a)) s1) as [v E]; [glia|]. rewrite E. apply Hf.
Qed.

(* one statement of a decoder: a branch is split, a checked operation whose bounds follow
   from the context (by [glia]) is replaced by its result, a finished run is judged *)
Ltac step :=
  lazymatch goal with
  | |- _ ((if ?c then _ else _) _) => destruct c eqn:?
  | |- _ (bind (if ?c then _ else _) _ _) => destruct c eqn:?
  | |- _ (bind (alloc _) _ _) => rewrite bind_alloc
  | |- _ (bind (lift (slice ?a ?i ?j)) _ _) =>
      rewrite (slice_ok a i j) by glia; rewrite bind_lift_ok
  | |- _ (bind (lift (slice_from ?a ?i)) _ _) =>
      rewrite (slice_from_ok a i) by glia; rewrite bind_lift_ok
  | |- _ (bind (lift (index ?a ?i)) _ _) => rewrite (index_ok a i) by glia; rewrite bind_lift_ok
  | |- _ (bind (lift (Ok _)) _ _) => rewrite bind_lift_ok
  | |- _ (bind (lift (le16 ?b)) _ _) => rewrite (le16_ok b) by glia; rewrite bind_lift_ok
  | |- _ (bind (lift (le32 ?b)) _ _) => rewrite (le32_ok b) by glia; rewrite bind_lift_ok
  | |- _ (bind (lift (?r ?b)) _ _) =>
      let R := fresh "R" in let v := fresh "v" in let E := fresh "E" in
      eassert (reads _ r) as R by eauto with reads;
      destruct (R b) as [v E]; [glia|]; rewrite E, bind_lift_ok; clear R E
  | |- safe _ _ _ (bind (bind (lift (slice_from _ _)) _) _ _) =>
      first [eapply safe_slice_from; [solve [eauto with reads] | glia | intros ?] | rewrite bind_assoc]
  | |- _ (bind (ret _) _ _) => rewrite bind_ret
  | |- _ (bind (fail _) _ _) => rewrite bind_fail
  | |- _ (bind (bind _ _) _ _) => rewrite bind_assoc
  | |- outcome _ _ (fail _ _) => cbn [outcome fail fst snd]
  | |- outcome _ _ (ret _ _) => cbn [outcome ret fst snd]
  | |- safe _ _ _ (fail _ _) => apply safe_fail; golia
  | |- safe _ _ _ (Err _, _) => apply safe_err; golia
  | |- safe anyv _ _ (ret _ _) => apply safe_ret; [golia | exact I]
  | |- _ => progress cbv zeta
  end.

(* a sub-parser [L : safe anyv 0 _ _], which allocates nothing *)
Ltac call L := eapply (safe_bind anyv _ _ _ 0); [apply L | golia | intros ? ? ? ?].
