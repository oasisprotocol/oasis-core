(* cache.tryRemoveNode (go/storage/mkvs/cache.go:233-280) with its lock: while
   remoteSync commits the nodes of a verified response, an eviction may be
   attempted on any cached node, with the pointer being dereferenced LOCKED.

   [try_remove] ports the recursion with the check order of the code: the lock
   test comes BEFORE the "not yet committed to the LRU" test (:234, :237).  That
   order matters because the locked pointer is not yet in the LRU at the moment
   it is committed.  The result is the node OBJECT as an iterator frame that
   still holds it sees it (links cleared one by one, :248-266), and whether the
   removal succeeded.

   lock_protects_remainder: with the code's order an attempt that meets the
   locked pointer aborts, and everything an in-order walk still has to read
   after reaching the locked pointer -- the locked subtree and the siblings to
   the right of the path to it -- is untouched (what was cleared, LeafNode and
   Left links of path nodes, lies behind the walk: that damage is the known
   bounded-cache finding and only hurts LATER operations of the same reader).
   swapped_lock_order_refuted: with the two tests swapped the attempt succeeds,
   clears the right siblings too, and an iterator frame resuming there reports
   the end of the tree although entries remain. *)
From Verif Require Import Lib.Base Mkvs.Trie Mkvs.Iter MkvsProof.Model MkvsProof.Remote
  MkvsProof.Iter MkvsProof.IterProofs MkvsProof.Examples.

Definition has_node (p : ptree) : bool :=
  match p with PNil | PHash _ => false | _ => true end.

Section Evict.
  Variable committed : list dir -> bool.    (* ptr.LRU != nil *)
  Variable locked : list dir.               (* lockedPtr *)
  Variable swapped : bool.                  (* false: the order of the code *)

  Fixpoint try_remove (p : ptree) (pid : list dir) : ptree * bool :=
    let is_locked := list_eqb dir_eqb pid locked in
    if (if swapped then negb (committed pid) else is_locked) then
      (p, swapped)                                       (* code: :234 errRemoveLocked; swapped: :237 first *)
    else if (if swapped then is_locked else negb (committed pid)) then
      (p, negb swapped)                                  (* code: :237 not committed: nothing to do *)
    else
      match p with
      | PNode bl lb lf l r =>
          (* :248-266: LeafNode, Left, Right in this order; a child link is cleared
             after its removal returned nil *)
          let child (c : ptree) (d : dir) : ptree * bool :=
            if has_node c then
              let '(c', ok) := try_remove c (pid ++ [d]) in ((if ok then PNil else c'), ok)
            else (c, true) in
          let '(lf1, ok1) := child lf DF in
          if negb ok1 then (PNode bl lb lf1 l r, false)
          else
            let '(l1, ok2) := child l DL in
            if negb ok2 then (PNode bl lb lf1 l1 r, false)
            else
              let '(r1, ok3) := child r DR in
              (PNode bl lb lf1 l1 r1, ok3)
      | _ => (p, true)
      end.
End Evict.

(* what an in-order walk that has reached the pointer at [rel] still reads:
   that subtree, then the siblings to the right of the path, innermost first *)
Fixpoint remainder (p : ptree) (rel : list dir) {struct rel} : list ptree :=
  match rel with
  | [] => [p]
  | d :: rest =>
      match p with
      | PNode _ _ lf l r =>
          match d with
          | DF => remainder lf rest ++ [l; r]
          | DL => remainder l rest ++ [r]
          | DR => remainder r rest
          end
      | _ => []
      end
  end.

Lemma dir_eqb_eq a b : dir_eqb a b = true -> a = b.
Proof. destruct a, b; cbn; congruence. Qed.

Lemma pid_eqb_ext x d rest : list_eqb dir_eqb x (x ++ d :: rest) = false.
Proof.
  destruct (list_eqb dir_eqb x (x ++ d :: rest)) eqn:E; [|reflexivity].
  apply (list_eqb_eq dir_eqb dir_eqb_eq) in E. apply (f_equal (@length dir)) in E. rewrite app_length in E. cbn in E. lia.
Qed.

Section Faithful.
  Variable committed : list dir -> bool.
  Variable locked : list dir.

  Notation tr := (try_remove committed locked false).

  (* an attempt fails only below a prefix of the locked position *)
  Lemma try_remove_fail p : forall pid, snd (tr p pid) = false -> exists s, locked = pid ++ s.
  Proof.
    induction p as [|h|k v|bl lb lf IHlf l IHl r IHr]; intros pid F; cbn [try_remove] in F;
      destruct (list_eqb dir_eqb pid locked) eqn:E;
      try (apply (list_eqb_eq dir_eqb dir_eqb_eq) in E; exists []; now rewrite app_nil_r);
      destruct (committed pid); cbn [negb snd] in F; try discriminate.
    assert (forall c d, (forall pid, snd (tr c pid) = false -> exists s, locked = pid ++ s) ->
              snd (if has_node c then let '(c', ok) := tr c (pid ++ [d]) in ((if ok then PNil else c'), ok) else (c, true)) = false ->
              exists s, locked = pid ++ s) as Hc.
    { intros c d IH Fc. destruct (has_node c); [|discriminate].
      destruct (tr c (pid ++ [d])) as [c' ok] eqn:Ec. cbn [snd] in Fc. subst ok.
      destruct (IH (pid ++ [d])) as [s Es]; [now rewrite Ec|]. exists (d :: s). now rewrite Es, <- app_assoc. }
    destruct (if has_node lf then _ else _) as [lf1 ok1] eqn:E1.
    destruct ok1; cbn [negb] in F.
    - destruct (if has_node l then _ else _) as [l1 ok2] eqn:E2.
      destruct ok2; cbn [negb] in F.
      + destruct (if has_node r then _ else _) as [r1 ok3] eqn:E3. cbn [snd] in F. subst ok3.
        apply (Hc r DR IHr). now rewrite E3.
      + apply (Hc l DL IHl). now rewrite E2.
    - apply (Hc lf DF IHlf). now rewrite E1.
  Qed.

  (* the sibling before the path is removed or left alone, never a failure *)
  Lemma sibling_ok c pid d e rest :
    locked = pid ++ e :: rest -> d <> e ->
    exists c1, (if has_node c then let '(c', ok) := tr c (pid ++ [d]) in ((if ok then PNil else c'), ok) else (c, true)) = (c1, true).
  Proof.
    intros EL Ne. destruct (has_node c); [|eauto].
    destruct (tr c (pid ++ [d])) as [c' ok] eqn:Ec. destruct ok; [eauto|].
    destruct (try_remove_fail c (pid ++ [d])) as [s Es]; [now rewrite Ec|].
    rewrite EL, <- app_assoc in Es. cbn in Es. apply app_inv_head in Es. congruence.
  Qed.

  Theorem lock_protects_remainder_l rel : forall p pid cur,
    locked = pid ++ rel ->
    sub_at p rel = Some cur -> has_node cur = true ->
    (forall pre suf, rel = pre ++ suf -> suf <> [] -> committed (pid ++ pre) = true) ->
    snd (tr p pid) = false /\
    sub_at (fst (tr p pid)) rel = Some cur /\
    remainder (fst (tr p pid)) rel = remainder p rel.
  Proof.
    induction rel as [|d rest IH]; intros p pid cur EL S HN HC.
    - rewrite app_nil_r in EL. subst pid. cbn [sub_at] in S. injection S as ->.
      destruct cur; cbn [try_remove]; rewrite pid_eqb_refl; cbn; auto.
    - cbn [sub_at] in S. destruct p as [| | |bl lb lf l r]; try discriminate.
      assert (list_eqb dir_eqb pid locked = false) as En by (rewrite EL; apply pid_eqb_ext).
      cbn [try_remove]. rewrite En.
      pose proof (HC [] (d :: rest) eq_refl ltac:(discriminate)) as Cp. rewrite app_nil_r in Cp.
      rewrite Cp. cbn [negb].
      assert (locked = (pid ++ [d]) ++ rest) as EL' by (now rewrite <- app_assoc).
      assert (forall pre suf, rest = pre ++ suf -> suf <> [] -> committed ((pid ++ [d]) ++ pre) = true) as HC'.
      { intros pre suf E Ns. rewrite <- app_assoc. apply (HC (d :: pre) suf); [now rewrite E|exact Ns]. }
      assert (forall c, sub_at c rest = Some cur -> has_node c = true) as HNc.
      { intros c Sc. destruct rest; cbn in Sc; [injection Sc as ->; exact HN|destruct c; try discriminate; reflexivity]. }
      destruct d.
      + (* the path goes through LeafNode *)
        rewrite (HNc lf S).
        destruct (IH lf (pid ++ [DF]) cur EL' S HN HC') as (F & S' & R').
        destruct (tr lf (pid ++ [DF])) as [lf' ok]. cbn [fst snd] in *. subst ok. cbn [negb fst snd sub_at remainder].
        rewrite S', R'. auto.
      + (* through Left: LeafNode is removed or kept, then Left aborts *)
        destruct (sibling_ok lf pid DF DL rest EL ltac:(discriminate)) as [lf1 ->]. cbn [negb].
        rewrite (HNc l S).
        destruct (IH l (pid ++ [DL]) cur EL' S HN HC') as (F & S' & R').
        destruct (tr l (pid ++ [DL])) as [l' ok]. cbn [fst snd] in *. subst ok. cbn [negb fst snd sub_at remainder].
        rewrite S', R'. auto.
      + (* through Right *)
        destruct (sibling_ok lf pid DF DR rest EL ltac:(discriminate)) as [lf1 ->]. cbn [negb].
        destruct (sibling_ok l pid DL DR rest EL ltac:(discriminate)) as [l1 ->]. cbn [negb].
        rewrite (HNc r S).
        destruct (IH r (pid ++ [DR]) cur EL' S HN HC') as (F & S' & R').
        destruct (tr r (pid ++ [DR])) as [r' ok]. cbn [fst snd] in *. subst ok. cbn [fst snd sub_at remainder].
        rewrite S', R'. auto.
  Qed.
End Faithful.

(* the example tree fully cached; only the root is in the LRU yet, the left
   child of the root is the pointer being committed (locked, not yet in the LRU) *)
Definition ev_p : ptree := full ex_t.
Definition ev_committed (pid : list dir) : bool := match pid with [] => true | _ => false end.
Definition ev_locked : list dir := [DL].

Theorem swapped_lock_order_refuted_l :
  (* the code's order: the attempt aborts, the right sibling survives *)
  snd (try_remove ev_committed ev_locked false ev_p []) = false /\
  remainder (fst (try_remove ev_committed ev_locked false ev_p [])) ev_locked = remainder ev_p ev_locked /\
  (* swapped: the attempt succeeds and clears the right sibling *)
  snd (try_remove ev_committed ev_locked true ev_p []) = true /\
  remainder (fst (try_remove ev_committed ev_locked true ev_p [])) ev_locked <> remainder ev_p ev_locked /\
  (* an iterator frame resuming at the root after its left subtree: on the intact
     node it finds the next entry, on the node the swapped removal left behind it
     reports the end of the tree although ([128],[13]) remains *)
  fst (pit_next [1; 2; 4] [mkP VAtLeft [] ev_p 0 []]) = F3 ([128], [13]) [mkP VAfter [] ev_p 0 []] /\
  fst (pit_next [1; 2; 4] [mkP VAtLeft [] (fst (try_remove ev_committed ev_locked false ev_p [])) 0 []])
    = F3 ([128], [13]) [mkP VAfter [] (fst (try_remove ev_committed ev_locked false ev_p [])) 0 []] /\
  fst (pit_next [1; 2; 4] [mkP VAtLeft [] (fst (try_remove ev_committed ev_locked true ev_p [])) 0 []]) = N3 /\
  tlookup [128] ex_t = Some [13].
Proof. vm_compute. repeat split; discriminate. Qed.
