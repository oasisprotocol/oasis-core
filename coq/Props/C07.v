From Verif Require Import Lib.Base NodeDB.Spec NodeDB.Badger NodeDB.BadgerProofs NodeDB.Crash NodeDB.CrashProofs NodeDB.Multipart NodeDB.MultipartProofs.

Theorem crash_hyps_hold_after_every_history :
  forall h, ok_run bdb0 h = true -> inv (c_b (c_run cdb0 h)) /\ rk_inv (c_run cdb0 h).
Proof. exact crash_hyps_after_history. Qed.
Print Assumptions crash_hyps_hold_after_every_history.

Theorem step_lists_are_the_operations :
  forall c o, rk_inv c ->
    fst (run_all c o) = fst (b_step (c_b c) o) /\ c_b (snd (run_all c o)) = snd (b_step (c_b c) o).
Proof. exact run_all_b. Qed.
Print Assumptions step_lists_are_the_operations.

Theorem crash_safe_commit :
  forall c ver typ rid old ws puts removed reach inl0 k,
  let o := OCommit ver typ rid old ws puts removed reach inl0 in
  inv (c_b c) -> (k < length (snd (plan c o)))%nat ->
  let c1 := reopen (run_until k c o) in
  inv (c_b c1) /\ b_meta (c_b c1) = b_meta (c_b c) /\ b_aux (c_b c1) = b_aux (c_b c) /\
  (forall r t, visible r t (c_rk c) = true -> visible r t (c_rk c1) = true) /\
  fst (retry c1 o) = fst (run_all c o) /\ cequiv (snd (retry c1 o)) (snd (run_all c o)).
Proof. exact crash_safe_commit_l. Qed.
Print Assumptions crash_safe_commit.

Theorem crash_safe_finalize :
  forall c ver rids k,
  let o := OFinalize ver rids in
  inv (c_b c) -> (k < length (snd (plan c o)))%nat ->
  let c1 := reopen (run_until k c o) in
  b_meta (c_b c1) = b_meta (c_b c) /\ b_aux (c_b c1) = b_aux (c_b c) /\ c_rk c1 = c_rk c /\
  (forall v r, last_geb (b_meta (c_b c)) v = true -> d_earliest (b_meta (c_b c)) <= v ->
     has_rid r (roots_at (b_meta (c_b c)) v) = true ->
     forall n, In n (a_reach (aux_get v r (b_aux (c_b c)))) -> visible n v (b_store (c_b c1)) = true) /\
  fst (retry c1 o) = fst (run_all c o) /\ cequiv (snd (retry c1 o)) (snd (run_all c o)).
Proof. exact crash_safe_finalize_l. Qed.
Print Assumptions crash_safe_finalize.

Theorem crash_safe_prune_original_refuted :
  let c := c_run cdb0 h_prune_crash in
  fst (run_all_orig c (OPrune 1)) = EOk /\
  let c1 := reopen (run_until_orig 1 c (OPrune 1)) in
  fst (retry_orig c1 (OPrune 1)) = ERootNotFound /\ snd (retry_orig c1 (OPrune 1)) = c1 /\
  d_earliest (b_meta (c_b c1)) = 1 /\ inv (c_b c) /\ prune_safe (c_b c) 1 = true.
Proof. exact crash_safe_prune_original_refuted_l. Qed.
Print Assumptions crash_safe_prune_original_refuted.

Theorem crash_safe_prune :
  forall c ver k,
  let o := OPrune ver in
  inv (c_b c) -> rk_inv c -> prune_safe (c_b c) ver = true ->
  (k < length (snd (plan c o)))%nat ->
  let c1 := reopen (run_until k c o) in
  b_meta (c_b c1) = b_meta (c_b c) /\ b_aux (c_b c1) = b_aux (c_b c) /\
  (forall v r, ver < v -> has_rid r (roots_at (b_meta (c_b c)) v) = true ->
     visible r v (c_rk c1) = true /\
     forall n, In n (a_reach (aux_get v r (b_aux (c_b c)))) -> visible n v (b_store (c_b c1)) = true) /\
  fst (run_all c1 o) = EOk /\ snd (run_all c1 o) = snd (run_all c o).
Proof. exact crash_safe_prune_l. Qed.
Print Assumptions crash_safe_prune.

Theorem crash_safe_prune_on_witness :
  let c := c_run cdb0 h_prune_crash in
  let c1 := reopen (run_until 1 c (OPrune 1)) in
  fst (retry c1 (OPrune 1)) = EOk /\ snd (retry c1 (OPrune 1)) = snd (run_all c (OPrune 1)) /\
  snd (run_all c (OPrune 1)) = snd (run_all_orig c (OPrune 1)).
Proof. exact crash_safe_prune_on_witness_l. Qed.
Print Assumptions crash_safe_prune_on_witness.

Theorem multipart_invisible :
  forall m0 v chunks o k,
  m_mp m0 = 0 -> m_log m0 = [] -> v <> 0 -> Forall (chunk_at v) chunks -> chunk_at v o ->
  let m1 := m_run m0 (MStart v :: chunks) in
  d_last (m_meta m1) = d_last (m_meta m0) /\
  (forall j, d_last (m_meta (m_run_until j m1 o)) = d_last (m_meta m0)) /\
  let m2 := m_reopen (m_run_until k m1 o) in
  m_mp m2 = 0 /\ m_log m2 = [] /\ d_last (m_meta m2) = d_last (m_meta m0) /\
  forall n, visible n v (m_store m2) = visible n v (m_store m0).
Proof. exact multipart_invisible_l. Qed.
Print Assumptions multipart_invisible.

Theorem badger_restore_finalize_crash_refuted :
  let m := m_run mdb0 h_restore in
  m_status m 3 2 = 1 /\ d_last (m_meta m) = None /\
  m_status (m_reopen (snd (m_run_all m (MFinalize 3 [2])))) 3 2 = 1 /\
  let m2 := m_reopen (m_run_until 2 m (MFinalize 3 [2])) in
  d_last (m_meta m2) = Some 3 /\ m_status m2 3 2 = 3 /\ b_status (c_b (m_c m2)) 3 2 = 2.
Proof. exact badger_restore_finalize_crash_refuted_l. Qed.
Print Assumptions badger_restore_finalize_crash_refuted.

Theorem aborted_restore_root_listed_not_finalized :
  let m := snd (m_run_all (m_run mdb0 h_restore) MAbort) in
  has_rid 2 (roots_at (m_meta m) 3) = true /\ d_last (m_meta m) = None /\ m_status m 3 2 = 3.
Proof. exact abort_leaves_root_listed. Qed.
Print Assumptions aborted_restore_root_listed_not_finalized.

Theorem restore_then_normal_operation :
  let m1 := m_reopen (m_run mdb0 h_local) in
  has_rid 4 (roots_at (m_meta m1) 3) = true /\ d_last (m_meta m1) = Some 2 /\
  a_puts (aux_get 3 4 (b_aux (c_b (m_c m1)))) = [] /\
  let m2 := m_run m1 h_continue in
  d_last (m_meta m2) = Some 3 /\ has_rid 4 (roots_at (m_meta m2) 3) = false /\
  m_status m2 3 5 = 1 /\ m_status m2 2 3 = 1 /\ m_status m2 1 2 = 1.
Proof. exact restore_then_normal_operation_l. Qed.
Print Assumptions restore_then_normal_operation.
