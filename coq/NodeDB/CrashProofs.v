(* NodeDB/CrashProofs.v — crash safety of the step lists of Crash.v.  The step list of each
   operation is characterised once against Badger.b_step ([plan_commit], [plan_finalize],
   [plan_prune]); the crash lemmas, the correspondence of runs ([run_all_b], [crash_run]) and the
   invariant of the root-node keys ([rk_inv]) are proved from those. *)
From Verif Require Import Lib.Base NodeDB.Spec NodeDB.SpecProofs NodeDB.Badger NodeDB.StoreProofs
  NodeDB.BadgerProofs NodeDB.Crash.

Definition seqv (a b : store) : Prop := forall n t, best n t a = best n t b.

(* same metadata, same index, observationally equal key spaces *)
Definition cequiv (x y : cdb) : Prop :=
  b_meta (c_b x) = b_meta (c_b y) /\ b_aux (c_b x) = b_aux (c_b y) /\
  seqv (b_store (c_b x)) (b_store (c_b y)) /\ seqv (c_rk x) (c_rk y).

Lemma cequiv_refl x : cequiv x x.
Proof. repeat split. Qed.

(* the step list of an operation: empty when the operation is rejected or a no-op (Badger.v then
   leaves the state as it is), otherwise the data batch followed by the metadata commit, which
   together have the effect of the operation in Badger.v *)
Lemma plan_commit c ver typ rid old ws puts removed reach inl0 :
  let o := OCommit ver typ rid old ws puts removed reach inl0 in
  plan c o = (fst (b_step (c_b c) o), []) /\ snd (b_step (c_b c) o) = c_b c \/
  exists m', s_commit (b_meta (c_b c)) ver typ rid old ws = (EOk, m') /\
    has_rid rid (roots_at (b_meta (c_b c)) ver) = false /\
    plan c o = (EOk, [SFlush puts [rid] ver true;
                      SMeta m' (((ver, rid), mkaux puts removed reach inl0) :: b_aux (c_b c))]) /\
    b_step (c_b c) o = (EOk, mkb m' (((ver, rid), mkaux puts removed reach inl0) :: b_aux (c_b c))
                                 (write_all puts ver true (b_store (c_b c)))).
Proof.
  cbn [plan plan_orig b_step]. unfold b_commit.
  destruct (s_commit (b_meta (c_b c)) ver typ rid old ws) as [e m'].
  destruct e; try (left; split; reflexivity).
  destruct (has_rid rid (roots_at (b_meta (c_b c)) ver)); [left; split; reflexivity|].
  right. exists m'. repeat split.
Qed.

Lemma plan_finalize c ver rids :
  let o := OFinalize ver rids in
  let dels := fin_dels (c_b c) ver (fin_set (roots_at (b_meta (c_b c)) ver) rids) in
  plan c o = (fst (b_step (c_b c) o), []) /\ snd (b_step (c_b c) o) = c_b c \/
  exists m', s_finalize (b_meta (c_b c)) ver rids = (EOk, m') /\
    plan c o = (EOk, [SFlush dels [] ver false; SMeta m' (b_aux (c_b c))]) /\
    b_step (c_b c) o = (EOk, mkb m' (b_aux (c_b c)) (write_all dels ver false (b_store (c_b c)))).
Proof.
  cbn [plan plan_orig b_step]. unfold b_finalize.
  destruct (s_finalize (b_meta (c_b c)) ver rids) as [e m'].
  destruct e; try (left; split; reflexivity). right. exists m'. repeat split.
Qed.

Lemma crash_safe_commit_l c ver typ rid old ws puts removed reach inl0 k :
  let o := OCommit ver typ rid old ws puts removed reach inl0 in
  inv (c_b c) -> (k < length (snd (plan c o)))%nat ->
  let c1 := reopen (run_until k c o) in
  inv (c_b c1) /\ b_meta (c_b c1) = b_meta (c_b c) /\ b_aux (c_b c1) = b_aux (c_b c) /\
  (forall r t, visible r t (c_rk c) = true -> visible r t (c_rk c1) = true) /\
  fst (retry c1 o) = fst (run_all c o) /\ cequiv (snd (retry c1 o)) (snd (run_all c o)).
Proof.
  intros o I K. subst o.
  destruct (plan_commit c ver typ rid old ws puts removed reach inl0) as [[E _]|[m' [SC [HR [E _]]]]];
    rewrite E in K; [destruct (Nat.nlt_0_r _ K)|].
  unfold retry, reopen, run_until, run_all. rewrite E. cbn [fst snd].
  destruct k as [|[|k]]; [| |cbn in K; lia]; clear K; cbn [firstn apply_steps fold_left].
  - rewrite E. split; [exact I|]. split; [reflexivity|]. split; [reflexivity|].
    split; [intros r0 t0 V0; exact V0|]. split; [reflexivity|apply cequiv_refl].
  - (* the node batch is flushed, the metadata is not: puts never hide a node, and the retry
       plans the same steps and writes the same batch again *)
    cbn [plan plan_orig apply_step c_b c_rk b_meta b_aux b_store]. rewrite SC, HR.
    cbn [fst snd apply_steps fold_left apply_step c_b c_rk b_meta b_aux b_store].
    split; [apply inv_store; [intros n t _; apply visible_puts|exact I]|].
    split; [reflexivity|]. split; [reflexivity|].
    split; [intros r0 t0 V0; apply visible_puts; exact V0|].
    split; [reflexivity|].
    split; [reflexivity|]. split; [reflexivity|].
    split; intros n t; apply best_write_twice.
Qed.

Lemma crash_safe_finalize_l c ver rids k :
  let o := OFinalize ver rids in
  inv (c_b c) -> (k < length (snd (plan c o)))%nat ->
  let c1 := reopen (run_until k c o) in
  b_meta (c_b c1) = b_meta (c_b c) /\ b_aux (c_b c1) = b_aux (c_b c) /\ c_rk c1 = c_rk c /\
  (forall v r, last_geb (b_meta (c_b c)) v = true -> d_earliest (b_meta (c_b c)) <= v ->
     has_rid r (roots_at (b_meta (c_b c)) v) = true ->
     forall n, In n (a_reach (aux_get v r (b_aux (c_b c)))) -> visible n v (b_store (c_b c1)) = true) /\
  fst (retry c1 o) = fst (run_all c o) /\ cequiv (snd (retry c1 o)) (snd (run_all c o)).
Proof.
  intros o [IR _] K. subst o.
  destruct (plan_finalize c ver rids) as [[E _]|[m' [SF [E _]]]]; rewrite E in K; [destruct (Nat.nlt_0_r _ K)|].
  unfold retry, reopen, run_until, run_all. rewrite E. cbn [fst snd].
  destruct k as [|[|k]]; [| |cbn in K; lia]; clear K; cbn [firstn apply_steps fold_left].
  - rewrite E. split; [reflexivity|]. split; [reflexivity|]. split; [reflexivity|].
    split; [intros v r _ Hev Hh n Hn; exact (proj1 (IR v r Hev Hh n Hn))|].
    split; [reflexivity|apply cequiv_refl].
  - (* the deletions are flushed at the timestamp of the version being finalized, above every
       finalized version; the retry computes the same deletions from the unchanged metadata *)
    cbn [plan plan_orig apply_step c_b c_rk b_meta b_aux b_store]. rewrite SF.
    cbn [fst snd apply_steps fold_left apply_step c_b c_rk b_meta b_aux b_store write_all map app].
    split; [reflexivity|]. split; [reflexivity|]. split; [reflexivity|].
    split.
    + intros v r LG Hev Hh n Hn. destruct (s_finalize_ok _ _ _ _ SF) as [_ [LG2 _]].
      unfold last_geb in *. destruct (d_last (b_meta (c_b c))) as [l|]; [|discriminate].
      unfold visible. rewrite best_write_before by lia. exact (proj1 (IR v r Hev Hh n Hn)).
    + split; [reflexivity|]. split; [reflexivity|]. split; [reflexivity|].
      split; [intros n t; apply best_write_twice|intros n t; reflexivity].
Qed.

Lemma c_visit_all_nil c ver : c_visit_all c ver [] = EOk.
Proof. reflexivity. Qed.

(* root-node keys of listed roots of retained versions were written at the root's version *)
Definition rk_inv (c : cdb) : Prop :=
  forall v rid, d_earliest (b_meta (c_b c)) <= v -> has_rid rid (roots_at (b_meta (c_b c)) v) = true ->
    best rid v (c_rk c) = Some (v, true).

Lemma rk_inv0 : rk_inv cdb0.
Proof. intros v rid _ H. discriminate. Qed.

Lemma filter_all {A} (f : A -> bool) l : (forall x, In x l -> f x = true) -> filter f l = l.
Proof.
  induction l as [|x t IH]; [reflexivity|]. intros H. cbn [filter].
  rewrite (H x (or_introl eq_refl)), IH; [reflexivity|]. intros y Hy. apply H. right. exact Hy.
Qed.

Lemma c_visit_all_eq c ver l :
  (forall r, In r l -> visible (r_id r) ver (c_rk c) = true) ->
  c_visit_all c ver l = visit_all (c_b c) ver l.
Proof.
  induction l as [|x t IH]; intros H; [reflexivity|]. cbn [c_visit_all visit_all]. unfold c_visit_root.
  rewrite (H x (or_introl eq_refl)). cbn [negb]. rewrite IH; [reflexivity|].
  intros r Hr. apply H. right. exact Hr.
Qed.

Lemma plan_prune c ver :
  rk_inv c ->
  let o := OPrune ver in
  plan c o = (fst (b_step (c_b c) o), []) /\ snd (b_step (c_b c) o) = c_b c \/
  s_prune_check (b_meta (c_b c)) ver = EOk /\
  plan c o = (EOk, [SFlush (prune_dels (c_b c) ver) (map r_id (lone_roots (c_b c) ver)) ver false;
                    SMeta (s_prune_do (b_meta (c_b c)) ver) (b_aux (c_b c))]) /\
  b_step (c_b c) o = (EOk, mkb (s_prune_do (b_meta (c_b c)) ver) (b_aux (c_b c))
                               (write_all (prune_dels (c_b c) ver) ver false (b_store (c_b c)))).
Proof.
  intros RK. cbn [plan b_step]. unfold b_prune.
  destruct (s_prune_check (b_meta (c_b c)) ver) eqn:PC; try (left; split; reflexivity).
  (* the checks passed, so every lone root of the version still has its root-node key: all of
     them are traversed, as in Badger.v *)
  destruct (s_prune_check_ok _ _ PC) as [l [_ [EV _]]].
  assert (KV : forall r, In r (lone_roots (c_b c) ver) -> visible (r_id r) ver (c_rk c) = true).
  { intros r Hr. apply filter_In in Hr as [Hr _].
    unfold visible. rewrite (RK ver (r_id r) ltac:(lia) (in_has_rid r _ Hr)). reflexivity. }
  unfold live_lone. rewrite filter_all by exact KV. rewrite (c_visit_all_eq c ver _ KV).
  destruct (visit_all (c_b c) ver (lone_roots (c_b c) ver)); try (left; split; reflexivity).
  right. repeat split.
Qed.

Lemma crash_safe_prune_l c ver k :
  let o := OPrune ver in
  inv (c_b c) -> rk_inv c -> prune_safe (c_b c) ver = true ->
  (k < length (snd (plan c o)))%nat ->
  let c1 := reopen (run_until k c o) in
  b_meta (c_b c1) = b_meta (c_b c) /\ b_aux (c_b c1) = b_aux (c_b c) /\
  (forall v r, ver < v -> has_rid r (roots_at (b_meta (c_b c)) v) = true ->
     visible r v (c_rk c1) = true /\
     forall n, In n (a_reach (aux_get v r (b_aux (c_b c)))) -> visible n v (b_store (c_b c1)) = true) /\
  fst (run_all c1 o) = EOk /\ snd (run_all c1 o) = snd (run_all c o).
Proof.
  intros o I RK PS K. subst o.
  destruct (plan_prune c ver RK) as [[E _]|[PC [E B]]]; rewrite E in K; [destruct (Nat.nlt_0_r _ K)|].
  destruct (s_prune_check_ok _ _ PC) as [l [_ [EV _]]].
  unfold reopen, run_until, run_all. rewrite E. cbn [fst snd].
  destruct k as [|[|k]]; [| |cbn in K; lia]; clear K; cbn [firstn apply_steps fold_left].
  - rewrite E. split; [reflexivity|]. split; [reflexivity|]. split; [|split; reflexivity].
    intros v r Hlt Hh. destruct I as [IR _].
    split; [unfold visible; rewrite (RK v r ltac:(lia) Hh); reflexivity|].
    intros n Hn. exact (proj1 (IR v r ltac:(lia) Hh n Hn)).
  - (* the deletions are flushed: the root-node keys of the lone roots are gone, so the retry
       skips them all, deletes nothing more and commits the same metadata *)
    set (c1 := apply_step c _).
    assert (E1 : plan c1 (OPrune ver) =
                 (EOk, [SFlush [] [] ver false; SMeta (s_prune_do (b_meta (c_b c)) ver) (b_aux (c_b c))])).
    { assert (L0 : live_lone c1 ver = [])
        by (apply filter_none; intros x Hx; apply visible_deleted, in_map, Hx).
      cbn [plan]. rewrite L0. change (b_meta (c_b c1)) with (b_meta (c_b c)). rewrite PC. reflexivity. }
    rewrite E1. split; [reflexivity|]. split; [reflexivity|]. split; [|split; reflexivity].
    intros v r Hlt Hh. split.
    + unfold visible. cbn [c1 apply_step c_rk].
      rewrite (best_write_shadowed r v v _ _ _ _ v true (RK v r ltac:(lia) Hh) Hlt (N.le_refl v)).
      rewrite (RK v r ltac:(lia) Hh). reflexivity.
    + (* the node key space is that of the completed prune, which keeps the invariant *)
      intros n Hn. pose proof (inv_prune (c_b c) ver I PS) as [IR' _].
      change (b_prune (c_b c) ver) with (b_step (c_b c) (OPrune ver)) in IR'. rewrite B in IR'. cbn [snd] in IR'.
      assert (Hh' : has_rid r (roots_at (s_prune_do (b_meta (c_b c)) ver) v) = true)
        by (rewrite roots_at_prune_do; replace (ver =? v) with false by lia; exact Hh).
      exact (proj1 (IR' v r ltac:(cbn [b_meta s_prune_do d_earliest]; lia) Hh' n Hn)).
Qed.

Lemma rk_inv_step c o : inv_meta (c_b c) -> rk_inv c -> rk_inv (snd (run_all c o)).
Proof.
  intros IM RK. unfold run_all.
  destruct o as [ver typ rid old ws puts removed reach inl0|ver rids|ver].
  - destruct (plan_commit c ver typ rid old ws puts removed reach inl0) as [[E _]|[m' [SC [HR [E _]]]]];
      rewrite E; cbn [snd apply_steps fold_left]; [exact RK|].
    destruct (s_commit_ok _ _ _ _ _ _ _ SC) as [HE [_ [_ [_ HF]]]]. destruct (HF HR) as [[c0 HC] _].
    (* the root-node key of the new root is written at its version, above what was there *)
    intros v r Hev Hh. cbn [apply_step c_b c_rk b_meta] in *. rewrite HE in Hev. rewrite HC in Hh.
    rewrite best_write_all. unfold nmem. cbn [existsb]. rewrite orb_false_r.
    apply committed_listed in Hh as [Hh|[-> ->]]; [| |reflexivity].
    + rewrite (RK v r Hev Hh). destruct ((r =? rid) && (ver <=? v)) eqn:C; [|reflexivity].
      destruct (v <=? ver) eqn:E1; [|reflexivity]. replace v with ver by lia. reflexivity.
    + rewrite N.eqb_refl, N.leb_refl. cbn [andb].
      destruct (best rid ver (c_rk c)) as [[a ab]|] eqn:B; [|reflexivity].
      destruct (best_in _ _ _ _ _ B) as [_ Hle]. replace (a <=? ver) with true by lia. reflexivity.
  - destruct (plan_finalize c ver rids) as [[E _]|[m' [SF [E _]]]];
      rewrite E; cbn [snd apply_steps fold_left]; [exact RK|].
    pose proof (finalize_earliest_le _ _ _ _ IM SF) as OLDE.
    intros v r Hev Hh. cbn [apply_step c_b c_rk b_meta write_all map app] in *.
    exact (RK v r (N.le_trans _ _ _ OLDE Hev) (s_finalize_listed _ _ _ _ v r SF Hh)).
  - destruct (plan_prune c ver RK) as [[E _]|[PC [E _]]]; rewrite E; cbn [snd apply_steps fold_left]; [exact RK|].
    destruct (s_prune_check_ok _ _ PC) as [l [_ [EV _]]].
    (* only keys of the pruned version are deleted, at its timestamp *)
    intros v r Hev Hh. cbn [apply_step c_b c_rk b_meta] in *. cbn [s_prune_do d_earliest] in Hev.
    rewrite roots_at_prune_do in Hh. replace (ver =? v) with false in Hh by lia.
    pose proof (RK v r ltac:(lia) Hh) as B.
    rewrite (best_write_shadowed r v v _ ver _ _ v true B ltac:(lia) (N.le_refl v)). exact B.
Qed.

Lemma run_all_b c o :
  rk_inv c ->
  fst (run_all c o) = fst (b_step (c_b c) o) /\ c_b (snd (run_all c o)) = snd (b_step (c_b c) o).
Proof.
  intros RK. unfold run_all. destruct o as [ver typ rid old ws puts removed reach inl0|ver rids|ver].
  - destruct (plan_commit c ver typ rid old ws puts removed reach inl0) as [[E B]|[m' [_ [_ [E B]]]]];
      rewrite E, B; split; reflexivity.
  - destruct (plan_finalize c ver rids) as [[E B]|[m' [_ [E B]]]]; rewrite E, B; split; reflexivity.
  - destruct (plan_prune c ver RK) as [[E B]|[_ [E B]]]; rewrite E, B; split; reflexivity.
Qed.

Lemma crash_run h : forall c, inv (c_b c) -> rk_inv c -> ok_run (c_b c) h = true ->
  inv (c_b (c_run c h)) /\ rk_inv (c_run c h) /\ c_b (c_run c h) = b_run (c_b c) h.
Proof.
  induction h as [|o t IH]; intros c I RK OK; [split; [exact I|split; [exact RK|reflexivity]]|].
  apply ok_run_cons in OK as [O1 [O2 O3]].
  unfold c_run, b_run. cbn [fold_left]. destruct (run_all_b c o RK) as [_ HB]. rewrite <- HB in *.
  apply IH; [rewrite HB; apply inv_step; assumption|apply rk_inv_step; [exact (proj2 I)|exact RK]|exact O3].
Qed.

(* all histories: the hypotheses of the three crash lemmas hold after every in-domain, safe history *)
Lemma crash_hyps_after_history h :
  ok_run bdb0 h = true -> inv (c_b (c_run cdb0 h)) /\ rk_inv (c_run cdb0 h).
Proof.
  intros OK. destruct (crash_run h cdb0 inv0 rk_inv0 OK) as [A [B _]]. split; assumption.
Qed.

Definition h_prune_crash : list op :=
  [OCommit 1 1 2 None [(6, 1)] [1] [] [1] []; OCommit 1 2 3 None [(2, 2)] [2] [] [2] [];
   OFinalize 1 [2; 3];
   OCommit 2 1 4 (Some (1, 2)) [(3, 1)] [3; 4] [] [4; 3; 1] []; OFinalize 2 [4]].

(* the uninterrupted Prune(1) succeeds; after a crash between its batch flush and its
   metadata commit the retry fails with "root not found" and would fail again forever
   (the state is unchanged by the failed retry), while the metadata still says version 1 is
   the earliest retained version *)
Lemma crash_safe_prune_original_refuted_l :
  let c := c_run cdb0 h_prune_crash in
  fst (run_all_orig c (OPrune 1)) = EOk /\
  let c1 := reopen (run_until_orig 1 c (OPrune 1)) in
  fst (retry_orig c1 (OPrune 1)) = ERootNotFound /\ snd (retry_orig c1 (OPrune 1)) = c1 /\
  d_earliest (b_meta (c_b c1)) = 1 /\ inv (c_b c) /\ prune_safe (c_b c) 1 = true.
Proof.
  pose proof (crash_hyps_after_history h_prune_crash eq_refl) as [I _].
  cbv zeta. do 4 (split; [vm_compute; reflexivity|]). split; [exact I|vm_compute; reflexivity].
Qed.

(* Prune as [plan] has it (a lone root whose root-node key is gone is skipped): after the same crash
   the retry succeeds and ends in the state of the uninterrupted run, which is the one [plan_orig] reaches *)
Lemma crash_safe_prune_on_witness_l :
  let c := c_run cdb0 h_prune_crash in
  let c1 := reopen (run_until 1 c (OPrune 1)) in
  fst (retry c1 (OPrune 1)) = EOk /\ snd (retry c1 (OPrune 1)) = snd (run_all c (OPrune 1)) /\
  snd (run_all c (OPrune 1)) = snd (run_all_orig c (OPrune 1)).
Proof. vm_compute. repeat split; reflexivity. Qed.
