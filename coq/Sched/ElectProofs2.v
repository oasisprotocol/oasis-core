(* C14, validator election: validators are taken in descending order of
   stake; the epoch result does not depend on the order in which state was
   written; the validator updates turn the previous set into the elected one. *)
From Verif Require Import Lib.Base Sched.Elect Sched.ElectSpec Sched.ElectLemmas Sched.ElectCore
  Sched.ElectProofs.
From Coq Require Import Permutation.

(* descending-stake order for ANY shuffled candidate list [sh] with unique
   consensus keys, drawn from the candidates and holding every candidate that
   satisfies [extra].  The candidate sequence is sorted by stake and the loop
   takes a prefix of it: a represented entity has a node in the prefix, the
   first pick of one that is left out lies behind it. *)
Theorem core_by_descending_stake p ents epoch nodes pe sh extra vals vents :
  NoDup (map n_cons sh) ->
  (forall n, In n sh -> In n (vcands p ents epoch nodes)) ->
  (forall n, In n (vcands p ents epoch nodes) -> extra n = true -> In n sh) ->
  is_perm pe (length (usort (map n_ent (vcands p ents epoch nodes)))) ->
  1 <= p_per p -> p_bypass p = false ->
  elect_core p ents pe (vcands p ents epoch nodes) sh = VOk vals vents ->
  by_descending_stake p ents epoch nodes extra vals.
Proof.
  intros Hsh Hincl Hall Hpe Hper Hby H e e' [n0 [Hn0 [Hl0 [Hc0 [Hx0 He0]]]]] Hnr [kv [Hkv Hek]].
  set (cands := vcands p ents epoch nodes) in *.
  destruct (elect_ok_inv _ _ _ _ _ _ _ H) as [acc [Hf [-> _]]].
  destruct (fill_distinct _ _ _ _ _ (cand_seq_nodup p ents pe cands sh Hsh Hpe) Hf)
    as [cs1 [cs2 [Hcs [-> _]]]].
  apply In_sort_by in Hkv. rewrite <- in_rev in Hkv. apply in_map_iff in Hkv.
  destruct Hkv as [n' [<- Hn']]. change (ent_of (elected p ents n')) with (n_ent n') in Hek.
  assert (Hn0s : In n0 sh) by (apply Hall; [apply vcands_spec; tauto|exact Hx0]).
  destruct (picks_nonempty p sh n0 Hper Hn0s) as [m Hm]. rewrite He0 in Hm.
  pose proof (picks_ent _ _ _ _ Hm) as [Hme _].
  assert (Hmc : In m (cs1 ++ cs2)).
  { rewrite <- Hcs. unfold cand_seq_sh. apply in_flat_map. exists e. split; [|exact Hm].
    eapply Permutation_in; [symmetry; apply by_stake_perm; exact Hpe|].
    apply In_usort. rewrite <- He0. apply in_map, Hincl, Hn0s. }
  apply in_app_or in Hmc. destruct Hmc as [Hmc|Hmc].
  { exfalso. apply Hnr. exists (elected p ents m). split; [|exact Hme].
    apply In_sort_by. rewrite <- in_rev. apply in_map. exact Hmc. }
  pose proof (cand_seq_sorted p ents pe cands sh Hby) as Hs. rewrite Hcs in Hs.
  pose proof (sorted_app_inv _ _ _ _ _ Hs Hn' Hmc) as Hle. cbv beta in Hle.
  rewrite Hme, Hek in Hle. exact Hle.
Qed.

(* validators are taken in descending entity-stake order: an eligible entity
   left out never has more escrow than a represented one (ties are free) *)
Theorem validators_by_descending_stake p ents epoch nodes pe pn vals vents :
  NoDup (map n_cons nodes) ->
  is_perm pe (length (usort (map n_ent (vcands p ents epoch nodes)))) ->
  is_perm pn (length (vcands p ents epoch nodes)) ->
  1 <= p_per p -> p_bypass p = false ->
  elect_validators p ents epoch nodes pe pn = VOk vals vents ->
  by_descending_stake p ents epoch nodes no_extra vals.
Proof.
  intros Hnd Hpe Hpn Hper Hby H. unfold elect_validators in H.
  pose proof (apply_perm_perm _ _ Hpn) as Hperm.
  apply (core_by_descending_stake p ents epoch nodes pe _ no_extra vals vents) in H; try assumption.
  - eapply Permutation_NoDup; [apply Permutation_map; symmetry; exact Hperm|].
    apply vcands_nodup_cons. exact Hnd.
  - intros n. apply Permutation_in. exact Hperm.
  - intros n Hn _. eapply Permutation_in; [symmetry; exact Hperm|exact Hn].
Qed.

(* VRF backend: the same order among the entities that take part in the
   shuffle in use -- all eligible ones when the election falls back to the
   entropy shuffle, the ones with a submitted proof under sortition (hashed
   betas pairwise distinct, i.e. no TupleHash collision) *)
Definition vrf_extra (p : params) (beta : N -> option N) (cands : list node) : node -> bool :=
  if len (filter (has_pi beta) cands) <? p_min p then no_extra else has_pi beta.
Theorem validators_by_descending_stake_vrf p ents epoch nodes pe pn beta vals vents :
  NoDup (map n_cons nodes) ->
  is_perm pe (length (usort (map n_ent (vcands p ents epoch nodes)))) ->
  is_perm pn (length (vcands p ents epoch nodes)) ->
  (forall m n b, In m (vcands p ents epoch nodes) -> In n (vcands p ents epoch nodes) ->
                 beta (n_id m) = Some b -> beta (n_id n) = Some b -> m = n) ->
  1 <= p_per p -> p_bypass p = false ->
  elect_validators_vrf p ents epoch nodes pe pn beta = VOk vals vents ->
  by_descending_stake p ents epoch nodes (vrf_extra p beta (vcands p ents epoch nodes)) vals.
Proof.
  intros Hnd Hpe Hpn Hinj Hper Hby H. unfold elect_validators_vrf in H. unfold vrf_extra.
  set (cands := vcands p ents epoch nodes) in *.
  destruct (len (filter (has_pi beta) cands) <? p_min p).
  - exact (validators_by_descending_stake _ _ _ _ _ _ _ _ Hnd Hpe Hpn Hper Hby H).
  - apply (core_by_descending_stake p ents epoch nodes pe _ (has_pi beta) vals vents) in H; try assumption.
    + apply vrf_sort_nodup, vcands_nodup_cons. exact Hnd.
    + intros n Hn. apply vrf_sort_In in Hn. tauto.
    + intros n Hn Hx. unfold has_pi in Hx. destruct (beta (n_id n)) as [b|] eqn:Eb; [|discriminate].
      apply (vrf_sort_complete beta cands n b Hn Eb). intros m Hm Hbm. eapply Hinj; eassumption.
Qed.

Lemma find_ent_aget ents a : find_ent ents a = aget a (map (fun e => (e_addr e, e)) ents).
Proof.
  unfold find_ent. induction ents as [|e r IH]; cbn [find map aget]; [reflexivity|].
  destruct (e_addr e =? a); [reflexivity|exact IH].
Qed.
Lemma find_ent_perm ents ents' a :
  Permutation ents ents' -> NoDup (map e_addr ents) -> find_ent ents a = find_ent ents' a.
Proof.
  intros Hp Hnd. rewrite !find_ent_aget. apply aget_perm; [apply Permutation_map; exact Hp|].
  rewrite map_map. exact Hnd.
Qed.
Lemma slash_addrs addr amt ents : map e_addr (map (slash_one addr amt) ents) = map e_addr ents.
Proof.
  rewrite map_map. apply map_ext. intros e. unfold slash_one. destruct (e_addr e =? addr); reflexivity.
Qed.
Lemma freeze_ids id u nodes : map n_id (map (freeze_one id u) nodes) = map n_id nodes.
Proof.
  rewrite map_map. apply map_ext. intros n. unfold freeze_one. destruct (n_id n =? id); reflexivity.
Qed.
Lemma post_state_perm sl : forall ents ents' nodes nodes' fl,
  Permutation ents ents' -> NoDup (map e_addr ents) ->
  Permutation nodes nodes' -> NoDup (map n_id nodes) ->
  let a := fold_left apply_slash sl (ents, nodes, fl) in
  let b := fold_left apply_slash sl (ents', nodes', fl) in
  Permutation (fst (fst a)) (fst (fst b)) /\ NoDup (map e_addr (fst (fst a))) /\
  Permutation (snd (fst a)) (snd (fst b)) /\ NoDup (map n_id (snd (fst a))) /\ snd a = snd b.
Proof.
  induction sl as [|[[addr amt] fr] r IH]; intros ents ents' nodes nodes' fl He Hne Hn Hnn; cbn [fold_left].
  - cbn [fst snd]. tauto.
  - cbn [apply_slash]. unfold escrow_of. rewrite (find_ent_perm _ _ addr He Hne).
    apply IH.
    + apply Permutation_map. exact He.
    + rewrite slash_addrs. exact Hne.
    + destruct fr as [[id u]|]; [apply Permutation_map|]; exact Hn.
    + destruct fr as [[id u]|]; [rewrite freeze_ids|]; exact Hnn.
Qed.

Theorem elect_deterministic i i' :
  Permutation (i_nodes i) (i_nodes i') -> NoDup (map n_id (i_nodes i)) ->
  Permutation (i_ents i) (i_ents i') -> NoDup (map e_addr (i_ents i)) ->
  i_params i = i_params i' -> i_epoch i = i_epoch i' -> i_rts i = i_rts i' ->
  i_perm_e i = i_perm_e i' -> i_perm_n i = i_perm_n i' -> i_perm_c i = i_perm_c i' ->
  i_current i = i_current i' -> i_fv261 i = i_fv261 i' -> i_vrf i = i_vrf i' ->
  i_base i = i_base i' -> i_changed i = i_changed i' -> i_slashed i = i_slashed i' ->
  i_slashes i = i_slashes i' ->
  run_epoch i = run_epoch i'.
Proof.
  intros Hn Hnn He Hne E1 E2 E3 E4 E5 E6 E7 E8 E9 E10 E11 E12 E13.
  unfold run_epoch, committee_nodes, vrf_blocked, committee_srcs, post_ents, post_nodes, post_slashed, post_state.
  rewrite <- E13, <- E12.
  destruct (post_state_perm (i_slashes i) _ _ _ _ (i_slashed i) He Hne Hn Hnn) as [P1 [P2 [P3 [P4 P5]]]].
  cbv zeta in P1, P2, P3, P4, P5.
  rewrite (sort_by_unique n_id _ _ P3 P4), (sort_by_unique e_addr _ _ P1 P2), P5.
  rewrite E1, E2, E3, E4, E5, E6, E7, E8, E9, E10, E11. reflexivity.
Qed.

Lemma apply_updates_aget k us : forall m,
  NoDup (map fst us) ->
  aget k (apply_updates m us) =
  match aget k us with
  | Some v => if v =? 0 then None else Some v
  | None => aget k m
  end.
Proof.
  unfold apply_updates. induction us as [|[k' v] r IH]; intros m Hnd; cbn [fold_left aget]; [reflexivity|].
  cbn [map fst] in Hnd. inversion Hnd as [|? ? Hk Hr]; subst. rewrite (IH _ Hr).
  destruct (k' =? k) eqn:E.
  - apply N.eqb_eq in E. subst k'.
    assert (Hnone : aget k r = None) by (apply aget_none_notin; exact Hk).
    rewrite Hnone. unfold apply_update. cbn [fst snd].
    destruct (v =? 0); [apply aget_adel_same|apply aget_aset_same].
  - destruct (aget k r) as [w|]; [reflexivity|]. unfold apply_update. cbn [fst snd].
    destruct (v =? 0); [apply aget_adel_other|apply aget_aset_other]; lia.
Qed.

Lemma aget_map_zero k (l : pmap) :
  aget k (map (fun kv => (fst kv, 0)) l) = match aget k l with Some _ => Some 0 | None => None end.
Proof.
  induction l as [|[k' v] r IH]; cbn [map aget fst]; [reflexivity|].
  destruct (k' =? k); [reflexivity|exact IH].
Qed.

Lemma aget_diff k cur pend :
  NoDup (map fst cur) -> NoDup (map fst pend) ->
  aget k (diff_validators cur pend) =
  match aget k pend with
  | Some v => match aget k cur with
              | Some w => if w =? v then None else Some v
              | None => Some v
              end
  | None => match aget k cur with Some _ => Some 0 | None => None end
  end.
Proof.
  intros Hc Hp. unfold diff_validators. rewrite aget_app, aget_map_zero.
  rewrite (aget_filter k _ cur Hc), (aget_filter k _ pend Hp). cbn [fst snd].
  destruct (aget k pend) as [v|] eqn:Ep; destruct (aget k cur) as [w|] eqn:Ec; try reflexivity.
  destruct (w =? v); reflexivity.
Qed.

Lemma diff_keys_nodup cur pend :
  NoDup (map fst cur) -> NoDup (map fst pend) -> NoDup (map fst (diff_validators cur pend)).
Proof.
  intros Hc Hp. unfold diff_validators. rewrite map_app, map_map. cbn [fst].
  apply nodup_app.
  - apply NoDup_map_filter. exact Hc.
  - apply NoDup_map_filter. exact Hp.
  - intros k H1 H2. apply in_map_iff in H1. destruct H1 as [[k1 v1] [<- H1]].
    apply filter_In in H1. destruct H1 as [_ H1]. cbn [fst] in *.
    apply in_map_iff in H2. destruct H2 as [[k2 v2] [E H2]]. cbn [fst] in E. subst k2.
    apply filter_In in H2. destruct H2 as [H2 _].
    destruct (aget k1 pend) eqn:Ea; [discriminate|].
    apply aget_none_notin in Ea. apply Ea. change k1 with (fst (k1, v2)). apply in_map. exact H2.
Qed.

Theorem diff_applies_from cur eng pend ups :
  NoDup (map fst cur) -> NoDup (map fst pend) ->
  Forall (fun kv => snd kv <> 0) pend ->
  Permutation ups (diff_validators cur pend) ->
  (forall k, aget k eng = aget k cur) ->
  forall k, aget k (apply_updates eng ups) = aget k pend.
Proof.
  intros Hc Hp Hnz Hperm Hsame k.
  pose proof (diff_keys_nodup cur pend Hc Hp) as Hd.
  assert (Hu : NoDup (map fst ups)).
  { eapply Permutation_NoDup; [apply Permutation_map; symmetry; exact Hperm|exact Hd]. }
  rewrite (apply_updates_aget k ups eng Hu), (Hsame k).
  rewrite (aget_perm k _ _ Hperm Hu), (aget_diff k cur pend Hc Hp).
  destruct (aget k pend) as [v|] eqn:Ep.
  - assert (Hv : v <> 0).
    { rewrite Forall_forall in Hnz. apply (Hnz (k, v)). apply aget_In. exact Ep. }
    destruct (aget k cur) as [w|] eqn:Ec.
    + destruct (w =? v) eqn:E; [f_equal; lia|]. destruct (v =? 0) eqn:E0; [lia|reflexivity].
    + destruct (v =? 0) eqn:E0; [lia|reflexivity].
  - destruct (aget k cur) as [w|] eqn:Ec; reflexivity.
Qed.

(* the updates handed to the consensus engine, applied in ANY order to the
   previous set, give exactly the newly elected set (as key -> power maps) *)
Theorem diff_applies cur pend ups :
  NoDup (map fst cur) -> NoDup (map fst pend) ->
  Forall (fun kv => snd kv <> 0) pend ->
  Permutation ups (diff_validators cur pend) ->
  forall k, aget k (apply_updates cur ups) = aget k pend.
Proof.
  intros Hc Hp Hnz Hperm. apply (diff_applies_from cur cur pend ups Hc Hp Hnz Hperm). reflexivity.
Qed.

(* elected powers are never 0, so a pending entry is never read as a removal *)
Lemma elect_powers_nonzero p ents epoch nodes pe pn vals vents :
  elect_validators p ents epoch nodes pe pn = VOk vals vents ->
  Forall (fun kv => snd kv <> 0) (powers_of vals).
Proof.
  unfold elect_validators. apply core_powers_nonzero. intros n Hn. eapply In_apply_perm. exact Hn.
Qed.
