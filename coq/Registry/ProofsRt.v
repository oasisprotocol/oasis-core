(* Runtimes (property C17): authority of runtime record changes and what an
   accepted RegisterRuntime implies for the descriptor; the runtime-by-entity
   index and the runtime stake claims mirror the runtime records along every
   history; threshold kinds stored with node claims. *)
From Verif Require Import Lib.Base Registry.Model Registry.Lemmas Registry.Proofs.

Definition RT_disj (s : state) : Prop :=
  forall r, aget r (s_rts s) <> None -> aget r (s_susp s) = None.
Definition OWN_ok (s : state) : Prop :=
  forall e r, pmem (e, r) (s_rtown s) = true <-> exists rt, any_runtime s r = Some rt /\ r_ent rt = e.
Definition RCL_ok (s : state) : Prop :=
  forall a r, pmem (a, r) (s_rtclaims s) = true <-> exists rt, any_runtime s r = Some rt /\ rt_acct rt = Some a.
Definition Inv_rt (s : state) : Prop := RT_disj s /\ OWN_ok s /\ RCL_ok s.

Lemma Inv_rt_st0 : Inv_rt st0.
Proof.
  split; [|split].
  - intros r H. reflexivity.
  - intros e r. cbn. split; [discriminate|]. intros [rt [H _]]. discriminate.
  - intros a r. cbn. split; [discriminate|]. intros [rt [H _]]. discriminate.
Qed.

Lemma inv_rt_same_lookup s s' :
  (forall r, any_runtime s' r = any_runtime s r) -> RT_disj s' ->
  s_rtown s' = s_rtown s -> s_rtclaims s' = s_rtclaims s -> Inv_rt s -> Inv_rt s'.
Proof.
  intros E D C1 C2 (_ & H2 & H3). split; [exact D|split].
  - intros e r. rewrite C1, E. apply H2.
  - intros a r. rewrite C2, E. apply H3.
Qed.

Lemma any_rt_apply s rt r :
  any_runtime (reg_runtime_apply s rt) r = if r_id rt =? r then Some rt else any_runtime s r.
Proof.
  rewrite reg_runtime_apply_eq. unfold any_runtime. fields.
  destruct (aget (r_id rt) (s_rts s)) as [x|] eqn:E1; [|destruct (aget (r_id rt) (s_susp s)) as [y|] eqn:E2];
    rewrite ?aget_aset; destruct (N.eqb_spec (r_id rt) r) as [<-|Hne]; rewrite ?E1; reflexivity.
Qed.

Lemma disj_apply s rt : RT_disj s -> RT_disj (reg_runtime_apply s rt).
Proof.
  intros H r. rewrite reg_runtime_apply_eq. fields.
  destruct (aget (r_id rt) (s_rts s)) as [x|] eqn:E1.
  - rewrite aget_aset. destruct (N.eqb_spec (r_id rt) r) as [<-|Hne]; intros Hr.
    + apply H. rewrite E1. discriminate.
    + apply H. exact Hr.
  - destruct (aget (r_id rt) (s_susp s)) as [y|] eqn:E2.
    + intros Hr. rewrite aget_aset. destruct (N.eqb_spec (r_id rt) r) as [<-|Hne].
      * exfalso. apply Hr. exact E1.
      * apply H. exact Hr.
    + rewrite aget_aset. destruct (N.eqb_spec (r_id rt) r) as [<-|Hne]; intros Hr.
      * exact E2.
      * apply H. exact Hr.
Qed.

Lemma ex_some {A} (a : A) (P : A -> Prop) : (exists x, Some a = Some x /\ P x) <-> P a.
Proof. split; [intros (x & [= <-] & H); exact H|eauto]. Qed.
Lemma ex_none {A} (P : A -> Prop) : (exists x, None = Some x /\ P x) <-> False.
Proof. split; [intros (x & [=] & _)|intros []]. Qed.

(* by cases: did the runtime exist, did its owner (its controlling account) change *)
Lemma own_apply s rt : OWN_ok s -> OWN_ok (reg_runtime_apply s rt).
Proof.
  intros H e r. rewrite any_rt_apply, reg_runtime_apply_eq. fields.
  destruct (any_runtime s (r_id rt)) as [old|] eqn:Eo;
    [destruct (N.eqb_spec (r_ent old) (r_ent rt)) as [Ee|Ene]|];
    rewrite ?pmem_padd, ?pmem_pdel, (H e r); destruct (N.eqb_spec (r_id rt) r) as [<-|Hne];
    rewrite ?Eo, ?ex_some, ?ex_none.
  all: intuition congruence.
Qed.

Lemma rcl_apply s rt a : rt_acct rt = Some a -> RCL_ok s -> RCL_ok (reg_runtime_apply s rt).
Proof.
  intros Ha H a' r. rewrite any_rt_apply, reg_runtime_apply_eq. fields. rewrite Ha.
  destruct (any_runtime s (r_id rt)) as [old|] eqn:Eo;
    [destruct (rt_acct old) as [b|] eqn:Eb; [destruct (N.eqb_spec b a) as [->|Hba]|]|];
    rewrite ?pmem_pdel, ?pmem_padd, (H a' r); destruct (N.eqb_spec (r_id rt) r) as [<-|Hne];
    rewrite ?Eo, ?ex_some, ?ex_none.
  all: intuition congruence.
Qed.

Lemma resume_one_rt s r :
  RT_disj s -> (forall r', any_runtime (resume_one s r) r' = any_runtime s r') /\ RT_disj (resume_one s r).
Proof.
  intros H. unfold resume_one. destruct (aget r (s_susp s)) as [rt|] eqn:E; [|split; [reflexivity|exact H]].
  assert (Hn : aget r (s_rts s) = None).
  { destruct (aget r (s_rts s)) eqn:E1; [|reflexivity]. rewrite H in E; [discriminate|]. rewrite E1. discriminate. }
  split; intros x; unfold any_runtime; fields; rewrite aget_aset, aget_adel;
    destruct (N.eqb_spec r x) as [<-|Hne]; [rewrite Hn, E| | |apply H]; reflexivity.
Qed.

Lemma resume_fold_rt l s : RT_disj s ->
  (forall r', any_runtime (fold_left resume_one l s) r' = any_runtime s r') /\ RT_disj (fold_left resume_one l s).
Proof.
  intros H. apply (fold_left_invariant (fun s' => (forall r', any_runtime s' r' = any_runtime s r') /\ RT_disj s'));
    [|split; [reflexivity|exact H]].
  intros a r [A B]. destruct (resume_one_rt a r B) as [C D]. split; [|exact D]. intros r'. rewrite C. apply A.
Qed.

Lemma suspend_lookup s r rt r' :
  aget r (s_rts s) = Some rt ->
  any_runtime (with_susp (with_rts s (adel r (s_rts s))) (aset r rt (s_susp s))) r' = any_runtime s r'.
Proof.
  intros Er. unfold any_runtime; fields.
  rewrite aget_adel, aget_aset. destruct (N.eqb_spec r r') as [<-|Hne]; [rewrite Er|]; reflexivity.
Qed.

(* what RegisterRuntime demands of the caller and of the change, against the
   existing descriptor if there is one *)
Definition rt_change_ok (s : state) (caller : N) (rt : runtime) : Prop :=
  match any_runtime s (r_id rt) with
  | Some old => rt_acct old = Some caller /\ r_kind old = r_kind rt /\
                (r_gov old = r_gov rt \/ (r_gov old = 1 /\ r_gov rt = 2)) /\
                km_changed (r_km old) (r_km rt) = false /\
                r_genesis old = r_genesis rt /\
                deps_update_ok (s_epoch s) (r_deps old) (r_deps rt) = true /\
                active_kept (s_epoch s) (r_deps old) (r_deps rt) = true
  | None => rt_acct rt = Some caller /\ active_deployment (s_epoch s) (r_deps rt) = None
  end.

Lemma rt_signer_ok chk caller :
  match rt_acct chk with
  | Some a => if caller =? a then COk else if r_gov chk =? 1 then CIncorrectTxSigner else CForbidden
  | None => CForbidden
  end = COk -> rt_acct chk = Some caller.
Proof.
  destruct (rt_acct chk) as [a|]; [|discriminate].
  destruct (N.eqb_spec caller a) as [->|_]; [reflexivity|]. destruct (r_gov chk =? 1); discriminate.
Qed.

Lemma reg_runtime_ok s caller rt :
  reg_runtime_check s caller rt = COk ->
  (r_gov rt = 1 \/ r_gov rt = 2) /\ (r_kind rt = 1 \/ r_kind rt = 2) /\
  validate_deployments (s_epoch s) rt = COk /\ rt_change_ok s caller rt.
Proof.
  unfold reg_runtime_check. intros H. if_ok H.
  apply negb_false_iff, orb_true_iff in E3, E7. rewrite !N.eqb_eq in E3, E7. split; [exact E7|]. split; [exact E3|].
  split; [apply code_is_ok_true, negb_false_iff, E9|].
  destruct (rt_update_check s rt) eqn:EU; try discriminate.
  unfold rt_update_check in EU. unfold rt_signer_check in H. unfold rt_change_ok.
  destruct (any_runtime s (r_id rt)) as [old|].
  - apply rt_signer_ok in H. if_ok EU.
    apply negb_false_iff in E12, E13, E16, E17. apply N.eqb_eq in E12, E13.
    repeat split; auto.
    apply andb_false_iff in E15 as [G|G]; apply negb_false_iff in G.
    + left. apply N.eqb_eq, G.
    + right. apply andb_true_iff in G. rewrite !N.eqb_eq in G. exact G.
  - apply rt_signer_ok in H. destruct (active_deployment (s_epoch s) (r_deps rt)); [discriminate|]. auto.
Qed.

Lemma valid_deployments_facts now rt :
  validate_deployments now rt = COk ->
  (0 < length (r_deps rt))%nat /\ N.of_nat (length (r_deps rt)) <= max_deployments /\
  N.of_nat (length (filter (fun d => now <? d_from d) (r_deps rt))) <= 1.
Proof.
  unfold validate_deployments. intros H. if_ok H.
  destruct (vd_loop (r_tee rt) None (dep_sort (r_deps rt))); try discriminate. if_ok H.
  apply N.eqb_neq in E. apply N.ltb_ge in E0, E1. repeat split; try assumption.
  destruct (r_deps rt); [exfalso; apply E; reflexivity|cbn; lia].
Qed.

Lemma accepted_deployments_all s caller rt :
  reg_runtime_check s caller rt = COk ->
  validate_deployments (s_epoch s) rt = COk /\
  (0 < length (r_deps rt))%nat /\ N.of_nat (length (r_deps rt)) <= max_deployments /\
  N.of_nat (length (filter (fun d => s_epoch s <? d_from d) (r_deps rt))) <= 1.
Proof.
  intros H. apply reg_runtime_ok in H as (_ & _ & V & _).
  split; [exact V|]. exact (valid_deployments_facts _ _ V).
Qed.

Section RtStep.
  Variable addr : N -> N.
  Variable fixed : bool.
  Variables maxexp debond : N.
  Notation stp := (step addr fixed maxexp debond).

  Lemma step_rt s o : tx_op o = true -> Inv_rt s -> Inv_rt (snd (stp s o)).
  Proof.
    intros Htx Hinv. destruct (step_view addr fixed maxexp debond s o Htx); try exact Hinv; cbn [snd].
    - (* [fields] before [reflexivity]: comparing two towers of updates field by field
         without normalising them first is exponential in their height *)
      rewrite <- H0. destruct (resume_fold_rt (n_rts n) (registered addr fixed s n) (proj1 Hinv)) as [A B].
      apply (inv_rt_same_lookup (registered addr fixed s n)); [exact A|exact B| | |exact Hinv];
        rewrite H0; fields; reflexivity.
    - apply epoch_fold_invariant; [|exact Hinv]. intros s' id n Hs' _. exact Hs'.
    - rewrite <- H0. apply reg_runtime_ok in H as (Hg & _ & _).
      assert (Ha : exists a, rt_acct rt = Some a).
      { unfold rt_acct. destruct Hg as [E|E]; rewrite E; eexists; reflexivity. }
      destruct Ha as [a Ha]. destruct Hinv as (H1 & H2 & H3).
      split; [apply disj_apply; exact H1|split; [apply own_apply; exact H2|eapply rcl_apply; eauto]].
    - apply (inv_rt_same_lookup s); try reflexivity; [| |exact Hinv].
      + intros r'. apply suspend_lookup, H.
      + intros x; fields. rewrite aget_adel, aget_aset.
        destruct (N.eqb_spec r x) as [<-|Hne]; [intros W; exfalso; apply W; reflexivity|apply (proj1 Hinv)].
  Qed.

  Lemma run_rt ops s : Inv_rt s -> forallb tx_op ops = true ->
    Inv_rt (run addr fixed maxexp debond ops s).
  Proof. apply run_invariant, step_rt. Qed.

  Lemma step_any_runtime s o :
    tx_op o = true -> RT_disj s ->
    (forall r, any_runtime (snd (stp s o)) r = any_runtime s r) \/
    exists caller rt, o = TRegRuntime caller rt /\ reg_runtime_check s caller rt = COk /\
      forall r, any_runtime (snd (stp s o)) r = if r_id rt =? r then Some rt else any_runtime s r.
  Proof.
    intros Htx Hd. destruct (step_view addr fixed maxexp debond s o Htx); cbn [snd];
      try (left; reflexivity).
    - left. rewrite <- H0. apply (resume_fold_rt (n_rts n) (registered addr fixed s n) Hd).
    - left. apply (epoch_fold_invariant addr debond (fun s' => forall r, any_runtime s' r = any_runtime s r));
        [|reflexivity]. intros s' id n Hs' _. exact Hs'.
    - right. exists caller, rt. rewrite <- H0. split; [reflexivity|]. split; [exact H|]. apply any_rt_apply.
    - left. intros r'. apply suspend_lookup, H.
  Qed.
  (* a runtime descriptor (active or suspended) changes only by a RegisterRuntime
     whose caller is the account controlling the EXISTING descriptor (entity
     governance: the owning entity; runtime governance: the runtime itself), or
     the new descriptor's controlling account if the runtime is new; kind is
     kept and governance may only go from entity to runtime *)
  Lemma authority_runtime s o s' r :
    tx_op o = true -> Inv_rt s -> stp s o = (COk, s') ->
    any_runtime s' r <> any_runtime s r ->
    exists caller rt,
      o = TRegRuntime caller rt /\ r_id rt = r /\ any_runtime s' r = Some rt /\
      (r_gov rt = 1 \/ r_gov rt = 2) /\
      match any_runtime s r with
      | Some old => rt_acct old = Some caller /\ r_kind old = r_kind rt /\
                    (r_gov old = r_gov rt \/ (r_gov old = 1 /\ r_gov rt = 2)) /\
                    km_changed (r_km old) (r_km rt) = false /\
                    r_genesis old = r_genesis rt /\
                    deps_update_ok (s_epoch s) (r_deps old) (r_deps rt) = true /\
                    active_kept (s_epoch s) (r_deps old) (r_deps rt) = true
      | None => rt_acct rt = Some caller /\ active_deployment (s_epoch s) (r_deps rt) = None
      end.
  Proof.
    intros Htx Hinv H Hch. apply (f_equal snd) in H. cbn [snd] in H. subst s'.
    destruct (step_any_runtime s o Htx (proj1 Hinv)) as [E|(caller & rt & -> & EC & E)];
      rewrite E in Hch |- *; [exfalso; apply Hch; reflexivity|].
    destruct (N.eqb_spec (r_id rt) r) as [Er|Hne]; [|exfalso; apply Hch; reflexivity].
    apply reg_runtime_ok in EC as (Hg & _ & _ & Hc). unfold rt_change_ok in Hc. rewrite Er in Hc.
    exists caller, rt. repeat split; auto.
  Qed.

  Lemma wrong_runtime_caller_rejected s caller rt :
    (match any_runtime s (r_id rt) with
     | Some old => rt_acct old <> Some caller
     | None => rt_acct rt <> Some caller
     end) ->
    fst (stp s (TRegRuntime caller rt)) <> COk /\ snd (stp s (TRegRuntime caller rt)) = s.
  Proof.
    intros Hw. cbn [step]. destruct (reg_runtime_check s caller rt) eqn:EC;
      cbn [fst snd]; try (split; [discriminate|reflexivity]).
    exfalso. apply reg_runtime_ok in EC as (_ & _ & _ & Hc). unfold rt_change_ok in Hc.
    destruct (any_runtime s (r_id rt)); destruct Hc as [Hc _]; contradiction.
  Qed.

  Lemma entity_not_removable_while_owning_runtime_records s e r rt :
    Inv_rt s -> any_runtime s r = Some rt -> r_ent rt = e -> has_entity_nodes s e = false ->
    stp s (TDeregEntity e) = (CEntityHasRuntimes, s).
  Proof.
    intros (_ & Hown & _) Hr He Hn.
    apply (entity_not_removable_while_owning_runtimes addr fixed maxexp debond s e r); [|exact Hn].
    apply Hown. eauto.
  Qed.

  Lemma has_entity_runtimes_mirror s e :
    Inv_rt s ->
    (has_entity_runtimes s e = true <-> exists r rt, any_runtime s r = Some rt /\ r_ent rt = e).
  Proof.
    intros (_ & Hown & _). unfold has_entity_runtimes. rewrite has_fst_spec. split.
    - intros [r H]. apply Hown in H as [rt Hrt]. eauto.
    - intros [r [rt Hrt]]. exists r. apply Hown. eauto.
  Qed.

  Lemma rt_by_entity_hist ops e :
    forallb tx_op ops = true ->
    (has_entity_runtimes (run addr fixed maxexp debond ops st0) e = true <->
     exists r rt, any_runtime (run addr fixed maxexp debond ops st0) r = Some rt /\ r_ent rt = e).
  Proof. intros H. apply has_entity_runtimes_mirror, run_rt; [exact Inv_rt_st0|exact H]. Qed.

  Lemma rt_claims_hist ops a r :
    forallb tx_op ops = true ->
    (pmem (a, r) (s_rtclaims (run addr fixed maxexp debond ops st0)) = true <->
     exists rt, any_runtime (run addr fixed maxexp debond ops st0) r = Some rt /\ rt_acct rt = Some a).
  Proof. intros H. apply (run_rt ops st0 Inv_rt_st0 H). Qed.

  Lemma dereg_hist ops e r rt :
    forallb tx_op ops = true ->
    any_runtime (run addr fixed maxexp debond ops st0) r = Some rt -> r_ent rt = e ->
    fst (stp (run addr fixed maxexp debond ops st0) (TDeregEntity e)) <> COk /\
    snd (stp (run addr fixed maxexp debond ops st0) (TDeregEntity e)) = run addr fixed maxexp debond ops st0.
  Proof.
    intros H Hr He. destruct (has_entity_nodes (run addr fixed maxexp debond ops st0) e) eqn:Hn.
    - cbn [step]. unfold dereg_entity_check. rewrite Hn. split; [discriminate|reflexivity].
    - rewrite (entity_not_removable_while_owning_runtime_records _ e r rt
                 (run_rt ops st0 Inv_rt_st0 H) Hr He Hn).
      split; [discriminate|reflexivity].
  Qed.

  (* threshold kinds stored with the node claims *)
  Definition Inv_thr (s : state) : Prop :=
    forall id, aget id (s_nthr s) = option_map node_kinds (aget id (s_nodes s)).

  Lemma step_thr s o : tx_op o = true -> Inv_thr s -> Inv_thr (snd (stp s o)).
  Proof.
    intros Htx H. destruct (step_view addr fixed maxexp debond s o Htx); try exact H; cbn [snd].
    - intros id. fields. rewrite !aget_aset. destruct (n_id n =? id); [reflexivity|apply H].
    - apply epoch_fold_invariant; [|exact H]. intros s' id0 n Hs' _ id. fields.
      rewrite !aget_adel. destruct (n_id n =? id); [reflexivity|apply Hs'].
  Qed.

  Lemma node_claim_kinds_hist ops id :
    forallb tx_op ops = true ->
    aget id (s_nthr (run addr fixed maxexp debond ops st0)) =
    option_map node_kinds (aget id (s_nodes (run addr fixed maxexp debond ops st0))).
  Proof.
    intros H. apply (run_invariant addr fixed maxexp debond Inv_thr step_thr ops st0); [|exact H].
    intros x. reflexivity.
  Qed.
End RtStep.
