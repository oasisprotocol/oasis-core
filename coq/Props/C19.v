(* C19 - Stateless nodes return provider data only if bound to a verified header.
   Theorems about Verif.Stateless.Merkle (CometBFT simple Merkle tree and
   transaction inclusion proofs) and Verif.Stateless.Bind (the field-binding
   checks of go/consensus/cometbft/stateless/core.go).  H is an arbitrary hash
   function with a fixed output length; it is never assumed injective
   (collision H := exists x y, x <> y /\ H x = H y). *)
From Verif Require Import Lib.Base Stateless.Merkle Stateless.Proofs Stateless.Bind Stateless.BindProofs
  Stateless.Cache Stateless.CacheProofs Gen.StatelessApi Stateless.Api.

Theorem proof_complete (H : bytes -> bytes) (hlen : nat) (H_len : forall x, length (H x) = hlen) (txs : list bytes) (i : nat) (p : proof) :
  length (snd (proofs_for_txs H txs)) = length txs /\
  (nth_error (snd (proofs_for_txs H txs)) i = Some p ->
   verify_tx H (Some p) (Some (fst (proofs_for_txs H txs))) (nth i txs []) = MOk).
Proof. exact (conj (proofs_for_txs_length H txs) (proofs_for_txs_verify H hlen H_len txs i p)). Qed.
Print Assumptions proof_complete.

Theorem proof_sound_member (H : bytes -> bytes) (hlen : nat) (H_len : forall x, length (H x) = hlen) (txs : list bytes) (p : option proof) (tx : bytes) :
  verify_tx H p (Some (tx_root H txs)) tx = MOk -> In tx txs \/ collision H.
Proof. exact (proof_sound_member_l H hlen H_len txs p tx). Qed.
Print Assumptions proof_sound_member.

Theorem proof_sound (H : bytes -> bytes) (hlen : nat) (H_len : forall x, length (H x) = hlen) (txs : list bytes) (p : proof) (tx : bytes) :
  verify_tx H (Some p) (Some (tx_root H txs)) tx = MOk ->
  p_total p = Z.of_nat (length txs) ->
  ((0 <= p_index p < Z.of_nat (length txs))%Z /\ nth_error txs (Z.to_nat (p_index p)) = Some tx) \/ collision H.
Proof. exact (proof_sound_l H hlen H_len txs p tx). Qed.
Print Assumptions proof_sound.

Theorem index_not_bound_without_total (H : bytes -> bytes) (a b c : bytes) :
  verify H (Some (root H [a; b; c]))
    (mkProof 2 1 (leaf_hash H c) [inner_hash H (leaf_hash H a) (leaf_hash H b)]) c = MOk.
Proof. exact (index_not_bound_without_total_l H a b c). Qed.
Print Assumptions index_not_bound_without_total.

Theorem merkle_root_injective (H : bytes -> bytes) (hlen : nat) (H_len : forall x, length (H x) = hlen) (xs ys : list bytes) :
  root H xs = root H ys -> xs = ys \/ collision H.
Proof. exact (merkle_root_injective_l H hlen H_len xs ys). Qed.
Print Assumptions merkle_root_injective.

Theorem tx_root_injective (H : bytes -> bytes) (hlen : nat) (H_len : forall x, length (H x) = hlen) (txs1 txs2 : list bytes) :
  tx_root H txs1 = tx_root H txs2 -> txs1 = txs2 \/ collision H.
Proof. exact (tx_root_injective_l H hlen H_len txs1 txs2). Qed.
Print Assumptions tx_root_injective.

Theorem verify_block_binds (H : bytes -> bytes) (b : block) (lb : light_block) :
  verify_block H b lb = BOk ->
  b_height b = lb_height lb /\
  b_hash b = lb_hash lb /\
  (b_time_s b = lb_time_s lb /\ b_time_ns b = 0%Z) /\
  (b_sr_ns b = zero_namespace /\
   b_sr_version b = ((wrap64 (lb_height lb) + 2 ^ 64 - 1) mod 2 ^ 64)%N /\
   b_sr_type b = root_type_state /\
   b_sr_hash b = lb_app_hash lb) /\
  exists m c, b_meta b = Some m /\ m_header m = lb_header_bytes lb /\
              m_last_commit m = Some c /\ root H (c_sigs c) = lb_last_commit_hash lb.
Proof. exact (verify_block_binds_l H b lb). Qed.
Print Assumptions verify_block_binds.

Theorem verify_block_agree (H : bytes -> bytes) (hlen : nat) (H_len : forall x, length (H x) = hlen) (b1 b2 : block) (lb : light_block) :
  verify_block H b1 lb = BOk -> verify_block H b2 lb = BOk ->
  block_bound b1 = block_bound b2 \/ collision H.
Proof. exact (verify_block_agree_l H hlen H_len b1 b2 lb). Qed.
Print Assumptions verify_block_agree.

Theorem block_unbound_fields (H : bytes -> bytes) (b : block) (lb : light_block) (size : N) (h r : Z) (bid : bytes) :
  verify_block H (set_block_unbound b size h r bid) lb = verify_block H b lb.
Proof. exact (block_unbound_fields_l H b lb size h r bid). Qed.
Print Assumptions block_unbound_fields.

Theorem altered_height_rejected (H : bytes -> bytes) (lb : light_block) :
  (forall b, b_height b <> lb_height lb -> verify_block H b lb = BHeight) /\
  (forall rs rh, rs_height rs <> lb_height lb -> verify_block_results H rs rh lb = BHeight) /\
  (forall lt rs nrh, rs_height rs <> lb_height lb ->
     core_verify_block_results H lt rs nrh lb = BHeight \/ core_verify_block_results H lt rs nrh lb = BOther) /\
  (forall pm sp, pm_height pm <> lb_height lb -> verify_parameters H pm sp lb = BHeight) /\
  (forall vs, vs_height vs <> wrap_i64 (lb_height lb + 1) -> verify_next_validators H vs lb = BHeight).
Proof. exact (altered_height_rejected_l H lb). Qed.
Print Assumptions altered_height_rejected.

Theorem verify_results_binds (H : bytes -> bytes) (hlen : nat) (H_len : forall x, length (H x) = hlen) (rs1 rs2 : results) (rh : option bytes) (lb : light_block) :
  verify_block_results H rs1 rh lb = BOk -> verify_block_results H rs2 rh lb = BOk ->
  rs_height rs1 = lb_height lb /\ rs_height rs2 = lb_height lb /\
  exists t1 e1 t2 e2, rs_meta rs1 = Some (t1, e1) /\ rs_meta rs2 = Some (t2, e2) /\
    (map r_det t1 = map r_det t2 \/ collision H).
Proof. exact (list_response_binds H hlen H_len (verify_results_ok H rh lb) rs1 rs2). Qed.
Print Assumptions verify_results_binds.

Theorem results_unbound_fields (H : bytes -> bytes) (hlen : nat) (H_len : forall x, length (H x) = hlen) (h : Z) (txr : list tx_result) (ev ev' : bytes) (rest' : list bytes) (rh : option bytes) (lb : light_block) :
  length rest' = length txr ->
  verify_block_results H (mkResults h (Some (map (fun p => mkTxResult (r_det (fst p)) (snd p)) (combine txr rest'), ev'))) rh lb
  = verify_block_results H (mkResults h (Some (txr, ev))) rh lb.
Proof. exact (results_unbound_fields_l H h txr ev ev' rest' rh lb). Qed.
Print Assumptions results_unbound_fields.

Theorem core_results_below_latest (H : bytes -> bytes) (lt : Z) (rs : results) (nrh : option (option bytes)) (lb : light_block) :
  (lb_height lb < lt)%Z -> core_verify_block_results H lt rs nrh lb = BOk ->
  exists rh, nrh = Some rh /\ verify_block_results H rs rh lb = BOk.
Proof. exact (core_results_below_latest_l H lt rs nrh lb). Qed.
Print Assumptions core_results_below_latest.

Theorem core_results_latest_not_verified (H : bytes -> bytes) (lt : Z) (rs : results) (nrh : option (option bytes)) (lb : light_block) m :
  (lt <= lb_height lb)%Z -> rs_height rs = lb_height lb -> rs_meta rs = Some m ->
  core_verify_block_results H lt rs nrh lb = BOk.
Proof. exact (core_results_latest_not_verified_l H lt rs nrh lb m). Qed.
Print Assumptions core_results_latest_not_verified.

Theorem core_tx_results_binds (H : bytes -> bytes) (lt : Z) (txs : list bytes) (rs : results) (nrh : option (option bytes)) (ok : bool) (lb : light_block) :
  core_get_transactions_with_results H (verify_transactions H txs lb) lt rs nrh ok lb = BOk ->
  verify_transactions H txs lb = BOk /\ core_verify_block_results H lt rs nrh lb = BOk.
Proof. exact (core_tx_results_binds_l H lt txs rs nrh ok lb). Qed.
Print Assumptions core_tx_results_binds.

Theorem verify_transactions_binds (H : bytes -> bytes) (hlen : nat) (H_len : forall x, length (H x) = hlen) (txs1 txs2 : list bytes) (lb : light_block) :
  verify_transactions H txs1 lb = BOk -> verify_transactions H txs2 lb = BOk ->
  txs1 = txs2 \/ collision H.
Proof. exact (verify_transactions_binds_l H hlen H_len txs1 txs2 lb). Qed.
Print Assumptions verify_transactions_binds.

Theorem verify_transaction_proof_binds (H : bytes -> bytes) (hlen : nat) (H_len : forall x, length (H x) = hlen) (p : option proof) (tx : bytes) (txs : list bytes) (lb : light_block) :
  verify_transaction_proof H p tx lb = BOk -> verify_transactions H txs lb = BOk ->
  In tx txs \/ collision H.
Proof. exact (verify_transaction_proof_binds_l H hlen H_len p tx txs lb). Qed.
Print Assumptions verify_transaction_proof_binds.

Theorem verify_next_validators_binds (H : bytes -> bytes) (hlen : nat) (H_len : forall x, length (H x) = hlen) (v1 v2 : validators) (lb : light_block) :
  verify_next_validators H v1 lb = BOk -> verify_next_validators H v2 lb = BOk ->
  vs_height v1 = wrap_i64 (lb_height lb + 1) /\ vs_height v2 = wrap_i64 (lb_height lb + 1) /\
  exists l1 s1 l2 s2, vs_set v1 = Some (l1, s1) /\ vs_set v2 = Some (l2, s2) /\
    (map v_bytes l1 = map v_bytes l2 \/ collision H).
Proof. exact (list_response_binds H hlen H_len (verify_next_validators_ok H lb) v1 v2). Qed.
Print Assumptions verify_next_validators_binds.

Theorem verify_parameters_binds (H : bytes -> bytes) (p1 p2 : parameters) (sp : option bytes) (lb : light_block) :
  verify_parameters H p1 sp lb = BOk -> verify_parameters H p2 sp lb = BOk ->
  pm_height p1 = lb_height lb /\ pm_height p2 = lb_height lb /\
  pm_params_cbor p1 = pm_params_cbor p2 /\ sp = Some (pm_params_cbor p1) /\
  exists c1 c2, pm_meta p1 = Some c1 /\ pm_meta p2 = Some c2 /\
    (cp_hashed c1 = cp_hashed c2 \/ collision H).
Proof. exact (verify_parameters_binds_l H p1 p2 sp lb). Qed.
Print Assumptions verify_parameters_binds.

Theorem state_root_bound (H : bytes -> bytes) (hlen : nat) (H_len : forall x, length (H x) = hlen) (decode_meta_tx : bytes -> meta_tx) (lb_next : option light_block) (lb : light_block) (txs1 txs2 : list bytes) (h1 h2 : bytes) :
  fetch_state_root H decode_meta_tx lb_next lb txs1 = SrOk h1 ->
  fetch_state_root H decode_meta_tx lb_next lb txs2 = SrOk h2 ->
  h1 = h2 \/ collision H.
Proof. exact (state_root_bound_l H hlen H_len decode_meta_tx lb_next lb txs1 txs2 h1 h2). Qed.
Print Assumptions state_root_bound.

Theorem core_get_block_binds (H : bytes -> bytes) (lbo : option light_block) (b : block) :
  core_get_block H lbo b = BOk -> exists lb, lbo = Some lb /\ verify_block H b lb = BOk.
Proof. exact (with_light_block_ok (verify_block H b) lbo). Qed.
Print Assumptions core_get_block_binds.

Theorem core_get_transactions_binds (H : bytes -> bytes) (lbo : option light_block) (txs : list bytes) :
  core_get_transactions H lbo txs = BOk -> exists lb, lbo = Some lb /\ verify_transactions H txs lb = BOk.
Proof. exact (with_light_block_ok (verify_transactions H txs) lbo). Qed.
Print Assumptions core_get_transactions_binds.

Theorem core_get_transactions_with_proofs_binds (H : bytes -> bytes) (hlen : nat) (H_len : forall x, length (H x) = hlen) (lbo : option light_block) (txs : list bytes) (ret : list proof) :
  core_get_transactions_with_proofs H lbo txs ret = BOk ->
  exists lb, lbo = Some lb /\ verify_transactions H txs lb = BOk /\ length ret = length txs /\
    forall d, lb_data_hash lb = Some d ->
    forall i p, nth_error ret i = Some p -> verify_transaction_proof H (Some p) (nth i txs []) lb = BOk.
Proof. exact (core_get_transactions_with_proofs_binds_l H hlen H_len lbo txs ret). Qed.
Print Assumptions core_get_transactions_with_proofs_binds.

Theorem core_get_parameters_binds (H : bytes -> bytes) (lbo : option light_block) (pm : parameters) (sp : option bytes) :
  core_get_parameters H lbo pm sp = BOk -> exists lb, lbo = Some lb /\ verify_parameters H pm sp lb = BOk.
Proof. exact (with_light_block_ok (verify_parameters H pm sp) lbo). Qed.
Print Assumptions core_get_parameters_binds.

Theorem core_get_validators_binds (H : bytes -> bytes) (lbo : option light_block) (height : Z) (lbp : option light_block) (vs : validators) :
  core_get_validators H lbo height lbp vs = BOk ->
  (exists lb, lbo = Some lb) \/
  (lbo = None /\ (2 <= height)%Z /\ exists p, lbp = Some p /\ verify_next_validators H vs p = BOk).
Proof. exact (core_get_validators_binds_l H lbo height lbp vs). Qed.
Print Assumptions core_get_validators_binds.

Theorem core_submit_tx_with_proof_binds (H : bytes -> bytes) (hlen : nat) (H_len : forall x, length (H x) = hlen) (lbo : option light_block) (p : option proof) (tx : bytes) (txs : list bytes) :
  core_submit_tx_with_proof H lbo p tx = BOk ->
  exists lb, lbo = Some lb /\ verify_transaction_proof H p tx lb = BOk /\
    (verify_transactions H txs lb = BOk -> In tx txs \/ collision H).
Proof. exact (core_submit_tx_with_proof_binds_l H hlen H_len lbo p tx txs). Qed.
Print Assumptions core_submit_tx_with_proof_binds.

Theorem stateless_api_covered :
  stateless_provider_backed = expected_provider_backed /\
  map fst api_coverage = map fst stateless_provider_backed /\
  stateless_verification_path = expected_verification_path.
Proof. exact (conj eq_refl (conj eq_refl eq_refl)). Qed.
Print Assumptions stateless_api_covered.

Theorem history_bound (H : bytes -> bytes) (dec : bytes -> meta_tx)
        (V : Z -> light_block -> Prop) (R : Z -> option bytes -> Prop)
        (ops : list cop) (st st' : cstate) (answers : list canswer) :
  inv H dec V R st -> Forall (op_wf V R) ops -> crun H dec st ops = (st', answers) ->
  inv H dec V R st' /\ Forall2 (answer_ok H dec V R) ops answers.
Proof. exact (history_bound_l H dec V R ops st st' answers). Qed.
Print Assumptions history_bound.

Theorem history_from_init_bound (H : bytes -> bytes) (dec : bytes -> meta_tx)
        (V : Z -> light_block -> Prop) (R : Z -> option bytes -> Prop)
        (ops : list cop) (st' : cstate) (answers : list canswer) :
  Forall (op_wf V R) ops -> crun H dec cstate_init ops = (st', answers) ->
  inv H dec V R st' /\ Forall2 (answer_ok H dec V R) ops answers.
Proof. exact (history_bound_l H dec V R ops cstate_init st' answers (inv_init H dec V R)). Qed.
Print Assumptions history_from_init_bound.

Theorem state_root_unique (H : bytes -> bytes) (hlen : nat) (H_len : forall x, length (H x) = hlen)
        (dec : bytes -> meta_tx) (V : Z -> light_block -> Prop) (h : Z) (r1 r2 : bytes) :
  (forall k l1 l2, V k l1 -> V k l2 -> l1 = l2) ->
  (forall n l txs r, V (h + 1)%Z n -> V h l -> verify_transactions H txs l = BOk ->
     state_root_from_block_txs dec txs = SrOk r -> state_root_from_light_block n = SrOk r) ->
  sr_bound H dec V h r1 -> sr_bound H dec V h r2 -> r1 = r2 \/ collision H.
Proof. exact (state_root_unique_l H hlen H_len dec V h r1 r2). Qed.
Print Assumptions state_root_unique.

Theorem lru_capacity_respected (V : Type) (cap : nat) (k : Z) (v : V) (l : list (Z * V)) :
  (1 <= cap)%nat -> (length (lru_put cap k v l) <= cap)%nat.
Proof. exact (lru_put_length cap k v l). Qed.
Print Assumptions lru_capacity_respected.

Theorem core_validators_binds (H : bytes -> bytes) (height : Z) (lbp : option light_block) (vs : validators) :
  core_get_validators H None height lbp vs = BOk ->
  (2 <= height)%Z /\
  exists p l s, lbp = Some p /\ vs_set vs = Some (l, s) /\ vs_height vs = wrap_i64 (lb_height p + 1) /\
    root H (map v_bytes l) = lb_next_validators_hash p.
Proof. exact (core_validators_binds_l H height lbp vs). Qed.
Print Assumptions core_validators_binds.
