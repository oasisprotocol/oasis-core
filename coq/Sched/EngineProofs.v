(* C14: the validator set tracked by the scheduler and the set held by the
   consensus engine stay equal over any sequence of election blocks; the
   election trigger. *)
From Verif Require Import Lib.Base Sched.Elect Sched.ElectSpec Sched.ElectLemmas Sched.ElectCore
  Sched.ElectProofs Sched.ElectProofs2.
From Coq Require Import Permutation.

(* every elected validator set is a map (distinct consensus keys) *)
Theorem core_keys_nodup p ents pe cands sh vals vents :
  elect_core p ents pe cands sh = VOk vals vents -> NoDup (map fst (powers_of vals)).
Proof.
  intros H. destruct (elect_ok_inv _ _ _ _ _ _ _ H) as [acc [Hf [-> _]]].
  unfold powers_of. rewrite map_map. cbn [fst].
  apply nodup_map_sort_by. eapply fill_keys_nodup. exact Hf.
Qed.

Definition same_map (a b : pmap) : Prop := forall k, aget k a = aget k b.

(* one block: the set elected in it (None: no election, or it failed) and the
   validator updates handed to the engine in EndBlock *)
Definition block := (option pmap * list (N * N))%type.

(* scheduler side: CurrentValidators; engine side: its own copy *)
Fixpoint run_blocks (cur eng : pmap) (bs : list block) : pmap * pmap :=
  match bs with
  | [] => (cur, eng)
  | (None, ups) :: r => run_blocks cur (apply_updates eng ups) r
  | (Some pend, ups) :: r => run_blocks pend (apply_updates eng ups) r
  end.

(* what updateValidators does: nothing without a pending set, otherwise the
   diff against the tracked current set, emitted in any order *)
Fixpoint blocks_ok (cur : pmap) (bs : list block) : Prop :=
  match bs with
  | [] => True
  | (None, ups) :: r => ups = [] /\ blocks_ok cur r
  | (Some pend, ups) :: r =>
      NoDup (map fst pend) /\ Forall (fun kv => snd kv <> 0) pend /\
      Permutation ups (diff_validators cur pend) /\ blocks_ok pend r
  end.

(* after ANY sequence of blocks -- elections that succeed, fail or do not
   happen, with membership, stake and parameters changing arbitrarily in
   between -- the engine holds exactly the last elected set *)
Theorem engine_tracks_elected bs : forall cur eng,
  NoDup (map fst cur) -> same_map eng cur -> blocks_ok cur bs ->
  same_map (snd (run_blocks cur eng bs)) (fst (run_blocks cur eng bs)) /\
  NoDup (map fst (fst (run_blocks cur eng bs))).
Proof.
  induction bs as [|[[pend|] ups] r IH]; intros cur eng Hc Hs Hok; cbn [run_blocks blocks_ok] in *.
  - cbn [fst snd]. split; assumption.
  - destruct Hok as [Hp [Hnz [Hperm Hr]]]. apply IH; [exact Hp| |exact Hr].
    exact (diff_applies_from cur eng pend ups Hc Hp Hnz Hperm Hs).
  - destruct Hok as [-> Hr]. unfold apply_updates. cbn [fold_left]. apply IH; assumption.
Qed.

(* the premise of blocks_ok holds for every set the election produces *)
Theorem elected_block_ok p ents epoch nodes pe sh vals vents cur ups :
  (forall n, In n sh -> In n (vcands p ents epoch nodes)) ->
  elect_core p ents pe (vcands p ents epoch nodes) sh = VOk vals vents ->
  Permutation ups (diff_validators cur (powers_of vals)) ->
  NoDup (map fst (powers_of vals)) /\ Forall (fun kv => snd kv <> 0) (powers_of vals) /\
  Permutation ups (diff_validators cur (powers_of vals)).
Proof.
  intros Hsh H Hp. split; [eapply core_keys_nodup; exact H|].
  split; [eapply core_powers_nonzero; eassumption|exact Hp].
Qed.

Theorem should_elect_spec base epoch changed slashed :
  (fst (should_elect base epoch changed slashed) = true <->
     epoch <> base /\ (changed = true \/ slashed = true)) /\
  (snd (should_elect base epoch changed slashed) = true <->
     epoch <> base /\ changed = true).
Proof.
  unfold should_elect. destruct (epoch =? base) eqn:E; destruct changed, slashed; cbn [fst snd];
    intuition (try discriminate; try lia).
Qed.

Example ex_engine :
  let b1 := [(101, 312); (102, 62)] in
  let b2 := [(101, 400); (103, 62)] in
  run_blocks [] [] [(Some b1, diff_validators [] b1); (None, []);
                    (Some b2, rev (diff_validators b1 b2)); (Some b2, diff_validators b2 b2)]
  = (b2, [(101, 400); (103, 62)]) /\
  blocks_ok [] [(Some b1, diff_validators [] b1); (None, []);
                (Some b2, rev (diff_validators b1 b2)); (Some b2, diff_validators b2 b2)].
Proof.
  split; [vm_compute; reflexivity|].
  cbn [blocks_ok]. repeat split; try reflexivity;
    try (repeat constructor; cbn; intros H; repeat (destruct H as [H|H]; [discriminate|]); exact H);
    try (repeat constructor; cbn; lia).
  vm_compute. symmetry. apply Permutation_rev.
Qed.
