(* Node status (property C17): a status record exists exactly for the registered
   nodes; the freeze end of a persisting record changes only by the freezing
   environment or by an UnfreezeNode transaction of the node's entity after the
   freeze end; re-registration keeps it. *)
From Verif Require Import Lib.Base Registry.Model Registry.Lemmas Registry.Proofs.

Definition has {V} (k : N) (l : list (N * V)) : Prop := exists v, aget k l = Some v.
Definition Inv_status (s : state) : Prop := forall id, has id (s_status s) <-> has id (s_nodes s).

Lemma has_aset {V} k k' (v : V) l : has k' (aset k v l) <-> k' = k \/ has k' l.
Proof.
  unfold has. rewrite aget_aset. destruct (N.eqb_spec k k') as [<-|Hne].
  - split; [auto|]. intros _. eauto.
  - split; [auto|]. intros [E|H]; [congruence|exact H].
Qed.
Lemma has_adel {V} k k' (l : list (N * V)) : has k' (adel k l) <-> k' <> k /\ has k' l.
Proof.
  unfold has. rewrite aget_adel. destruct (N.eqb_spec k k') as [<-|Hne].
  - split; [intros [v H]; discriminate|]. intros [H _]. congruence.
  - split; [intros H; split; [congruence|exact H]|]. intros [_ H]. exact H.
Qed.

Definition freeze_kept (before after : list (N * status)) : Prop :=
  forall id st', aget id after = Some st' ->
                 exists st, aget id before = Some st /\ st_freeze st' = st_freeze st.

Lemma freeze_kept_refl l : freeze_kept l l.
Proof. intros id st' H. eauto. Qed.
Lemma freeze_kept_trans a b c : freeze_kept a b -> freeze_kept b c -> freeze_kept a c.
Proof.
  intros H1 H2 id st' H. destruct (H2 _ _ H) as [st1 [A B]]. destruct (H1 _ _ A) as [st0 [C D]].
  exists st0. split; [exact C|congruence].
Qed.
Lemma freeze_kept_aset l id st st' :
  aget id l = Some st -> st_freeze st' = st_freeze st -> freeze_kept l (aset id st' l).
Proof.
  intros Hst Hf k x. rewrite aget_aset. destruct (N.eqb_spec id k) as [<-|Hne]; [|eauto].
  intros [= <-]. eauto.
Qed.

Lemma status_set_existing s id st st' :
  Inv_status s -> aget id (s_status s) = Some st -> Inv_status (with_status s (aset id st' (s_status s))).
Proof.
  intros H Hst k. fields. rewrite has_aset, <- (H k). split; [|auto].
  intros [->|Hk]; [exists st; exact Hst|exact Hk].
Qed.

Section Status.
  Variable addr : N -> N.
  Variable fixed : bool.
  Variables maxexp debond : N.
  Notation stp := (step addr fixed maxexp debond).

  Lemma mark_fold_status e l s :
    Inv_status s -> Inv_status (fold_left (mark_one e) l s) /\
                    freeze_kept (s_status s) (s_status (fold_left (mark_one e) l s)).
  Proof.
    intros H. apply (fold_left_invariant (fun s' => Inv_status s' /\ freeze_kept (s_status s) (s_status s')));
      [|split; [exact H|apply freeze_kept_refl]].
    clear H. intros a id [A B]. unfold mark_one. destruct (aget id (s_nodes a)) as [n|]; [|auto].
    destruct (aget id (s_status a)) as [st|] eqn:Es; [|auto]. destruct (n_exp n <? e); [|auto]. split.
    - eapply status_set_existing; eauto.
    - eapply freeze_kept_trans; [exact B|]. fields. eapply freeze_kept_aset; eauto.
  Qed.

  Lemma epoch_fold_status e l s :
    Inv_status s ->
    Inv_status (fold_left (epoch_one addr debond e) l s) /\
    freeze_kept (s_status s) (s_status (fold_left (epoch_one addr debond e) l s)).
  Proof.
    intros H. apply (epoch_fold_invariant addr debond
                       (fun s' => Inv_status s' /\ freeze_kept (s_status s) (s_status s')));
      [|split; [exact H|apply freeze_kept_refl]].
    clear H. intros a id n [A B] _. split.
    - intros k. fields. rewrite !has_adel, (A k). reflexivity.
    - eapply freeze_kept_trans; [exact B|]. intros k st'. fields. rewrite aget_adel.
      destruct (n_id n =? k); [discriminate|eauto].
  Qed.

  Lemma reg_status_spec s n txs signers ok :
    reg_node_check maxexp s txs n signers ok = COk ->
    (forall k, has k (reg_status s n) <-> k = n_id n \/ has k (s_status s)) /\
    (freeze_kept (s_status s) (reg_status s n) \/ aget (n_id n) (s_nodes s) = None).
  Proof.
    intros EC. apply reg_node_checks_passed in EC as (_ & _ & _ & _ & _ & _ & Hcur). unfold reg_status.
    destruct (aget (n_id n) (s_nodes s)) as [cur|]; [|split; [intros k; apply has_aset|auto]].
    destruct (Hcur cur eq_refl) as [_ [st Hst]]. rewrite Hst.
    assert (Hsame : forall k, has k (s_status s) <-> k = n_id n \/ has k (s_status s))
      by (intros k; split; [auto|]; intros [->|Hk]; [exists st; exact Hst|exact Hk]).
    destruct (n_exp cur <? s_epoch s); [|split; [exact Hsame|left; apply freeze_kept_refl]].
    split; [intros k; apply has_aset|]. left. eapply freeze_kept_aset; eauto.
  Qed.

  Lemma step_status s o : tx_op o = true -> Inv_status s -> Inv_status (snd (stp s o)).
  Proof.
    intros Htx H. destruct (step_view addr fixed maxexp debond s o Htx); try exact H; fields.
    - intros k. change (has k (reg_status s n) <-> has k (aset (n_id n) n (s_nodes s))).
      rewrite has_aset, <- (H k). apply (reg_status_spec s n txs signers ok H0).
    - apply epoch_fold_status. rewrite <- H0. apply (mark_fold_status e (sorted_ids s) (with_epoch s e) H).
    - eapply status_set_existing; eauto.
    - eapply status_set_existing; eauto.
  Qed.

  Lemma status_hist ops s :
    Inv_status s -> forallb tx_op ops = true -> Inv_status (run addr fixed maxexp debond ops s).
  Proof. apply run_invariant, step_status. Qed.

  Lemma status_mirrors_nodes_hist ops id :
    forallb tx_op ops = true ->
    ((exists st, aget id (s_status (run addr fixed maxexp debond ops st0)) = Some st) <->
     (exists n, aget id (s_nodes (run addr fixed maxexp debond ops st0)) = Some n)).
  Proof.
    intros H. apply status_hist; [|exact H].
    intros k. split; intros [x Hx]; discriminate.
  Qed.

  Lemma authority_unfreeze s o s' id st st' :
    tx_op o = true -> IDS (s_nodes s) -> Inv_status s -> stp s o = (COk, s') ->
    aget id (s_status s) = Some st -> aget id (s_status s') = Some st' ->
    st_freeze st' <> st_freeze st ->
    (exists e, o = LFreeze id e /\ st_freeze st' = e) \/
    (exists txs n, o = TUnfreeze txs id /\ aget id (s_nodes s) = Some n /\ txs = n_ent n /\
                   st_freeze st <= s_epoch s /\ st_freeze st' = 0).
  Proof.
    intros Htx _ Hinv H Hst. apply (f_equal snd) in H. cbn [snd] in H. subst s'.
    destruct (step_view addr fixed maxexp debond s o Htx); fields; intros Hst' Hch; try congruence.
    - exfalso. destruct (reg_status_spec s n txs signers ok H) as [_ [K|Hnone]].
      + destruct (K _ _ Hst') as [x [A B]]. congruence.
      + unfold reg_status in Hst'. rewrite Hnone, aget_aset in Hst'.
        destruct (N.eqb_spec (n_id n) id) as [E|Hne]; [|congruence].
        destruct (proj1 (Hinv id)) as [m Hm]; [exists st; exact Hst|]. congruence.
    - exfalso. rewrite <- H in Hst'.
      destruct (mark_fold_status e (sorted_ids s) (with_epoch s e) Hinv) as [A B].
      destruct (epoch_fold_status e (sorted_ids s) _ A) as [_ C].
      destruct (freeze_kept_trans _ _ _ B C _ _ Hst') as [x [D E]]. fields. congruence.
    - unfold unfreeze_check in H.
      destruct (aget id0 (s_nodes s)) as [n|] eqn:En; [|discriminate].
      destruct (negb (txs =? n_ent n)) eqn:Et; [discriminate|]. rewrite H0 in H.
      destruct (s_epoch s <? st_freeze st0) eqn:Ef; [discriminate|].
      rewrite aget_aset in Hst'. destruct (N.eqb_spec id0 id) as [->|Hne]; [|congruence].
      injection Hst' as <-. right. exists txs, n.
      apply negb_false_iff, N.eqb_eq in Et. apply N.ltb_ge in Ef. replace st with st0 by congruence. auto.
    - rewrite aget_aset in Hst'. destruct (N.eqb_spec id0 id) as [->|Hne]; [|congruence].
      injection Hst' as <-. left. exists e. auto.
  Qed.
End Status.
