(* Proofs about the multiplexer model Verif.Abci.Mux.

   Dispatch order: [sort_by] returns a strictly sorted permutation of its argument, hence
   depends only on the SET of registered applications ([sort_by_canonical]).

   One block: every entry point is brought to the normal form [reference cfg regs s b] --
   execute b on the committed state with the sorted application list, drop the cache.  A cache
   left behind by PrepareProposal / ProcessProposal does no harm because it satisfies
   [cache_inv]: it holds the results of SOME block executed on the committed state, and it is
   reused only for a block identified with that one by isEqual plus the commit-info hypothesis
   [commit_as_prepared] ([reuse_sound]) or by the block hash ([finalize_inv], whence the
   [collision] alternative).  [run_path_inv] is the general statement; [path_reference] is the
   case of an empty cache, where no collision can arise.

   Histories: [run_spec] and [run_spec_stale] simulate a replica's life by [spec_run], which
   executes the blocks alone under one fixed configuration and registration order; two
   replicas are compared through it.

   At the end, closed examples on the instance [toy]: the hypotheses can be met, and witnesses
   for what fails without one of them. *)
From Coq Require Import Permutation Sorted.
From Verif Require Import Lib.Base Gen.MuxOrder Abci.Mux.

Section SortProofs.
  Context {A : Type} (key : A -> bytes).
  Definition klt (a b : A) : Prop := bytes_cmp (key a) (key b) = Lt.

  Lemma klt_irrefl a : ~ klt a a.
  Proof. unfold klt. rewrite bytes_cmp_refl. discriminate. Qed.
  Lemma klt_trans a b c : klt a b -> klt b c -> klt a c.
  Proof. unfold klt. apply bytes_cmp_lt_trans. Qed.

  Lemma insert_by_perm x l : Permutation (insert_by key x l) (x :: l).
  Proof.
    induction l as [|y r IH]; cbn [insert_by]; [apply Permutation_refl|].
    destruct (key_leb key x y); [apply Permutation_refl|]. rewrite IH. apply perm_swap.
  Qed.

  Lemma sort_by_perm l : Permutation (sort_by key l) l.
  Proof.
    induction l as [|x l IH]; cbn [sort_by fold_right]; [apply Permutation_refl|].
    rewrite insert_by_perm. apply perm_skip. exact IH.
  Qed.

  Lemma insert_by_sorted x l :
    StronglySorted klt l -> ~ In (key x) (map key l) -> StronglySorted klt (insert_by key x l).
  Proof.
    induction l as [|y r IH]; cbn [insert_by]; intros Hs Hn.
    - constructor; constructor.
    - inversion Hs as [|? ? Hs' Hall]; subst.
      unfold key_leb. destruct (bytes_cmp (key x) (key y)) eqn:E.
      + exfalso. apply Hn. left. symmetry. apply bytes_cmp_eq. exact E.
      + constructor; [exact Hs|]. constructor; [exact E|].
        rewrite Forall_forall in *. intros z Hz. eapply klt_trans; [exact E|apply Hall; exact Hz].
      + constructor.
        * apply IH; [exact Hs'|]. intros Hin. apply Hn. right. exact Hin.
        * rewrite Forall_forall in *. intros z Hz.
          rewrite insert_by_perm in Hz. destruct Hz as [<-|Hz].
          -- unfold klt. rewrite bytes_cmp_antisym, E. reflexivity.
          -- apply Hall. exact Hz.
  Qed.

  Lemma sort_by_sorted l : NoDup (map key l) -> StronglySorted klt (sort_by key l).
  Proof.
    induction l as [|x l IH]; cbn [map]; intros Hnd; [constructor|].
    inversion Hnd as [|? ? Hni Hnd']; subst.
    apply (insert_by_sorted x (sort_by key l)); [apply IH; exact Hnd'|]. rewrite sort_by_perm. exact Hni.
  Qed.

  Lemma sorted_perm_unique l1 : forall l2,
    StronglySorted klt l1 -> StronglySorted klt l2 -> Permutation l1 l2 -> l1 = l2.
  Proof.
    induction l1 as [|x r1 IH]; intros l2 H1 H2 Hp.
    - apply Permutation_nil in Hp. congruence.
    - destruct l2 as [|y r2]; [apply Permutation_sym, Permutation_nil in Hp; discriminate|].
      inversion H1 as [|? ? H1' A1]; inversion H2 as [|? ? H2' A2]; subst.
      rewrite Forall_forall in A1, A2.
      assert (Hx : In x (y :: r2)) by (eapply Permutation_in; [exact Hp|left; reflexivity]).
      assert (Hy : In y (x :: r1)) by (eapply Permutation_in; [apply Permutation_sym; exact Hp|left; reflexivity]).
      assert (E : x = y).
      { destruct Hx as [Hx|Hx]; [congruence|]. destruct Hy as [Hy|Hy]; [congruence|].
        exfalso. apply (klt_irrefl x). eapply klt_trans; [apply A1; exact Hy|apply A2; exact Hx]. }
      subst y. f_equal. apply IH; [exact H1'|exact H2'|]. eapply Permutation_cons_inv. exact Hp.
  Qed.

  Theorem sort_by_canonical l1 l2 :
    NoDup (map key l1) -> Permutation l1 l2 -> sort_by key l1 = sort_by key l2.
  Proof.
    intros Hnd Hp. apply sorted_perm_unique.
    - apply sort_by_sorted. exact Hnd.
    - apply sort_by_sorted. rewrite <- Hp. exact Hnd.
    - rewrite !sort_by_perm. exact Hp.
  Qed.
End SortProofs.

Lemma header_eqb_eq a b : header_eqb a b = true -> a = b.
Proof.
  destruct a, b. unfold header_eqb. cbn.
  intros [[[->%N.eqb_eq ->%N.eqb_eq]%andb_prop ->%bytes_eqb_eq]%andb_prop ->%bytes_eqb_eq]%andb_prop. reflexivity.
Qed.

Lemma misb_eqb_eq a b : misb_eqb a b = true -> a = b.
Proof.
  destruct a, b. unfold misb_eqb. cbn.
  intros [[[[[->%N.eqb_eq ->%bytes_eqb_eq]%andb_prop ->%N.eqb_eq]%andb_prop ->%N.eqb_eq]%andb_prop
            ->%N.eqb_eq]%andb_prop ->%N.eqb_eq]%andb_prop. reflexivity.
Qed.

(* isEqual accepts only the remembered header / txs / misbehavior (it says nothing
   about the commit info: proposal has no such field). *)
Lemma is_equal_sound p hd txs ms :
  is_equal p hd txs ms = true -> p_header p = Some hd /\ p_txs p = txs /\ p_misb p = ms.
Proof.
  unfold is_equal. destruct (p_header p) as [ph|]; [|discriminate].
  destruct (negb (bytes_eqb _ _)); [discriminate|].
  destruct (negb (_ =? _)); [discriminate|].
  destruct (negb (_ =? _)); [discriminate|].
  destruct (header_eqb hd ph) eqn:Eh; cbn [negb]; [|discriminate].
  destruct (list_eqb bytes_eqb txs (p_txs p)) eqn:Et; cbn [negb]; [|discriminate].
  intros Em. apply header_eqb_eq in Eh. apply (list_eqb_eq _ (fun x y => proj1 (bytes_eqb_eq x y))) in Et.
  apply (list_eqb_eq _ misb_eqb_eq) in Em. subst. auto.
Qed.

(* The step orders of BeginBlock / EndBlock that exec_block relies on, as read from mux.go by
   harness/cmd/gen muxorder: the consensus-upgrade handlers (which write state) run before the
   block-metadata validation, after the applications' EndBlock; in BeginBlock they run before
   the applications.  [prepared_block_reexecutes] (hence cached_equals_reexecution and every
   ProposeCached case) and [accepted_block_binds_metadata_and_upgrade] are proved under the
   first fact. *)
Lemma mux_step_order :
  endblock_upgrade_before_validate = true /\ endblock_apps_before_validate = true /\
  beginblock_upgrade_before_apps = true.
Proof. repeat split; reflexivity. Qed.

Section MuxProofs.
  Variable S : msig.
  Local Notation mapp := (Mux.app S).
  Local Notation node := (node S).
  Local Notation outputs := (outputs S).

  Lemma auth_deliver_local c1 c2 t s : auth S Deliver c1 t s = auth S Deliver c2 t s.
  Proof. reflexivity. Qed.

  Lemma process_tx_deliver_local c1 c2 apps pr pg raw s sc :
    process_tx S Deliver c1 apps pr pg raw s sc = process_tx S Deliver c2 apps pr pg raw s sc.
  Proof. reflexivity. Qed.

  Lemma deliver_all_local c1 c2 apps pr pg txs : forall s sc acc,
    deliver_all S c1 apps pr pg txs s sc acc = deliver_all S c2 apps pr pg txs s sc acc.
  Proof.
    induction txs as [|raw r IH]; intros s sc acc; cbn [deliver_all]; [reflexivity|].
    rewrite (process_tx_deliver_local c1 c2).
    destruct (process_tx S Deliver c2 apps pr pg raw s sc) as [[[[s' ev] res] sc']|]; [apply IH|reflexivity].
  Qed.

  Theorem exec_block_local c1 c2 apps pg s b :
    exec_block S c1 apps pg s b = exec_block S c2 apps pg s b.
  Proof.
    unfold exec_block. destruct (sg_upgrade_begin S (b_header b) s) as [[s0 uev0]|]; [|reflexivity].
    destruct (begin_all S apps (binfo_of b) s0 uev0) as [[s1 bev]|]; [|reflexivity].
    rewrite (deliver_all_local c1 c2). reflexivity.
  Qed.

  Lemma process_tx_ordinary cfg apps pr raw s :
    (forall t, sg_decode S s raw = inl t -> sg_is_meta S t = None) ->
    exists s' ev res, forall pg sc, process_tx S Deliver cfg apps pr pg raw s sc = Some (s', ev, res, sc).
  Proof.
    intros Hm. unfold process_tx. destruct (sg_decode S s raw) as [t|e]; [|repeat eexists].
    rewrite (Hm t eq_refl).
    destruct (find_app S apps t) as [a|]; [|repeat eexists].
    destruct (if sg_is_critical S t then _ else _) as [[s1 ev1]|e]; [|repeat eexists].
    destruct (sg_byte_gas S s1 raw t); [repeat eexists|].
    destruct (_ && _ && _); [repeat eexists|].
    destruct (a_exec S a Deliver t s1) as [[s2 ev2] [e|]]; [repeat eexists|].
    destruct (sg_post_exec S t s2); repeat eexists.
  Qed.

  Lemma process_tx_scratch cfg apps pr pg raw s sc r :
    process_tx S Deliver cfg apps pr pg raw s sc = Some r ->
    snd r = sc \/ exists t md, sg_decode S s raw = inl t /\ sg_is_meta S t = Some md /\ snd r = sc ++ [md].
  Proof.
    destruct (sg_decode S s raw) as [t|e] eqn:Ed; [destruct (sg_is_meta S t) as [md|] eqn:Em|].
    1: { unfold process_tx. rewrite Ed, Em. destruct pg; [discriminate|].
         destruct (negb (sg_meta_ok S pr t)); [discriminate|].
         intros [= <-]. right. exists t, md. auto. }
    all: destruct (process_tx_ordinary cfg apps pr raw s) as (s' & ev & res & Hp); [congruence|].
    all: rewrite Hp; intros [= <-]; left; reflexivity.
  Qed.

  (* a proposing execution sees no system transaction (it would panic) *)
  Lemma process_tx_proposing cfg apps pr raw s sc r :
    process_tx S Deliver cfg apps pr true raw s sc = Some r ->
    process_tx S Deliver cfg apps pr false raw s sc = Some r /\ snd r = sc.
  Proof.
    intros H. destruct (process_tx_ordinary cfg apps pr raw s) as (s' & ev & res & Hp).
    - intros t Ed. destruct (sg_is_meta S t) eqn:Em; [|reflexivity].
      unfold process_tx in H. rewrite Ed, Em in H. discriminate H.
    - rewrite Hp in H |- *. inversion H. auto.
  Qed.

  Lemma deliver_all_proposing cfg apps pr txs : forall s sc acc s' acc' sc',
    deliver_all S cfg apps pr true txs s sc acc = Some (s', acc', sc') ->
    deliver_all S cfg apps pr false txs s sc acc = Some (s', acc', sc') /\ sc' = sc.
  Proof.
    induction txs as [|raw r IH]; intros s sc acc s' acc' sc'; cbn [deliver_all].
    - intros H; inversion H; auto.
    - destruct (process_tx S Deliver cfg apps pr true raw s sc) as [[[[s1 ev] res] sc1]|] eqn:E; [|discriminate].
      apply process_tx_proposing in E as [E Esc]. cbn [snd] in Esc. subst sc1. rewrite E. apply IH.
  Qed.

  Lemma deliver_all_app cfg apps pr pg l1 l2 : forall s sc acc,
    deliver_all S cfg apps pr pg (l1 ++ l2) s sc acc =
    match deliver_all S cfg apps pr pg l1 s sc acc with
    | None => None
    | Some (s', acc', sc') => deliver_all S cfg apps pr pg l2 s' sc' acc'
    end.
  Proof.
    induction l1 as [|raw r IH]; intros s sc acc; cbn [deliver_all Datatypes.app]; [reflexivity|].
    destruct (process_tx S Deliver cfg apps pr pg raw s sc) as [[[[s1 ev] res] sc1]|]; [apply IH|reflexivity].
  Qed.

  Definition meta_in (txs : list bytes) (md : bytes * bytes) : Prop :=
    exists raw s_mid t, In raw txs /\ sg_decode S s_mid raw = inl t /\ sg_is_meta S t = Some md.

  Lemma deliver_all_scratch cfg apps pr pg txs : forall s sc acc s' acc' sc',
    deliver_all S cfg apps pr pg txs s sc acc = Some (s', acc', sc') ->
    forall md, In md sc' -> In md sc \/ meta_in txs md.
  Proof.
    induction txs as [|raw r IH]; intros s sc acc s' acc' sc'; cbn [deliver_all].
    - intros [= _ _ <-] md Hin. left. exact Hin.
    - destruct (process_tx S Deliver cfg apps pr pg raw s sc) as [[[[s1 ev] res] sc1]|] eqn:E; [|discriminate].
      intros H md Hin. destruct (IH _ _ _ _ _ _ H md Hin) as [Hin1|(raw' & sm & t & Hr & Hd & Hm)].
      + apply process_tx_scratch in E. cbn [snd] in E. destruct E as [->|(t & md' & Hd & Hm & ->)]; [left; exact Hin1|].
        apply in_app_or in Hin1 as [Hin1|[<-|[]]]; [left; exact Hin1|].
        right. exists raw, s, t. split; [left; reflexivity|split; assumption].
      + right. exists raw', sm, t. split; [right; exact Hr|split; assumption].
  Qed.

  (* The proposer's metadata transaction decodes to the metadata it encodes and is
     signed by the key the header names as proposer (an honest proposer; the tx is
     below the size limit by construction, system.go:44-50). *)
  Definition meta_wf (key proposer : bytes) : Prop :=
    forall s sr er, exists t,
      sg_decode S s (sg_meta_tx S key sr er) = inl t /\ sg_is_meta S t = Some (sr, er) /\ sg_meta_ok S proposer t = true.

  Definition with_meta (o : outputs) : outputs :=
    mkOut S (o_begin_events S o) (o_tx S o ++ [(sg_ok_meta S, [])]) (o_end_events S o) (o_valupd S o) (o_events_root S o).

  Lemma flat_map_snd_app (l : list (sg_txres S * list (sg_evt S))) x :
    flat_map snd (l ++ [(x, [])]) = flat_map snd l.
  Proof. rewrite flat_map_app. cbn. rewrite app_nil_r. reflexivity. Qed.

  Lemma prepared_block_reexecutes cfg cfg' apps key hd cands cm ms h s s' o :
    meta_wf key (h_proposer hd) ->
    exec_block S cfg apps true s (mkBlock hd cands cm ms []) = Some (s', o) ->
    exec_block S cfg' apps false s
      (mkBlock hd (cands ++ [sg_meta_tx S key (sg_root S s') (o_events_root S o)]) cm ms h) = Some (s', with_meta o).
  Proof.
    intros Hm. unfold exec_block, binfo_of. cbn [b_header b_txs b_commit b_misb].
    rewrite (proj1 mux_step_order). cbn iota.
    destruct (sg_upgrade_begin S hd s) as [[s0 uev0]|]; [|discriminate].
    destruct (begin_all S apps _ s0 uev0) as [[s1 bev]|]; [|discriminate].
    rewrite (deliver_all_local cfg' cfg).
    destruct (deliver_all S cfg apps (h_proposer hd) true cands s1 [] []) as [[[s2 txr] sc]|] eqn:Ed; [|discriminate].
    apply deliver_all_proposing in Ed as [Ed Esc]. subst sc.
    destruct (end_all S apps s2 [] []) as [[[s3 eev] vu]|] eqn:Ee; [|discriminate].
    destruct (sg_upgrade_end S hd s3) as [[s4 uev]|] eqn:Eu; [|discriminate].
    cbn [validate_system]. intros [= <- <-]. cbn [o_events_root].
    rewrite deliver_all_app, Ed. cbn [deliver_all].
    destruct (Hm s2 (sg_root S s4) (sg_evroot S (all_events S (mkOut S bev txr (eev ++ uev) vu [])))) as (t & Hd & Hi & Hk).
    unfold process_tx. rewrite Hd, Hi, Hk. cbn [negb Datatypes.app]. rewrite Ee, Eu.
    unfold validate_system. unfold all_events. cbn [o_begin_events o_tx o_end_events].
    rewrite flat_map_snd_app. rewrite !bytes_eqb_refl. cbn [andb]. reflexivity.
  Qed.

  (* A block that a validating / replaying node accepts: (a) carries a block-metadata
     transaction whose state root is the root of the state the node commits and whose events
     root is the root of all the block's events; (b) that state is the one AFTER the consensus
     upgrade handler's EndBlock writes, and the handler's events are part of the end events. *)
  Theorem accepted_block_binds_metadata_and_upgrade cfg apps s b s' o :
    exec_block S cfg apps false s b = Some (s', o) ->
    meta_in (b_txs b) (sg_root S s', o_events_root S o) /\
    o_events_root S o = sg_evroot S (all_events S o) /\
    exists s3 uev eev, sg_upgrade_end S (b_header b) s3 = Some (s', uev) /\ o_end_events S o = eev ++ uev.
  Proof.
    unfold exec_block. rewrite (proj1 mux_step_order). cbn iota.
    destruct (sg_upgrade_begin S (b_header b) s) as [[s0 uev0]|]; [|discriminate].
    destruct (begin_all S apps (binfo_of b) s0 uev0) as [[s1 bev]|]; [|discriminate].
    destruct (deliver_all S cfg apps (h_proposer (b_header b)) false (b_txs b) s1 [] []) as [[[s2 txr] sc]|] eqn:Ed; [|discriminate].
    destruct (end_all S apps s2 [] []) as [[[s3 eev] vu]|]; [|discriminate].
    destruct (sg_upgrade_end S (b_header b) s3) as [[s4 uev]|] eqn:Eu; [|discriminate].
    unfold validate_system. destruct sc as [|[sr er] [|? ?]]; try discriminate.
    destruct (bytes_eqb sr (sg_root S s4) && bytes_eqb er _) eqn:Ev; [|discriminate].
    intros [= <- <-]. cbn [o_events_root o_end_events].
    apply andb_true_iff in Ev as [E1 E2]. apply bytes_eqb_eq in E1, E2. subst sr er.
    split; [|split; [reflexivity|exists s3, uev, eev; split; [exact Eu|reflexivity]]].
    destruct (deliver_all_scratch _ _ _ _ _ _ _ _ _ _ _ Ed _ (or_introl eq_refl)) as [[]|Hm]. exact Hm.
  Qed.

  Definition reference (cfg : localcfg) (regs : list mapp) (s : sg_state S) (b : block) : option (node * outputs) :=
    match exec_block S cfg (sort_by (a_name S) regs) false s b with
    | None => None
    | Some (s', o) => Some (mkNode S s' None cfg regs, o)
    end.

  Lemma reference_some cfg regs s b s' o :
    exec_block S cfg (sort_by (a_name S) regs) false s b = Some (s', o) ->
    reference cfg regs s b = Some (mkNode S s' None cfg regs, o).
  Proof. unfold reference. intros ->. reflexivity. Qed.

  Lemma reference_none cfg regs s b :
    exec_block S cfg (sort_by (a_name S) regs) false s b = None -> reference cfg regs s b = None.
  Proof. unfold reference. intros ->. reflexivity. Qed.

  Lemma finalize_executes n b :
    begin_reuses (snapshot S n) (b_hash b) = false -> working_tree S n b = n_committed S n ->
    finalize S n b = reference (n_cfg S n) (n_apps S n) (n_committed S n) b.
  Proof.
    intros Hr Hw. unfold finalize, reference, dispatch. rewrite Hr, Hw.
    destruct (exec_block S _ _ false _ b) as [[s' o]|]; reflexivity.
  Qed.

  Lemma finalize_cached n c b :
    n_cache S n = Some c -> p_hash (pc_id S c) = b_hash b -> p_executed (pc_id S c) = true ->
    finalize S n b = Some (mkNode S (pc_tree S c) None (n_cfg S n) (n_apps S n), pc_out S c).
  Proof.
    intros Hc Hh He. unfold finalize, snapshot. rewrite Hc. cbn [option_map begin_reuses].
    rewrite Hh, bytes_eqb_refl, He. reflexivity.
  Qed.

  Lemma finalize_fresh n b : n_cache S n = None ->
    finalize S n b = reference (n_cfg S n) (n_apps S n) (n_committed S n) b.
  Proof. intros Hc. apply finalize_executes; unfold snapshot, working_tree; rewrite Hc; reflexivity. Qed.

  Definition path_ok (base : list mapp) (b : block) (p : path S) : Prop :=
    match p with
    | ProposeCached _ key _ => meta_wf key (h_proposer (b_header b))
    | RestartThenReplay _ _ regs | RestartThenProcess _ _ regs => Permutation base regs
    | _ => True
    end.

  (* configuration / registration order the node has after the path *)
  Definition path_cfg (p : path S) (n : node) : localcfg :=
    match p with RestartThenReplay _ c _ | RestartThenProcess _ c _ => c | _ => n_cfg S n end.
  Definition path_regs (p : path S) (n : node) : list mapp :=
    match p with RestartThenReplay _ _ r | RestartThenProcess _ _ r => r | _ => n_apps S n end.

  Definition collision : Prop := exists b1 b2 : block, b1 <> b2 /\ b_hash b1 = b_hash b2.

  Lemma block_eq_dec (b1 b2 : block) : {b1 = b2} + {b1 <> b2}.
  Proof. repeat (decide equality; try apply N.eq_dec). Qed.

  Lemma exec_block_hash_irrelevant cfg apps pg s hd txs cm ms h1 h2 :
    exec_block S cfg apps pg s (mkBlock hd txs cm ms h1) = exec_block S cfg apps pg s (mkBlock hd txs cm ms h2).
  Proof. reflexivity. Qed.

  (* The cache entry [c] of [n] holds the results of block [b0] executed on the committed state;
     if it was prepared here, b0 has the remembered header/txs/misbehavior and the commit info
     given to PrepareProposal; if it carries a hash, it is b0's hash. *)
  Definition caches (n : node) (c : pcache S) (b0 : block) : Prop :=
    p_executed (pc_id S c) = true /\
    exec_block S (n_cfg S n) (dispatch S n) false (n_committed S n) b0 = Some (pc_tree S c, pc_out S c) /\
    (p_hash (pc_id S c) = [] \/ p_hash (pc_id S c) = b_hash b0) /\
    (forall hd, p_header (pc_id S c) = Some hd ->
       b_header b0 = hd /\ b_txs b0 = p_txs (pc_id S c) /\ b_misb b0 = p_misb (pc_id S c) /\ b_commit b0 = pc_commit S c).

  Definition cache_inv (n : node) : Prop := forall c, n_cache S n = Some c -> exists b0, caches n c b0.

  Lemma cache_inv_none n : n_cache S n = None -> cache_inv n.
  Proof. intros Hc c Hc'. congruence. Qed.

  Definition same_base (n n' : node) : Prop :=
    n_committed S n' = n_committed S n /\ n_cfg S n' = n_cfg S n /\ n_apps S n' = n_apps S n.

  Lemma reference_same_base p n n' b : same_base n n' ->
    reference (path_cfg p n') (path_regs p n') (n_committed S n') b
    = reference (path_cfg p n) (path_regs p n) (n_committed S n) b.
  Proof. intros (Hs & Hc & Ha). destruct p; cbn [path_cfg path_regs]; rewrite Hs, ?Hc, ?Ha; reflexivity. Qed.

  (* The environment hypothesis, at a ProcessProposal step: a block that isEqual accepts for the
     cached proposal carries the commit info the cache was computed with. *)
  Definition commit_as_prepared (n : node) (b : block) : Prop :=
    forall c, n_cache S n = Some c ->
      process_reuses (Some (pc_id S c)) (b_header b) (b_txs b) (b_misb b) = true -> b_commit b = pc_commit S c.

  Lemma commit_as_prepared_no_reuse n b :
    process_reuses (snapshot S n) (b_header b) (b_txs b) (b_misb b) = false -> commit_as_prepared n b.
  Proof. unfold snapshot. intros Hf c Hc Hr. rewrite Hc in Hf. cbn [option_map] in Hf. congruence. Qed.

  Lemma prepare_inv n key hd cands cm ms :
    meta_wf key (h_proposer hd) ->
    let n' := fst (prepare S n key hd cands cm ms) in
    cache_inv n' /\ same_base n n' /\ forall c, n_cache S n' = Some c -> pc_commit S c = cm.
  Proof.
    intros Hm. unfold prepare.
    destruct (exec_block S (n_cfg S n) (dispatch S n) true (n_committed S n) _) as [[s' o]|] eqn:Ep; cbn [fst].
    - split; [|split; [repeat split|]].
      + (* the cache holds the block the proposer is about to send, hash not yet known *)
        intros c [= <-].
        exists (mkBlock hd (cands ++ [sg_meta_tx S key (sg_root S s') (o_events_root S o)]) cm ms []).
        split; [reflexivity|]. split; [|split; [left; reflexivity|]].
        * apply (prepared_block_reexecutes (n_cfg S n) (n_cfg S n)); assumption.
        * intros hd' [= <-]. repeat split.
      + intros c [= <-]. reflexivity.
    - split; [apply cache_inv_none; reflexivity|]. split; [repeat split|]. intros c Hc. discriminate Hc.
  Qed.

  (* isEqual does not look at the hash, execution does not either: a cache entry that
     ProcessProposal reuses for [b] holds the results of [b], given the commit-info hypothesis. *)
  Lemma reuse_sound n c b0 b :
    caches n c b0 ->
    process_reuses (Some (pc_id S c)) (b_header b) (b_txs b) (b_misb b) = true -> b_commit b = pc_commit S c ->
    caches n (set_hash S c (b_hash b)) b.
  Proof.
    intros (Hex & He & _ & Hhd) Hr Hcm. cbn [process_reuses] in Hr. apply andb_true_iff in Hr as [_ Hr].
    apply is_equal_sound in Hr as (Hph & Hpt & Hpm). destruct (Hhd _ Hph) as (H1 & H2 & H3 & H4).
    unfold caches. cbn [set_hash pc_id p_executed p_hash p_header p_txs p_misb pc_commit pc_tree pc_out].
    split; [exact Hex|]. split; [|split; [right; reflexivity|]].
    - rewrite <- He. destruct b as [bh bt bc bm bhash], b0 as [h0 t0 c0 m0 hash0].
      cbn [b_header b_txs b_commit b_misb] in *. subst. apply exec_block_hash_irrelevant.
    - intros hd' Hh'. rewrite Hph in Hh'. injection Hh' as <-. auto.
  Qed.

  (* If ProcessProposal reuses a proposal prepared by this node, the cached tree and
     results equal re-execution from the committed state -- PROVIDED the incoming
     block carries the commit info the node was given in PrepareProposal (isEqual
     does not compare it; CometBFT guarantees it for the proposer's own block). *)
  Theorem cached_equals_reexecution n key hd cands cm ms b n1 txs :
    prepare S n key hd cands cm ms = (n1, txs) ->
    process_reuses (snapshot S n1) (b_header b) (b_txs b) (b_misb b) = true ->
    b_commit b = cm (* the named environment hypothesis *) ->
    meta_wf key (h_proposer hd) ->
    exists c, n_cache S n1 = Some c /\
      exec_block S (n_cfg S n) (dispatch S n) false (n_committed S n) b = Some (pc_tree S c, pc_out S c).
  Proof.
    intros Hp Hr Hcm Hm. pose proof (prepare_inv n key hd cands cm ms Hm) as Hinv.
    rewrite Hp in Hinv. cbn [fst] in Hinv. destruct Hinv as (Hinv & (Hs & Hc & Ha) & Hcommit).
    unfold snapshot in Hr. destruct (n_cache S n1) as [c|] eqn:Ec; [|discriminate Hr]. cbn [option_map] in Hr.
    exists c. split; [reflexivity|]. destruct (Hinv c Ec) as (b0 & Hb0).
    unfold dispatch. rewrite <- Hs, <- Hc, <- Ha.
    apply (reuse_sound n1 c b0 b Hb0 Hr). rewrite (Hcommit c eq_refl). exact Hcm.
  Qed.

  Lemma process_proposal_inv n b n' :
    cache_inv n -> commit_as_prepared n b -> process_proposal S n b = Some n' ->
    same_base n n' /\ exists c, n_cache S n' = Some c /\ p_hash (pc_id S c) = b_hash b /\ caches n' c b.
  Proof.
    intros Hinv Hcm. unfold process_proposal.
    destruct (process_reuses (snapshot S n) (b_header b) (b_txs b) (b_misb b)) eqn:Er.
    - unfold snapshot in Er. destruct (n_cache S n) as [c|] eqn:Ec; [|discriminate Er]. cbn [option_map] in Er.
      intros [= <-]. destruct (Hinv c Ec) as (b0 & Hb0).
      split; [repeat split|]. eexists. split; [reflexivity|]. split; [reflexivity|].
      exact (reuse_sound n c b0 b Hb0 Er (Hcm c Ec Er)).
    - destruct (exec_block S (n_cfg S n) (dispatch S n) false (n_committed S n) b) as [[s' o]|] eqn:Ee; [|discriminate].
      intros [= <-].
      split; [repeat split|]. eexists. split; [reflexivity|]. split; [reflexivity|].
      split; [reflexivity|]. split; [exact Ee|]. split; [right; reflexivity|]. intros hd' Hh'. discriminate Hh'.
  Qed.

  Lemma process_proposal_reject n b :
    process_proposal S n b = None ->
    exec_block S (n_cfg S n) (dispatch S n) false (n_committed S n) b = None.
  Proof.
    unfold process_proposal. destruct (process_reuses (snapshot S n) _ _ _) eqn:Er.
    - (* a reuse never rejects: there is a cache to reuse *)
      unfold snapshot in Er. destruct (n_cache S n); [discriminate|discriminate Er].
    - destruct (exec_block S _ _ false _ b) as [[s' o]|]; [discriminate|reflexivity].
  Qed.

  Lemma process_then_finalize_inv n b :
    cache_inv n -> commit_as_prepared n b ->
    match process_proposal S n b with None => None | Some n2 => finalize S n2 b end
    = reference (n_cfg S n) (n_apps S n) (n_committed S n) b.
  Proof.
    intros Hinv Hcm. destruct (process_proposal S n b) as [n'|] eqn:Ep.
    - destruct (process_proposal_inv n b n' Hinv Hcm Ep) as ((Hs & Hc & Ha) & c & Hcache & Hhash & Hex & He & _).
      rewrite <- Hs, <- Hc, <- Ha, (finalize_cached n' c b Hcache Hhash Hex).
      symmetry. apply reference_some. exact He.
    - symmetry. apply reference_none. apply process_proposal_reject. exact Ep.
  Qed.

  Lemma finalize_inv n b :
    cache_inv n -> b_hash b <> [] ->
    finalize S n b = reference (n_cfg S n) (n_apps S n) (n_committed S n) b \/ collision.
  Proof.
    intros Hinv Hne. destruct (n_cache S n) as [c|] eqn:Ec; [|left; apply finalize_fresh; exact Ec].
    destruct (Hinv c Ec) as (b0 & Hex & He & Hh & _).
    destruct (begin_reuses (Some (pc_id S c)) (b_hash b)) eqn:Er.
    - (* the cached results are returned: they are b's, unless another block has b's hash *)
      cbn [begin_reuses] in Er. apply andb_true_iff in Er as [Eh _]. apply bytes_eqb_eq in Eh.
      rewrite (finalize_cached n c b Ec Eh Hex).
      destruct Hh as [Hh|Hh]; [congruence|].
      destruct (block_eq_dec b0 b) as [->|Hd].
      + left. symmetry. apply reference_some. exact He.
      + right. exists b0, b. split; [exact Hd|congruence].
    - left. apply finalize_executes.
      + unfold snapshot. rewrite Ec. exact Er.
      + unfold working_tree. rewrite Ec, Hex. cbn [negb]. rewrite andb_false_r. reflexivity.
  Qed.

  (* PrepareProposal overwrites whatever cache there was *)
  Lemma propose_cached_reference n key cands b :
    meta_wf key (h_proposer (b_header b)) ->
    run_path S (ProposeCached S key cands) n b = reference (n_cfg S n) (n_apps S n) (n_committed S n) b.
  Proof.
    intros Hm. cbn [run_path].
    destruct (prepare_inv n key (b_header b) cands (b_commit b) (b_misb b) Hm) as (Hinv & (Hs & Hc & Ha) & Hcm).
    destruct (prepare S n key (b_header b) cands (b_commit b) (b_misb b)) as [n1 txs]. cbn [fst] in *.
    rewrite <- Hs, <- Hc, <- Ha. apply process_then_finalize_inv; [exact Hinv|].
    intros c Hc1 _. symmetry. apply Hcm. exact Hc1.
  Qed.

  (* ... and so does a restart: these paths give the reference result from any node *)
  Lemma path_reference_any_cache p n b base :
    match p with ProcessProposal _ | PlainReplay _ => False | _ => True end -> path_ok base b p ->
    run_path S p n b = reference (path_cfg p n) (path_regs p n) (n_committed S n) b.
  Proof.
    destruct p as [key cands| | |cfg regs|cfg regs]; cbn [run_path path_cfg path_regs path_ok]; intros Hp Hok;
      try contradiction.
    - apply propose_cached_reference. exact Hok.
    - apply (finalize_fresh (restart S n cfg regs)). reflexivity.
    - apply (process_then_finalize_inv (restart S n cfg regs)); [apply cache_inv_none; reflexivity|].
      intros c Hc. discriminate Hc.
  Qed.

  (* Every path computes the reference result (from a node at a block boundary). *)
  Theorem path_reference p n b base :
    n_cache S n = None -> path_ok base b p ->
    run_path S p n b = reference (path_cfg p n) (path_regs p n) (n_committed S n) b.
  Proof.
    intros Hc Hok. destruct p as [key cands| | |cfg regs|cfg regs];
      try (apply (path_reference_any_cache _ n b base); [exact I|exact Hok]); cbn [run_path path_cfg path_regs].
    - apply process_then_finalize_inv; [apply cache_inv_none; exact Hc|]. intros c Hc'. congruence.
    - apply finalize_fresh. exact Hc.
  Qed.

  Theorem run_path_inv base p n b :
    cache_inv n -> path_ok base b p -> b_hash b <> [] -> commit_as_prepared n b ->
    run_path S p n b = reference (path_cfg p n) (path_regs p n) (n_committed S n) b \/ collision.
  Proof.
    intros Hinv Hok Hne Hcm. destruct p as [key cands| | |cfg regs|cfg regs];
      try (left; apply (path_reference_any_cache _ n b base); [exact I|exact Hok]); cbn [run_path path_cfg path_regs].
    - left. apply process_then_finalize_inv; assumption.
    - apply finalize_inv; assumption.
  Qed.

  Definition st_ok (n : node) (st : stale S) : Prop :=
    match st with
    | StalePrepared _ key hd _ _ _ => meta_wf key (h_proposer hd)
    | StaleProcessed _ b' => commit_as_prepared n b'
    | StaleAborted _ _ _ => True
    end.

  Fixpoint stale_ok (n : node) (sts : list (stale S)) : Prop :=
    match sts with
    | [] => True
    | st :: r =>
      match st with
      | StalePrepared _ key hd _ _ _ => meta_wf key (h_proposer hd)
      | StaleProcessed _ b' => commit_as_prepared n b'
      | StaleAborted _ _ _ => True
      end /\ stale_ok (apply_stale S n st) r
    end.

  Lemma mux_panic_handlers_reset :
    process_panic_handler_resets = true /\ prepare_panic_handler_resets = true.
  Proof. split; reflexivity. Qed.

  (* After ProcessProposal panicked at an ARBITRARY point (whatever the working tree had become)
     and the deferred handler recovered (mux.go:483-507), the proposal cache is reset
     (resetProposal(), mux.go:505-506; read from the source by gen muxorder): nothing keyed by
     the aborted block's hash survives. *)
  Theorem aborted_round_resets_cache n b' dirty :
    n_cache S (apply_stale S n (StaleAborted S b' dirty)) = None /\
    same_base n (apply_stale S n (StaleAborted S b' dirty)).
  Proof.
    cbn [apply_stale]. unfold abort_round. rewrite (proj1 mux_panic_handlers_reset).
    split; [reflexivity|repeat split].
  Qed.

  Lemma apply_stale_inv n st :
    cache_inv n -> st_ok n st -> cache_inv (apply_stale S n st) /\ same_base n (apply_stale S n st).
  Proof.
    intros Hinv Hok. destruct st as [key hd cands cm ms|b'|b' dirty]; cbn [apply_stale st_ok] in *.
    - destruct (prepare_inv n key hd cands cm ms Hok) as (H1 & H2 & _). split; assumption.
    - destruct (process_proposal S n b') as [n'|] eqn:Ep.
      + destruct (process_proposal_inv n b' n' Hinv Hok Ep) as (Hs & c & Hc & _ & Hb). split; [|exact Hs].
        intros c' Hc'. rewrite Hc in Hc'. injection Hc' as <-. exists b'. exact Hb.
      + split; [apply cache_inv_none; reflexivity|repeat split].
    - destruct (aborted_round_resets_cache n b' dirty) as [Hc Hs]. split; [apply cache_inv_none; exact Hc|exact Hs].
  Qed.

  Lemma stale_rounds_inv sts : forall n,
    cache_inv n -> stale_ok n sts ->
    cache_inv (fold_left (apply_stale S) sts n) /\ same_base n (fold_left (apply_stale S) sts n).
  Proof.
    induction sts as [|st r IH]; intros n Hinv Hok; cbn [fold_left].
    - split; [exact Hinv|repeat split].
    - cbn [stale_ok] in Hok. destruct Hok as [Hst Hr].
      destruct (apply_stale_inv n st Hinv Hst) as [Hinv' (Ha & Hb & Hc)].
      destruct (IH _ Hinv' Hr) as [Hi (Ha' & Hb' & Hc')].
      split; [exact Hi|]. unfold same_base. rewrite Ha', Hb', Hc'. auto.
  Qed.

  (* Whatever failed rounds came before (own proposals prepared, other proposals
     processed), every path still computes the reference result -- given the named
     commit-info hypothesis at each reuse, and unless two different blocks share a hash. *)
  Theorem stale_rounds_harmless base n sts p b :
    n_cache S n = None -> stale_ok n sts -> path_ok base b p -> b_hash b <> [] ->
    commit_as_prepared (fold_left (apply_stale S) sts n) b ->
    run_path S p (fold_left (apply_stale S) sts n) b
      = reference (path_cfg p n) (path_regs p n) (n_committed S n) b \/ collision.
  Proof.
    intros Hc Hst Hok Hne Hcm.
    destruct (stale_rounds_inv sts n (cache_inv_none n Hc) Hst) as [Hinv Hs].
    rewrite <- (reference_same_base p n _ b Hs). apply (run_path_inv base); assumption.
  Qed.

  (* Hence the block that was being processed when the fault hit -- or any other -- is executed
     from the committed state on every path, exactly as on a replica without the fault. *)
  Theorem aborted_round_harmless base n b' dirty p b :
    path_ok base b p ->
    run_path S p (apply_stale S n (StaleAborted S b' dirty)) b
    = reference (path_cfg p n) (path_regs p n) (n_committed S n) b.
  Proof.
    intros Hok. destruct (aborted_round_resets_cache n b' dirty) as [Hc Hs].
    rewrite (path_reference p _ b base Hc Hok). apply reference_same_base. exact Hs.
  Qed.

  Lemma path_regs_perm base b p n :
    path_ok base b p -> Permutation base (n_apps S n) -> Permutation base (path_regs p n).
  Proof. destruct p; cbn [path_regs path_ok]; intros; assumption. Qed.

  (* execution sees the registered applications only as a set, and no local configuration *)
  Lemma exec_block_canonical base cfg0 cfg regs pg s b :
    NoDup (map (a_name S) base) -> Permutation base regs ->
    exec_block S cfg (sort_by (a_name S) regs) pg s b = exec_block S cfg0 (sort_by (a_name S) base) pg s b.
  Proof. intros Hnd Hp. rewrite <- (sort_by_canonical (a_name S) base regs Hnd Hp). apply exec_block_local. Qed.

  (* Outputs and new committed state: equal for all local configurations,
     registration orders and execution paths. *)
  Theorem exec_block_deterministic base n1 n2 p1 p2 b :
    NoDup (map (a_name S) base) ->
    Permutation base (n_apps S n1) -> Permutation base (n_apps S n2) ->
    n_cache S n1 = None -> n_cache S n2 = None ->
    n_committed S n1 = n_committed S n2 ->
    path_ok base b p1 -> path_ok base b p2 ->
    option_map (fun r => (n_committed S (fst r), snd r)) (run_path S p1 n1 b)
    = option_map (fun r => (n_committed S (fst r), snd r)) (run_path S p2 n2 b).
  Proof.
    intros Hnd Hp1 Hp2 Hc1 Hc2 Hs Ho1 Ho2.
    rewrite (path_reference p1 n1 b base Hc1 Ho1), (path_reference p2 n2 b base Hc2 Ho2), Hs. unfold reference.
    rewrite (exec_block_canonical base (n_cfg S n1) _ _ _ _ _ Hnd (path_regs_perm base b p1 n1 Ho1 Hp1)).
    rewrite (exec_block_canonical base (n_cfg S n1) _ _ _ _ _ Hnd (path_regs_perm base b p2 n2 Ho2 Hp2)).
    destruct (exec_block S _ _ false _ b) as [[s' o]|]; reflexivity.
  Qed.

  Definition spec_step (cfg0 : localcfg) (base : list mapp) (r : option (sg_state S * list outputs)) (b : block) :=
    match r with
    | None => None
    | Some (s, outs) =>
      match exec_block S cfg0 (sort_by (a_name S) base) false s b with
      | None => None
      | Some (s', o) => Some (s', outs ++ [o])
      end
    end.
  Definition spec_run cfg0 base (s : sg_state S) (bs : list block) (outs : list outputs) :=
    fold_left (spec_step cfg0 base) bs (Some (s, outs)).

  Fixpoint ops_ok (base : list mapp) (ops : list (op S)) : Prop :=
    match ops with
    | [] => True
    | OpBlock _ p b :: r => path_ok base b p /\ ops_ok base r
    | OpStale _ _ :: _ => False     (* histories with failed rounds: see [ops_ok_from] *)
    | _ :: r => ops_ok base r
    end.

  Definition observe (r : option (replica S * list outputs)) : option (sg_state S * list outputs) :=
    option_map (fun x => (n_committed S (fst (fst x)), snd x)) r.

  Lemma block_step_spec cfg0 base p n b outs :
    NoDup (map (a_name S) base) -> Permutation base (n_apps S n) -> path_ok base b p ->
    run_path S p n b = reference (path_cfg p n) (path_regs p n) (n_committed S n) b ->
    match run_path S p n b with
    | Some (n', o) =>
      n_cache S n' = None /\ Permutation base (n_apps S n') /\
      spec_step cfg0 base (Some (n_committed S n, outs)) b = Some (n_committed S n', outs ++ [o])
    | None => spec_step cfg0 base (Some (n_committed S n, outs)) b = None
    end.
  Proof.
    intros Hnd Hp Hok ->. pose proof (path_regs_perm base b p n Hok Hp) as Hpr.
    unfold reference, spec_step. rewrite (exec_block_canonical base cfg0 _ _ _ _ _ Hnd Hpr).
    destruct (exec_block S cfg0 _ false (n_committed S n) b) as [[s' o]|]; cbn [n_cache n_apps n_committed]; auto.
  Qed.

  Lemma fold_left_none {A B} (f : option A -> B -> option A) :
    (forall b, f None b = None) -> forall l, fold_left f l None = None.
  Proof. intros Hf l. apply fold_left_invariant; [intros a b ->; apply Hf|reflexivity]. Qed.

  Lemma run_spec cfg0 base ops : NoDup (map (a_name S) base) -> forall n cs outs,
    n_cache S n = None -> Permutation base (n_apps S n) -> ops_ok base ops ->
    observe (fold_left (step S) ops (Some ((n, cs), outs)))
    = spec_run cfg0 base (n_committed S n) (blocks_of S ops) outs.
  Proof.
    intros Hnd. induction ops as [|o r IH]; intros n cs outs Hc Hp Hok; [reflexivity|].
    destruct o as [p b|raw|raw| |st]; cbn [fold_left step blocks_of ops_ok] in *;
      try (apply IH; assumption); [|contradiction].
    destruct Hok as [Hok1 Hok]. unfold spec_run. cbn [fold_left].
    pose proof (block_step_spec cfg0 base p n b outs Hnd Hp Hok1 (path_reference p n b base Hc Hok1)) as Hstep.
    destruct (run_path S p n b) as [[n' o]|].
    - destruct Hstep as (Hc' & Hp' & ->). apply IH; assumption.
    - rewrite Hstep, !fold_left_none by reflexivity. reflexivity.
  Qed.

  (* Two replicas fed the same blocks -- whatever the paths, local configurations,
     registration orders, and interleaved mempool checks / simulations / pruning --
     produce the same outputs at every height and the same committed state. *)
  Theorem replicas_agree base n1 n2 ops1 ops2 :
    NoDup (map (a_name S) base) ->
    Permutation base (n_apps S n1) -> Permutation base (n_apps S n2) ->
    n_cache S n1 = None -> n_cache S n2 = None ->
    n_committed S n1 = n_committed S n2 ->
    ops_ok base ops1 -> ops_ok base ops2 ->
    blocks_of S ops1 = blocks_of S ops2 ->
    observe (run S n1 ops1) = observe (run S n2 ops2).
  Proof.
    intros Hnd Hp1 Hp2 Hc1 Hc2 Hs Ho1 Ho2 Hb. unfold run.
    rewrite (run_spec (n_cfg S n1) base ops1 Hnd n1 _ [] Hc1 Hp1 Ho1).
    rewrite (run_spec (n_cfg S n1) base ops2 Hnd n2 _ [] Hc2 Hp2 Ho2).
    rewrite Hs, Hb. reflexivity.
  Qed.

  (* Prefixes: agreement at EVERY height, not only at the end. *)
  Corollary replicas_agree_at_every_height base n1 n2 ops1 ops2 k1 k2 :
    NoDup (map (a_name S) base) ->
    Permutation base (n_apps S n1) -> Permutation base (n_apps S n2) ->
    n_cache S n1 = None -> n_cache S n2 = None ->
    n_committed S n1 = n_committed S n2 ->
    ops_ok base (firstn k1 ops1) -> ops_ok base (firstn k2 ops2) ->
    blocks_of S (firstn k1 ops1) = blocks_of S (firstn k2 ops2) ->
    observe (run S n1 (firstn k1 ops1)) = observe (run S n2 (firstn k2 ops2)).
  Proof. exact (replicas_agree base n1 n2 (firstn k1 ops1) (firstn k2 ops2)). Qed.

  (* Mempool checks, simulations and pruning do not influence delivery: dropping
     them from a replica's life changes neither outputs nor committed state. *)
  Fixpoint only_blocks (ops : list (op S)) : list (op S) :=
    match ops with
    | [] => []
    | OpBlock _ p b :: r => OpBlock S p b :: only_blocks r
    | _ :: r => only_blocks r
    end.

  Lemma only_blocks_blocks ops : blocks_of S (only_blocks ops) = blocks_of S ops.
  Proof. induction ops as [|[p b|raw|raw| |st] r IH]; cbn [only_blocks blocks_of]; congruence. Qed.
  Lemma only_blocks_ok base ops : ops_ok base ops -> ops_ok base (only_blocks ops).
  Proof. induction ops as [|[p b|raw|raw| |st] r IH]; cbn [only_blocks ops_ok]; tauto. Qed.

  Theorem check_does_not_touch_delivery_state base n ops :
    NoDup (map (a_name S) base) -> Permutation base (n_apps S n) -> n_cache S n = None -> ops_ok base ops ->
    observe (run S n ops) = observe (run S n (only_blocks ops)).
  Proof.
    intros Hnd Hp Hc Hok. apply (replicas_agree base); try assumption; try reflexivity.
    - apply only_blocks_ok. exact Hok.
    - symmetry. apply only_blocks_blocks.
  Qed.

  (* A single check / simulation returns the node unchanged (typing-level fact made explicit). *)
  Theorem check_step_keeps_node n cs outs raw :
    exists cs', step S (Some ((n, cs), outs)) (OpCheck S raw) = Some ((n, cs'), outs).
  Proof. cbn [step]. eexists. reflexivity. Qed.
  Theorem simulate_step_keeps_replica n cs outs raw :
    step S (Some ((n, cs), outs)) (OpSimulate S raw) = Some ((n, cs), outs).
  Proof. reflexivity. Qed.

  (* History level: whenever two replicas get through the same blocks (replicas_agree), the
     state each of them holds after the last block is the one bound by that block's metadata
     transaction, i.e. both hold the state the proposer announced. *)
  Theorem replicas_hold_the_announced_state base n ops n' cs outs :
    NoDup (map (a_name S) base) -> Permutation base (n_apps S n) -> n_cache S n = None -> ops_ok base ops ->
    run S n ops = Some ((n', cs), outs) -> blocks_of S ops <> [] ->
    exists b o, In b (blocks_of S ops) /\ last (blocks_of S ops) b = b /\
      meta_in (b_txs b) (sg_root S (n_committed S n'), o_events_root S o) /\
      o_events_root S o = sg_evroot S (all_events S o) /\
      (exists s3 uev eev, sg_upgrade_end S (b_header b) s3 = Some (n_committed S n', uev) /\ o_end_events S o = eev ++ uev) /\
      exists pre, outs = pre ++ [o].
  Proof.
    intros Hnd Hp Hc Hok Hrun Hne.
    pose proof (run_spec (n_cfg S n) base ops Hnd n (n_committed S n) [] Hc Hp Hok) as Hs.
    unfold run in Hrun. rewrite Hrun in Hs. cbn [observe option_map fst snd] in Hs.
    (* the specification run ends with the execution of the last block *)
    destruct (exists_last Hne) as (bs & b & Eb). rewrite Eb in *.
    unfold spec_run in Hs. rewrite fold_left_app in Hs. cbn [fold_left] in Hs.
    destruct (fold_left _ bs _) as [[sp pre]|]; [|discriminate Hs]. cbn [spec_step] in Hs.
    destruct (exec_block S _ _ false sp b) as [[s1 o]|] eqn:He; inversion Hs; subst s1 outs.
    destruct (accepted_block_binds_metadata_and_upgrade _ _ _ _ _ _ He) as (Hm & Hr & Hu).
    exists b, o. split; [apply in_or_app; right; left; reflexivity|]. split; [apply last_last|].
    repeat split; try assumption. exists pre. reflexivity.
  Qed.

  (* Well-formed histories with failed rounds.  The conditions on a step refer to the node
     the step is applied to: honest metadata for own proposals, the commit-info
     hypothesis wherever a prepared proposal is reused, real (non-empty) block hashes. *)
  Fixpoint ops_ok_from (base : list mapp) (n : node) (ops : list (op S)) : Prop :=
    match ops with
    | [] => True
    | OpBlock _ p b :: r =>
      path_ok base b p /\ b_hash b <> [] /\ commit_as_prepared n b /\
      match run_path S p n b with
      | Some (n', _) => ops_ok_from base n' r
      | None => True
      end
    | OpStale _ st :: r => st_ok n st /\ ops_ok_from base (apply_stale S n st) r
    | _ :: r => ops_ok_from base n r
    end.

  Lemma run_spec_stale cfg0 base ops : NoDup (map (a_name S) base) -> forall n cs outs,
    cache_inv n -> Permutation base (n_apps S n) -> ops_ok_from base n ops ->
    observe (fold_left (step S) ops (Some ((n, cs), outs)))
    = spec_run cfg0 base (n_committed S n) (blocks_of S ops) outs \/ collision.
  Proof.
    intros Hnd. induction ops as [|o r IH]; intros n cs outs Hinv Hp Hok; [left; reflexivity|].
    destruct o as [p b|raw|raw| |st]; cbn [fold_left step blocks_of ops_ok_from] in *;
      try (apply IH; assumption).
    - destruct Hok as (Hok1 & Hne & Hcm & Hrest). unfold spec_run. cbn [fold_left].
      destruct (run_path_inv base p n b Hinv Hok1 Hne Hcm) as [Hr|Hcol]; [|right; exact Hcol].
      pose proof (block_step_spec cfg0 base p n b outs Hnd Hp Hok1 Hr) as Hstep.
      destruct (run_path S p n b) as [[n' o]|].
      + destruct Hstep as (Hc' & Hp' & ->). apply IH; [apply cache_inv_none| |]; assumption.
      + left. rewrite Hstep, !fold_left_none by reflexivity. reflexivity.
    - destruct Hok as [Hst Hrest].
      destruct (apply_stale_inv n st Hinv Hst) as [Hinv' (Ha & Hb & Hc)].
      rewrite <- Ha. apply IH; [exact Hinv'| |exact Hrest]. rewrite Hc. exact Hp.
  Qed.

  (* [replicas_agree] for histories that also contain failed consensus rounds (proposals
     prepared or processed but never committed), each replica with its own. *)
  Theorem replicas_agree_with_failed_rounds base n1 n2 ops1 ops2 :
    NoDup (map (a_name S) base) ->
    Permutation base (n_apps S n1) -> Permutation base (n_apps S n2) ->
    n_cache S n1 = None -> n_cache S n2 = None ->
    n_committed S n1 = n_committed S n2 ->
    ops_ok_from base n1 ops1 -> ops_ok_from base n2 ops2 ->
    blocks_of S ops1 = blocks_of S ops2 ->
    observe (run S n1 ops1) = observe (run S n2 ops2) \/ collision.
  Proof.
    intros Hnd Hp1 Hp2 Hc1 Hc2 Hs Ho1 Ho2 Hb. unfold run.
    destruct (run_spec_stale (n_cfg S n1) base ops1 Hnd n1 (n_committed S n1) [] (cache_inv_none n1 Hc1) Hp1 Ho1) as [E1|C]; [|right; exact C].
    destruct (run_spec_stale (n_cfg S n1) base ops2 Hnd n2 (n_committed S n2) [] (cache_inv_none n2 Hc2) Hp2 Ho2) as [E2|C]; [|right; exact C].
    left. rewrite E1, E2, Hs, Hb. reflexivity.
  Qed.

End MuxProofs.

(* A concrete instance: non-vacuity of the hypotheses, and what happens without the
   commit-info hypothesis. *)

Definition toy_meta (t : bytes) : option (bytes * bytes) :=
  match t with
  | 255 :: n :: rest => Some (firstn (N.to_nat n) rest, skipn (N.to_nat n) rest)
  | _ => None
  end.

Definition toy : msig := mkSig
  N bytes N N (bytes * N)
  (fun _ raw => match raw with [] => inr 9 | _ => inl raw end)
  toy_meta
  (fun _ _ => true)
  (fun _ => false)
  (fun t => firstn 1 t)
  (fun _ => 10) (fun _ => 1)
  (fun t s => match t with 7 :: _ => Some 3 | _ => None end)
  (fun t s => (s + 1, [100]))
  (fun _ _ _ => None)
  (fun _ => 0)
  (fun _ _ => None)
  1 2 4 0
  (fun _ s => 0)
  (fun s => [s mod 256])
  (fun evs => [N.of_nat (length evs) mod 256])
  (fun key sr er => 255 :: N.of_nat (length sr) :: sr ++ er)
  (fun hd s => Some (s, []))
  (fun hd s => if h_height hd =? 2 then Some (s + 100, [777]) else Some (s, [])).

Lemma toy_meta_wf key pr : meta_wf toy key pr.
Proof.
  intros s sr er. exists (255 :: N.of_nat (length sr) :: sr ++ er). cbn [toy sg_decode sg_meta_tx sg_is_meta sg_meta_ok toy_meta].
  split; [reflexivity|]. split; [|reflexivity].
  rewrite Nnat.Nat2N.id, firstn_app_exact, skipn_app_exact. reflexivity.
Qed.

Definition count_signed (l : list vote) : N := N.of_nat (length (filter v_signed l)).

(* "staking": pays per signed vote in BeginBlock, writes in ExecuteTx *)
Definition toy_staking : app toy := mkApp toy [115] (fun _ => true) false
  (fun bi s => Some (s + 5 * count_signed (bi_commit bi), [count_signed (bi_commit bi)]))
  (fun m t s => match t with
                | [_; 0] => (s, [], Some 6)            (* a failing transaction *)
                | _ => (s + 10, [200], None)
                end)
  (fun s => Some (s, [], [])).
(* "scheduler": the blessed app; emits a validator update derived from the state *)
Definition toy_sched : app toy := mkApp toy [99] (fun _ => false) true
  (fun bi s => Some (s, []))
  (fun m t s => (s, [], None))
  (fun s => Some (s + 1, [300], [([1], s)])).

Definition toy_cfg1 := mkLocal 0 [1] 0 0 false 0.
Definition toy_cfg2 := mkLocal 1000000 [2] 3 1 true 7.
Definition toy_base := [toy_staking; toy_sched].
Definition toy_n1 : node toy := mkNode toy 0 None toy_cfg1 [toy_staking; toy_sched].
Definition toy_n2 : node toy := mkNode toy 0 None toy_cfg2 [toy_sched; toy_staking].

Definition toy_hd := mkHeader 1 1000 [42] [].
Definition toy_votes := [mkVote [1] 10 true; mkVote [2] 10 false; mkVote [3] 5 true].
Definition toy_cands : list bytes := [[1; 1]; [2; 0]; [7; 1]; []].
Definition toy_txs : list bytes := snd (prepare toy toy_n1 [42] toy_hd toy_cands toy_votes []).
Definition toy_block := mkBlock toy_hd toy_txs toy_votes [] [9; 9].

Definition toy_obs (r : option (node toy * outputs toy)) := option_map (fun r => (n_committed toy (fst r), snd r)) r.

(* The hypotheses of [exec_block_deterministic] / [replicas_agree] are satisfiable,
   and the block really executes (a transfer-like tx, a failing tx, an auth failure,
   an undecodable tx, the metadata tx, a validator update). *)
Example toy_hypotheses :
  NoDup (map (a_name toy) toy_base) /\ Permutation toy_base (n_apps toy toy_n1) /\
  Permutation toy_base (n_apps toy toy_n2) /\
  path_ok toy toy_base toy_block (ProposeCached toy [42] toy_cands) /\
  toy_obs (run_path toy (ProposeCached toy [42] toy_cands) toy_n1 toy_block)
  = Some (23, mkOut toy [2] [(0, [100; 200]); (6, [100]); (3, []); (9, []); (0, [])] [300] [([1], 22)] [5]).
Proof.
  split; [repeat constructor; cbn; intuition discriminate|].
  split; [apply Permutation_refl|]. split; [apply perm_swap|].
  split; [apply toy_meta_wf|].
  (* Here and below no reduction tactic on the goal: vm_compute would also normalise the record
     [toy] inside every type annotation (megabytes); the kernel converts the closed terms. *)
  reflexivity.
Qed.

Example toy_paths_agree :
  let r := toy_obs (run_path toy (ProposeCached toy [42] toy_cands) toy_n1 toy_block) in
  toy_obs (run_path toy (ProcessProposal toy) toy_n2 toy_block) = r /\
  toy_obs (run_path toy (PlainReplay toy) toy_n2 toy_block) = r /\
  toy_obs (run_path toy (RestartThenReplay toy toy_cfg1 [toy_sched; toy_staking]) toy_n2 toy_block) = r /\
  toy_obs (run_path toy (RestartThenProcess toy toy_cfg2 toy_base) toy_n1 toy_block) = r /\
  r <> None.
Proof. intros r. repeat split; try reflexivity. discriminate. Qed.

(* Without the commit-info hypothesis the statement of [cached_equals_reexecution] is
   false in the model: isEqual accepts a block that differs from the prepared one only
   in its commit info, and the cached result differs from re-execution (here the
   re-execution even fails the metadata check). *)
Definition toy_block_other_commit := mkBlock toy_hd toy_txs [mkVote [1] 10 true] [] [9; 9].
Theorem cached_differs_without_commit_hypothesis :
  exists (n : node toy) key hd cands cm ms b n1 txs c,
    prepare toy n key hd cands cm ms = (n1, txs) /\
    process_reuses (snapshot toy n1) (b_header b) (b_txs b) (b_misb b) = true /\
    meta_wf toy key (h_proposer hd) /\
    b_commit b <> cm /\
    n_cache toy n1 = Some c /\
    exec_block toy (n_cfg toy n) (dispatch toy n) false (n_committed toy n) b <> Some (pc_tree toy c, pc_out toy c).
Proof.
  (* the cache entry stays a variable: found by unification it would be the half-evaluated record, copied
     into every type annotation; re-execution fails whatever the entry holds *)
  destruct (n_cache toy (fst (prepare toy toy_n1 [42] toy_hd toy_cands toy_votes []))) as [c|] eqn:Ec; [|discriminate Ec].
  exists toy_n1, [42], toy_hd, toy_cands, toy_votes, [], toy_block_other_commit.
  eexists. eexists. exists c.
  split; [apply surjective_pairing|]. split; [reflexivity|].
  split; [apply toy_meta_wf|]. split; [discriminate|].
  split; [exact Ec|]. discriminate.
Qed.

(* A two-height history on two replicas with different paths, configurations,
   registration orders and interleaved checks. *)
Definition toy_hd2 := mkHeader 2 2000 [42] [].
Definition toy_txs2 : list bytes :=
  match run_path toy (PlainReplay toy) toy_n1 toy_block with
  | Some (n, _) => snd (prepare toy n [42] toy_hd2 [[3; 3]] toy_votes [mkMisb 1 [2] 10 1 1000 25])
  | None => []
  end.
Definition toy_block2 := mkBlock toy_hd2 toy_txs2 toy_votes [mkMisb 1 [2] 10 1 1000 25] [8].
Definition toy_ops1 : list (op toy) :=
  [OpCheck toy [1; 1]; OpBlock toy (ProposeCached toy [42] toy_cands) toy_block; OpSimulate toy [2; 2];
   OpBlock toy (PlainReplay toy) toy_block2].
Definition toy_ops2 : list (op toy) :=
  [OpBlock toy (RestartThenProcess toy toy_cfg1 toy_base) toy_block; OpPrune toy; OpCheck toy [7; 7];
   OpBlock toy (ProposeCached toy [42] [[3; 3]]) toy_block2; OpCheck toy []].
Example toy_history_agrees :
  observe toy (run toy toy_n1 toy_ops1) = observe toy (run toy toy_n2 toy_ops2) /\
  option_map (fun x => length (snd x)) (observe toy (run toy toy_n1 toy_ops1)) = Some 2%nat.
Proof. split; reflexivity. Qed.

(* Non-vacuity of [stale_rounds_harmless]: a failed own round and a failed foreign round
   precede the block; hypotheses hold and the left disjunct is what happens. *)
Definition toy_stale : list (stale toy) :=
  [StalePrepared toy [42] toy_hd [[5; 5]] toy_votes [];
   StaleProcessed toy (mkBlock toy_hd toy_txs toy_votes [] [7; 7; 7])].
Example toy_stale_hypotheses :
  stale_ok toy toy_n1 toy_stale /\ b_hash toy_block <> [] /\
  commit_as_prepared toy (fold_left (apply_stale toy) toy_stale toy_n1) toy_block /\
  toy_obs (run_path toy (PlainReplay toy) (fold_left (apply_stale toy) toy_stale toy_n1) toy_block)
  = toy_obs (run_path toy (PlainReplay toy) toy_n1 toy_block) /\
  toy_obs (run_path toy (ProcessProposal toy) (fold_left (apply_stale toy) [StalePrepared toy [42] toy_hd [[5; 5]] toy_votes []] toy_n1) toy_block)
  = toy_obs (run_path toy (PlainReplay toy) toy_n1 toy_block).
Proof.
  split.
  { cbn [stale_ok toy_stale]. split; [apply toy_meta_wf|]. split; [|exact I].
    apply commit_as_prepared_no_reuse. reflexivity. }
  split; [discriminate|]. split.
  { apply commit_as_prepared_no_reuse. reflexivity. }
  split; reflexivity.
Qed.

(* Non-vacuity of [replicas_agree_with_failed_rounds]: replica 1 has a failed own round
   before height 1, replica 2 a failed foreign round; both then commit the same block. *)
Definition toy_ops_stale1 : list (op toy) :=
  [OpStale toy (StalePrepared toy [42] toy_hd [[5; 5]] toy_votes []); OpCheck toy [1; 1];
   OpBlock toy (ProcessProposal toy) toy_block].
Definition toy_ops_stale2 : list (op toy) :=
  [OpStale toy (StaleProcessed toy (mkBlock toy_hd toy_txs toy_votes [] [7; 7; 7]));
   OpBlock toy (PlainReplay toy) toy_block].
Example toy_failed_rounds_hypotheses :
  ops_ok_from toy toy_base toy_n1 toy_ops_stale1 /\ ops_ok_from toy toy_base toy_n2 toy_ops_stale2 /\
  blocks_of toy toy_ops_stale1 = blocks_of toy toy_ops_stale2 /\
  observe toy (run toy toy_n1 toy_ops_stale1) = observe toy (run toy toy_n2 toy_ops_stale2) /\
  observe toy (run toy toy_n1 toy_ops_stale1) <> None.
Proof.
  split.
  { cbn [ops_ok_from toy_ops_stale1 st_ok]. split; [apply toy_meta_wf|]. split; [exact I|]. split; [discriminate|].
    split; [|exact I]. apply commit_as_prepared_no_reuse. reflexivity. }
  split.
  { cbn [ops_ok_from toy_ops_stale2 st_ok]. split.
    - intros c Hc. discriminate.
    - split; [exact I|]. split; [discriminate|]. split; [|exact I].
      apply commit_as_prepared_no_reuse. reflexivity. }
  split; [reflexivity|]. split; [reflexivity|discriminate].
Qed.

(* the toy signature has a migration due at height 2 which writes state and emits an event in
   EndBlock: the block of height 2 in [toy_history_agrees] executes it on both replicas *)
Example toy_upgrade_block_executes :
  option_map (fun x => map (o_end_events toy) (snd x)) (observe toy (run toy toy_n1 toy_ops1))
  = Some [[300]; [300; 777]].
Proof. reflexivity. Qed.

(* Without the reset in the panic handler (seeded C01-5) the half-executed working tree stays
   keyed by the block's hash without results; when that block is decided, BeginBlock does not
   reset it (same hash) and executes on top of the dirty tree: the result differs from the
   reference (here the metadata check fails, i.e. this replica cannot finalize the block). *)
Theorem aborted_round_without_reset_refuted :
  exists (n : node toy) (b : block) (dirty : sg_state toy),
    n_cache toy n = None /\
    finalize toy (abort_round toy false n b dirty) b
    <> reference toy (n_cfg toy n) (n_apps toy n) (n_committed toy n) b /\
    finalize toy (abort_round toy true n b dirty) b
    = reference toy (n_cfg toy n) (n_apps toy n) (n_committed toy n) b /\
    reference toy (n_cfg toy n) (n_apps toy n) (n_committed toy n) b <> None.
Proof.
  exists toy_n1, toy_block, 7. split; [reflexivity|]. split; [discriminate|]. split; [reflexivity|discriminate].
Qed.
