(* C08 — ports of concrete handlers as programs over the context interface:
     registry  registerEntity / deregisterEntity / registerNode / registerRuntime
               (go/consensus/cometbft/apps/registry/transactions.go)
     roothash  submitMsg (go/consensus/cometbft/apps/roothash/transactions.go:294-384), submitEvidence
     staking   addEscrow / reclaimEscrow / allow / withdraw (go/consensus/cometbft/apps/staking/transactions.go)
     vault     create / authorizeAction / cancelAction (go/consensus/cometbft/apps/vault/transactions.go)
   with the REAL order of gas charges, checks, ctx.NewTransaction(), writes and
   ctx.Commit(). Key names, record contents and the verdicts of the pure
   validation routines are abstract (Section variables: the theorems hold for
   every instantiation).

   One thing the handlers do that the [prog] language of Atomic/Model.v cannot
   express: a handler receives a state handle
   ([state *registryState.MutableState], registry.go:111, roothash.go:312) that
   was built from ctx.State() BEFORE the handler opened its transaction layer.
   mkvs handles wrap a tree (registry/state/state.go:517-522), so writes through
   that handle made after [ctx = ctx.NewTransaction()] go to the tree BELOW the
   new overlay: they are NOT rolled back when the layer is dropped. The handlers
   stay atomic only because no fallible step follows such a write. [HPutH]/[HDelH]
   model handle writes, [HPut]/[HDel] writes through a state wrapper built from
   ctx.State() at that point (stakingState.NewMutableState(ctx.State()),
   stakingState.AddStakeClaim(ctx, ..), NewStakeAccumulatorCache(ctx)). *)
From Verif Require Import Lib.Base Atomic.Model Atomic.Proofs.

Inductive hprog :=
| HRet (r : res)
| HGet (k : N) (c : option val -> hprog)     (* read through the current context *)
| HGetH (k : N) (c : option val -> hprog)    (* read through the handle captured at entry *)
| HPut (k : N) (v : val) (c : hprog)
| HDel (k : N) (c : hprog)
| HPutH (k : N) (v : val) (c : hprog)
| HDelH (k : N) (c : hprog)
| HGas (amount : N) (c : hprog)
| HSub (p : prog) (c : res -> hprog)         (* md.Publish(ctx, ..): other apps' code on the current context *)
| HOpen (c : hprog)                          (* ctx = ctx.NewTransaction(); defer ctx.Close() *)
| HCommit (c : hprog).                       (* ctx.Commit() *)

(* the tree below the innermost layer *)
Definition cput_under (k : N) (v : val) (t : ctree) : ctree :=
  match t_layers t with
  | o :: p :: r => mkT (t_base t) (o :: aset k (Some v) p :: r)
  | [o] => mkT (aset k v (t_base t)) [o]
  | [] => mkT (aset k v (t_base t)) []
  end.
Definition cdel_under (k : N) (t : ctree) : ctree :=
  match t_layers t with
  | o :: p :: r => mkT (t_base t) (o :: aset k None p :: r)
  | [o] => mkT (adel k (t_base t)) [o]
  | [] => mkT (adel k (t_base t)) []
  end.

(* [opened]: the handler's own transaction layer is open (between NewTransaction and
   Commit). On return the deferred ctx.Close() drops a layer that was not committed
   (context.go:137-141). *)
Fixpoint hrun (p : hprog) (opened : bool) (g : gasacc) (t : ctree) : res * gasacc * ctree :=
  match p with
  | HRet r => (r, g, if opened then cdiscard t else t)
  | HGet k c => hrun (c (cget k t)) opened g t
  | HGetH k c => hrun (c (cget k (if opened then cdiscard t else t))) opened g t
  | HPut k v c => hrun c opened g (cput k v t)
  | HDel k c => hrun c opened g (cdel k t)
  | HPutH k v c => hrun c opened g (if opened then cput_under k v t else cput k v t)
  | HDelH k c => hrun c opened g (if opened then cdel_under k t else cdel k t)
  | HGas a c =>
      match use_gas a g with
      | inl e => (Err e, g, if opened then cdiscard t else t)
      | inr g' => hrun c opened g' t
      end
  | HSub p c => match run p g t with (r, g1, t1) => hrun (c r) opened g1 t1 end
  | HOpen c => hrun c true g (copen t)
  | HCommit c => hrun c false g (if opened then ccommit t else t)
  end.

Inductive hnofail : hprog -> Prop :=
| hn_ret : hnofail (HRet Ok)
| hn_get k c : (forall v, hnofail (c v)) -> hnofail (HGet k c)
| hn_geth k c : (forall v, hnofail (c v)) -> hnofail (HGetH k c)
| hn_put k v c : hnofail c -> hnofail (HPut k v c)
| hn_del k c : hnofail c -> hnofail (HDel k c)
| hn_puth k v c : hnofail c -> hnofail (HPutH k v c)
| hn_delh k c : hnofail c -> hnofail (HDelH k c)
| hn_sub p c : (forall r, hnofail (c r)) -> hnofail (HSub p c)
| hn_open c : hnofail c -> hnofail (HOpen c)
| hn_commit c : hnofail c -> hnofail (HCommit c).

(* [hsafe opened p]: before its first write that a dropped layer does not undo (any
   write while closed, a HANDLE write or the Commit while opened) the handler only
   reads, charges gas, calls other apps inside its layer and writes into its layer;
   after it, it cannot fail. *)
Inductive hsafe : bool -> hprog -> Prop :=
| hs_ret b r : hsafe b (HRet r)
| hs_get b k c : (forall v, hsafe b (c v)) -> hsafe b (HGet k c)
| hs_geth b k c : (forall v, hsafe b (c v)) -> hsafe b (HGetH k c)
| hs_gas b a c : hsafe b c -> hsafe b (HGas a c)
| hs_open c : hsafe true c -> hsafe false (HOpen c)
| hs_put_closed k v c : hnofail c -> hsafe false (HPut k v c)
| hs_del_closed k c : hnofail c -> hsafe false (HDel k c)
| hs_puth b k v c : hnofail c -> hsafe b (HPutH k v c)
| hs_delh b k c : hnofail c -> hsafe b (HDelH k c)
| hs_put_open k v c : hsafe true c -> hsafe true (HPut k v c)
| hs_del_open k c : hsafe true c -> hsafe true (HDel k c)
| hs_sub_open p c : (forall r, hsafe true (c r)) -> hsafe true (HSub p c)
| hs_commit c : hnofail c -> hsafe true (HCommit c).

Lemma hnofail_run p : hnofail p -> forall b g t e g' t', hrun p b g t <> (Err e, g', t').
Proof.
  induction 1 as [|k c _ IH|k c _ IH|k v c _ IH|k c _ IH|k v c _ IH|k c _ IH|p c _ IH|c _ IH|c _ IH];
    intros b g t e g' t'; cbn [hrun]; try apply IH.
  - discriminate.
  - destruct (run p g t) as [[r g1] t1]. apply IH.
Qed.

Lemma hsafe_run b p : hsafe b p ->
  forall g t0 t1 e g' t',
    (if b then frame (copen t0) t1 else t1 = t0) ->
    hrun p b g t1 = (Err e, g', t') -> t' = t0.
Proof.
  induction 1 as [b r|b k c _ IH|b k c _ IH|b a c _ IH|c _ IH|k v c Hn|k c Hn|b k v c Hn|b k c Hn
                  |k v c _ IH|k c _ IH|p c _ IH|c Hn];
    intros g t0 t1 e g' t' F H; cbn [hrun] in H.
  (* past a write that dropping the layer does not undo, nothing can fail *)
  all: try (exfalso; eapply hnofail_run; [exact Hn|exact H]).
  - injection H as _ _ <-. destruct b; [apply discard_after_open; exact F|exact F].
  - eapply IH; [exact F|exact H].
  - eapply IH; [exact F|exact H].
  - destruct (use_gas a g) as [e2|g2].
    + injection H as _ _ <-. destruct b; [apply discard_after_open; exact F|exact F].
    + eapply IH; [exact F|exact H].
  - subst t1. eapply IH; [|exact H]. cbn beta iota. apply frame_refl.
  - eapply IH; [|exact H]. cbn beta iota in *. eapply frame_trans; [exact F|apply frame_cput].
  - eapply IH; [|exact H]. cbn beta iota in *. eapply frame_trans; [exact F|apply frame_cdel].
  - destruct (run p g t1) as [[r g1] t2] eqn:R. eapply IH; [|exact H].
    cbn beta iota in *. eapply frame_trans; [exact F|]. eapply run_frame; exact R.
Qed.

Theorem hsafe_atomic p : hsafe false p -> atomic (hrun p false).
Proof. intros Hs g t e g' t' H. eapply (hsafe_run false p Hs); [reflexivity|exact H]. Qed.

(* [hs] proves [hsafe]/[hnofail] of a handler text by following its syntax: the constructor
   for the step at the head; at a branch on an abstract verdict, every branch. *)
Ltac hs := repeat (first
  [ apply hs_ret | apply hs_get; intro | apply hs_geth; intro | apply hs_gas | apply hs_open
  | apply hs_commit | apply hs_put_open | apply hs_del_open | apply hs_sub_open; intro
  | apply hs_puth | apply hs_delh | apply hs_put_closed | apply hs_del_closed
  | apply hn_ret | apply hn_get; intro | apply hn_geth; intro | apply hn_put | apply hn_del
  | apply hn_puth | apply hn_delh | apply hn_sub; intro | apply hn_commit
  | match goal with
    | |- hsafe _ (if ?b then _ else _) => destruct b
    | |- hnofail (if ?b then _ else _) => destruct b
    | |- hsafe _ (match ?m with Deliver => _ | Check => _ | Sim => _ end) => destruct m
    | |- hsafe _ (match ?o with Some _ => _ | None => _ end) => destruct o
    | |- hnofail (match ?o with Some _ => _ | None => _ end) => destruct o
    | |- hsafe _ (match ?r with Ok => _ | Err _ => _ end) => destruct r
    | |- hsafe _ (let (_, _) := ?p in _) => destruct p
    end ]).

Lemma dispatch_all {A} (Q : A -> Prop) (b : bool) (a : A) (o : option A) :
  Q a -> (forall y, o = Some y -> Q y) -> forall y, (if b then Some a else o) = Some y -> Q y.
Proof. intros Ha Ho y. destruct b; [intros H; injection H as <-; exact Ha|apply Ho]. Qed.

Section Ports.
  (* error codes (only their being errors matters) *)
  Definition E_INVALID_ARGUMENT : N := 101.
  Definition E_INCORRECT_SIGNER : N := 102.
  Definition E_INSUFFICIENT_STAKE : N := 103.
  Definition E_ENTITY_HAS_NODES : N := 104.
  Definition E_ENTITY_HAS_RUNTIMES : N := 105.
  Definition E_NO_SUCH_ENTITY : N := 106.
  Definition E_NODE_EXPIRED : N := 107.
  Definition E_UPDATE_NOT_ALLOWED : N := 108.
  Definition E_FORBIDDEN : N := 109.
  Definition E_RT_STATE : N := 110.
  Definition E_QUEUE_FULL : N := 111.
  Definition E_FEE_TOO_LOW : N := 112.
  Definition E_INSUFFICIENT_BALANCE : N := 113.
  Definition E_BALANCE_TOO_LOW : N := 114.

  Variables (k_reg_params k_stake_params k_epoch k_features k_rh_params : N).
  Variables (k_entity k_entity_acct k_entity_nodes k_entity_runtimes : tx -> N).
  Variables (k_node k_node_index k_node_status k_node_lookups k_beacon_params : tx -> N).
  Variables (k_runtime k_suspended_runtime k_runtime_owner k_old_runtime_owner k_rt_acct k_old_rt_acct : tx -> N).
  Variables (k_rt_state k_in_meta k_in_msg k_caller_acct k_rt_staking_acct : tx -> N).

  (* abstract verdicts / record computations of the pure routines *)
  Variable cost : option val -> N -> N.                 (* params.GasCosts[op] *)
  Variable count : tx -> N.                             (* len(ent.Nodes), feeCount, ... *)
  Variable verify_entity_args : tx -> bool.             (* registry.VerifyRegisterEntityArgs *)
  Variable signer_ok : tx -> bool.
  Variable bypass_stake : option val -> bool.           (* stakeParams.DebugBypassStake *)
  Variable add_claim : option val -> tx -> option val.  (* EscrowAccount.AddStakeClaim: None = insufficient stake *)
  Variable remove_claim : option val -> tx -> val.
  Variable new_val : tx -> option val -> val.           (* the record written *)
  Variable nonempty : option val -> bool.
  Variable verify_node_args : option val -> option val -> option val -> option val -> option val -> tx -> bool.
  Variable admission_ok : option val -> tx -> bool.
  Variable node_expired : option val -> tx -> bool.
  Variable node_lookup_failed : option val -> bool.
  Variable verify_node_update : option val -> tx -> bool.
  Variable resume_needed : option val -> option val -> tx -> bool.
  Variable publish_resumed publish_new publish_updated : tx -> prog.   (* md.Publish: the subscribers' code *)
  Variable rt_registration_disabled : option val -> tx -> bool.
  Variable verify_runtime_args : option val -> option val -> option val -> tx -> bool.
  Variable verify_runtime_new_or_update : option val -> option val -> tx -> bool.
  Variable rt_signer_ok : option val -> option val -> tx -> bool.
  Variable rt_needs_stake owner_changed : option val -> tx -> bool.
  Variable rt_state_usable : option val -> bool.
  Variable max_in_zero fee_below_min : option val -> tx -> bool.
  Variable transfer_noop : tx -> bool.
  Variable move : option val -> option val -> tx -> option (val * val).   (* quantity.Move: None = insufficient *)
  Variable below_min : option val -> val -> bool.
  Variable queue_full : option val -> option val -> bool.
  Variables (k_evidence k_accused_node k_accused_acct k_caller_node : tx -> N).
  Variable validate_evidence : tx -> bool.               (* Evidence.ValidateBasic *)
  Variable rt_slashes : option val -> bool.
  Variable evidence_expired : option val -> option val -> tx -> bool.
  Variable penalty_zero : option val -> bool.
  Variable slash_escrow : option val -> tx -> option val.    (* SlashEscrow: None = error *)
  Variable slashed_nothing : option val -> tx -> bool.
  Variable distribute : option val -> tx -> prog.           (* distributeSlashedFunds *)

  Definition OP_REGISTER_ENTITY : N := 1.
  Definition OP_REGISTER_NODE : N := 2.
  Definition OP_DEREGISTER_ENTITY : N := 3.
  Definition OP_RT_EPOCH_MAINTENANCE : N := 4.
  Definition OP_REGISTER_RUNTIME : N := 5.
  Definition OP_SUBMIT_MSG : N := 6.
  Definition OP_EVIDENCE : N := 7.
  Definition E_INVALID_EVIDENCE : N := 115.
  Definition E_DUPLICATE_EVIDENCE : N := 116.
  Definition E_RT_DOES_NOT_SLASH : N := 117.

  Definition gas (params : option val) (op mult : N) : N := (cost params op * mult) mod two64.   (* gas.go:47 *)

  (* ---- registry/transactions.go:21-99 registerEntity ---- *)
  Definition h_register_entity (m : mode) (x : tx) : hprog :=
    if negb (verify_entity_args x) then HRet (Err E_INVALID_ARGUMENT) else               (* :26-29 *)
    match m with Check => HRet Ok | _ =>                                                   (* :31-33 *)
    HGetH k_reg_params (fun rp =>                                                          (* :36 *)
    HGas (gas rp OP_REGISTER_ENTITY 1) (                                                   (* :43 *)
    HGas (gas rp OP_REGISTER_NODE (count x)) (                                             (* :46 *)
    match m with Sim => HRet Ok | _ =>                                                     (* :51-53 *)
    if negb (signer_ok x) then HRet (Err E_INCORRECT_SIGNER) else                          (* :58-60 *)
    HGet k_stake_params (fun sp =>                                                         (* :62-69 *)
    let set_entity := HPutH (k_entity x) (new_val x None) (HRet Ok) in                     (* :88, then nil *)
    if bypass_stake sp then set_entity else                                                (* :71 *)
    HGet (k_entity_acct x) (fun a =>                                                       (* :73 AddStakeClaim(ctx, ..) *)
    match add_claim a x with
    | None => HRet (Err E_INSUFFICIENT_STAKE)                                              (* :79-85 *)
    | Some a' => HPut (k_entity_acct x) a' set_entity                                      (* accumulator.go:140 Commit *)
    end))
    end)))
    end.

  (* ---- :101-186 deregisterEntity ---- *)
  Definition h_deregister_entity (m : mode) (x : tx) : hprog :=
    match m with Check => HRet Ok | _ =>                                                   (* :102-104 *)
    HGetH k_reg_params (fun rp =>                                                          (* :107 *)
    HGas (gas rp OP_DEREGISTER_ENTITY 1) (                                                 (* :114 *)
    match m with Sim => HRet Ok | _ =>                                                     (* :119-121 *)
    HGetH (k_entity_nodes x) (fun ns =>                                                    (* :126 *)
    if nonempty ns then HRet (Err E_ENTITY_HAS_NODES) else                                 (* :133-138 *)
    HGetH (k_entity_runtimes x) (fun rs =>                                                 (* :140 *)
    if nonempty rs then HRet (Err E_ENTITY_HAS_RUNTIMES) else                              (* :147-152 *)
    HGetH (k_entity x) (fun en =>                                                          (* :154 RemoveEntity = RemoveExisting *)
    match en with
    | None => HRet (Err E_NO_SUCH_ENTITY)                                                  (* :157 *)
    | Some _ =>
      HDelH (k_entity x) (
      HGet k_stake_params (fun sp =>                                                       (* :163 (a storage error here is not modelled) *)
      if bypass_stake sp then HRet Ok else
      HGet (k_entity_acct x) (fun a =>                                                     (* :174 RemoveStakeClaim; an error PANICS (:175) *)
      HPut (k_entity_acct x) (remove_claim a x) (HRet Ok))))
    end)))
    end))
    end.

  (* ---- :188-500 registerNode ---- *)
  (* After the first handle write (SetNode :376) the code still has `return err` statements:
     NodeStatus of an EXISTING node not found (:384-393), beacon parameters unreadable (:418),
     SetNodeStatus / ResumeRuntime storage errors (:430,:478), unknown governance model
     (:447, "should never happen"), Publish(MessageRuntimeResumed) (:467; its only subscriber
     returns nil, roothash.go:277-279). They are state-corruption / storage failures
     (UnavailableStateError makes DeliverTx panic, mux.go:720-727) and are modelled as not
     failing; [publish_resumed]'s result is ignored accordingly. *)
  Definition h_register_node (m : mode) (x : tx) : hprog :=
    match m with Check => HRet Ok | _ =>                                                   (* :193-195 *)
    HGetH (k_entity x) (fun en =>                                                          (* :204 *)
    HGetH k_reg_params (fun rp =>                                                          (* :210 *)
    HGetH k_epoch (fun ep =>                                                               (* :216 *)
    HGet k_features (fun fv =>                                                             (* :224 *)
    HGetH (k_node_lookups x) (fun lk =>                                                    (* :230 VerifyRegisterNodeArgs reads nodes/runtimes *)
    if negb (verify_node_args en rp ep fv lk x) then HRet (Err E_INVALID_ARGUMENT) else    (* :244-246 *)
    if negb (signer_ok x) then HRet (Err E_INCORRECT_SIGNER) else                          (* :261-265 *)
    if negb (admission_ok lk x) then HRet (Err E_FORBIDDEN) else                           (* :268-272 *)
    if node_expired ep x then HRet (Err E_NODE_EXPIRED) else                               (* :280-286 *)
    HGetH (k_node x) (fun existing =>                                                      (* :294 *)
    if node_lookup_failed existing then HRet (Err E_INVALID_ARGUMENT) else                 (* :297-306 *)
    HGas (gas rp OP_RT_EPOCH_MAINTENANCE (count x)) (                                      (* :322 *)
    HOpen (                                                                                (* :327-328 *)
    HGet k_stake_params (fun sp =>                                                         (* :331-338 *)
    let rest :=
      if nonempty existing && negb (verify_node_update existing x)
      then HRet (Err E_UPDATE_NOT_ALLOWED)                                                 (* :365-375 *)
      else
      HPutH (k_node x) (new_val x existing) (                                              (* :376 SetNode (handle) *)
      HPutH (k_node_index x) (new_val x existing) (
      HGetH (k_node_status x) (fun st =>                                                   (* :384 *)
      HGet (k_beacon_params x) (fun bp =>                                                  (* :416 *)
      HPutH (k_node_status x) (new_val x st) (                                             (* :430 SetNodeStatus (handle) *)
      HGet (k_rt_acct x) (fun ra =>                                                        (* :454 CheckStakeClaims *)
      HGetH (k_suspended_runtime x) (fun srt =>
      let fin := HCommit (HRet Ok) in                                                      (* :497, :499 *)
      if resume_needed ra srt x then
        HDelH (k_suspended_runtime x) (                                                    (* :459 ResumeRuntime (handle) *)
        HPutH (k_runtime x) (new_val x srt) (
        HSub (publish_resumed x) (fun _ => fin)))                                          (* :467 *)
      else fin))))))) in
    if bypass_stake sp then rest else                                                      (* :341 *)
    HGet (k_entity_acct x) (fun a =>                                                       (* :342 NewStakeAccumulatorCache(ctx) *)
    match add_claim a x with
    | None => HRet (Err E_INSUFFICIENT_STAKE)                                              (* :351-357 *)
    | Some a' => HPut (k_entity_acct x) a' rest                                            (* :359 stakeAcc.Commit() *)
    end))))))))))
    end.

  (* ---- :577-852 registerRuntime ---- *)
  (* After SetRuntime (:788, handle) only SetRuntimeOwner/RemoveRuntimeOwner storage errors
     can be returned (:801-833): not modelled as failures. *)
  Definition h_register_runtime (m : mode) (x : tx) : hprog :=
    HGetH k_reg_params (fun rp =>                                                          (* :582 *)
    if rt_registration_disabled rp x then HRet (Err E_FORBIDDEN) else                      (* :590-592, :614-616 *)
    HGetH k_epoch (fun ep =>                                                               (* :594 *)
    HGet k_features (fun fv =>                                                             (* :603 *)
    if negb (verify_runtime_args rp ep fv x) then HRet (Err E_INVALID_ARGUMENT) else       (* :609-620 *)
    match m with Check => HRet Ok | _ =>                                                   (* :622-624 *)
    HGas (gas rp OP_REGISTER_RUNTIME 1) (                                                  (* :627 *)
    match m with Sim => HRet Ok | _ =>                                                     (* :632-634 *)
    HGetH (k_runtime x) (fun rt0 =>                                                        (* :638 *)
    HGetH (k_suspended_runtime x) (fun srt =>                                              (* :643 *)
    if negb (verify_runtime_new_or_update rt0 srt x) then HRet (Err E_UPDATE_NOT_ALLOWED) else   (* :655-667 *)
    if negb (rt_signer_ok rt0 srt x) then HRet (Err E_INCORRECT_SIGNER) else               (* :669-706 *)
    HOpen (                                                                                (* :709-710 *)
    HGet k_stake_params (fun sp =>                                                         (* :714 *)
    let tail :=
      (* :764-786 Publish new-runtime / runtime-updated: other apps' code inside the layer *)
      let after_publish :=
        HSub (publish_updated x) (fun r2 =>
        match r2 with Err e => HRet (Err e) | Ok =>
        HPutH (k_runtime x) (new_val x rt0) (                                              (* :788 SetRuntime (handle) *)
        HDelH (k_old_runtime_owner x) (                                                    (* :813 *)
        HPutH (k_runtime_owner x) (new_val x rt0) (                                        (* :801/:821/:831 *)
        HCommit (HRet Ok))))                                                               (* :849, :851 *)
        end) in
      if nonempty rt0 || nonempty srt then after_publish
      else HSub (publish_new x) (fun r1 =>
           match r1 with Err e => HRet (Err e) | Ok => after_publish end) in
    if bypass_stake sp || negb (rt_needs_stake sp x) then tail else                        (* :721 *)
    HGet (k_rt_acct x) (fun a =>                                                           (* :727 AddStakeClaim(ctx, ..) *)
    match add_claim a x with
    | None => HRet (Err E_INSUFFICIENT_STAKE)
    | Some a' =>
      HPut (k_rt_acct x) a' (
      if owner_changed rt0 x then                                                          (* :732-756 *)
        HGet (k_old_rt_acct x) (fun oa => HPut (k_old_rt_acct x) (remove_claim oa x) tail)
      else tail)
    end)))))
    end)
    end))).

  (* ---- roothash/transactions.go:294-384 submitMsg ---- *)
  Definition h_submit_msg (m : mode) (x : tx) : hprog :=
    match m with Check => HRet Ok | _ =>                                                   (* :299-301 *)
    HGetH k_rh_params (fun rp =>                                                           (* :304 *)
    HGas (gas rp OP_SUBMIT_MSG 1) (                                                        (* :311 *)
    match m with Sim => HRet Ok | _ =>                                                     (* :316-318 *)
    HGetH (k_rt_state x) (fun rs =>                                                        (* :320 getRuntimeState :21-42 *)
    if negb (rt_state_usable rs) then HRet (Err E_RT_STATE) else
    if max_in_zero rs x then HRet (Err E_QUEUE_FULL) else                                  (* :326-328 *)
    if fee_below_min rs x then HRet (Err E_FEE_TOO_LOW) else                               (* :331-333 *)
    HOpen (                                                                                (* :336-337 *)
    (* :345 st := stakingState.NewMutableState(ctx.State()) — built AFTER the layer was opened
       (Gen.AtomicConsts checks this order): st.Transfer writes into the layer (state.go:858-905) *)
    let enqueue :=
      HGetH (k_in_meta x) (fun meta =>                                                     (* :352 (handle read) *)
      if queue_full rs meta then HRet (Err E_QUEUE_FULL) else                              (* :358-360 *)
      HPutH (k_in_msg x) (new_val x meta) (                                                (* :371 (handle) *)
      HPutH (k_in_meta x) (new_val x meta) (                                               (* :378 (handle) *)
      HCommit (HRet Ok)))) in                                                              (* :382, :384 *)
    if transfer_noop x then enqueue else                                                   (* state.go:859 *)
    HGet (k_caller_acct x) (fun from =>
    HGet (k_rt_staking_acct x) (fun to =>
    match move from to x with
    | None => HRet (Err E_INSUFFICIENT_BALANCE)                                            (* state.go:872 *)
    | Some (from', to') =>
      HGet k_stake_params (fun sp =>
      if below_min sp from' || below_min sp to' then HRet (Err E_BALANCE_TOO_LOW) else     (* state.go:881-896 *)
      HPut (k_caller_acct x) from' (HPut (k_rt_staking_acct x) to' enqueue))
    end))))
    end))
    end.

  (* ---- roothash/transactions.go submitEvidence, after the repair 583b4f4: the evidence hash
     and the slashing are done in a transaction layer, the state wrapper is REBUILT from the
     layer's ctx.State() (so SetEvidenceHash writes into the layer), Commit only on success ---- *)
  Definition h_submit_evidence (m : mode) (x : tx) : hprog :=
    if negb (validate_evidence x) then HRet (Err E_INVALID_EVIDENCE) else                  (* ValidateBasic *)
    match m with Check => HRet Ok | _ =>
    HGetH k_rh_params (fun rp =>
    HGas (gas rp OP_EVIDENCE 1) (
    match m with Sim => HRet Ok | _ =>
    HGetH (k_rt_state x) (fun rs =>                                                        (* getRuntimeState *)
    if negb (rt_state_usable rs) then HRet (Err E_RT_STATE) else
    if negb (rt_slashes rs) then HRet (Err E_RT_DOES_NOT_SLASH) else                       (* no slashing / zero amount *)
    if evidence_expired rp rs x then HRet (Err E_INVALID_EVIDENCE) else                    (* MaxEvidenceAge *)
    HGetH (k_evidence x) (fun ev =>                                                        (* EvidenceHashExists *)
    if nonempty ev then HRet (Err E_DUPLICATE_EVIDENCE) else
    HOpen (                                                                                (* ctx = ctx.NewTransaction(); defer ctx.Close() *)
    (* state = roothashState.NewMutableState(ctx.State()): a wrapper of the LAYER *)
    HPut (k_evidence x) (new_val x ev) (                                                   (* SetEvidenceHash *)
    if penalty_zero rs then HCommit (HRet Ok) else                                         (* slashing.go:47-49 *)
    HGet (k_accused_node x) (fun nd =>                                                     (* slashing.go:54 *)
    match nd with
    | None => HRet (Err E_INVALID_EVIDENCE)                                                (* :55-63 fake-but-valid evidence *)
    | Some _ =>
      HGet (k_accused_acct x) (fun a =>                                                    (* :67 SlashEscrow *)
      match slash_escrow a x with
      | None => HRet (Err E_INVALID_EVIDENCE)                                              (* :68-70 *)
      | Some a' =>
        HPut (k_accused_acct x) a' (
        if slashed_nothing a x then HCommit (HRet Ok) else                                 (* :72-78 *)
        HGet (k_caller_node x) (fun cn =>                                                  (* :83 *)
        HSub (distribute cn x) (fun r =>                                                   (* :96 *)
        match r with Err e => HRet (Err e) | Ok => HCommit (HRet Ok) end)))
      end)
    end)))))
    end))
    end.

  (* the order BEFORE the repair: the hash is stored through the received handle with no layer,
     then the slashing may fail *)
  Definition h_submit_evidence_old (x : tx) : hprog :=
    HGetH (k_evidence x) (fun ev =>
    if nonempty ev then HRet (Err E_DUPLICATE_EVIDENCE) else
    HPutH (k_evidence x) (new_val x ev) (
    HGet (k_accused_node x) (fun nd =>
    match nd with
    | None => HRet (Err E_INVALID_EVIDENCE)
    | Some _ => HRet Ok
    end))).

  (* The seeded change C08-1: `st` is built from ctx.State() BEFORE the layer is opened, so
     the transfer goes through a handle of the tree below the layer. *)
  Definition h_submit_msg_c08_1 (x : tx) : hprog :=
    HGetH k_rh_params (fun rp => HGas (gas rp OP_SUBMIT_MSG 1) (
    HGetH (k_rt_state x) (fun rs =>
    HOpen (
    HGetH (k_caller_acct x) (fun from => HGetH (k_rt_staking_acct x) (fun to =>
    match move from to x with
    | None => HRet (Err E_INSUFFICIENT_BALANCE)
    | Some (from', to') =>
      HPutH (k_caller_acct x) from' (HPutH (k_rt_staking_acct x) to' (
      HGetH (k_in_meta x) (fun meta =>
      if queue_full rs meta then HRet (Err E_QUEUE_FULL) else
      HPutH (k_in_msg x) (new_val x meta) (HPutH (k_in_meta x) (new_val x meta) (HCommit (HRet Ok))))))
    end)))))).

  Definition registry_exec (m : mode) (x : tx) : option handler :=
    if tx_method x =? 1 then Some (hrun (h_register_entity m x) false)
    else if tx_method x =? 2 then Some (hrun (h_deregister_entity m x) false)
    else if tx_method x =? 3 then Some (hrun (h_register_node m x) false)
    else if tx_method x =? 4 then Some (hrun (h_register_runtime m x) false)
    else None.

  Lemma failed_tx_effect_registry P dec size s e g s' :
    deliver P registry_exec dec size s = (Err e, g, s') ->
    s' = s \/ (exists x, dec = Some x /\ s' = post_auth_state s x).
  Proof.
    apply failed_tx_effect_atomic. intros x. unfold registry_exec.
    apply dispatch_all; [apply hsafe_atomic; unfold h_register_entity; hs|].
    apply dispatch_all; [apply hsafe_atomic; unfold h_deregister_entity; hs|].
    apply dispatch_all; [apply hsafe_atomic; unfold h_register_node; hs|].
    apply dispatch_all; [apply hsafe_atomic; unfold h_register_runtime; hs|].
    discriminate.
  Qed.

  Definition submitmsg_exec (m : mode) (x : tx) : option handler :=
    if tx_method x =? 5 then Some (hrun (h_submit_msg m x) false) else None.

  Lemma failed_tx_effect_submitmsg P dec size s e g s' :
    deliver P submitmsg_exec dec size s = (Err e, g, s') ->
    s' = s \/ (exists x, dec = Some x /\ s' = post_auth_state s x).
  Proof.
    apply failed_tx_effect_atomic. intros x. unfold submitmsg_exec.
    apply dispatch_all; [apply hsafe_atomic; unfold h_submit_msg; hs|discriminate].
  Qed.

  Definition submitevidence_exec (m : mode) (x : tx) : option handler :=
    if tx_method x =? 6 then Some (hrun (h_submit_evidence m x) false) else None.

  Lemma failed_tx_effect_submitevidence P dec size s e g s' :
    deliver P submitevidence_exec dec size s = (Err e, g, s') ->
    s' = s \/ (exists x, dec = Some x /\ s' = post_auth_state s x).
  Proof.
    apply failed_tx_effect_atomic. intros x. unfold submitevidence_exec.
    apply dispatch_all; [apply hsafe_atomic; unfold h_submit_evidence; hs|discriminate].
  Qed.
End Ports.

Section Ports2.
  (* generic abstract parameters: the i-th key / check / computed record of a handler *)
  Variable key : N -> tx -> N.
  Variable chk : N -> list (option val) -> tx -> bool.                 (* a validation verdict *)
  Variable calc : N -> list (option val) -> tx -> option val.          (* a computed record; None = the step fails *)
  Variable newv : N -> list (option val) -> tx -> val.
  Variable gcost : option val -> N.
  Variable withdraw_hook : tx -> prog.        (* md.Publish(MessageAccountHook): the vault's invokeAccountHook *)
  Variable execute_action : tx -> prog.       (* vault executeAction (suspend/resume/execute message/...) *)

  Definition E2 (n : N) : res := Err (200 + n).

  (* ---- staking/transactions.go addEscrow: validate, compute in memory, then three handle writes ---- *)
  Definition h_add_escrow (m : mode) (x : tx) : hprog :=
    match m with Check => HRet Ok | _ =>
    HGetH (key 0 x) (fun pa =>                                   (* consensus parameters *)
    HGas (gcost pa) (
    if chk 1 [pa] x then HRet (E2 1) else                        (* reserved / delegation disabled: ErrForbidden *)
    match m with Sim => HRet Ok | _ =>
    if chk 2 [pa] x then HRet (E2 2) else                        (* below MinDelegationAmount *)
    HGetH (key 1 x) (fun from =>
    HGetH (key 2 x) (fun to =>
    HGetH (key 3 x) (fun del =>
    match calc 1 [pa; from; to; del] x, calc 2 [pa; from; to; del] x, calc 3 [pa; from; to; del] x with
    | Some from', Some to', Some del' =>                         (* Deposit ok, balances above the minimum *)
      HPutH (key 1 x) from' (HPutH (key 2 x) to' (HPutH (key 3 x) del' (HRet Ok)))
    | _, _, _ => HRet (E2 3)
    end)))
    end))
    end.

  (* ---- reclaimEscrow: same shape, four handle writes (debonding delegation, delegation, accounts) ---- *)
  Definition h_reclaim_escrow (m : mode) (x : tx) : hprog :=
    if chk 10 [] x then HRet (E2 10) else                        (* zero shares: ErrInvalidArgument *)
    match m with Check => HRet Ok | _ =>
    HGetH (key 0 x) (fun pa =>
    HGas (gcost pa) (
    if chk 11 [pa] x then HRet (E2 11) else
    match m with Sim => HRet Ok | _ =>
    if chk 12 [pa] x then HRet (E2 12) else
    HGetH (key 1 x) (fun to =>
    HGetH (key 2 x) (fun from =>
    HGetH (key 3 x) (fun del =>
    HGetH (key 4 x) (fun epoch =>
    match calc 11 [pa; to; from; del; epoch] x with              (* share arithmetic: any failure before the writes *)
    | None => HRet (E2 13)
    | Some deb =>
      HPutH (key 5 x) deb (
      HPutH (key 3 x) (newv 12 [pa; to; from; del] x) (
      HPutH (key 1 x) (newv 13 [pa; to; from; del] x) (
      HPutH (key 2 x) (newv 14 [pa; to; from; del] x) (HRet Ok))))
    end))))
    end))
    end.

  (* ---- allow ---- *)
  Definition h_allow (m : mode) (x : tx) : hprog :=
    match m with Check => HRet Ok | _ =>
    HGetH (key 0 x) (fun pa =>
    HGas (gcost pa) (
    match m with Sim => HRet Ok | _ =>
    if chk 20 [pa] x then HRet (E2 20) else                      (* allowances disabled, reserved, self *)
    HGetH (key 1 x) (fun acct =>
    HGetH (key 6 x) (fun supply =>
    match calc 20 [pa; acct; supply] x with                      (* over supply / too many allowances *)
    | None => HRet (E2 21)
    | Some acct' => HPutH (key 1 x) acct' (HRet Ok)
    end))
    end))
    end.

  (* ---- withdraw (:700-830): the layer is opened BEFORE the authorization step, because a
     withdraw hook (vault accounts) writes through ctx.State(); the two account writes go through
     the received handle, right before Commit ---- *)
  Definition h_withdraw (m : mode) (x : tx) : hprog :=
    match m with Check => HRet Ok | _ =>
    HGetH (key 0 x) (fun pa =>
    HGas (gcost pa) (
    match m with Sim => HRet Ok | _ =>
    if chk 30 [pa] x then HRet (E2 30) else                      (* below MinTransferAmount *)
    if chk 31 [pa] x then HRet (E2 31) else                      (* allowances disabled *)
    if chk 32 [pa] x then HRet (E2 32) else                      (* reserved addresses *)
    if chk 33 [pa] x then HRet (E2 33) else                      (* from = to *)
    HOpen (                                                      (* ctx = ctx.NewTransaction(); defer ctx.Close() *)
    HGetH (key 2 x) (fun from =>
    let rest :=
      HGetH (key 1 x) (fun to =>
      match calc 30 [pa; from; to] x, calc 31 [pa; from; to] x with   (* Move + minimum balances *)
      | Some to', Some from' => HPutH (key 1 x) to' (HPutH (key 2 x) from' (HCommit (HRet Ok)))
      | _, _ => HRet (E2 36)
      end) in
    if chk 34 [from] x then                                      (* the source account has a withdraw hook *)
      HSub (withdraw_hook x) (fun r => match r with Err e => HRet (E2 34) | Ok => rest end)
    else if chk 35 [from] x then HRet (E2 35)                    (* no / insufficient allowance *)
    else rest))
    end))
    end.

  (* the seeded change C08-4: the hook runs BEFORE the layer is opened *)
  Definition h_withdraw_c08_4 (x : tx) : hprog :=
    HGetH (key 2 x) (fun from =>
    HSub (withdraw_hook x) (fun r => match r with Err e => HRet (E2 34) | Ok =>
    HOpen (
    HGetH (key 1 x) (fun to =>
    match calc 30 [from; to] x, calc 31 [from; to] x with
    | Some to', Some from' => HPutH (key 1 x) to' (HPutH (key 2 x) from' (HCommit (HRet Ok)))
    | _, _ => HRet (E2 36)
    end)) end)).

  (* ---- vault/transactions.go create (:13-65). NOTE `state := vaultState.NewMutableState(ctx.State())`
     is built at the TOP (:14), before the layer: CreateVault writes below the layer, last. ---- *)
  Definition h_vault_create (m : mode) (x : tx) : hprog :=
    HGetH (key 0 x) (fun pa =>
    if chk 40 [pa] x then HRet (E2 40) else                      (* create.Validate *)
    match m with Check => HRet Ok | _ =>
    HGas (gcost pa) (
    match m with Sim => HRet Ok | _ =>
    HOpen (
    HGet (key 1 x) (fun caller =>                                (* stakeState built inside the layer *)
    HPutH (key 7 x) (newv 40 [caller] x) (                       (* CreateVault: vault record + account hook *)
    HPutH (key 8 x) (newv 41 [caller] x) (
    HCommit (HRet Ok)))))
    end)
    end).

  (* ---- authorizeAction (:67-191) ---- *)
  Definition h_vault_authorize (m : mode) (x : tx) : hprog :=
    HGetH (key 0 x) (fun pa =>
    if chk 50 [pa] x then HRet (E2 50) else                      (* authAction.Validate *)
    HGetH (key 7 x) (fun vlt =>
    if chk 51 [vlt] x then HRet (E2 51) else                     (* no such vault *)
    if chk 52 [vlt] x then HRet (E2 52) else                     (* ErrInvalidNonce *)
    if chk 53 [vlt] x then HRet (E2 53) else                     (* not authorized: ErrForbidden *)
    match m with Check => HRet Ok | _ =>
    HGas (gcost pa) (
    HOpen (
    HGetH (key 9 x) (fun pend =>
    if chk 54 [pend] x then HRet (E2 54) else                    (* a different action is pending at this nonce *)
    let exec_part :=
      if negb (chk 56 [vlt; pend] x) then HCommit (HRet Ok)      (* not enough authorizations yet *)
      else HSub (execute_action x) (fun _ =>                     (* its (non state) error is only recorded in the event *)
           HDelH (key 9 x) (HPutH (key 7 x) (newv 51 [vlt] x) (HCommit (HRet Ok)))) in
    if chk 55 [pend] x then exec_part                            (* already contains the caller's authorization *)
    else HPutH (key 9 x) (newv 50 [pend] x) exec_part)))
    end)).

  (* ---- cancelAction (:193-267) ---- *)
  Definition h_vault_cancel (m : mode) (x : tx) : hprog :=
    if chk 60 [] x then HRet (E2 60) else
    HGetH (key 7 x) (fun vlt =>
    if chk 61 [vlt] x then HRet (E2 61) else
    if chk 62 [vlt] x then HRet (E2 62) else
    if chk 63 [vlt] x then HRet (E2 63) else
    match m with Check => HRet Ok | _ =>
    HGetH (key 0 x) (fun pa =>
    HGas (gcost pa) (
    match m with Sim => HRet Ok | _ =>
    HOpen (
    HGetH (key 9 x) (fun pend =>
    if chk 64 [vlt; pend] x then HRet (E2 64) else               (* :247 ErrForbidden *)
    HDelH (key 9 x) (HPutH (key 7 x) (newv 60 [vlt] x) (HCommit (HRet Ok)))))
    end))
    end).

  Definition staking_vault_prog (m : mode) (x : tx) : option hprog :=
    if tx_method x =? 10 then Some (h_add_escrow m x)
    else if tx_method x =? 11 then Some (h_reclaim_escrow m x)
    else if tx_method x =? 12 then Some (h_allow m x)
    else if tx_method x =? 13 then Some (h_withdraw m x)
    else if tx_method x =? 14 then Some (h_vault_create m x)
    else if tx_method x =? 15 then Some (h_vault_authorize m x)
    else if tx_method x =? 16 then Some (h_vault_cancel m x)
    else None.
  Definition staking_vault_exec (m : mode) (x : tx) : option handler :=
    match staking_vault_prog m x with Some p => Some (hrun p false) | None => None end.

  Lemma failed_tx_effect_staking_vault P dec size s e g s' :
    deliver P staking_vault_exec dec size s = (Err e, g, s') ->
    s' = s \/ (exists x, dec = Some x /\ s' = post_auth_state s x).
  Proof.
    apply failed_tx_effect_atomic. intros x h. unfold staking_vault_exec.
    destruct (staking_vault_prog Deliver x) as [p|] eqn:Ep; [|discriminate].
    intros H; injection H as <-. apply hsafe_atomic. revert p Ep. unfold staking_vault_prog.
    apply dispatch_all; [unfold h_add_escrow; hs|].
    apply dispatch_all; [unfold h_reclaim_escrow; hs|].
    apply dispatch_all; [unfold h_allow; hs|].
    apply dispatch_all; [unfold h_withdraw; hs|].
    apply dispatch_all; [unfold h_vault_create; hs|].
    apply dispatch_all; [unfold h_vault_authorize; hs|].
    apply dispatch_all; [unfold h_vault_cancel; hs|].
    discriminate.
  Qed.
End Ports2.

Definition c08_4_handler : hprog :=
  h_withdraw_c08_4 (fun i _ => i) (fun _ _ _ => None)
    (fun _ => Put 31 (VRaw 80) (Ret Ok)) (mkTx 20 0 0 0 13 false 0).

Lemma c08_4_not_atomic : ~ atomic (hrun c08_4_handler false).
Proof.
  eapply (not_atomic_witness _ nop_gas (mkT [(2, VRaw 50)] [[]])); [vm_compute; reflexivity|discriminate].
Qed.

Definition c08_1_handler : hprog :=
  h_submit_msg_c08_1 0 (fun _ => 10) (fun _ => 11) (fun _ => 12) (fun _ => 20) (fun _ => 21)
    (fun _ _ => 5)
    (fun _ _ => VRaw 1)
    (fun f t _ => match f, t with
                  | Some (VRaw a), Some (VRaw b) => if 150 <=? a then Some (VRaw (a - 150), VRaw (b + 150)) else None
                  | Some (VRaw a), None => if 150 <=? a then Some (VRaw (a - 150), VRaw 150) else None
                  | _, _ => None end)
    (fun _ meta => match meta with Some (VRaw n) => 1 <=? n | _ => false end)
    (mkTx 20 0 0 0 5 false 0).

Lemma c08_1_not_atomic : ~ atomic (hrun c08_1_handler false).
Proof.
  eapply (not_atomic_witness _ (mkGas 1000 0 false) (mkT [(20, VRaw 1000); (11, VRaw 1)] [[]]));
    [vm_compute; reflexivity|discriminate].
Qed.

Definition evidence_old_handler : hprog :=
  h_submit_evidence_old (fun _ _ => VRaw 1) (fun v => match v with Some _ => true | None => false end)
    (fun _ => 30) (fun _ => 31) (mkTx 20 0 0 0 6 false 0).

Lemma evidence_old_not_atomic : ~ atomic (hrun evidence_old_handler false).
Proof.
  eapply (not_atomic_witness _ (mkGas 1000 0 false) (mkT [(20, VRaw 1000)] [[]]));
    [vm_compute; reflexivity|discriminate].
Qed.
