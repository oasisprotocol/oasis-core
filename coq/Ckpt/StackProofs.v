(* The stack-machine port (Ckpt/Stack.v) against the count abstraction
   (Ckpt/Model.v): the compositional part of the refinement.  splitTasks (with
   its iteration bound and early return), the lock-step rounds and the
   filtering of finished tasks preserve ANY simulation relation between stack
   tasks and count tasks under which one nextChunk, one split and hasNext agree.
   That the concrete representation relation (pending stack after trim = chain
   of partially visited ancestors of the next key) satisfies the three step
   premises is proved in Ckpt/StackSim.v. *)
From Verif Require Import Lib.Base Mkvs.Trie Ckpt.Model Ckpt.Proofs Ckpt.ParProofs Ckpt.Stack.
Local Open Scope nat_scope.

Lemma Forall2_length {A B} (P : A -> B -> Prop) l l' : Forall2 P l l' -> length l = length l'.
Proof. induction 1; cbn [length]; auto. Qed.

Section Sim.
  Variable H : bytes -> bytes.
  Variable t : tree.
  Variable size : N.
  Variable R : stask -> task -> Prop.
  (* tasks that enter a round are unfinished *)
  Definition RU (s : stask) (c : task) : Prop := R s c /\ unfinished c = true.
  Hypothesis Hsplit : forall s c, RU s c -> Forall2 RU (s_split s) (split c).
  Hypothesis Hnext : forall s c, RU s c ->
    exists s', s_next_chunk H t size s =
               Some (chunk_of H (inrun (task_run size c)) t, task_run size c, s') /\
               R s' (advance size c).
  Hypothesis Hfin : forall s c, R s c -> s_finished s = negb (unfinished c).

  Lemma split_pass_sim threads ts : forall tc acc acc',
    Forall2 RU acc acc' -> Forall2 RU ts tc ->
    Forall2 RU (fst (g_split_pass s_split threads acc ts)) (fst (split_pass threads acc' tc)) /\
    snd (g_split_pass s_split threads acc ts) = snd (split_pass threads acc' tc).
  Proof.
    induction ts as [|s ts IH]; intros tc acc acc' Ha Ht; inversion Ht; subst; cbn [g_split_pass split_pass fst snd].
    - auto.
    - rewrite (Forall2_length _ _ _ Ha). cbn [length]. rewrite (Forall2_length _ _ _ H4).
      destruct (threads <=? _); cbn [fst snd].
      + split; [|reflexivity]. apply Forall2_app; [assumption|]. constructor; assumption.
      + apply IH; [|assumption]. apply Forall2_app; [assumption|]. now apply Hsplit.
  Qed.

  Lemma split_tasks_sim threads n : forall ts tc,
    Forall2 RU ts tc -> Forall2 RU (g_split_tasks s_split threads n ts) (split_tasks threads n tc).
  Proof.
    induction n as [|n IH]; intros ts tc Ht; cbn [g_split_tasks split_tasks]; [assumption|].
    destruct (split_pass_sim threads ts tc [] [] (Forall2_nil _) Ht) as [F E].
    destruct (g_split_pass s_split threads [] ts) as [a b], (split_pass threads [] tc) as [a' b'].
    cbn [fst snd] in *. subst b'. destruct b; auto.
  Qed.

  Lemma next_all ts : forall tc, Forall2 RU ts tc ->
    exists res, opt_all (map (s_next_chunk H t size) ts) = Some res /\
      map fst res = map (fun c => (chunk_of H (inrun (task_run size c)) t, task_run size c)) tc /\
      Forall2 R (map snd res) (map (advance size) tc).
  Proof.
    induction ts as [|s ts IH]; intros tc Ht; inversion Ht; subst.
    - exists []. repeat split; constructor.
    - destruct (IH _ H4) as (res & E & Em & Er). destruct (Hnext _ _ H2) as (s' & En & Rs).
      eexists. cbn [map opt_all]. rewrite En, E. split; [reflexivity|].
      cbn [map fst snd]. split; [now rewrite Em|]. constructor; assumption.
  Qed.

  Lemma filter_sim l : forall l', Forall2 R l l' ->
    Forall2 RU (filter (fun tk => negb (s_finished tk)) l) (filter unfinished l').
  Proof.
    induction l as [|s l IH]; intros l' Hl; inversion Hl; subst; cbn [filter]; [constructor|].
    rewrite (Hfin _ _ H2), negb_involutive. destruct (unfinished y) eqn:Eu; [constructor; [split; assumption|]|]; auto.
  Qed.

  Lemma rounds_sim threads fuel : forall ts tc,
    Forall2 RU ts tc ->
    exists res lft,
      s_rounds fuel H t size threads ts = Some (res, lft) /\
      res = map (fun run => (chunk_of H (inrun run) t, run)) (fst (par_rounds fuel size threads tc)) /\
      Forall2 RU lft (snd (par_rounds fuel size threads tc)).
  Proof.
    induction fuel as [|fuel IH]; intros ts tc Ht; cbn [s_rounds par_rounds].
    - exists [], ts. auto.
    - inversion Ht; subst; [exists [], []; repeat split; constructor|].
      set (ts0 := x :: l) in *. set (tc0 := y :: l') in *.
      pose proof (split_tasks_sim threads SPLIT_ITERS ts0 tc0 Ht) as S2.
      destruct (next_all _ _ S2) as (res & E & Em & Er). rewrite E.
      destruct (IH _ _ (filter_sim _ _ Er)) as (more & lft & E2 & Em2 & Rl). rewrite E2.
      destruct (par_rounds fuel size threads (filter unfinished (map (advance size) (split_tasks threads SPLIT_ITERS tc0))))
        as [more' lft'] eqn:Ep. cbn [fst snd] in *.
      exists (map fst res ++ more), lft. split; [reflexivity|]. split; [|assumption].
      rewrite map_app, Em, Em2, map_map. reflexivity.
  Qed.

  (* the port produces exactly the chunks (and visits exactly the runs) of the
     count abstraction; hence chunks_cover, restore_any_order,
     metadata_deterministic, ... apply to the port's chunk list *)
  Theorem par_stack_refines_count_sim threads :
    t <> Nil -> RU (new_stask t) (mk t 0%N 0) ->
    exists res,
      s_par H size threads t = Some (res, []) /\
      map snd res = fst (par_runs size threads t) /\
      map fst res = par_chunks H size threads t.
  Proof.
    intros Hn R0. pose proof (par_terminates size threads t) as T.
    unfold s_par, par_chunks. rewrite par_runs_nonnil in * by exact Hn.
    destruct (rounds_sim threads (S (length (contents t))) [new_stask t] [mk t 0%N 0]) as (res & lft & E & Em & Rl);
      [constructor; [assumption|constructor]|].
    rewrite T in Rl. inversion Rl; subst lft. exists res. split; [exact E|].
    rewrite Em, !map_map. cbn [fst snd]. split; [now rewrite map_id|reflexivity].
  Qed.
End Sim.
