(* Invariant of the bookkeeping layer and its preservation by every operation. *)
From Verif Require Import Lib.Base Txpool.Model Txpool.Ops.

Lemma has_sender_false a l : has_sender a l = false <-> forall t, In t l -> tsender t <> a.
Proof.
  split.
  - intros H t Ht Ha. assert (has_sender a l = true) by (apply has_sender_true; eauto). congruence.
  - intros H. destruct (has_sender a l) eqn:E; [|reflexivity].
    apply has_sender_true in E as [t [H1 H2]]. exfalso. eapply H; eauto.
Qed.

Record Inv (s : st) : Prop := mkInv {
  i_ids : NoDup (map tid (txs s));
  i_slot : forall t u, In t (txs s) -> In u (txs s) -> tsender t = tsender u -> tseq t = tseq u -> t = u;
  i_entry : forall t, In t (txs s) -> exists c, aget (tsender t) (senders s) = Some c /\ c <= tseq t;
  i_mem : forall t, In t (txs s) -> nmem (tid t) (maxh s) = is_ready s t;
  i_sub : forall j, In j (maxh s) -> exists t, In t (txs s) /\ tid t = j;
  i_btx : forall t, In t (txs s) -> tseq t <= U64MAX;
  i_bsched : forall a q, aget a (sched s) = Some q -> q <= U64MAX
}.

Lemma inv_init c : Inv (init c).
Proof.
  constructor; cbn; try contradiction; try constructor; try discriminate.
Qed.

Lemma inv_id_eq s t u : Inv s -> In t (txs s) -> In u (txs s) -> tid t = tid u -> t = u.
Proof. intros HI. apply NoDup_map_inj. apply HI. Qed.

Lemma inv_get_seq s a q u : Inv s -> In u (txs s) -> tsender u = a ->
  (get_seq a q (txs s) = Some u <-> tseq u = q).
Proof.
  intros HI Hu Ha. split; [intros H; apply get_seq_some in H; apply H|]. intros Hq.
  destruct (get_seq a q (txs s)) as [v|] eqn:E.
  - apply get_seq_some in E as (Hv & Hs & Hq'). f_equal. apply (i_slot s HI); congruence.
  - destruct (get_seq_none a q _ E u Hu Ha Hq).
Qed.

Lemma inv_maxh_ready s : Inv s -> forall j, In j (maxh s) <-> In j (map tid (ready s)).
Proof.
  intros HI j. unfold ready. rewrite in_map_iff. split.
  - intros Hj. destruct (i_sub s HI j Hj) as [t [Ht He]]. exists t. split; [exact He|].
    rewrite filter_In, <- (i_mem s HI t Ht), nmem_In, He. auto.
  - intros [t [He Ht]]. rewrite filter_In in Ht. destruct Ht as [Ht Hr].
    rewrite <- He, <- nmem_In, (i_mem s HI t Ht). exact Hr.
Qed.

(* Every operation that repairs the heap pops at most one transaction [cu] and
   pushes at most one [f], both of the sender [a] whose readiness changed. *)
Definition push (f : option tx) (m : list N) : list N :=
  match f with Some n => tid n :: m | None => m end.
Definition pop (cu : option tx) (m : list N) : list N :=
  match cu with Some n => nremove (tid n) m | None => m end.

Lemma In_push j f m : In j (push f m) <-> (exists n, f = Some n /\ tid n = j) \/ In j m.
Proof.
  destruct f as [n|]; cbn [push In]; split.
  - intros [H|H]; [left; exists n; auto|right; exact H].
  - intros [[n' [[= <-] H]]|H]; [left; exact H|right; exact H].
  - auto.
  - intros [[n [H _]]|H]; [discriminate|exact H].
Qed.

Lemma In_pop j cu m : In j (pop cu m) <-> In j m /\ forall n, cu = Some n -> j <> tid n.
Proof.
  destruct cu as [n|]; cbn [pop]; [rewrite In_nremove|]; split; intros H.
  - split; [apply H|]. intros n' [= <-]. apply H.
  - split; [apply H|]. apply H. reflexivity.
  - split; [exact H|discriminate].
  - apply H.
Qed.

Lemma push_pop_sub l m f cu :
  (forall j, In j m -> exists t, In t l /\ tid t = j) -> (forall n, f = Some n -> In n l) ->
  forall j, In j (push f (pop cu m)) -> exists t : tx, In t l /\ tid t = j.
Proof.
  intros Hm Hf j Hj. apply In_push in Hj as [[n [Hn He]]|Hj].
  - exists n. auto.
  - apply In_pop in Hj. apply Hm. apply Hj.
Qed.

(* [m] holds the ids of the transactions of [l] selected by [before]; readiness
   changes to [after], for sender [a] only, in step with the pop and the push. *)
Lemma retarget a (before after : tx -> bool) l m f cu :
  NoDup (map tid l) ->
  (forall u, In u l -> nmem (tid u) m = before u) ->
  (forall n, f = Some n -> In n l /\ tsender n = a) ->
  (forall n, cu = Some n -> In n l /\ tsender n = a) ->
  (forall u, In u l -> tsender u <> a -> after u = before u) ->
  (forall u, In u l -> tsender u = a ->
     (after u = true <-> f = Some u \/ cu <> Some u /\ before u = true)) ->
  forall u, In u l -> nmem (tid u) (push f (pop cu m)) = after u.
Proof.
  intros Hnd Hm Hf Hcu Hoth Ha u Hu.
  assert (nmem (tid u) (push f (pop cu m)) = true <-> f = Some u \/ cu <> Some u /\ before u = true) as Hin.
  { rewrite nmem_In, In_push, In_pop, <- nmem_In, (Hm u Hu). split.
    - intros [[n [Hn He]]|[Hb Hne]].
      + left. rewrite Hn. f_equal. apply (NoDup_map_inj tid l); auto. apply (Hf n Hn).
      + right. split; [|exact Hb]. intros Hc. apply (Hne u Hc). reflexivity.
    - intros [Hfu|[Hne Hb]].
      + left. exists u. auto.
      + right. split; [exact Hb|]. intros n Hn He. apply Hne. rewrite Hn. f_equal.
        apply (NoDup_map_inj tid l); auto. apply (Hcu n Hn). }
  apply eq_iff_eq_true. rewrite Hin. destruct (N.eq_dec (tsender u) a) as [E|E].
  - symmetry. apply Ha; assumption.
  - rewrite (Hoth u Hu E). split.
    + intros [Hfu|[_ Hb]]; [|exact Hb]. destruct (Hf u Hfu) as [_ Hs]. contradiction.
    + intros Hb. right. split; [|exact Hb]. intros Hc. destruct (Hcu u Hc) as [_ Hs]. contradiction.
Qed.

Lemma drop_inv P a s : Inv s -> Inv (drop P a s).
Proof.
  intros HI.
  assert (forall t, In t (txs (drop P a s)) -> In t (txs s)) as Hsub.
  { intros t Ht. apply drop_In_txs in Ht. tauto. }
  constructor.
  - rewrite drop_txs. apply NoDup_map_filter. apply HI.
  - intros t u Ht Hu. apply (i_slot s HI); auto.
  - intros t Ht. rewrite (drop_senders P a s t Ht). apply (i_entry s HI). auto.
  - intros t Ht. rewrite drop_mem, drop_ready by (exact Ht || apply HI). apply (i_mem s HI). auto.
  - intros j Hj. apply drop_In_maxh in Hj as [Hj1 Hj2].
    destruct (i_sub s HI j Hj1) as [t [Ht He]]. exists t. split; [|exact He].
    apply drop_In_txs. auto.
  - intros t Ht. apply (i_btx s HI). auto.
  - intros b q. rewrite drop_sched. apply (i_bsched s HI).
Qed.

(* a sender without entry has no transactions, so nothing depends on the new entry *)
Lemma with_entry_inv a q s : Inv s -> Inv (with_entry a q s).
Proof.
  intros HI. unfold with_entry. destruct (aget a (senders s)) eqn:Hn; [exact HI|].
  assert (forall t, In t (txs s) ->
            aget (tsender t) (aset a q (senders s)) = aget (tsender t) (senders s)) as Hsame.
  { intros t Ht. apply aget_aset_other. intros Ha.
    destruct (i_entry s HI t Ht) as [c [Hc _]]. congruence. }
  constructor; cbn [txs senders sched maxh set_senders]; try apply HI.
  - intros t Ht. rewrite (Hsame t Ht). apply (i_entry s HI t Ht).
  - intros t Ht. rewrite (i_mem s HI t Ht). apply is_ready_ext; [reflexivity|]. symmetry. apply (Hsame t Ht).
Qed.

(* a transaction with a fresh id enters a free slot; [l] is what is kept of the old contents *)
Lemma cons_inv t l m s c :
  Inv s -> (forall u, In u l -> In u (txs s)) -> NoDup (map tid l) ->
  (forall u, In u (txs s) -> tid u <> tid t) ->
  (forall u, In u l -> tsender u = tsender t -> tseq u <> tseq t) ->
  aget (tsender t) (senders s) = Some c -> c <= tseq t -> tseq t <= U64MAX ->
  nmem (tid t) m = is_ready s t ->
  (forall u, In u l -> nmem (tid u) m = nmem (tid u) (maxh s)) ->
  (forall j, In j m -> j = tid t \/ exists u, In u l /\ tid u = j) ->
  Inv (set_maxh (set_txs s (t :: l)) m).
Proof.
  intros HI Hl Hnd Hfresh Hfree Hc Hle Hb Hmt Hml Hsub.
  constructor; cbn [txs senders sched maxh set_txs set_maxh map]; try apply HI.
  - constructor; [|exact Hnd]. intros Hin. apply in_map_iff in Hin as [u [He Hu]].
    exact (Hfresh u (Hl u Hu) He).
  - intros x y [<-|Hx] [<-|Hy] Hs Hq; try reflexivity.
    + destruct (Hfree y Hy); auto.
    + destruct (Hfree x Hx); auto.
    + apply (i_slot s HI); auto.
  - intros x [<-|Hx]; [exists c; auto|apply (i_entry s HI x (Hl x Hx))].
  - intros x [<-|Hx]; [exact Hmt|]. rewrite (Hml x Hx). apply (i_mem s HI x (Hl x Hx)).
  - intros j Hj. destruct (Hsub j Hj) as [->|[u [Hu He]]]; [exists t|exists u]; cbn [In]; auto.
  - intros x [<-|Hx]; [exact Hb|apply (i_btx s HI x (Hl x Hx))].
Qed.

Lemma inv_fresh_nmem s i : Inv s -> (forall u, In u (txs s) -> tid u <> i) -> nmem i (maxh s) = false.
Proof.
  intros HI Hfresh. apply not_true_iff_false. rewrite nmem_In. intros Hj.
  destruct (i_sub s HI i Hj) as [u [Hu He]]. exact (Hfresh u Hu He).
Qed.

Lemma insert_inv t s c :
  Inv s -> find_id (tid t) (txs s) = None -> get_seq (tsender t) (tseq t) (txs s) = None ->
  aget (tsender t) (senders s) = Some c -> c <= tseq t -> tseq t <= U64MAX ->
  Inv (b_insert t s).
Proof.
  intros HI Hid Hslot Hc Hle Hb.
  pose proof (find_id_none _ _ Hid) as Hfresh.
  assert (forall m, nmem (tid t) m = is_ready s t ->
            (forall u, In u (txs s) -> nmem (tid u) m = nmem (tid u) (maxh s)) ->
            (forall j, In j m -> j = tid t \/ In j (maxh s)) ->
            Inv (set_maxh (set_txs s (t :: txs s)) m)) as Hcons.
  { intros m H1 H2 H3. apply (cons_inv t (txs s) m s c); auto; [apply HI| |].
    - intros u Hu Hs Hq. exact (get_seq_none _ _ _ Hslot u Hu Hs Hq).
    - intros j Hj. destruct (H3 j Hj) as [->|Hm]; [left; reflexivity|right; apply (i_sub s HI j Hm)]. }
  unfold b_insert. destruct (is_ready s t) eqn:Er.
  - apply Hcons; cbn [maxh set_txs].
    + apply nmem_In. left. reflexivity.
    + intros u Hu. apply eq_iff_eq_true. rewrite !nmem_In. cbn [In].
      split; [intros [He|H]; [destruct (Hfresh u Hu (eq_sym He))|exact H]|auto].
    + intros j [<-|Hj]; auto.
  - apply (Hcons (maxh s)); auto. apply inv_fresh_nmem; assumption.
Qed.

Lemma replace_inv t old s :
  Inv s -> find_id (tid t) (txs s) = None -> In old (txs s) ->
  tsender old = tsender t -> tseq old = tseq t ->
  Inv (b_replace t old s).
Proof.
  intros HI Hid Hold Hs Hq.
  pose proof (find_id_none _ _ Hid) as Hfresh.
  assert (forall u, In u (del_id (tid old) (txs s)) -> In u (txs s) /\ u <> old) as Hdel.
  { intros u Hu. apply In_del_id in Hu as [H1 H2]. split; [exact H1|]. intros ->. apply H2. reflexivity. }
  destruct (i_entry s HI old Hold) as [c [Hc Hle]].
  assert (forall m, nmem (tid t) m = nmem (tid old) (maxh s) ->
            (forall u, In u (txs s) -> u <> old -> nmem (tid u) m = nmem (tid u) (maxh s)) ->
            (forall j, In j m -> j = tid t \/ In j (maxh s) /\ j <> tid old) ->
            Inv (set_maxh (set_txs s (t :: del_id (tid old) (txs s))) m)) as Hcons.
  { intros m H1 H2 H3. apply (cons_inv t _ m s c); [exact HI| | |exact Hfresh| | | | | | |].
    - intros u Hu. apply (Hdel u Hu).
    - apply NoDup_map_filter. apply HI.
    - intros u Hu Hsu Hqu. apply (Hdel u Hu). apply (i_slot s HI); [apply (Hdel u Hu)|exact Hold|congruence..].
    - congruence.
    - rewrite <- Hq. exact Hle.
    - rewrite <- Hq. apply (i_btx s HI old Hold).
    - rewrite H1, (i_mem s HI old Hold). unfold is_ready. rewrite Hs, Hq. reflexivity.
    - intros u Hu. apply H2; apply (Hdel u Hu).
    - intros j Hj. destruct (H3 j Hj) as [->|[Hm Hne]]; [left; reflexivity|right].
      destruct (i_sub s HI j Hm) as [u [Hu He]]. exists u. rewrite In_del_id. split; [split|]; congruence. }
  unfold b_replace. destruct (nmem (tid old) (maxh s)) eqn:Em.
  - apply Hcons; cbn [maxh set_txs].
    + apply nmem_In. left. reflexivity.
    + intros u Hu Hne. apply eq_iff_eq_true. rewrite !nmem_In. cbn [In]. rewrite In_nremove. split.
      * intros [He|[H _]]; [destruct (Hfresh u Hu (eq_sym He))|exact H].
      * intros H. right. split; [exact H|]. intros He. apply Hne. apply (inv_id_eq s); assumption.
    + intros j [<-|Hj]; [left; reflexivity|right; apply In_nremove; exact Hj].
  - apply (Hcons (maxh s)); auto.
    + apply inv_fresh_nmem; assumption.
    + intros j Hj. right. split; [exact Hj|]. intros ->. apply nmem_In in Hj. congruence.
Qed.

Definition op_ok (o : op) : Prop :=
  match o with OAdd t _ _ => tseq t <= U64MAX | _ => True end.

Lemma add_inv t q e s : Inv s -> tseq t <= U64MAX -> Inv (snd (b_add t q e s)).
Proof.
  intros HI Hb. pose proof (with_entry_inv (tsender t) q s HI) as HI1.
  assert (find_id (tid t) (txs s) = None -> entry_seq (tsender t) q s <= tseq t ->
          get_seq (tsender t) (tseq t) (txs s) = None -> Inv (b_insert t (with_entry (tsender t) q s))) as Hins.
  { intros Hid Hle Hslot. apply (insert_inv t _ (entry_seq (tsender t) q s)); auto;
      rewrite ?with_entry_txs; auto. apply with_entry_seq. }
  destruct (b_add_spec t q e s) as [ | | |old Hid Hslot| | |low]; cbn [snd]; auto.
  - apply get_seq_some in Hslot. apply replace_inv; rewrite ?with_entry_txs; tauto.
  - apply drop_inv. auto.
Qed.

(* only with the stop constant U64MAX does [b_next] find the successor whenever there is
   one; with a smaller constant a pass ends early (Proofs.book_refines_ref_refuted_for_maxint64) *)
Lemma inv_next s t u : Inv s -> In t (txs s) -> In u (txs s) -> tsender u = tsender t ->
  (b_next U64MAX t s = Some u <-> tseq t <> U64MAX /\ tseq u = tseq t + 1).
Proof.
  intros HI Ht Hu Hs. unfold b_next.
  destruct (tseq t =? U64MAX) eqn:E; [split; [discriminate|lia]|].
  destruct (i_entry s HI t Ht) as [c [-> _]]. pose proof (i_btx s HI t Ht).
  rewrite N.mod_small, inv_get_seq by (assumption || unfold U64MAX in *; lia). lia.
Qed.

Lemma schedule_one_inv i s s1 : Inv s -> b_schedule_one U64MAX i s = Some s1 -> Inv s1.
Proof.
  intros HI H. apply schedule_one_some in H as (t & Em & Hf & ->).
  apply find_id_some in Hf as [Ht <-].
  rewrite (i_mem s HI t Ht), ready_iff in Em.
  assert (forall n, b_next U64MAX t s = Some n -> In n (txs s) /\ tsender n = tsender t) as Hnext.
  { unfold b_next. intros n Hn. destruct (tseq t =? U64MAX); [discriminate|].
    destruct (aget (tsender t) (senders s)); [|discriminate]. apply get_seq_some in Hn. tauto. }
  change (match b_next U64MAX t s with
          | Some n => tid n :: nremove (tid t) (maxh s)
          | None => nremove (tid t) (maxh s)
          end) with (push (b_next U64MAX t s) (pop (Some t) (maxh s))).
  constructor; cbn [txs senders sched maxh set_sched set_maxh]; try apply HI.
  - apply (retarget (tsender t) (is_ready s)); [apply HI|apply HI|exact Hnext| | |].
    + intros n [= <-]. auto.
    + intros u Hu Hne. apply is_ready_ext; [|reflexivity]. apply aget_aset_other. exact Hne.
    + (* before the step the only ready transaction of the sender is [t] *)
      intros u Hu He.
      assert (is_ready s u = true -> Some t = Some u) as Honly.
      { rewrite ready_iff, He. intros Hr. f_equal. apply (i_slot s HI); auto.
        revert Em Hr. destruct (aget (tsender t) (sched s)); [lia|congruence]. }
      rewrite inv_next, (ready_iff (set_sched _ _)) by assumption.
      cbn [sched senders set_sched set_maxh]. rewrite He, aget_aset_same.
      split; [auto|]. intros [H|[Hne Hr]]; [exact H|]. destruct (Hne (Honly Hr)).
  - apply push_pop_sub; [apply HI|]. intros n Hn. apply (Hnext n Hn).
  - intros b q. destruct (N.eq_dec b (tsender t)) as [->|Hne].
    + rewrite aget_aset_same. intros [= <-]. apply (i_btx s HI t Ht).
    + rewrite aget_aset_other by exact Hne. apply (i_bsched s HI).
Qed.

Lemma forward_inv a q s : Inv s -> Inv (b_forward a q s).
Proof.
  intros HI. unfold b_forward.
  destruct (aget a (senders s)) as [c|] eqn:Hc; [|exact HI].
  destruct (q <=? c) eqn:Hqc; [exact HI|].
  set (P := fun t => tseq t <? q). set (s1 := set_senders s (aset a q (senders s))).
  set (s2 := drop P a s1).
  (* [s2] is [sd], the state after the same removal without the new entry, but for that entry *)
  pose proof (drop_inv P a s HI) as HId. set (sd := drop P a s) in HId.
  assert (txs s2 = txs sd) as Et by (unfold s2, sd; rewrite !drop_txs; reflexivity).
  assert (maxh s2 = maxh sd) as Em by (unfold s2, sd; rewrite !drop_maxh; reflexivity).
  assert (sched s2 = sched sd) as Es by (unfold s2, sd; rewrite !drop_sched; reflexivity).
  assert (forall t, In t (txs sd) -> aget (tsender t) (senders s2) =
            if tsender t =? a then Some q else aget (tsender t) (senders sd)) as Hsnd.
  { intros t Ht. unfold s2, sd. rewrite !drop_senders by (exact Ht || rewrite <- Et in Ht; exact Ht).
    cbn [senders s1 set_senders].
    destruct (N.eqb_spec (tsender t) a) as [->|Hne]; [apply aget_aset_same|apply aget_aset_other; exact Hne]. }
  assert (forall t, In t (txs sd) -> tsender t = a -> aget a (senders sd) = Some c /\ q <= tseq t) as Hlive.
  { intros t Ht Ha. split.
    { pose proof (drop_senders P a s t Ht) as E. rewrite Ha, Hc in E. exact E. }
    apply drop_In_txs in Ht as [_ Hg]. unfold P in Hg. rewrite Ha, N.eqb_refl in Hg. cbn in Hg. lia. }
  set (f := match head a (txs s2) with
            | Some h => if negb (nmem (tid h) (maxh s2)) && is_ready s2 h then Some h else None
            | None => None
            end).
  replace (match head a (txs s2) with Some h => _ | None => s2 end)
    with (set_maxh s2 (push f (pop None (maxh s2)))).
  2:{ unfold f. destruct (head a (txs s2)) as [h|]; [destruct (_ && _)|]; cbn [push pop];
        reflexivity || apply set_maxh_same. }
  assert (forall n, f = Some n -> In n (txs sd) /\ tsender n = a /\ is_ready s2 n = true) as Hf.
  { unfold f. intros n Hn. destruct (head a (txs s2)) as [h|] eqn:Hh; [|discriminate].
    destruct (negb _ && is_ready s2 h) eqn:E; [|discriminate]. injection Hn as <-.
    apply head_some in Hh. rewrite Et in Hh. apply andb_true_iff in E. tauto. }
  assert (forall u, In u (txs sd) -> is_ready s2 u = true <->
            match aget (tsender u) (sched sd) with
            | Some last => last <> U64MAX /\ tseq u = last + 1
            | None => (if tsender u =? a then Some q else aget (tsender u) (senders sd)) = Some (tseq u)
            end) as Hready.
  { intros u Hu. rewrite ready_iff, Es, (Hsnd u Hu). reflexivity. }
  constructor; cbn [txs senders sched maxh set_maxh]; rewrite ?Et, ?Em, ?Es; try apply HId.
  - intros t Ht. rewrite (Hsnd t Ht).
    destruct (N.eqb_spec (tsender t) a) as [Ha|_]; [exists q; split; [reflexivity|apply (Hlive t Ht Ha)]|].
    apply (i_entry sd HId t Ht).
  - change (is_ready (set_maxh s2 _)) with (is_ready s2).
    apply (retarget a (is_ready sd)); try discriminate; try apply HId.
    + intros n Hn. split; apply (Hf n Hn).
    + intros u Hu Hne. apply eq_iff_eq_true. rewrite (Hready u Hu), ready_iff.
      destruct (N.eqb_spec (tsender u) a); [contradiction|reflexivity].
    + intros u Hu Ha. destruct (Hlive u Hu Ha) as [Hca Hq].
      rewrite (Hready u Hu), ready_iff, Ha, N.eqb_refl, Hca. split.
      * (* newly ready: no schedule entry and [u] sits at q, so it is the head and not yet in the heap *)
        destruct (aget a (sched sd)) eqn:Esch; [intros Hr; right; split; [discriminate|exact Hr]|].
        intros [= Hr]. left. unfold f.
        destruct (head a (txs s2)) as [h|] eqn:Hh; [|rewrite <- Et in Hu; destruct (head_none _ _ Hh u Hu Ha)].
        apply head_some in Hh as (Hh & Hha & Hmin). rewrite Et in Hh, Hmin.
        assert (h = u) as ->.
        { apply (i_slot sd HId); [exact Hh|exact Hu|congruence|].
          specialize (Hmin u Hu Ha). destruct (Hlive h Hh Hha) as [_ Hqh]. lia. }
        rewrite Em, (i_mem sd HId u Hu), (proj2 (Hready u Hu)) by (rewrite Ha, N.eqb_refl, Esch; congruence).
        replace (is_ready sd u) with false; [reflexivity|]. symmetry. apply not_true_iff_false.
        rewrite ready_iff, Ha, Esch, Hca. intros [= E]. lia.
      * (* a heap member of the sender is its scheduled successor: the old current sequence is below q *)
        intros [Hfu|[_ Hr]].
        -- apply Hf in Hfu as (_ & _ & Hr). apply (Hready u Hu) in Hr. rewrite Ha, N.eqb_refl in Hr. exact Hr.
        -- destruct (aget a (sched sd)); [exact Hr|]. injection Hr as Hr. lia.
  - apply push_pop_sub; [apply HId|]. intros n Hn. apply (Hf n Hn).
Qed.

Lemma used_inv i s : Inv s -> Inv (b_used i s).
Proof.
  intros HI. unfold b_used. destruct (find_id i (txs s)) as [t|]; [|exact HI].
  destruct (tseq t <? U64MAX); [apply forward_inv|]; apply drop_inv; exact HI.
Qed.

Lemma clear_inv s : Inv s -> Inv (b_clear s).
Proof.
  intros HI. constructor; cbn; try contradiction; try constructor. apply HI.
Qed.

(* [b_restore] never reads the schedule map: while [b_reset] walks through it, the
   state is compared with the entries not yet restored. Dropping the entry (a, q) moves
   the ready slot of sender [a] from the successor of [q] to the sender's current sequence. *)
Lemma unschedule_inv a q rest s f cu :
  Inv (set_sched s ((a, q) :: rest)) -> aget a rest = None ->
  (forall n, f = Some n -> In n (txs s) /\ tsender n = a) ->
  (forall n, cu = Some n -> In n (txs s) /\ tsender n = a) ->
  (forall u, In u (txs s) -> tsender u = a ->
     (aget a (senders s) = Some (tseq u) <-> f = Some u \/ cu <> Some u /\ q <> U64MAX /\ tseq u = q + 1)) ->
  Inv (set_sched (set_maxh s (push f (pop cu (maxh s)))) rest).
Proof.
  intros HI Hn Hf Hcu Ha.
  constructor; cbn [txs senders sched maxh set_sched set_maxh]; try apply HI.
  - apply (retarget a (is_ready (set_sched s ((a, q) :: rest)))); try assumption; try apply HI.
    + intros u Hu Hne. apply is_ready_ext; [|reflexivity]. cbn [sched set_sched set_maxh aget].
      destruct (N.eqb_spec a (tsender u)); [congruence|reflexivity].
    + intros u Hu He. rewrite !ready_iff. cbn [sched senders set_sched set_maxh aget].
      rewrite He, N.eqb_refl, Hn. apply Ha; assumption.
  - apply push_pop_sub; [apply HI|]. intros n Hn'. apply (Hf n Hn').
  - intros b x Hb. apply (i_bsched _ HI b). cbn [sched set_sched aget].
    destruct (N.eqb_spec a b) as [->|_]; [congruence|exact Hb].
Qed.

Lemma unschedule_same a q rest s :
  Inv (set_sched s ((a, q) :: rest)) -> aget a rest = None ->
  (forall u, In u (txs s) -> tsender u = a ->
     (aget a (senders s) = Some (tseq u) <-> q <> U64MAX /\ tseq u = q + 1)) ->
  Inv (set_sched s rest).
Proof.
  intros HI Hn Ha. rewrite <- (set_maxh_same s).
  apply (unschedule_inv a q rest s None None); try discriminate; try assumption.
  intros u Hu He. rewrite (Ha u Hu He). split; [right; split; [discriminate|assumption]|].
  intros [H|[_ H]]; [discriminate|exact H].
Qed.

Lemma restore_inv a q rest s :
  Inv (set_sched s ((a, q) :: rest)) -> aget a rest = None -> Inv (set_sched (b_restore a q s) rest).
Proof.
  intros HI Hn. unfold b_restore.
  assert (q <= U64MAX) as Hq by (apply (i_bsched _ HI a); cbn; rewrite N.eqb_refl; reflexivity).
  destruct (aget a (senders s)) as [c|] eqn:Hc.
  2:{ apply (unschedule_same a q); try assumption. intros u Hu He. exfalso.
      destruct (i_entry _ HI u Hu) as [c [Hc' _]]. cbn in Hc'. congruence. }
  destruct (head a (txs s)) as [h|] eqn:Hh.
  2:{ apply (unschedule_same a q); try assumption. intros u Hu He. destruct (head_none _ _ Hh u Hu He). }
  destruct ((q <? U64MAX) && (c =? q + 1)) eqn:Eret.
  { (* the sender was forwarded to q+1 in the meantime: the ready slot does not move *)
    apply (unschedule_same a q); try assumption. intros u Hu He. rewrite Hc. split; [intros [= ->]|intros [_ ->]; f_equal]; lia. }
  apply head_some in Hh as (Hh & Hha & Hmin).
  set (first := if tseq h =? c then Some h else None).
  set (current := if q <? U64MAX then get_seq a (q + 1) (txs s) else None).
  replace (match current with Some cu => _ | None => _ end)
    with (set_maxh s (push first (pop current (maxh s))))
    by (destruct current, first; cbn [push pop]; reflexivity || apply set_maxh_same).
  apply (unschedule_inv a q); try assumption.
  - unfold first. intros n Hf. destruct (tseq h =? c); [injection Hf as <-; auto|discriminate].
  - unfold current. intros n Hcu. destruct (q <? U64MAX); [|discriminate]. apply get_seq_some in Hcu. tauto.
  - intros u Hu He. rewrite Hc.
    (* [first] is the transaction at the current sequence, [current] the one after q *)
    assert (first = Some u <-> tseq u = c) as ->.
    { unfold first. destruct (i_entry _ HI h Hh) as [c' [Hc' Hle]]. cbn in Hc'. rewrite Hha, Hc in Hc'.
      injection Hc' as <-. specialize (Hmin u Hu He). split.
      - destruct (tseq h =? c) eqn:E; [intros [= <-]; lia|discriminate].
      - intros Hu'. assert (h = u) as -> by (apply (i_slot _ HI); auto; lia).
        rewrite Hu', N.eqb_refl. reflexivity. }
    assert (current = Some u <-> q <> U64MAX /\ tseq u = q + 1) as ->.
    { unfold current. destruct (q <? U64MAX) eqn:E; [|split; [discriminate|lia]].
      rewrite (inv_get_seq _ a (q + 1) u HI Hu He). lia. }
    split; [intros [= ->]; left; reflexivity|]. intros [->|[H1 H2]]; [reflexivity|contradiction].
Qed.

Lemma restore_fold l : forall s,
  NoDup (map fst l) -> Inv (set_sched s l) ->
  Inv (set_sched (fold_left (fun acc e => b_restore (fst e) (snd e) acc) l s) []).
Proof.
  induction l as [|[a q] rest IH]; cbn [fold_left fst snd map]; intros s Hk HI; [exact HI|].
  inversion Hk as [|? ? Ha Hrest]; subst.
  apply IH; [exact Hrest|]. apply restore_inv; [exact HI|]. apply aget_none_notin. exact Ha.
Qed.

(* [b_reset] needs the keys of the schedule map distinct; [aset] keeps them so *)
Definition sched_nodup (s : st) : Prop := NoDup (map fst (sched s)).

Lemma reset_inv s : sched_nodup s -> Inv s -> Inv (b_reset s).
Proof.
  intros Hk HI. apply restore_fold; [exact Hk|]. destruct s. exact HI.
Qed.

Lemma step_sched_nodup s o : sched_nodup s -> sched_nodup (snd (b_step U64MAX s o)).
Proof.
  intros HK. unfold sched_nodup. pose proof (b_step_sched U64MAX s o) as Hs.
  destruct o as [t q e|lim picks| |i|a q|]; try (rewrite Hs; exact HK); cbn [b_step snd].
  - apply (schedule_preserves U64MAX sched_nodup); [|exact HK].
    intros i s0 s1 HK0 E. apply schedule_one_some in E as (t & _ & _ & ->).
    exact (aset_nodup _ _ _ HK0).
  - constructor.
Qed.

Lemma step_inv s o : op_ok o -> sched_nodup s -> Inv s -> Inv (snd (b_step U64MAX s o)).
Proof.
  intros Hok HK HI. destruct o as [t q e|lim picks| |i|a q|]; cbn [b_step snd].
  - apply add_inv; assumption.
  - apply (schedule_preserves U64MAX Inv schedule_one_inv); assumption.
  - apply reset_inv; assumption.
  - apply used_inv; assumption.
  - apply forward_inv; assumption.
  - apply clear_inv; assumption.
Qed.

Lemma run_inv ops : forall s,
  Forall op_ok ops -> sched_nodup s -> Inv s ->
  sched_nodup (run (b_step U64MAX) s ops) /\ Inv (run (b_step U64MAX) s ops).
Proof.
  unfold run. induction ops as [|o r IH]; cbn [fold_left]; intros s Hok HK HI; [auto|].
  inversion Hok as [|x xs Ho Hr]; subst.
  apply IH; [exact Hr|apply step_sched_nodup; exact HK|apply step_inv; assumption].
Qed.
