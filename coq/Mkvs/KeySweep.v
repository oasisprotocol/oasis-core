(* Exhaustive sweeps of the byte-wise key functions over all packed bit strings
   up to a given length, folded into checksums.  The harness runs the same
   sweeps on the REAL node.Key functions (mode "keys") and the driver compares
   the checksums; Mkvs/KeyProofs.v and Mkvs/KeyLift.v prove that the byte-wise
   functions equal the bit-list ones, on this domain and beyond. *)
From Verif Require Import Lib.Base Mkvs.Trie Mkvs.Key.

Definition HMASK : N := 2305843009213693951.         (* 2^61 - 1 *)
(* polynomial checksum modulo 2^61 (multiplier 31; cheap under vm_compute) *)
Definition hmix (h x : N) : N := N.land (h * 31 + x + 1) HMASK.
Definition hbytes (h : N) (b : bytes) : N := fold_left hmix b (hmix h (blen b)).

(* all bit strings of length n, in lexicographic order (false < true) *)
Fixpoint all_paths (n : nat) : list path :=
  match n with
  | O => [[]]
  | S n' => map (cons false) (all_paths n') ++ map (cons true) (all_paths n')
  end.
Definition lens (n : nat) : list nat := seq 0 (S n).                 (* 0..n *)
Definition paths_upto (n : nat) : list path := flat_map all_paths (lens n).
Definition plen (p : path) : N := N.of_nat (length p).

(* 1. Split: every p with |p| <= n, every split point 0..|p| *)
Definition sweep_split (n : nat) : N :=
  fold_left (fun h p =>
    fold_left (fun h sp =>
      let '(a, b) := k_split (pack p) (N.of_nat sp) (plen p) in hbytes (hbytes h a) b)
      (lens (length p)) h) (paths_upto n) 0.

(* 2. Merge: every a, b with |a| + |b| <= n *)
Definition sweep_merge (n : nat) : N :=
  fold_left (fun h a =>
    fold_left (fun h b => hbytes h (k_merge (pack a) (plen a) (pack b) (plen b)))
      (paths_upto (n - length a)) h) (paths_upto n) 0.

(* 3. AppendBit: every p with |p| <= n, both bits *)
Definition sweep_appendbit (n : nat) : N :=
  fold_left (fun h p =>
    hbytes (hbytes h (k_appendbit (pack p) (plen p) false)) (k_appendbit (pack p) (plen p) true))
    (paths_upto n) 0.

(* 4. GetBit: every p with |p| <= n, every position below 8 * len(pack p) *)
Definition sweep_getbit (n : nat) : N :=
  fold_left (fun h p =>
    fold_left (fun h i => hmix h (if k_getbit (pack p) i then 1 else 0))
      (nrange (k_bitlen (pack p))) h) (paths_upto n) 0.

(* 5. CommonPrefixLen: every pair a, b with |a|, |b| <= n *)
Definition sweep_cpl (n : nat) : N :=
  fold_left (fun h a =>
    fold_left (fun h b => hmix h (k_cpl (pack a) (plen a) (pack b) (plen b)))
      (paths_upto n) h) (paths_upto n) 0.

(* 5b. CommonPrefixLen across a byte boundary: a with |a| <= n, b = the first m
   bits of a with bit j flipped, all j < |a|, m <= |a| *)
Fixpoint flip_at (j : nat) (p : path) : path :=
  match p, j with
  | [], _ => []
  | x :: r, O => negb x :: r
  | x :: r, S j' => x :: flip_at j' r
  end.
Definition sweep_cpl2 (n : nat) : N :=
  fold_left (fun h a =>
    fold_left (fun h j =>
      fold_left (fun h m =>
        let b := firstn m (flip_at j a) in
        hmix h (k_cpl (pack a) (plen a) (pack b) (plen b)))
        (lens (length a)) h) (seq 0 (length a)) h) (paths_upto n) 0.

(* one correspondence case per sweep: (sweep number 1..6, length bound) *)
Definition run_keys (i : N * nat) : N :=
  let '(w, n) := i in
  match w with
  | 1 => sweep_split n
  | 2 => sweep_merge n
  | 3 => sweep_appendbit n
  | 4 => sweep_getbit n
  | 5 => sweep_cpl n
  | 6 => sweep_cpl2 n
  | _ => 0
  end.
Definition keys_eqb (a b : N) : bool := a =? b.
