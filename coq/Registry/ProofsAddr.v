(* The consensus-address index (property C17), in "\/ collision of the address
   function" form. *)
From Verif Require Import Lib.Base Registry.Model Registry.Lemmas Registry.Proofs.

Definition collision (addr : N -> N) : Prop := exists x y, x <> y /\ addr x = addr y.

Definition AD_ok (addr : N -> N) (s : state) : Prop :=
  forall a id, aget a (s_addr s) = Some id <->
               exists n, aget id (s_nodes s) = Some n /\ addr (n_cons n) = a.

(* the address index is an index under the one key "address of the consensus key" *)
Lemma AD_ok_indexes addr s :
  AD_ok addr s <-> indexes (fun n => [addr (n_cons n)]) (s_nodes s) (s_addr s).
Proof.
  split; intros H a id; rewrite (H a id); split; intros (n & Hn & Ha); exists n; cbn [In] in *; tauto.
Qed.

(* either some key different from c has c's address, or every record whose
   consensus key has c's address has consensus key c *)
Lemma clash_or_not (addr : N -> N) (nodes : list (N * node)) c :
  (exists x, x <> c /\ addr x = addr c) \/
  (forall id m, In (id, m) nodes -> addr (n_cons m) = addr c -> n_cons m = c).
Proof.
  induction nodes as [|[id0 m0] r IH]; [right; intros id m []|].
  destruct IH as [IH|IH]; [left; exact IH|].
  destruct (N.eq_dec (n_cons m0) c) as [E|Hne].
  - right. intros id m [H|H] Ha; [injection H as _ <-; exact E|eapply IH; eauto].
  - destruct (N.eq_dec (addr (n_cons m0)) (addr c)) as [Ea|Hna].
    + left. exists (n_cons m0). auto.
    + right. intros id m [H|H] Ha; [injection H as _ <-; contradiction|eapply IH; eauto].
Qed.

Section Addr.
  Variable addr : N -> N.
  Variables maxexp debond : N.

  Lemma step_ad fixed s o :
    tx_op o = true -> Inv_index s -> AD_ok addr s ->
    AD_ok addr (snd (step addr fixed maxexp debond s o)) \/ collision addr.
  Proof.
    intros Htx Hinv Had. destruct (step_view addr fixed maxexp debond s o Htx); try (left; exact Had).
    - apply reg_node_ok in H as (_ & _ & _ & _ & Hd & _ & Hcur & _).
      destruct (clash_or_not addr (s_nodes s) (n_cons n)) as [[x [Hx Hax]]|Hno];
        [right; exists x, (n_cons n); auto|left].
      destruct Hinv as (Hids & Hkm & _). apply AD_ok_indexes. apply AD_ok_indexes in Had. fields.
      apply (indexes_update _ (s_nodes s) (s_addr s) (n_id n) (Some n)); [exact Had|intros; apply aget_aset| |].
      + intros a. unfold addr_ops. rewrite aget_kapply_all.
        destruct (aget (n_id n) (s_nodes s)) as [old|] eqn:Eo; cbn [okeys nmem]; rewrite ?orb_false_r;
          [|reflexivity].
        destruct (Hcur old eq_refl) as [_ ->]. rewrite N.eqb_refl. cbn [app klookup].
        destruct (addr (n_cons n) =? a); reflexivity.
      + intros a id' [<-|[]] Ha. apply Had in Ha as (m & Hm & [Ha|[]]).
        apply (dup_subkey_own s n (n_cons n) id' Hids Hkm); [apply Hd; left; reflexivity|].
        apply Hkm. exists m. split; [exact Hm|]. left. exact (Hno id' m (aget_In _ _ _ Hm) Ha).
    - left. apply AD_ok_indexes.
      apply (epoch_fold_invariant addr debond
               (fun s' => IDS (s_nodes s') /\ indexes (fun n => [addr (n_cons n)]) (s_nodes s') (s_addr s')));
        [|split; [exact (proj1 Hinv)|apply AD_ok_indexes, Had]].
      clear. intros s id n (Hids & Had) Hn. pose proof (Hids _ _ Hn) as <-. fields.
      split; [apply ids_del, Hids|].
      apply (indexes_update _ (s_nodes s) (s_addr s) (n_id n) None);
        [exact Had|intros; apply aget_adel| |intros a id' []].
      intros a. rewrite aget_adel, Hn. cbn [okeys nmem]. rewrite orb_false_r. reflexivity.
  Qed.

  Lemma run_ad ops s : Inv_index s -> AD_ok addr s -> forallb tx_op ops = true ->
    AD_ok addr (run addr true maxexp debond ops s) \/ collision addr.
  Proof.
    intros Hi Ha Htx.
    destruct (run_invariant addr true maxexp debond
                (fun s' => (Inv_index s' /\ AD_ok addr s') \/ collision addr)) with (ops := ops) (s := s)
      as [[_ H]|H]; auto.
    intros s' o Ho [[Hi' Ha']|C]; [|auto].
    destruct (step_ad true s' o Ho Hi' Ha'); [left|auto]. split; [|assumption]. apply step_inv; auto.
  Qed.

  Lemma ad_st0 : AD_ok addr st0.
  Proof. intros a id. cbn. split; [discriminate|]. intros [n [H _]]. discriminate. Qed.

  Lemma node_by_addr_correct s :
    IDS (s_nodes s) -> AD_ok addr s ->
    (forall id n, aget id (s_nodes s) = Some n -> node_by_addr s (addr (n_cons n)) = Some n) /\
    (forall a n, node_by_addr s a = Some n -> addr (n_cons n) = a /\ aget (n_id n) (s_nodes s) = Some n).
  Proof.
    intros Hids Had. split.
    - intros id n Hn. unfold node_by_addr.
      assert (A : aget (addr (n_cons n)) (s_addr s) = Some id) by (apply Had; eauto).
      rewrite A. exact Hn.
    - intros a n H. unfold node_by_addr in H. destruct (aget a (s_addr s)) as [id|] eqn:E; [|discriminate].
      apply Had in E as [m [Hm Ha]]. rewrite Hm in H. injection H as <-.
      rewrite (Hids _ _ Hm). auto.
  Qed.
End Addr.
