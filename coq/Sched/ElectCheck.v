(* C14: soundness of the boolean checker evaluated on the implementation's
   output, and the worked examples (non-vacuity, boundary cases, witnesses). *)
From Verif Require Import Lib.Base Sched.Elect Sched.ElectSpec Sched.ElectLemmas Sched.ElectCore
  Sched.CommitteeProofs.
From Coq Require Import Permutation.

Lemma validator_ok_b_sound p ents epoch nodes kv :
  validator_ok_b p ents epoch nodes kv = true -> validator_ok p ents epoch nodes kv.
Proof.
  destruct kv as [k [[id e] pw]]. unfold validator_ok_b. intros H.
  apply existsb_exists in H. destruct H as [n [Hn H]].
  rewrite !andb_true_iff, !N.eqb_eq in H. destruct H as [[[[[Hid Hk] He] Hl] Hc] Hpw].
  destruct (node_power p ents n) as [w|] eqn:Ew; [|discriminate].
  rewrite andb_true_iff, N.eqb_eq, N.leb_le in Hpw. destruct Hpw as [-> Hpos].
  apply live_spec in Hl. destruct Hl as [Hfr Hexp].
  unfold is_vcand in Hc. rewrite andb_true_iff, orb_true_iff in Hc. destruct Hc as [Hrole Hstake].
  subst. exists n, pw. repeat split; trivial.
Qed.

Theorem election_ok_b_sound p ents epoch nodes extra vals :
  election_ok_b p ents epoch nodes extra vals = true -> election_ok p ents epoch nodes extra vals.
Proof.
  unfold election_ok_b, election_ok. intros H.
  rewrite !andb_true_iff, !N.leb_le, !forallb_forall in H.
  destruct H as [[[[[Hv Hmax] Hper] Hmin] Hpos] Hord].
  split; [|split; [exact Hmax|split; [|split; [exact Hmin|split; [exact Hpos|]]]]].
  - rewrite Forall_forall. intros kv Hkv. apply validator_ok_b_sound, Hv, Hkv.
  - intros e. destruct (len_filter_zero_or_in (fun kv => ent_of kv =? e) vals) as [H0|[kv [Hkv He]]].
    + unfold count_ent. rewrite H0. apply N.le_0_l.
    + apply N.eqb_eq in He. subst e. apply N.leb_le, Hper, Hkv.
  - intros Hby e e' [n [Hn [Hl [Hc [Hx He]]]]] Hnr [kv [Hkv Hek]].
    rewrite Hby in Hord. cbn [orb] in Hord. rewrite forallb_forall in Hord. specialize (Hord n Hn).
    rewrite Hl, Hc, Hx in Hord. cbn [andb negb orb] in Hord.
    destruct (represented_b vals (n_ent n)) eqn:Er.
    + exfalso. apply Hnr. unfold represented_b in Er. apply existsb_exists in Er.
      destruct Er as [kv' [H1 H2]]. apply N.eqb_eq in H2. exists kv'. split; [exact H1|congruence].
    + cbn [orb] in Hord. rewrite forallb_forall in Hord. subst. apply N.leb_le, Hord, Hkv.
Qed.

(* what a [true] of the per-epoch check on the implementation's output means *)
Theorem impl_ok_b_sound i vals ups comms :
  impl_ok_b i (EOk vals ups comms) = true ->
  election_ok (i_params i) (sort_by e_addr (post_ents i)) (i_epoch i) (post_nodes i) (val_extra i) vals /\
  Permutation (apply_updates (i_current i) ups) (powers_of vals) /\
  comms_ok (i_fv261 i) (i_params i) (sort_by e_addr (post_ents i)) (map ent_of vals) (i_epoch i)
    (committee_nodes i (sort_by n_id (post_nodes i))) (vrf_blocked i) (i_rts i) (committee_srcs i) comms.
Proof.
  unfold impl_ok_b. rewrite !andb_true_iff. intros [[H1 H2] H3].
  split; [apply election_ok_b_sound; exact H1|]. split; [|apply comms_ok_b_sound; exact H3].
  unfold pmap_eqb in H2. apply list_eqb_pair_eq in H2.
  rewrite <- (sort_by_perm fst (apply_updates (i_current i) ups)), H2. apply sort_by_perm.
Qed.

(* five entities: A 5000, B = C = 1000 (a tie), D exactly at its claim
   threshold (100 + 200), E one unit below it.  Each runs one validator node;
   A also has a frozen and an expired node. *)
Definition ex_ents : list entity :=
  [ mkEnt 11 5000 [100; 200]; mkEnt 12 1000 [100; 200]; mkEnt 13 1000 [100; 200];
    mkEnt 14 300 [100; 200]; mkEnt 15 299 [100; 200] ].
Definition vnode (id ent : N) (exp freeze : N) : node := mkNode id ent (id + 100) 8 exp freeze 0 [] [].
Definition ex_nodes : list node :=
  [ vnode 5 15 9 0; vnode 4 14 9 0; vnode 3 13 9 0; vnode 2 12 7 0; vnode 1 11 9 0;
    vnode 6 11 9 3; vnode 7 11 6 0 ].
Definition ex_params (maxv : N) : params := mkParams 1 maxv 1 false false.
Definition ex_vals (maxv : N) (pe : list N) : vres :=
  elect_validators (ex_params maxv) ex_ents 7 ex_nodes pe [0; 1; 2; 3].

(* MaxValidators = 2 cuts through the tie: the shuffle decides between B and C *)
Example ex_tie_identity :
  ex_vals 2 [0; 1; 2; 3] = VOk [(101, (1, 11, 312)); (102, (2, 12, 62))] [12; 11].
Proof. vm_compute. reflexivity. Qed.
Example ex_tie_swapped :
  ex_vals 2 [0; 2; 1; 3] = VOk [(101, (1, 11, 312)); (103, (3, 13, 62))] [13; 11].
Proof. vm_compute. reflexivity. Qed.
(* the entity exactly at its threshold is electable, the one just below never is *)
Example ex_threshold :
  ex_vals 6 [3; 2; 1; 0] =
  VOk [(101, (1, 11, 312)); (102, (2, 12, 62)); (103, (3, 13, 62)); (104, (4, 14, 18))] [14; 12; 13; 11].
Proof. vm_compute. reflexivity. Qed.
(* both tie outcomes pass the checker; a result electing the under-staked
   entity, a frozen node, or skipping a higher stake is rejected *)
Example ex_checker_accepts :
  election_ok_b (ex_params 2) ex_ents 7 ex_nodes no_extra [(101, (1, 11, 312)); (102, (2, 12, 62))] = true /\
  election_ok_b (ex_params 2) ex_ents 7 ex_nodes no_extra [(101, (1, 11, 312)); (103, (3, 13, 62))] = true.
Proof. vm_compute. split; reflexivity. Qed.
Example ex_checker_rejects :
  election_ok_b (ex_params 2) ex_ents 7 ex_nodes no_extra [(101, (1, 11, 312)); (105, (5, 15, 18))] = false /\
  election_ok_b (ex_params 2) ex_ents 7 ex_nodes no_extra [(106, (6, 11, 312)); (102, (2, 12, 62))] = false /\
  election_ok_b (ex_params 2) ex_ents 7 ex_nodes no_extra [(101, (1, 11, 312)); (104, (4, 14, 18))] = false /\
  election_ok_b (ex_params 2) ex_ents 7 ex_nodes no_extra [(101, (1, 11, 312)); (102, (2, 12, 62)); (103, (3, 13, 62))] = false /\
  election_ok_b (ex_params 2) ex_ents 7 ex_nodes no_extra [(101, (1, 11, 312)); (102, (2, 12, 63))] = false.
Proof. vm_compute. repeat split; reflexivity. Qed.

(* the hypotheses of validators_by_descending_stake hold on the example *)
Example ex_hypotheses :
  NoDup (map n_cons ex_nodes) /\
  is_perm [0; 2; 1; 3] (length (usort (map n_ent (vcands (ex_params 2) ex_ents 7 ex_nodes)))) /\
  is_perm [0; 1; 2; 3] (length (vcands (ex_params 2) ex_ents 7 ex_nodes)) /\
  1 <= p_per (ex_params 2) /\ p_bypass (ex_params 2) = false.
Proof.
  split; [|split; [|split; [|split; [cbn; lia|reflexivity]]]].
  - vm_compute. repeat constructor; cbn; intros H; repeat (destruct H as [H|H]; [discriminate|]); exact H.
  - vm_compute. apply perm_skip, perm_swap.
  - vm_compute. reflexivity.
Qed.

(* diff: a removal, a power change, an unchanged entry and an addition *)
Example ex_diff :
  let cur := [(101, 312); (102, 62); (107, 5)] in
  let pend := [(101, 400); (102, 62); (103, 62)] in
  diff_validators cur pend = [(107, 0); (101, 400); (103, 62)] /\
  sort_by fst (apply_updates cur (diff_validators cur pend)) = pend.
Proof. vm_compute. split; reflexivity. Qed.

(* a committee: two workers and one backup out of three eligible compute nodes
   of two entities with MaxNodes = 1 for workers; with only one entity there is
   no committee at all.  Entropy tables and VRF sortition. *)
Definition cnode (id ent : N) : node := mkNode id ent (id + 100) 1 9 0 0 [(77, 4294967296, None)] [].
Definition ex_rt : runtime :=
  mkRt 77 true false 2 1 [(4294967296, 0)] (mkCs false (Some 1) (Some 2)) (mkCs false None None) 0.
Definition ex_tbl : shuffle_src := ByTable [[]; [0]; [1; 0]; [2; 0; 1]].
Example ex_committee :
  elect_committee true (ex_params 2) ex_ents [] 7 ex_rt [cnode 21 11; cnode 22 11; cnode 23 12] false ex_tbl ex_tbl
  = Some [(1, 23); (1, 21); (2, 23)] /\
  elect_committee true (ex_params 2) ex_ents [] 7 ex_rt [cnode 21 11; cnode 22 11] false ex_tbl ex_tbl
  = None /\
  committee_ok_b true (ex_params 2) ex_ents [] 7 ex_rt [cnode 21 11; cnode 22 11; cnode 23 12] false ex_tbl ex_tbl
    [(1, 23); (1, 21); (2, 23)] = true /\
  committee_ok_b true (ex_params 2) ex_ents [] 7 ex_rt [cnode 21 11; cnode 22 11; cnode 23 12] false ex_tbl ex_tbl
    [(1, 22); (1, 21); (2, 23)] = false /\
  committee_ok_b true (ex_params 2) ex_ents [] 7 ex_rt [cnode 21 11; cnode 22 11; cnode 23 12] false ex_tbl ex_tbl
    [(1, 23); (2, 23)] = false.
Proof. vm_compute. repeat split; reflexivity. Qed.

(* VRF: node 22 wins the de-duplication of entity 11 by its dedup beta, node 21
   has no proof and is ineligible; the election order follows the election betas *)
Definition ex_dedup : N -> option N := tbl_of [(22, 5); (23, 9); (24, 7)].
Definition ex_elect : N -> option N := tbl_of [(22, 30); (23, 10); (24, 20)].
Example ex_committee_vrf :
  elect_committee true (ex_params 2) ex_ents [] 7 ex_rt
    [cnode 21 11; cnode 22 11; cnode 23 12; cnode 24 11] false (ByBeta ex_dedup ex_elect) (ByBeta ex_dedup ex_elect)
  = Some [(1, 23); (1, 22); (2, 23)] /\
  elect_committee true (ex_params 2) ex_ents [] 7 ex_rt
    [cnode 21 11; cnode 22 11; cnode 23 12; cnode 24 11] true (ByBeta ex_dedup ex_elect) (ByBeta ex_dedup ex_elect)
  = None.
Proof. vm_compute. split; reflexivity. Qed.

(* a TEE runtime takes only nodes whose capability has the same hardware and a verifying attestation *)
Example ex_tee :
  tee_ok 1 (Some (1, true)) = true /\ tee_ok 1 (Some (1, false)) = false /\ tee_ok 1 (Some (2, true)) = false /\
  tee_ok 1 None = false /\ tee_ok 0 None = true /\ tee_ok 0 (Some (1, true)) = false.
Proof. vm_compute. repeat split; reflexivity. Qed.

(* The limit check runs after the insertion (scheduler.go:594), so with
   MaxValidators = 0 one validator is still elected.  InitChain rejects
   MaxValidators <= 0 (genesis.go:32) but a governance parameter change is not
   checked; this is why the count bound is stated as max 1 MaxValidators. *)
Theorem max_validators_zero_elects_one_refuted :
  exists p ents epoch nodes pe pn vals vents,
    p_max p = 0 /\ elect_validators p ents epoch nodes pe pn = VOk vals vents /\ len vals = 1.
Proof.
  exists (ex_params 0), ex_ents, 7, ex_nodes, [0; 1; 2; 3], [0; 1; 2; 3].
  eexists. eexists. split; [reflexivity|]. split; [vm_compute; reflexivity|reflexivity].
Qed.
