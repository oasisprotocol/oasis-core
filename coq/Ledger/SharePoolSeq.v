(* Operation-sequence theorems about the multi-delegator machine of
   Ledger/SharePool.v. One step is the identity or one of four updates
   ([moves]), and every invariant is checked against those: well-formedness
   (the table adds up to the pool's shares), conservation, the profit bound
   (potential function [pot]: no set of acting delegators gets out more than it
   put in plus its pro-rata part of the rewards, whatever the passive holders
   hold), the price falls only by a slash, a passive holder never loses, no
   orphan balance arises. *)
From Verif Require Import Lib.Base Ledger.SharePool Ledger.SharePoolProofs.

Definition keys (l : list (N * deleg)) : list N := map fst l.

Fixpoint sumA (A : N -> bool) (f : deleg -> N) (l : list (N * deleg)) : N :=
  match l with
  | [] => 0
  | (k, x) :: r => (if A k then f x else 0) + sumA A f r
  end.

Lemma aget_notin (k : N) (l : list (N * deleg)) : ~ In k (keys l) -> aget k l = None.
Proof.
  apply aget_none_notin.
Qed.

Lemma dget_aset_same k v l : dget k (aset k v l) = v.
Proof. unfold dget. rewrite aget_aset_same. reflexivity. Qed.

Lemma dget_aset_other k k' v l : k <> k' -> dget k (aset k' v l) = dget k l.
Proof. intros H. unfold dget. rewrite aget_aset_other by exact H. reflexivity. Qed.

Section SumLemmas.
  Variable A : N -> bool.
  Variable f : deleg -> N.
  Hypothesis f0 : f deleg0 = 0.

  Lemma sumA_adel k l : NoDup (keys l) ->
    sumA A f l = (if A k then f (dget k l) else 0) + sumA A f (adel k l).
  Proof.
    induction l as [|[k2 x] r IH]; cbn [sumA adel keys map fst].
    - intros _. unfold dget. cbn [aget]. rewrite f0. destruct (A k); reflexivity.
    - intros H. inversion H as [|? ? Hn Hr]; subst. unfold dget. cbn [aget].
      destruct (N.eqb_spec k2 k) as [E|E].
      + subst k2. rewrite (adel_notin k r Hn). reflexivity.
      + cbn [sumA]. specialize (IH Hr). unfold dget in IH. lia.
  Qed.

  Lemma sumA_aset_add k v l n : NoDup (keys l) -> f v = f (dget k l) + n ->
    sumA A f (aset k v l) = sumA A f l + (if A k then n else 0).
  Proof.
    intros H E. unfold aset. cbn [sumA]. rewrite (sumA_adel k l H), E. destruct (A k); lia.
  Qed.

  Lemma sumA_aset_sub k v l n : NoDup (keys l) -> f v + n = f (dget k l) ->
    sumA A f (aset k v l) + (if A k then n else 0) = sumA A f l.
  Proof.
    intros H E. unfold aset. cbn [sumA]. rewrite (sumA_adel k l H), <- E. destruct (A k); lia.
  Qed.

  Lemma sumA_ge k l : NoDup (keys l) -> A k = true -> f (dget k l) <= sumA A f l.
  Proof. intros H Hk. rewrite (sumA_adel k l H), Hk. lia. Qed.
End SumLemmas.

Definition allA : N -> bool := fun _ => true.

Lemma sumA_le_all A f l : sumA A f l <= sumA allA f l.
Proof.
  induction l as [|[k x] r IH]; cbn [sumA]; [lia|]. unfold allA at 1. destruct (A k); lia.
Qed.

Definition uA A st := sumA A dsh (mdel st).
Definition inA A st := sumA A din (mdel st).
Definition outA A st := sumA A dout (mdel st).

Definition mnext (st : mstate) (o : mop) : mstate := fst (mstep st o).

Lemma mfinal_cons st o r : mfinal st (o :: r) = mfinal (mnext st o) r.
Proof.
  unfold mfinal, mnext. cbn [mrun]. destruct (mstep st o) as [st1 ob]. cbn [fst].
  destruct (mrun st1 r) as [st2 obs]. reflexivity.
Qed.

Lemma mfinal_nil st : mfinal st [] = st.
Proof. reflexivity. Qed.

Definition plain (o : mop) : Prop :=
  match o with ODeposit _ _ | OWithdraw _ _ => True | _ => False end.

(* the states after a successful deposit minting m shares / redemption *)
Definition deposited (st : mstate) (d a m : N) : mstate :=
  let x := dget d (mdel st) in
  mkM (mkPool (bal (mpool st) + a) (tsh (mpool st) + m))
      (aset d (mkDeleg (dsh x + m) (din x + a) (dout x)) (mdel st)) (mrew st) (mslashed st).

Definition withdrawn (st : mstate) (d s : N) : mstate :=
  let x := dget d (mdel st) in
  let w := worth (mpool st) s in
  mkM (mkPool (bal (mpool st) - w) (tsh (mpool st) - s))
      (aset d (mkDeleg (dsh x - s) (din x) (dout x + w)) (mdel st)) (mrew st) (mslashed st).

Lemma deposited_sums A st d a m : NoDup (keys (mdel st)) ->
  uA A (deposited st d a m) = uA A st + (if A d then m else 0) /\
  inA A (deposited st d a m) = inA A st + (if A d then a else 0) /\
  outA A (deposited st d a m) = outA A st.
Proof.
  intros H. unfold uA, inA, outA, deposited. cbn [mdel].
  rewrite (sumA_aset_add A dsh eq_refl d _ _ m H), (sumA_aset_add A din eq_refl d _ _ a H),
    (sumA_aset_add A dout eq_refl d _ _ 0 H) by (cbn [dsh din dout]; lia).
  destruct (A d); repeat split; lia.
Qed.

Lemma withdrawn_sums A st d s : NoDup (keys (mdel st)) -> s <= dsh (dget d (mdel st)) ->
  uA A (withdrawn st d s) + (if A d then s else 0) = uA A st /\
  inA A (withdrawn st d s) = inA A st /\
  outA A (withdrawn st d s) = outA A st + (if A d then worth (mpool st) s else 0).
Proof.
  intros H L. unfold uA, inA, outA, withdrawn. cbn [mdel].
  rewrite (sumA_aset_sub A dsh eq_refl d _ _ s H), (sumA_aset_add A din eq_refl d _ _ 0 H),
    (sumA_aset_add A dout eq_refl d _ _ (worth (mpool st) s) H) by (cbn [dsh din dout]; lia).
  destruct (A d); repeat split; lia.
Qed.

Lemma mnext_deposit_ok st d a m :
  shares_for_stake (mpool st) a = Some m -> mnext st (ODeposit d a) = deposited st d a m.
Proof.
  intros H. unfold mnext, mstep. rewrite (deposit_eq _ _ _ _ m H (N.le_refl a)), N.sub_diag. reflexivity.
Qed.

Lemma slash_single b a : fst (slash_pools b 0 a) = N.min b a.
Proof.
  unfold slash_pools. cbn [fst]. rewrite N.add_0_r. unfold slash_take.
  destruct (N.eqb_spec b 0) as [E|E]; [lia|].
  rewrite (N.mul_comm b a), N.div_mul by exact E. reflexivity.
Qed.

(* what one step can do: a failed deposit or redemption changes nothing *)
Inductive moves (st : mstate) : mop -> mstate -> Prop :=
| mv_stay o : plain o -> moves st o st
| mv_deposit d a m : shares_for_stake (mpool st) a = Some m -> moves st (ODeposit d a) (deposited st d a m)
| mv_withdraw d s : s <= dsh (dget d (mdel st)) -> s <= tsh (mpool st) ->
    moves st (OWithdraw d s) (withdrawn st d s)
| mv_reward a :
    moves st (OReward a) (mkM (mkPool (bal (mpool st) + a) (tsh (mpool st))) (mdel st) (mrew st + a) (mslashed st))
| mv_slash a :
    moves st (OSlash a) (mkM (mkPool (bal (mpool st) - N.min (bal (mpool st)) a) (tsh (mpool st)))
                             (mdel st) (mrew st) (mslashed st + N.min (bal (mpool st)) a)).

Lemma mnext_moves st o : moves st o (mnext st o).
Proof.
  destruct o as [d a|d s|a|a].
  - destruct (shares_for_stake (mpool st) a) as [m|] eqn:E.
    + rewrite (mnext_deposit_ok _ _ _ _ E). apply mv_deposit. exact E.
    + unfold mnext, mstep, deposit. rewrite E. apply mv_stay. exact I.
  - unfold mnext, mstep.
    destruct (rcode (withdraw (mpool st) 0 (dsh (dget d (mdel st))) s)) eqn:E; try (apply mv_stay; exact I).
    apply withdraw_ok_iff in E as [H1 H2]. rewrite (withdraw_ok_eq _ _ _ _ H1 H2). apply mv_withdraw; assumption.
  - apply mv_reward.
  - unfold mnext, mstep. cbn [fst]. rewrite slash_single. apply mv_slash.
Qed.

(* well-formed: distinct delegator keys and the shares held add up to the
   pool's total shares (what the ledger maintains: C05's share accounting) *)
Definition wfm (st : mstate) : Prop :=
  NoDup (keys (mdel st)) /\ sumA allA dsh (mdel st) = tsh (mpool st).

Lemma wfm_step st o : wfm st -> wfm (mnext st o).
Proof.
  intros [Hk Hs]. fold (uA allA st) in Hs. unfold wfm. fold (uA allA (mnext st o)).
  destruct (mnext_moves st o) as [o _|d a m E|d s H1 H2|a|a]; split; try assumption.
  - apply aset_nodup. exact Hk.
  - destruct (deposited_sums allA st d a m Hk) as [U _]. cbn [deposited mpool tsh allA] in *. lia.
  - apply aset_nodup. exact Hk.
  - destruct (withdrawn_sums allA st d s Hk H1) as [U _]. cbn [withdrawn mpool tsh allA] in *. lia.
Qed.

Lemma wfm_run ops : forall st, wfm st -> wfm (mfinal st ops).
Proof.
  induction ops as [|o r IH]; intros st H; [exact H|].
  rewrite mfinal_cons. apply IH. apply wfm_step. exact H.
Qed.

(* a holder never has more shares than the pool's total, so the partial
   failure of Withdraw (api.go:715, holder's shares already reduced) cannot
   happen in a well-formed ledger: Withdraw fails iff the holder lacks shares *)
Lemma wfm_holder_le st d : wfm st -> dsh (dget d (mdel st)) <= tsh (mpool st).
Proof.
  intros [Hk Hs]. rewrite <- Hs. apply (sumA_ge allA dsh eq_refl d _ Hk). reflexivity.
Qed.

Lemma withdraw_partial_failure_unreachable_l st d s :
  wfm st ->
  let r := withdraw (mpool st) 0 (dsh (dget d (mdel st))) s in
  (rcode r = COk <-> s <= dsh (dget d (mdel st))) /\
  (rcode r <> COk -> rpool r = mpool st /\ rsrc r = dsh (dget d (mdel st))).
Proof.
  intros H r. pose proof (wfm_holder_le st d H) as L.
  destruct (withdraw_fails_exactly_l (mpool st) 0 (dsh (dget d (mdel st))) s) as [F1 [F2 _]].
  fold r in F1, F2. split; [unfold r; rewrite withdraw_ok_iff; lia|].
  intros Hn. apply F1 in Hn. destruct F2 as (_ & ? & _ & ? & _); [lia|]. split; assumption.
Qed.

(* paid out + balance + slashed = paid in + rewards + initial: nothing is
   created or destroyed, whatever the rounding *)
Definition conserved (c : N) (st : mstate) : Prop :=
  outA allA st + bal (mpool st) + mslashed st = inA allA st + mrew st + c.

Lemma conserved_step c st o : wfm st -> conserved c st -> conserved c (mnext st o).
Proof.
  intros [Hk Hs] Hc. unfold conserved in *.
  destruct (mnext_moves st o) as [o _|d a m E|d s H1 H2|a|a].
  - exact Hc.
  - destruct (deposited_sums allA st d a m Hk) as (_ & -> & ->).
    cbn [deposited mpool bal mrew mslashed allA]. lia.
  - destruct (withdrawn_sums allA st d s Hk H1) as (_ & -> & ->).
    pose proof (stake_le_bal (mpool st) s H2) as Lb. fold (worth (mpool st) s) in Lb.
    cbn [withdrawn mpool bal mrew mslashed allA]. lia.
  - unfold outA, inA in *. cbn [mdel mpool bal mrew mslashed]. lia.
  - unfold outA, inA in *. cbn [mdel mpool bal mrew mslashed]. lia.
Qed.

Lemma conservation_l ops : forall st c, wfm st -> conserved c st -> conserved c (mfinal st ops).
Proof.
  induction ops as [|o r IH]; intros st c Hw Hc; [exact Hc|].
  rewrite mfinal_cons. apply IH; [apply wfm_step; exact Hw|apply conserved_step; assumption].
Qed.

Definition actor_in (A : N -> bool) (o : mop) : Prop :=
  match o with
  | ODeposit d _ | OWithdraw d _ => A d = true
  | _ => True
  end.

Definition cdiv (x y : N) : N := (x + (y - 1)) / y.

Lemma cdiv_ge x y : y <> 0 -> x <= y * cdiv x y.
Proof.
  intros H. unfold cdiv. pose proof (div_mul_gt (x + (y - 1)) y H) as L. lia.
Qed.

(* A's pro-rata part of one reward, rounded up to a base unit; a reward that
   arrives while nobody holds shares (orphan balance) is counted in full: it
   goes to whoever deposits next *)
Definition rstep (A : N -> bool) (st : mstate) (o : mop) : N :=
  match o with
  | OReward a => if tsh (mpool st) =? 0 then a else cdiv (uA A st * a) (tsh (mpool st))
  | _ => 0
  end.

Fixpoint rshare (A : N -> bool) (st : mstate) (ops : list mop) : N :=
  match ops with
  | [] => 0
  | o :: r => rstep A st o + rshare A (mnext st o) r
  end.

Local Open Scope Z_scope.

(* The potential-function invariant on numbers: A holds u of the S shares of
   a pool with balance B and may still take out K/q (q > 0). A's shares are
   worth at most that (cross-multiplied, no division); while nobody holds
   shares the whole balance is within the allowance. *)
Definition pot (q u B S K : Z) : Prop :=
  u <= S /\ 0 <= K /\ (S = 0 -> q * B <= K) /\ q * u * B <= S * K.

(* one lemma per kind of step; the new values are given by equations so that
   no subtraction has to be carried from N to Z *)
Lemma pot_deposit q u B S K m a u' B' S' K' :
  pot q u B S K -> 0 < q -> 0 <= u -> 0 <= S -> 0 <= m -> 0 <= a ->
  (S = 0 -> m = a) -> (S <> 0 -> m * B <= a * S) ->
  u' = u + m -> B' = B + a -> S' = S + m -> K' = K + q * a -> pot q u' B' S' K'.
Proof.
  intros (I1 & I2 & I3 & I4) Hq Hu HS Hm Ha E0 E1 -> -> -> ->. unfold pot.
  destruct (Z.eq_dec S 0) as [S0|S0].
  - specialize (I3 S0). rewrite (E0 S0). assert (u = 0) by lia. subst u S. repeat split; nia.
  - specialize (E1 S0).
    (* S times the cross-multiplied bound is a sum of three products of the hypotheses *)
    assert (E : S * (q*(u+m)*(B+a)) <= S * ((S+m)*(K+q*a))).
    { assert (A1 : m * (q*u*B) <= m * (S*K)) by (apply Z.mul_le_mono_nonneg_l; lia).
      assert (A2 : q*(S-u) * (m*B) <= q*(S-u) * (a*S)) by (apply Z.mul_le_mono_nonneg_l; nia).
      assert (A3 : S * (q*u*B) <= S * (S*K)) by (apply Z.mul_le_mono_nonneg_l; lia).
      nia. }
    apply Z.mul_le_mono_pos_l in E; [|lia]. repeat split; nia.
Qed.

(* w is the worth of s shares: floor(s*B/S), 0 without shares, B for all shares *)
Lemma pot_withdraw q u B S K s w u' B' S' K' :
  pot q u B S K -> 0 < q -> 0 <= B' -> 0 <= s -> 0 <= u' -> 0 <= w ->
  w * S <= s * B -> (S = 0 -> w = 0) -> (s = S -> S <> 0 -> w = B) ->
  u' + s = u -> B' + w = B -> S' + s = S -> K' + q * w = K -> pot q u' B' S' K'.
Proof.
  intros (I1 & I2 & I3 & I4) Hq HB Hs Hu Hw L W0 W1 Eu EB ES EK.
  assert (u' = u - s) as -> by lia. assert (B' = B - w) as -> by lia.
  assert (S' = S - s) as -> by lia. assert (K' = K - q * w) as -> by lia. unfold pot.
  destruct (Z.eq_dec S 0) as [S0|S0].
  - rewrite (W0 S0). assert (s = 0) by lia. subst s S. rewrite !Z.sub_0_r, Z.mul_0_r, Z.sub_0_r. tauto.
  - (* what is paid is within the allowance *)
    assert (P1 : q * w <= K).
    { assert (A : S * (q*w) <= S * K).
      { assert (q * (w*S) <= q * (s*B)) by (apply Z.mul_le_mono_nonneg_l; lia).
        assert (q * (s*B) <= q * (u*B)) by (apply Z.mul_le_mono_nonneg_l; nia). nia. }
      apply Z.mul_le_mono_pos_l in A; lia. }
    assert (E : S * (q*(u-s)*(B-w)) <= S * ((S-s)*(K-q*w))).
    { assert (A1 : q*(S-u) * (w*S) <= q*(S-u) * (s*B)) by (apply Z.mul_le_mono_nonneg_l; nia).
      assert (A2 : (S-s) * (q*u*B) <= (S-s) * (S*K)) by (apply Z.mul_le_mono_nonneg_l; lia).
      nia. }
    apply Z.mul_le_mono_pos_l in E; lia.
Qed.

(* r is A's credited part of the reward a *)
Lemma pot_reward q u B S K a r B' K' :
  pot q u B S K -> 0 < q -> 0 <= r ->
  (S = 0 -> r = a) -> (S <> 0 -> u * a <= S * r) ->
  B' = B + a -> K' = K + q * r -> pot q u B' S K'.
Proof.
  intros (I1 & I2 & I3 & I4) Hq Hr E0 E1 -> ->. unfold pot.
  destruct (Z.eq_dec S 0) as [S0|S0].
  - specialize (I3 S0). rewrite (E0 S0). subst S. repeat split; nia.
  - specialize (E1 S0). repeat split; nia.
Qed.

Lemma pot_slash q u B S K B' :
  pot q u B S K -> 0 < q -> 0 <= u -> B' <= B -> pot q u B' S K.
Proof.
  intros (I1 & I2 & I3 & I4) Hq Hu HB. unfold pot.
  assert (q * u * B' <= q * u * B) by (apply Z.mul_le_mono_nonneg_l; nia). repeat split; nia.
Qed.

(* the shares of A are worth w: within the allowance *)
Lemma pot_worth q u B S K w : 0 < q -> 0 <= S ->
  pot q u B S K -> w * S <= u * B -> (S = 0 -> w = 0) -> q * w <= K.
Proof.
  intros Hq HS (I1 & I2 & I3 & I4) L W0. destruct (Z.eq_dec S 0) as [S0|S0]; [rewrite (W0 S0); lia|].
  assert (E : S * (q * w) <= S * K) by nia. apply Z.mul_le_mono_pos_l in E; lia.
Qed.

Definition z := Z.of_N.

(* For a set A of delegators, a rational allowance p/q (the value A started
   with) and the reward part rs credited so far, K/q is what A may still take
   out. *)
Definition Kz (A : N -> bool) (p q : Z) (st : mstate) (rs : N) : Z :=
  q * (z (inA A st) + z rs) + p - q * z (outA A st).

Definition Inv (A : N -> bool) (p q : Z) (st : mstate) (rs : N) : Prop :=
  pot q (z (uA A st)) (z (bal (mpool st))) (z (tsh (mpool st))) (Kz A p q st rs).

Lemma Inv_step A p q st rs o :
  0 < q -> wfm st -> actor_in A o -> Inv A p q st rs -> Inv A p q (mnext st o) (rs + rstep A st o)%N.
Proof.
  intros Hq [Hk Hs] Hact HI. unfold Inv in *. set (K := Kz A p q st rs) in HI.
  destruct (mnext_moves st o) as [o Ho|d a m E|d s H1 H2|a|a]; cbn [actor_in] in Hact.
  - destruct o; try contradiction; cbn [rstep]; rewrite N.add_0_r; exact HI.
  - destruct (deposited_sums A st d a m Hk) as (U & IN & OUT). rewrite Hact in U, IN.
    eapply (pot_deposit q _ _ _ _ (z m) (z a)); [exact HI|..]; trivial; unfold K, Kz, z; cbn [rstep deposited mpool bal tsh]; try lia.
    + intros S0. destruct (sfs_some _ _ _ E) as [[_ ->]|[Hc _]]; lia.
    + intros S0. apply sfs_bounds in E as (_ & L & _); lia.
  - destruct (withdrawn_sums A st d s Hk H1) as (U & IN & OUT). rewrite Hact in U, OUT.
    pose proof (stake_le_cross (mpool st) s) as C1. pose proof (stake_le_bal (mpool st) s H2) as C2.
    fold (worth (mpool st) s) in C1, C2.
    eapply (pot_withdraw q _ _ _ _ (z s) (z (worth (mpool st) s))); [exact HI|..]; trivial;
      unfold K, Kz, z; cbn [rstep withdrawn mpool bal tsh]; try lia.
    + intros S0. unfold worth. rewrite stake_zero by lia. reflexivity.
    + intros Es S0. assert (s = tsh (mpool st)) as -> by lia. unfold worth. rewrite stake_all by lia. reflexivity.
  - set (r := rstep A st (OReward a)).
    eapply (pot_reward q _ _ _ _ (z a) (z r)); [exact HI|..]; trivial;
      unfold K, Kz, z, uA, inA, outA; cbn [mdel mpool bal tsh]; try lia;
      intros S0; unfold r, rstep, uA; destruct (N.eqb_spec (tsh (mpool st)) 0) as [S0'|S0']; try lia.
    pose proof (cdiv_ge (sumA A dsh (mdel st) * a) (tsh (mpool st)) S0'). nia.
  - cbn [rstep]. rewrite N.add_0_r. eapply pot_slash; [exact HI|..]; trivial; unfold z; cbn [mpool bal tsh]; lia.
Qed.

Lemma Inv_run A p q ops : 0 < q -> Forall (actor_in A) ops ->
  forall st rs, wfm st -> Inv A p q st rs -> Inv A p q (mfinal st ops) (rs + rshare A st ops)%N.
Proof.
  intros Hq HF. induction HF as [|o r Ho Hr IH]; intros st rs Hw HI.
  - cbn [rshare]. rewrite N.add_0_r. exact HI.
  - rewrite mfinal_cons. cbn [rshare]. rewrite N.add_assoc.
    apply IH; [apply wfm_step; exact Hw|apply Inv_step; assumption].
Qed.

Local Close Scope Z_scope.

(* what the set A can claim at the start: the worth of its shares, or the
   whole (orphan) balance when nobody holds shares *)
Definition start_value (A : N -> bool) (st : mstate) : N :=
  if tsh (mpool st) =? 0 then bal (mpool st) else worth (mpool st) (uA A st).

Lemma profit_bound_l A st0 ops :
  wfm st0 -> Forall (actor_in A) ops ->
  let st := mfinal st0 ops in
  outA A st + worth (mpool st) (uA A st) + inA A st0
  <= inA A st + outA A st0 + rshare A st0 ops + start_value A st0.
Proof.
  intros Hw HF st.
  (* the allowance A starts with is p0/q: the worth of its shares, or the orphan balance *)
  set (q := if tsh (mpool st0) =? 0 then 1 else tsh (mpool st0)).
  set (p0 := if tsh (mpool st0) =? 0 then bal (mpool st0) else uA A st0 * bal (mpool st0)).
  assert (Hq : q <> 0) by (unfold q; destruct (N.eqb_spec (tsh (mpool st0)) 0); lia).
  (* shift by the initial counters so that K starts at p0 *)
  set (p := (z p0 + z q * z (outA A st0) - z q * z (inA A st0))%Z).
  assert (I0 : Inv A p (z q) st0 0).
  { assert (HuS : uA A st0 <= tsh (mpool st0)) by (destruct Hw as [_ <-]; apply sumA_le_all).
    unfold Inv, pot, Kz, p, p0, q, z. destruct (N.eqb_spec (tsh (mpool st0)) 0) as [S0|S0]; repeat split; nia. }
  pose proof (Inv_run A p (z q) ops ltac:(unfold z; lia) HF st0 0 Hw I0) as J. fold st in J. rewrite N.add_0_l in J.
  apply (pot_worth _ _ _ _ _ (z (worth (mpool st) (uA A st)))) in J; try (unfold z; lia).
  - replace (start_value A st0) with (p0 / q).
    2:{ unfold start_value, p0, q, worth. destruct (tsh (mpool st0) =? 0); [rewrite N.div_1_r|rewrite stake_div]; reflexivity. }
    unfold Kz, p, z in J.
    apply le_add_div; [exact Hq|]. nia.
  - pose proof (stake_le_cross (mpool st) (uA A st)). unfold worth, z. nia.
  - intros S0. unfold worth. rewrite stake_zero by (unfold z in S0; lia). reflexivity.
Qed.

Lemma rshare_plain A ops : Forall plain ops -> forall st, rshare A st ops = 0.
Proof.
  intros HF. induction HF as [|o r Ho Hr IH]; intros st; cbn [rshare]; [reflexivity|].
  rewrite IH. destruct o; cbn [plain rstep] in *; try contradiction; reflexivity.
Qed.

Lemma sumA_minit_zero A f (hold : list (N * N)) : (forall x, f (mkDeleg x 0 0) = 0) ->
  sumA A f (map (fun x => (fst x, mkDeleg (snd x) 0 0)) hold) = 0.
Proof.
  intros Hf. induction hold as [|[k x] r IH]; cbn [map sumA fst snd]; [reflexivity|].
  rewrite Hf, IH. destruct (A k); reflexivity.
Qed.

Definition no_orphan (st : mstate) : Prop := tsh (mpool st) = 0 -> bal (mpool st) = 0.

(* without rewards and without an orphan balance at the start, A's allowance is
   the worth of its shares *)
Lemma no_profit_plain A st0 ops :
  wfm st0 -> no_orphan st0 -> Forall plain ops -> Forall (actor_in A) ops ->
  let st := mfinal st0 ops in
  outA A st + worth (mpool st) (uA A st) + inA A st0
  <= inA A st + outA A st0 + worth (mpool st0) (uA A st0).
Proof.
  intros Hw Ho Hp Ha st.
  pose proof (profit_bound_l A st0 ops Hw Ha) as P. fold st in P.
  rewrite (rshare_plain A ops Hp) in P.
  assert (SV : start_value A st0 = worth (mpool st0) (uA A st0)).
  { unfold start_value. destruct (N.eqb_spec (tsh (mpool st0)) 0) as [S0|S0]; [|reflexivity].
    rewrite (Ho S0). unfold worth. rewrite stake_zero by lia. reflexivity. }
  cbv zeta in P. rewrite SV in P. lia.
Qed.

Lemma no_profit_without_rewards_l A b s hold ops :
  wfm (minit b s hold) -> (s = 0 -> b = 0) ->
  Forall plain ops -> Forall (actor_in A) ops ->
  let st0 := minit b s hold in
  let st := mfinal st0 ops in
  outA A st + worth (mpool st) (uA A st) <= inA A st + worth (mpool st0) (uA A st0).
Proof.
  intros Hw Ho Hp Ha st0 st.
  pose proof (no_profit_plain A st0 ops Hw Ho Hp Ha) as P. fold st in P.
  assert (I0 : inA A st0 = 0) by (apply sumA_minit_zero; reflexivity).
  assert (O0 : outA A st0 = 0) by (apply sumA_minit_zero; reflexivity).
  cbv zeta in P. rewrite I0, O0 in P. lia.
Qed.

Lemma sumA_none A f l : (forall k, In k (keys l) -> A k = false) -> sumA A f l = 0.
Proof.
  induction l as [|[k x] r IH]; cbn [sumA keys map fst In]; [reflexivity|].
  intros H. rewrite (H k) by (left; reflexivity). rewrite IH; [reflexivity|].
  intros k' Hk. apply H. right. exact Hk.
Qed.

Lemma sumA_single d f l : f deleg0 = 0 -> NoDup (keys l) -> sumA (N.eqb d) f l = f (dget d l).
Proof.
  intros f0 H. rewrite (sumA_adel (N.eqb d) f f0 d l H), N.eqb_refl.
  rewrite sumA_none; [lia|]. intros k Hk. apply adel_keys_in in Hk. lia.
Qed.

Definition only_actor (d : N) (o : mop) : Prop := actor_in (N.eqb d) o.

Lemma only_actor_in d o : only_actor d o <->
  match o with ODeposit d' _ | OWithdraw d' _ => d' = d | _ => True end.
Proof. unfold only_actor. destruct o; cbn [actor_in]; try tauto; split; lia. Qed.

Lemma sole_actor_no_profit_l d b s hold ops :
  wfm (minit b s hold) -> (s = 0 -> b = 0) ->
  Forall plain ops -> Forall (only_actor d) ops ->
  let st0 := minit b s hold in
  let st := mfinal st0 ops in
  dout (dget d (mdel st)) + worth (mpool st) (dsh (dget d (mdel st)))
  <= din (dget d (mdel st)) + worth (mpool st0) (dsh (dget d (mdel st0))).
Proof.
  intros Hw Ho Hp Ha st0 st.
  pose proof (no_profit_without_rewards_l (N.eqb d) b s hold ops Hw Ho Hp Ha) as P.
  cbv zeta in P. fold st0 in P. fold st in P.
  pose proof (wfm_run ops st0 Hw) as [Hk _]. fold st in Hk. destruct Hw as [Hk0 _].
  unfold outA, inA, uA in P.
  rewrite !(sumA_single d _ (mdel st)) in P by (try reflexivity; exact Hk).
  rewrite (sumA_single d _ (mdel st0)) in P by (try reflexivity; exact Hk0).
  exact P.
Qed.

Definition is_slash (o : mop) : Prop := match o with OSlash _ => True | _ => False end.

(* only a slash lowers the price: along any run without slashes the price is
   non-decreasing from each state to the next *)
Lemma price_falls_only_by_slash_l st o :
  (~ is_slash o -> price_le (mpool st) (mpool (mnext st o))) /\
  (is_slash o -> price_le (mpool (mnext st o)) (mpool st) /\ tsh (mpool (mnext st o)) = tsh (mpool st)).
Proof.
  destruct (mnext_moves st o) as [o Ho|d a m E|d s H1 H2|a|a]; cbn [is_slash].
  - destruct o; try contradiction; cbn [is_slash]; (split; [intros _; apply price_le_refl|tauto]).
  - split; [intros _|tauto]. apply (price_le_mint _ _ a m); try reflexivity.
    intros S0. apply (sfs_bounds _ _ _ E S0).
  - split; [intros _|tauto]. pose proof (stake_le_bal (mpool st) s H2) as Lb.
    apply (price_le_burn _ _ (worth (mpool st) s) s); cbn [withdrawn mpool bal tsh]; unfold worth;
      [lia|lia|apply stake_le_cross].
  - split; [intros _|tauto]. apply (price_le_mint _ _ a 0); cbn [mpool bal tsh]; lia.
  - split; [tauto|intros _]. split; [|reflexivity].
    apply (price_le_mint _ _ (N.min (bal (mpool st)) a) 0); cbn [mpool bal tsh]; lia.
Qed.

Lemma pair_le_total d d' l : d <> d' -> NoDup (keys l) ->
  dsh (dget d l) + dsh (dget d' l) <= sumA allA dsh l.
Proof.
  intros Hne H. rewrite (sumA_adel allA dsh eq_refl d l H). change (allA d) with true. cbv iota.
  pose proof (sumA_ge allA dsh eq_refl d' (adel d l) (adel_nodup d l H) eq_refl) as L.
  unfold dget in L at 1. rewrite aget_adel_other in L by congruence. fold (dget d' l) in L. lia.
Qed.

Definition passive (d : N) (o : mop) : Prop :=
  match o with
  | ODeposit d' _ | OWithdraw d' _ => d' <> d
  | OReward _ => True
  | OSlash _ => False
  end.

Lemma passive_step st o d : wfm st -> passive d o ->
  dget d (mdel (mnext st o)) = dget d (mdel st) /\
  worth (mpool st) (dsh (dget d (mdel st))) <= worth (mpool (mnext st o)) (dsh (dget d (mdel st))).
Proof.
  intros [Hk Hs] Hp.
  assert (Hpr : price_le (mpool st) (mpool (mnext st o))).
  { apply price_falls_only_by_slash_l. destruct o; cbn [passive is_slash] in *; tauto. }
  revert Hpr. destruct (mnext_moves st o) as [o _|d' a m E|d' s H1 H2|a|a]; cbn [passive] in Hp; intros Hpr.
  - split; [reflexivity|lia].
  - split; [apply dget_aset_other; congruence|].
    apply worth_mono_price; [exact Hpr|]. cbn [deposited mpool tsh]. lia.
  - split; [apply dget_aset_other; congruence|].
    pose proof (pair_le_total d d' (mdel st) (not_eq_sym Hp) Hk) as L.
    apply worth_mono_price; [exact Hpr|]. cbn [withdrawn mpool tsh]. lia.
  - split; [reflexivity|].
    apply worth_mono_price; [exact Hpr|]. cbn [mpool tsh]. lia.
  - contradiction.
Qed.

Lemma passive_holder_never_loses_l d ops : Forall (passive d) ops ->
  forall st, wfm st ->
  dget d (mdel (mfinal st ops)) = dget d (mdel st) /\
  worth (mpool st) (dsh (dget d (mdel st))) <= worth (mpool (mfinal st ops)) (dsh (dget d (mdel st))).
Proof.
  intros HF. induction HF as [|o r Ho Hr IH]; intros st Hw; [split; [reflexivity|rewrite mfinal_nil; lia]|].
  rewrite mfinal_cons. destruct (passive_step st o d Hw Ho) as [E L].
  destruct (IH (mnext st o) (wfm_step st o Hw)) as [E2 L2]. rewrite E in E2, L2.
  split; [exact E2|lia].
Qed.

(* rewards as the code computes them are proportional to the balance
   (state.go:1226-1240, 1355): a pool without balance gets none *)
Fixpoint prop_rewards (st : mstate) (ops : list mop) : Prop :=
  match ops with
  | [] => True
  | o :: r =>
      match o with OReward a => bal (mpool st) = 0 -> a = 0 | _ => True end /\
      prop_rewards (mnext st o) r
  end.

Lemma no_orphan_step st o : no_orphan st ->
  match o with OReward a => bal (mpool st) = 0 -> a = 0 | _ => True end ->
  no_orphan (mnext st o).
Proof.
  unfold no_orphan. intros Hn Hr.
  destruct (mnext_moves st o) as [o _|d a m E|d s H1 H2|a|a]; cbn [deposited withdrawn mpool bal tsh]; intros Hz.
  - exact (Hn Hz).
  - destruct (sfs_some _ _ _ E) as [[S0 ->]|[S0 _]]; lia.
  - destruct (N.eq_dec (tsh (mpool st)) 0) as [S0|S0]; [specialize (Hn S0); lia|].
    assert (s = tsh (mpool st)) as -> by lia. unfold worth. rewrite (stake_all _ S0). lia.
  - specialize (Hr (Hn Hz)). specialize (Hn Hz). lia.
  - specialize (Hn Hz). lia.
Qed.

Lemma no_orphan_invariant_l ops : forall st, no_orphan st -> prop_rewards st ops ->
  no_orphan (mfinal st ops).
Proof.
  induction ops as [|o r IH]; intros st Hn Hp; [exact Hn|]. destruct Hp as [Hr Hp].
  rewrite mfinal_cons. apply IH; [|exact Hp]. apply no_orphan_step; assumption.
Qed.
