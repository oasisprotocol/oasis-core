From Verif Require Import Lib.Base Registry.Model Registry.Lemmas Registry.Proofs Registry.ProofsRt Registry.ProofsAddr Registry.ProofsStatus Registry.Sanity Registry.ProofsR3 Gen.RegistryConsts.

(* G: the SetNode of the CURRENT source performs all key-map removals before the
   first insertion (read from the source by harness/cmd/gen registryconsts) ... *)
Theorem current_setnode_removes_first : setnode_removals_first = true.
Proof. reflexivity. Qed.
Print Assumptions current_setnode_removes_first.

(* ... hence, for the current source, the key map and nodes-by-entity mirror the
   node records after EVERY history of transactions and epoch transitions,
   including updates that rotate or exchange P2P/TLS/VRF keys among themselves. *)
Theorem Inv_index_current_source :
  forall (addr : N -> N) (maxexp debond : N) (ops : list op) (s : state),
    Inv_index s -> forallb tx_op ops = true ->
    Inv_index (run addr setnode_removals_first maxexp debond ops s).
Proof. exact run_inv_fixed. Qed.
Print Assumptions Inv_index_current_source.

(* History: the order the code had before the repair (per-kind remove-then-insert)
   is refuted below; kept so that a revert is named precisely. *)

(* The ORIGINAL SetNode (per-kind remove-then-insert, state.go:566-617 before the fix) does NOT
   keep the key map consistent: from a consistent state, an accepted
   RegisterNode transaction that exchanges the P2P and TLS keys of a node
   leads to a state where the node is not found under its current P2P key. *)
Theorem Inv_index_refuted :
  forall addr : N -> N,
  exists s o, Inv_index s /\ tx_op o = true /\
              fst (step addr false 5 2 s o) = COk /\
              ~ Inv_index (snd (step addr false 5 2 s o)).
Proof. exact Inv_index_refuted_l. Qed.
Print Assumptions Inv_index_refuted.

(* For every history of transactions / epoch transitions in which no accepted
   node update takes, as the new key of an earlier kind (consensus, P2P, VRF,
   TLS), the old changed key of a later kind, the indexes mirror the records. *)
Theorem Inv_index_holds_without_exchange :
  forall (addr : N -> N) (maxexp debond : N) (ops : list op) (s : state),
    Inv_index s -> forallb tx_op ops = true -> no_exchange_run addr maxexp debond ops s ->
    Inv_index (run addr false maxexp debond ops s).
Proof. exact run_inv_no_exchange. Qed.
Print Assumptions Inv_index_holds_without_exchange.

(* With all removals before all insertions the indexes mirror the records after
   every history, exchanges included. *)
Theorem Inv_index_reordered_setnode :
  forall (addr : N -> N) (maxexp debond : N) (ops : list op) (s : state),
    Inv_index s -> forallb tx_op ops = true ->
    Inv_index (run addr true maxexp debond ops s).
Proof. exact run_inv_fixed. Qed.
Print Assumptions Inv_index_reordered_setnode.

Theorem Inv_index_initial : Inv_index st0.
Proof. exact Inv_st0. Qed.
Print Assumptions Inv_index_initial.

Theorem no_key_maps_to_two_nodes :
  forall s id1 id2 n1 n2 k,
    Inv_index s -> aget id1 (s_nodes s) = Some n1 -> aget id2 (s_nodes s) = Some n2 ->
    In k (keys n1) -> In k (keys n2) -> id1 = id2.
Proof. exact no_key_two_nodes. Qed.
Print Assumptions no_key_maps_to_two_nodes.

Theorem registered_node_found_under_each_key :
  forall s id n k,
    Inv_index s -> aget id (s_nodes s) = Some n -> In k (keys n) -> node_by_subkey s k = Some n.
Proof. exact found_under_each_key. Qed.
Print Assumptions registered_node_found_under_each_key.

Theorem subkey_resolves_only_to_its_holder :
  forall s k n,
    Inv_index s -> node_by_subkey s k = Some n ->
    In k (keys n) /\ aget (n_id n) (s_nodes s) = Some n.
Proof. exact subkey_resolves_to_holder. Qed.
Print Assumptions subkey_resolves_only_to_its_holder.

Theorem nodes_by_entity_mirrors_records :
  forall s e,
    Inv_index s ->
    (has_entity_nodes s e = true <-> exists id n, aget id (s_nodes s) = Some n /\ n_ent n = e).
Proof. exact entity_nodes_mirror. Qed.
Print Assumptions nodes_by_entity_mirrors_records.

(* A node record changes only by a RegisterNode transaction signed by the node
   key, whose descriptor carries valid signatures of the node, consensus, P2P,
   VRF and TLS keys, with the node in the node list of its registered entity
   (entity and consensus key of an existing record unchanged) -- or it is
   removed by an epoch transition after expiry plus the debonding interval. *)
Theorem authority_node :
  forall (addr : N -> N) (fixed : bool) (maxexp debond : N) s o s' id,
    tx_op o = true -> IDS (s_nodes s) -> step addr fixed maxexp debond s o = (COk, s') ->
    aget id (s_nodes s') <> aget id (s_nodes s) ->
    (exists txs n signers,
        o = TRegNode txs n signers true /\ n_id n = id /\ txs = id /\
        (forall k, In k (id :: keys n) -> In k signers) /\
        (exists ent, aget (n_ent n) (s_ents s) = Some ent /\ In id (e_nodes ent)) /\
        (forall cur, aget id (s_nodes s) = Some cur -> n_ent cur = n_ent n /\ n_cons cur = n_cons n) /\
        aget id (s_nodes s') = Some n)
    \/ (exists e n, o = TEpoch e /\ aget id (s_nodes s) = Some n /\
                    aget id (s_nodes s') = None /\ n_exp n + debond < e).
Proof. exact authority_node. Qed.
Print Assumptions authority_node.

Theorem node_ids_well_formed_along_histories :
  forall (addr : N -> N) (fixed : bool) (maxexp debond : N) s o,
    tx_op o = true -> IDS (s_nodes s) -> IDS (s_nodes (snd (step addr fixed maxexp debond s o))).
Proof. exact step_ids. Qed.
Print Assumptions node_ids_well_formed_along_histories.

(* An entity record changes only by a transaction signed by the entity key:
   a registration whose descriptor is validly signed by that same key, or a
   deregistration while the entity owns neither nodes nor runtimes. *)
Theorem authority_entity :
  forall (addr : N -> N) (fixed : bool) (maxexp debond : N) s o s' e,
    tx_op o = true -> step addr fixed maxexp debond s o = (COk, s') ->
    aget e (s_ents s') <> aget e (s_ents s) ->
    (exists ent, o = TRegEntity e ent e true /\ e_id ent = e /\ ~ has_dup (e_nodes ent) = true /\
                 aget e (s_ents s') = Some ent)
    \/ (o = TDeregEntity e /\ has_entity_nodes s e = false /\ has_entity_runtimes s e = false /\
        aget e (s_ents s') = None).
Proof. exact authority_entity. Qed.
Print Assumptions authority_entity.

Theorem rejected_operation_leaves_state_unchanged :
  forall (addr : N -> N) (fixed : bool) (maxexp debond : N) s o c s',
    step addr fixed maxexp debond s o = (c, s') -> c <> COk -> s' = s.
Proof. exact reject_unchanged. Qed.
Print Assumptions rejected_operation_leaves_state_unchanged.

Theorem missing_signature_rejected :
  forall (addr : N -> N) (fixed : bool) (maxexp debond : N) s txs n signers ok k,
    In k (n_id n :: keys n) -> ~ In k signers ->
    fst (step addr fixed maxexp debond s (TRegNode txs n signers ok)) <> COk /\
    snd (step addr fixed maxexp debond s (TRegNode txs n signers ok)) = s.
Proof. exact missing_signature_rejected. Qed.
Print Assumptions missing_signature_rejected.

Theorem wrong_tx_signer_rejected :
  forall (addr : N -> N) (fixed : bool) (maxexp debond : N) s txs n signers ok,
    txs <> n_id n ->
    fst (step addr fixed maxexp debond s (TRegNode txs n signers ok)) <> COk /\
    snd (step addr fixed maxexp debond s (TRegNode txs n signers ok)) = s.
Proof. exact wrong_tx_signer_rejected. Qed.
Print Assumptions wrong_tx_signer_rejected.

Theorem node_not_in_entity_list_rejected :
  forall (addr : N -> N) (fixed : bool) (maxexp debond : N) s txs n signers ok,
    (forall ent, aget (n_ent n) (s_ents s) = Some ent -> ~ In (n_id n) (e_nodes ent)) ->
    fst (step addr fixed maxexp debond s (TRegNode txs n signers ok)) <> COk /\
    snd (step addr fixed maxexp debond s (TRegNode txs n signers ok)) = s.
Proof. exact not_in_entity_list_rejected. Qed.
Print Assumptions node_not_in_entity_list_rejected.

Theorem entity_not_removable_while_owning_nodes :
  forall (addr : N -> N) (fixed : bool) (maxexp debond : N) s e id n,
    Inv_index s -> aget id (s_nodes s) = Some n -> n_ent n = e ->
    step addr fixed maxexp debond s (TDeregEntity e) = (CEntityHasNodes, s).
Proof. exact entity_not_removable_while_owning_nodes. Qed.
Print Assumptions entity_not_removable_while_owning_nodes.

Theorem entity_not_removable_while_owning_runtimes :
  forall (addr : N -> N) (fixed : bool) (maxexp debond : N) s e rt,
    pmem (e, rt) (s_rtown s) = true -> has_entity_nodes s e = false ->
    step addr fixed maxexp debond s (TDeregEntity e) = (CEntityHasRuntimes, s).
Proof. exact entity_not_removable_while_owning_runtimes. Qed.
Print Assumptions entity_not_removable_while_owning_runtimes.

(* ---- re-registrations: entity constancy, nodes-by-entity and stake claims over histories ---- *)

(* Along every history of transactions and epoch transitions (either SetNode
   order), as long as the record of a node id exists after every operation --
   in particular while the node is expired but still held during the debonding
   interval -- its entity id never changes. *)
Theorem node_entity_never_changes :
  forall (addr : N -> N) (fixed : bool) (maxexp debond : N) (ops : list op) s id n n',
    forallb tx_op ops = true -> IDS (s_nodes s) ->
    aget id (s_nodes s) = Some n -> exists_throughout addr fixed maxexp debond id ops s ->
    aget id (s_nodes (run addr fixed maxexp debond ops s)) = Some n' ->
    n_ent n' = n_ent n.
Proof. exact entity_const_hist. Qed.
Print Assumptions node_entity_never_changes.

(* After every history from the initial state, HasEntityNodes(e) holds exactly
   when some registered node has entity e (no stale nodes-by-entity entry). *)
Theorem nodes_by_entity_mirrors_records_along_histories :
  forall (addr : N -> N) (fixed : bool) (maxexp debond : N) (ops : list op) e,
    forallb tx_op ops = true ->
    (has_entity_nodes (run addr fixed maxexp debond ops st0) e = true <->
     exists id n, aget id (s_nodes (run addr fixed maxexp debond ops st0)) = Some n /\ n_ent n = e).
Proof. exact byent_mirror_hist. Qed.
Print Assumptions nodes_by_entity_mirrors_records_along_histories.

(* After every history from the initial state, account e holds claim c exactly
   when c is the entity claim and e is a registered entity, or c is the node
   claim of a registered node whose entity is e. *)
Theorem claims_mirror :
  forall (addr : N -> N) (fixed : bool) (maxexp debond : N) (ops : list op) e c,
    forallb tx_op ops = true ->
    (pmem (e, c) (s_claims (run addr fixed maxexp debond ops st0)) = true <->
     (c = 0 /\ exists ent, aget e (s_ents (run addr fixed maxexp debond ops st0)) = Some ent) \/
     (exists id n, c = id + 1 /\
                   aget id (s_nodes (run addr fixed maxexp debond ops st0)) = Some n /\ n_ent n = e)).
Proof. exact claims_mirror_hist. Qed.
Print Assumptions claims_mirror.

(* ---- runtimes, consensus-address index, claim kinds, exactness ---- *)

(* A runtime descriptor (active or suspended) changes only by a RegisterRuntime
   whose caller is the staking account controlling the EXISTING descriptor
   (entity governance: the owning entity; runtime governance: the runtime's own
   account), or the new descriptor's controlling account if the runtime is new;
   the kind and the genesis are kept, governance may only go from entity to
   runtime, a key manager reference once set is neither removed nor changed,
   deployments that have started are kept as they are and the active one stays;
   a new runtime has no deployment that is already active. *)
Theorem authority_runtime :
  forall (addr : N -> N) (fixed : bool) (maxexp debond : N) s o s' r,
    tx_op o = true -> Inv_rt s -> step addr fixed maxexp debond s o = (COk, s') ->
    any_runtime s' r <> any_runtime s r ->
    exists caller rt,
      o = TRegRuntime caller rt /\ r_id rt = r /\ any_runtime s' r = Some rt /\
      (r_gov rt = 1 \/ r_gov rt = 2) /\
      match any_runtime s r with
      | Some old => rt_acct old = Some caller /\ r_kind old = r_kind rt /\
                    (r_gov old = r_gov rt \/ (r_gov old = 1 /\ r_gov rt = 2)) /\
                    km_changed (r_km old) (r_km rt) = false /\
                    r_genesis old = r_genesis rt /\
                    deps_update_ok (s_epoch s) (r_deps old) (r_deps rt) = true /\
                    active_kept (s_epoch s) (r_deps old) (r_deps rt) = true
      | None => rt_acct rt = Some caller /\ active_deployment (s_epoch s) (r_deps rt) = None
      end.
Proof. exact authority_runtime. Qed.
Print Assumptions authority_runtime.

Theorem runtime_invariant_along_histories :
  forall (addr : N -> N) (fixed : bool) (maxexp debond : N) (ops : list op) s,
    Inv_rt s -> forallb tx_op ops = true -> Inv_rt (run addr fixed maxexp debond ops s).
Proof. exact run_rt. Qed.
Print Assumptions runtime_invariant_along_histories.

Theorem wrong_runtime_caller_rejected :
  forall (addr : N -> N) (fixed : bool) (maxexp debond : N) s caller rt,
    (match any_runtime s (r_id rt) with
     | Some old => rt_acct old <> Some caller
     | None => rt_acct rt <> Some caller
     end) ->
    fst (step addr fixed maxexp debond s (TRegRuntime caller rt)) <> COk /\
    snd (step addr fixed maxexp debond s (TRegRuntime caller rt)) = s.
Proof. exact wrong_runtime_caller_rejected. Qed.
Print Assumptions wrong_runtime_caller_rejected.

(* After every history from the initial state, HasEntityRuntimes(e) holds exactly
   when some runtime record (active or suspended) names e as its entity. *)
Theorem runtime_by_entity_mirrors_records :
  forall (addr : N -> N) (fixed : bool) (maxexp debond : N) (ops : list op) e,
    forallb tx_op ops = true ->
    (has_entity_runtimes (run addr fixed maxexp debond ops st0) e = true <->
     exists r rt, any_runtime (run addr fixed maxexp debond ops st0) r = Some rt /\ r_ent rt = e).
Proof. exact rt_by_entity_hist. Qed.
Print Assumptions runtime_by_entity_mirrors_records.

(* claims_mirror, runtime part: account a (2e = entity e, 2r+1 = runtime r) holds
   the claim of runtime r exactly when r is registered and a controls it. *)
Theorem claims_mirror_runtimes :
  forall (addr : N -> N) (fixed : bool) (maxexp debond : N) (ops : list op) a r,
    forallb tx_op ops = true ->
    (pmem (a, r) (s_rtclaims (run addr fixed maxexp debond ops st0)) = true <->
     exists rt, any_runtime (run addr fixed maxexp debond ops st0) r = Some rt /\ rt_acct rt = Some a).
Proof. exact rt_claims_hist. Qed.
Print Assumptions claims_mirror_runtimes.

(* claims_mirror, threshold kinds: the kinds stored with the claim of node id
   are those implied by the roles and runtimes of its current record. *)
Theorem claims_mirror_node_kinds :
  forall (addr : N -> N) (fixed : bool) (maxexp debond : N) (ops : list op) id,
    forallb tx_op ops = true ->
    aget id (s_nthr (run addr fixed maxexp debond ops st0)) =
    option_map node_kinds (aget id (s_nodes (run addr fixed maxexp debond ops st0))).
Proof. exact node_claim_kinds_hist. Qed.
Print Assumptions claims_mirror_node_kinds.

(* Along every history, an entity that a runtime record names as owner cannot deregister. *)
Theorem entity_not_removable_while_owning_runtime_records :
  forall (addr : N -> N) (fixed : bool) (maxexp debond : N) (ops : list op) e r rt,
    forallb tx_op ops = true ->
    any_runtime (run addr fixed maxexp debond ops st0) r = Some rt -> r_ent rt = e ->
    fst (step addr fixed maxexp debond (run addr fixed maxexp debond ops st0) (TDeregEntity e)) <> COk /\
    snd (step addr fixed maxexp debond (run addr fixed maxexp debond ops st0) (TDeregEntity e))
    = run addr fixed maxexp debond ops st0.
Proof. exact dereg_hist. Qed.
Print Assumptions entity_not_removable_while_owning_runtime_records.

(* The consensus-address index mirrors the node records after every history of
   the current source (removals-first SetNode), or the address function collides. *)
Theorem cons_addr_index_mirrors_records :
  forall (addr : N -> N) (maxexp debond : N) (ops : list op),
    forallb tx_op ops = true ->
    AD_ok addr (run addr true maxexp debond ops st0) \/ collision addr.
Proof.
  exact (fun addr maxexp debond ops H =>
           run_ad addr maxexp debond ops st0 Inv_st0 (ad_st0 addr) H).
Qed.
Print Assumptions cons_addr_index_mirrors_records.

Theorem node_by_consensus_address_correct :
  forall (addr : N -> N) s,
    IDS (s_nodes s) -> AD_ok addr s ->
    (forall id n, aget id (s_nodes s) = Some n -> node_by_addr s (addr (n_cons n)) = Some n) /\
    (forall a n, node_by_addr s a = Some n -> addr (n_cons n) = a /\ aget (n_id n) (s_nodes s) = Some n).
Proof. exact node_by_addr_correct. Qed.
Print Assumptions node_by_consensus_address_correct.

(* For the record: the side condition of Inv_index_holds_without_exchange is exact. *)
Theorem exchange_condition_exact :
  forall (addr : N -> N) maxexp debond s txs n signers ok old,
    Inv_index s -> aget (n_id n) (s_nodes s) = Some old -> exchange old n = true ->
    fst (step addr false maxexp debond s (TRegNode txs n signers ok)) = COk ->
    ~ Inv_index (snd (step addr false maxexp debond s (TRegNode txs n signers ok))).
Proof. exact exchange_breaks_inv. Qed.
Print Assumptions exchange_condition_exact.

(* ---- source order of VerifyNodeUpdate, node status, genesis sanity check ---- *)

(* G: the checks of VerifyNodeUpdate appear in the CURRENT source in the order the
   model ports: node id, entity id, consensus id, THEN the early return for an
   expired current node, then runtime changes and roles. *)
Theorem verify_node_update_order_as_modelled :
  verify_node_update_order = verify_node_update_order_modelled.
Proof. reflexivity. Qed.
Print Assumptions verify_node_update_order_as_modelled.

(* After every history from the initial state a status record exists exactly
   for the registered nodes (created at registration, deleted at removal). *)
Theorem status_mirrors_nodes :
  forall (addr : N -> N) (fixed : bool) (maxexp debond : N) (ops : list op) id,
    forallb tx_op ops = true ->
    ((exists st, aget id (s_status (run addr fixed maxexp debond ops st0)) = Some st) <->
     (exists n, aget id (s_nodes (run addr fixed maxexp debond ops st0)) = Some n)).
Proof. exact status_mirrors_nodes_hist. Qed.
Print Assumptions status_mirrors_nodes.

(* The freeze end of a status record that exists before and after an operation
   changes only by the freezing environment, or by an UnfreezeNode transaction
   signed by the node's entity once the freeze end has passed (then it is 0);
   in particular re-registration -- renewal or after expiry -- keeps it. *)
Theorem authority_unfreeze :
  forall (addr : N -> N) (fixed : bool) (maxexp debond : N) s o s' id st st',
    tx_op o = true -> IDS (s_nodes s) -> Inv_status s ->
    step addr fixed maxexp debond s o = (COk, s') ->
    aget id (s_status s) = Some st -> aget id (s_status s') = Some st' ->
    st_freeze st' <> st_freeze st ->
    (exists e, o = LFreeze id e /\ st_freeze st' = e) \/
    (exists txs n, o = TUnfreeze txs id /\ aget id (s_nodes s) = Some n /\ txs = n_ent n /\
                   st_freeze st <= s_epoch s /\ st_freeze st' = 0).
Proof. exact authority_unfreeze. Qed.
Print Assumptions authority_unfreeze.

Theorem status_invariant_along_histories :
  forall (addr : N -> N) (fixed : bool) (maxexp debond : N) (ops : list op) s,
    IDS (s_nodes s) -> Inv_status s -> forallb tx_op ops = true ->
    Inv_status (run addr fixed maxexp debond ops s).
Proof. exact (fun addr fixed maxexp debond ops s _ => status_hist addr fixed maxexp debond ops s). Qed.
Print Assumptions status_invariant_along_histories.

(* Genesis sanity check (node part, ported): if it accepts a list of exported
   node descriptors with distinct ids, every node avoids -- with its consensus,
   P2P, VRF and TLS keys -- the consensus, P2P and TLS keys of all earlier
   nodes.  (It does not compare VRF keys of different nodes: see the Example
   sanity_misses_shared_vrf_key in Registry/Sanity.v.) *)
Theorem sanity_check_implies_inv :
  forall maxexp l st st',
    s_nodes st = [] -> s_keymap st = [] -> NoDup (map n_id (map node_of l)) ->
    sanity_nodes maxexp st l = Some st' -> pairwise_ok [] (map node_of l).
Proof.
  exact (fun maxexp l st st' _ _ Hnd H =>
           sanity_pairwise maxexp l st st' [] (fun m (Hm : In m []) => match Hm with end) Hnd H).
Qed.
Print Assumptions sanity_check_implies_inv.

(* ... and every accepted node names an exported entity that lists it, with valid
   signatures of its node, consensus, P2P, VRF and TLS keys. *)
Theorem sanity_check_each_node :
  forall maxexp l st st',
    sanity_nodes maxexp st l = Some st' ->
    s_ents st' = s_ents st /\
    Forall (fun x => let n := node_of x in
                     exists ent, aget (n_ent n) (s_ents st) = Some ent /\ In (n_id n) (e_nodes ent) /\
                                 snd x = true /\
                                 forall k, In k (n_id n :: keys n) -> In k (snd (fst x))) l.
Proof. exact sanity_each. Qed.
Print Assumptions sanity_check_each_node.

(* ---- runtime fields, no bypass, admission limits, key reuse, removal ---- *)

(* Along every history, a registered runtime stays registered and its protected
   fields never change: kind, genesis, a key manager reference once set; the
   governance model only from entity (1) to runtime (2). *)
Theorem runtime_protected_fields_never_change :
  forall (addr : N -> N) (fixed : bool) (maxexp debond : N) (ops : list op) s r rt0,
    forallb tx_op ops = true -> Inv_rt s -> RT_ids s -> any_runtime s r = Some rt0 ->
    exists rt1, any_runtime (run addr fixed maxexp debond ops s) r = Some rt1 /\ protected rt0 rt1.
Proof. exact run_protected. Qed.
Print Assumptions runtime_protected_fields_never_change.

(* One handler for transactions and runtime messages, no bypass: an accepted
   RegisterRuntime with caller account 2k (transaction signed by k) is for a
   runtime whose controlling descriptor is entity-governed by k; with caller
   2r+1 (message emitted by runtime r) it is for runtime r itself under runtime
   governance. *)
Theorem runtime_registration_no_bypass :
  forall s caller rt,
    RT_ids s -> reg_runtime_check s caller rt = COk ->
    let ctl := match any_runtime s (r_id rt) with Some old => old | None => rt end in
    (exists k, caller = 2 * k /\ r_gov ctl = 1 /\ r_ent ctl = k) \/
    (exists r, caller = 2 * r + 1 /\ r_gov ctl = 2 /\ r_id rt = r).
Proof. exact no_bypass. Qed.
Print Assumptions runtime_registration_no_bypass.

Theorem accepted_runtime_deployments_valid :
  forall s caller rt,
    reg_runtime_check s caller rt = COk ->
    validate_deployments (s_epoch s) rt = COk /\
    (0 < length (r_deps rt))%nat /\ N.of_nat (length (r_deps rt)) <= max_deployments /\
    N.of_nat (length (filter (fun d => s_epoch s <? d_from d) (r_deps rt))) <= 1.
Proof. exact accepted_deployments_all. Qed.
Print Assumptions accepted_runtime_deployments_valid.

(* While a node record exists -- live, or expired and still held during the
   debonding interval -- none of its keys can be registered by another node id. *)
Theorem key_of_registered_node_not_reusable :
  forall (addr : N -> N) (fixed : bool) (maxexp debond : N) s id m k txs n signers ok,
    Inv_index s -> aget id (s_nodes s) = Some m -> In k (keys m) ->
    n_id n <> id -> In k (keys n) ->
    fst (step addr fixed maxexp debond s (TRegNode txs n signers ok)) <> COk /\
    snd (step addr fixed maxexp debond s (TRegNode txs n signers ok)) = s.
Proof. exact key_of_registered_node_not_reusable. Qed.
Print Assumptions key_of_registered_node_not_reusable.

Theorem unheld_key_is_free :
  forall s k,
    Inv_index s -> (forall id m, aget id (s_nodes s) = Some m -> ~ In k (keys m)) ->
    aget k (s_keymap s) = None.
Proof. exact unheld_key_is_free. Qed.
Print Assumptions unheld_key_is_free.

(* An epoch transition removes exactly the nodes expired for longer than the
   debonding interval -- whatever their status (frozen or not) -- and keeps
   every other record unchanged. *)
Theorem epoch_removal_exact :
  forall (addr : N -> N) (fixed : bool) (maxexp debond : N) s e id,
    IDS (s_nodes s) ->
    aget id (s_nodes (snd (step addr fixed maxexp debond s (TEpoch e)))) =
    match aget id (s_nodes s) with
    | Some n => if removable debond e n then None else Some n
    | None => None
    end.
Proof. exact epoch_removal_exact. Qed.
Print Assumptions epoch_removal_exact.

(* An accepted node registration respects the per-role limits in force: the
   entity's other non-expired nodes with that role in that runtime, plus the
   new one, do not exceed the entity whitelist's / per-role policy's maximum. *)
Theorem whitelist_limit_respected :
  forall maxexp s txs n signers ok r x wl mn role,
    reg_node_check maxexp s txs n signers ok = COk ->
    In r (n_rts n) -> any_runtime s r = Some x -> r_wl x = Some wl ->
    aget (n_ent n) wl = Some mn -> mn <> [] ->
    In role all_roles -> has_role (n_roles n) role = true ->
    exists mx l, aget role mn = Some mx /\ entity_node_records s (n_ent n) = Some l /\
                 N.of_nat (length (filter (counted (s_epoch s) (n_id n) (r_id x) role) l)) + 1 <= mx.
Proof. exact whitelist_limit_respected. Qed.
Print Assumptions whitelist_limit_respected.

Theorem per_role_limit_respected :
  forall maxexp s txs n signers ok r x role ents,
    reg_node_check maxexp s txs n signers ok = COk ->
    In r (n_rts n) -> any_runtime s r = Some x ->
    In role all_roles -> has_role (n_roles n) role = true -> aget role (r_pr x) = Some ents ->
    exists mx, aget (n_ent n) ents = Some mx /\
      (mx = 0 \/ exists l, entity_node_records s (n_ent n) = Some l /\
                 N.of_nat (length (filter (counted (s_epoch s) (n_id n) (r_id x) role) l)) + 1 <= mx).
Proof. exact per_role_limit_respected. Qed.
Print Assumptions per_role_limit_respected.

(* After every history from the initial state, the entity of every registered
   node (live, or expired and still held) is a registered entity: the guard of
   DeregisterEntity is "no registered node names this entity" over the node
   table (nodes-by-entity index), not the entity descriptor's node list. *)
Theorem registered_node_entity_always_registered :
  forall (addr : N -> N) (fixed : bool) (maxexp debond : N) (ops : list op) id n,
    forallb tx_op ops = true ->
    aget id (s_nodes (run addr fixed maxexp debond ops st0)) = Some n ->
    exists ent, aget (n_ent n) (s_ents (run addr fixed maxexp debond ops st0)) = Some ent.
Proof. exact owner_from_initial. Qed.
Print Assumptions registered_node_entity_always_registered.
